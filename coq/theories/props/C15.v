(* C15 — fn.asyncio() under an event loop matches the asynq result.
   The statements; every proof is a lemma of proofs/AsyncioProofs.v, or a few lines that combine such lemmas.
   drive / resolve / await_leaf / call_asyncio : the asyncio side (decorators.py, asynq_to_async.py);
   eval / unwrap : the asynq side.  o3 / f3 / t3 = outcome / flag afterwards / events of a run. *)
From Asynq Require Import Base Asyncio proofs.AsyncioProofs.

(* T1  for every program of the class (wf: no plain synchronous calls, explicit asyncio_fns agree
   with their asynq functions; continuations are arbitrary functions, so try/except at any level
   is covered), started with the flag on or off: same value or same exception instance, and the
   same calls complete with the same outcomes *)
Theorem C15_asyncio_eq_seq : forall p, wf p -> forall fl,
  o3 (drive p fl) = fst (eval p) /\ dones (t3 (drive p fl)) = dones (snd (eval p)).
Proof. exact eq_seq. Qed.
Print Assumptions C15_asyncio_eq_seq.

(* ... and for the root call itself (function, method, plain function, proxy, explicit asyncio_fn) *)
Theorem C15_asyncio_eq_seq_root : forall a fl, lwf wf a ->
  o3 (run_asyncio a fl) = fst (run_seq a) /\ dones (t3 (run_asyncio a fl)) = dones (snd (run_seq a)).
Proof.
  intros a fl Hw. apply leaf_same; auto.
  apply lift_all. intros p Hp fl'. apply eq_seq; exact Hp.
Qed.
Print Assumptions C15_asyncio_eq_seq_root.

(* T2  a yield that succeeds delivers the yielded structure with every leaf replaced by that
   leaf's own result: tuples stay tuples, lists lists, dicts keep their keys and order *)
Theorem C15_shape_kept : forall (s : ystruct (leaf prog)) fl v,
  o3 (resolve (await_leaf drive) s fl) = Ok v ->
  v = yval (ymap (fun a => value_of (o3 (await_leaf drive a fl))) s).
Proof. exact shape_kept. Qed.
Print Assumptions C15_shape_kept.

(* T3  for any structure: (a) what the yield delivers is unwrap of the leaves' own outcomes;
   (b) unwrap is the first failure in left-to-right structure order (a non-future counting as
   TypeError), else the value; (c) the trace of the yield is the complete trace of every leaf -
   each one runs to its end whatever the others do - in particular (d) every call yielded there
   has logged its completion; (e) only then is the generator resumed, once, with that outcome *)
Theorem C15_all_awaited_then_first_error : forall (s : ystruct (leaf prog)) k fl,
  let R := resolve (await_leaf drive) s fl in
  o3 R = unwrap (ymap (fun a => o3 (await_leaf drive a fl)) s) /\
  (forall so : ystruct outcome,
      unwrap so = match first_error (youts so) with Some e => Err e | None => Ok (yval (ymap value_of so)) end) /\
  t3 R = concat (map (fun a => t3 (await_leaf drive a fl)) (yleaves s)) /\
  (forall c p, In (LCall c p) (yleaves s) ->
               In (EvDone (cid c) (o3 (call_asyncio drive c p fl))) (t3 R)) /\
  drive (Yield s k) fl = (let R2 := drive (k (o3 R)) (f3 R) in (o3 R2, f3 R2, t3 R ++ t3 R2)).
Proof. exact all_awaited_then_first_error. Qed.
Print Assumptions C15_all_awaited_then_first_error.

(* T4  the flag after `await root.asyncio(args)` equals the flag before, for every root, every
   program (no wf needed) and every outcome; it is also unchanged after every step of the loop
   (so it is still on when the body goes on after a nested await); and while a converted
   coroutine runs, every body below it sees the flag on *)
Theorem C15_mode_confined :
  (forall a fl, f3 (run_asyncio a fl) = fl) /\
  (forall p fl, f3 (drive p fl) = fl) /\
  (forall a fl, converted_leaf a -> Forall ev_ok (t3 (run_asyncio a fl))).
Proof. exact mode_confined. Qed.
Print Assumptions C15_mode_confined.

(* T5  with the flag on, a plain synchronous call of an @asynq() function without
   allow_sync_call delivers RuntimeError to the caller and runs nothing of the callee; and in a
   whole run of a converted coroutine no plain synchronous call ever runs its callee (which is
   what would block the loop).  With allow_sync_call the code as written returns None. *)
Theorem C15_sync_call_refused :
  (forall a k, let r := drive (k (Err E_RUNTIME)) true in
               drive (Sync false a k) true = (o3 r, f3 r, EvSync SRefused :: t3 r)) /\
  (forall a fl, converted_leaf a -> ~ In (EvSync SRan) (t3 (run_asyncio a fl))) /\
  (forall a k, let r := drive (k (Ok VNone)) true in
               drive (Sync true a k) true = (o3 r, f3 r, EvSync SAllowed :: t3 r)).
Proof. exact sync_call_refused. Qed.
Print Assumptions C15_sync_call_refused.

(* T6  exception instances used as data.  Values include [VExc e], an exception instance that was
   *returned* (by a task, a ConstFuture, a proxy, an explicit asyncio_fn, or kept by an except clause),
   and T1-T3 above quantify over those programs too.  Spelled out: (a) _gather returns the results of
   members that all succeeded as they are, whatever they are; (b) if every member of a yielded
   structure finished successfully, the yield delivers the structure of their values - it does not
   raise; (c) conversely a yield raises e only if e is the TypeError of a non-future or some yielded
   member itself finished by raising e; (d) the minimal case `yield [f.asynq()]` with `return exc`
   in f; (e) the class is inhabited and both engines agree on it. *)
Theorem C15_exception_value_is_data :
  (forall vs, gather (map Ok vs) = inr vs) /\
  (forall (s : ystruct (leaf prog)) fl, has_bad s = false ->
      Forall (fun a => exists v, o3 (await_leaf drive a fl) = Ok v) (yleaves s) ->
      o3 (resolve (await_leaf drive) s fl) = Ok (yval (ymap (fun a => value_of (o3 (await_leaf drive a fl))) s))) /\
  (forall (s : ystruct (leaf prog)) fl e, o3 (resolve (await_leaf drive) s fl) = Err e ->
      e = E_TYPEERROR \/ exists a, In a (yleaves s) /\ o3 (await_leaf drive a fl) = Err e) /\
  (forall c e k fl, converted c ->
      drive (Yield (YList [YLeaf (LCall c (Ret (VExc e)))]) k) fl =
      (let r := drive (k (Ok (VList [VExc e]))) fl in
       (o3 r, f3 r, EvBody (cid c) true :: EvDone (cid c) (Ok (VExc e)) :: t3 r))) /\
  (wf ex_xprog /\ o3 (drive ex_xprog false) = fst (eval ex_xprog) /\
   fst (eval ex_xprog) = Ok (VTuple [VList [VExc 7; VTuple [VExc 8; VExc 9]]; VExc 5])).
Proof. exact exception_value_is_data. Qed.
Print Assumptions C15_exception_value_is_data.

(* the class is inhabited: a program with a failing child, an explicit asyncio_fn, a proxy, a dict,
   an except clause that yields again *)
Theorem C15_class_inhabited : wf ex_prog /\ o3 (drive ex_prog false) = Ok (VList [VInt 7]).
Proof. split; [exact ex_wf | exact (proj1 ex_runs)]. Qed.
Print Assumptions C15_class_inhabited.

(* T8  re-entered functions.  [driveH] / [run_asyncioH] refine [drive] / [run_asyncio]: the token of
   `with AsyncioMode():` lives in an attribute of an AsyncioMode *object* on a heap that every Task of the
   loop shares (it is not copied with the context), and [fresh_inst] is the code's choice of object: a new
   one per activation (decorators.py:114, 137), whatever function the activation belongs to.  For every
   root and every program - in particular when one function is active several times at once: recursion,
   a function called again by one of its callees, several activations in one yielded list - (a)(b) the
   refined run IS the abstract run, so T1-T7 hold of it; (c)(d) running anything leaves every AsyncioMode
   object that existed before untouched (so each __exit__ finds the token of its own __enter__, and a
   suspended outer activation of the same function is not disturbed); (e) the flag after the await is
   the flag before; (f) spelled out for f(n) = `if n == 0: <bottom> else: r = yield f.asynq(n-1); return [r]`
   with any bottom (a value, a raise, any program) and any depth. *)
Theorem C15_reentrant_mode_confined :
  (forall a fl h, fst (run_asyncioH fresh_inst a fl h) = run_asyncio a fl) /\
  (forall p fl h, fst (driveH fresh_inst p fl h) = drive p fl) /\
  (forall a fl h, hext h (snd (run_asyncioH fresh_inst a fl h))) /\
  (forall p fl h, hext h (snd (driveH fresh_inst p fl h))) /\
  (forall a fl h, f3 (fst (run_asyncioH fresh_inst a fl h)) = fl) /\
  (forall bottom n fl h, f3 (fst (run_asyncioH fresh_inst (ex_rec_root bottom n) fl h)) = fl).
Proof. exact reentrant_mode_confined. Qed.
Print Assumptions C15_reentrant_mode_confined.

(* T9  the caller keeps running after `await root.asyncio(args)`.  Started with the flag off, for every
   root, outcome and heap: (a) a plain synchronous call g(args) made afterwards runs g on the scheduler and
   hands its own outcome to the continuation - no RuntimeError; (b) the same for any sequence of such
   calls (what the correspondence runs).  (c) started with the flag on (the caller is itself inside
   asyncio mode), the calls are still refused afterwards. *)
Theorem C15_caller_continues :
  (forall a h g k,
      drive (Sync false g k) (f3 (fst (run_asyncioH fresh_inst a false h))) =
      (let r2 := drive (k (fst (eval_leaf eval g))) false in
       (o3 r2, f3 r2, EvSync SRan :: snd (eval_leaf eval g) ++ t3 r2))) /\
  (forall a h ps,
      let xs := run_probes ps (f3 (fst (run_asyncioH fresh_inst a false h))) in
      map o3 xs = map (fun ap => fst (eval_leaf eval (snd ap))) ps /\
      Forall (fun x => In (EvSync SRan) (t3 x)) xs) /\
  (forall a h ps, Forall (fun ap => fst ap = false) ps ->
      Forall (fun x => o3 x = Err E_RUNTIME /\ t3 x = [EvSync SRefused])
             (run_probes ps (f3 (fst (run_asyncioH fresh_inst a true h))))).
Proof. exact caller_continues. Qed.
Print Assumptions C15_caller_continues.

(* the re-entered class is inhabited, and the per-activation object is what T8 rests on: with ONE
   AsyncioMode object per function ([per_function], not the code) the same recursive program of depth 2
   leaves the flag on after the await - with a value and with an exception - while depth 0 does not *)
Theorem C15_reentered_class_inhabited :
  f3 (fst (run_asyncioH (per_function (fun _ => O)) (ex_rec_root (Ret (VInt 1)) 2) false heap0)) = true /\
  f3 (fst (run_asyncioH (per_function (fun _ => O)) (ex_rec_root (Raise 7) 2) false heap0)) = true /\
  f3 (fst (run_asyncioH (per_function (fun _ => O)) (ex_rec_root (Ret (VInt 1)) 0) false heap0)) = false /\
  fst (run_asyncioH fresh_inst (ex_rec_root (Ret (VInt 1)) 2) false heap0)
  = (Ok (VList [VList [VInt 1]]), false,
     [EvBody 2 true; EvBody 1 true; EvBody 0 true; EvDone 0 (Ok (VInt 1)); EvDone 1 (Ok (VList [VInt 1]));
      EvDone 2 (Ok (VList [VList [VInt 1]]))]) /\
  o3 (fst (run_asyncioH fresh_inst (ex_rec_root (Raise 7) 3) false heap0)) = Err 7 /\
  f3 (fst (run_asyncioH fresh_inst (ex_rec_root (Raise 7) 3) false heap0)) = false.
Proof. exact ex_shared_instance_leaks. Qed.
Print Assumptions C15_reentered_class_inhabited.

(* T10  explicit asyncio_fns in the SUBTREE of a running coroutine.  [AfNative q]: the function comes
   with the user's own `async def` (body q: plain synchronous calls, `await g.asyncio(..)`, return / raise);
   `.asyncio()` calls it as it is - it does not enter AsyncioMode - so what q sees is the flag of its awaiter, and the
   flag of a converted coroutine stays on around `await resolve_awaitables(..)` (T3: every leaf of a yield is awaited
   with the flag of the yielding body; T4: that flag is unchanged after every step).  (a) awaited where the flag is
   on, a plain synchronous call `g(args)` in q gets RuntimeError, nothing of g runs, q goes on with the exception;
   (b) for ANY converted parent (function or method, started with the flag on or off), any yielded structure and
   any position of such a child in it (alone, in a tuple / list / dict at any depth): the child's body sees the flag
   on, its call is refused, no plain synchronous call runs a callee anywhere in the parent's run, and the flag after
   the parent equals the flag before; (c) at any depth: every body below a converted root - explicit asyncio_fns
   included - sees the flag on and no plain synchronous call runs (ev_ok); (d) conversely, awaited from a context
   outside asyncio mode the same call runs its callee (the observation tells the two apart); (e) the class is
   inhabited (dict of list + bare, a method parent), by computation; (f) an explicit asyncio_fn that awaits
   `g.asyncio()` where the asynq body yields `g.asynq()` is inside T1's class [wf]. *)
Theorem C15_explicit_asyncio_fn_in_subtree :
  (forall c p g k, cafn c = AfNative (Sync false g k) ->
      call_asyncio drive c p true =
      (let r := drive (k (Err E_RUNTIME)) true in
       (o3 r, f3 r, EvBody (cid c) true :: EvSync SRefused :: t3 r ++ [EvDone (cid c) (o3 r)]))) /\
  (forall c0 s k0 fl c p g k,
      converted c0 -> In (LCall c p) (yleaves s) -> cafn c = AfNative (Sync false g k) ->
      let R := call_asyncio drive c0 (Yield s k0) fl in
      In (EvBody (cid c) true) (t3 R) /\ In (EvSync SRefused) (t3 R) /\ ~ In (EvSync SRan) (t3 R) /\ f3 R = fl) /\
  (forall a fl, converted_leaf a -> Forall ev_ok (t3 (run_asyncio a fl))) /\
  (forall c p g k, cafn c = AfNative (Sync false g k) ->
      In (EvBody (cid c) false) (t3 (call_asyncio drive c p false)) /\
      In (EvSync SRan) (t3 (call_asyncio drive c p false))) /\
  (o3 (run_asyncio ex_native_root false)
   = Ok (VDict [(0%Z, VList [VTuple [VInt 1; VInt E_RUNTIME]; VNone]); (1%Z, VTuple [VInt 1; VInt E_RUNTIME])]) /\
   fst (run_seq ex_native_root)
   = Ok (VDict [(0%Z, VList [VTuple [VInt 0; VInt 1]; VNone]); (1%Z, VTuple [VInt 0; VInt 1])]) /\
   o3 (run_asyncio (ex_sync_child 2) false) = Ok (VTuple [VInt 0; VInt 1]) /\
   o3 (run_asyncio (ex_sync_child 2) true) = Ok (VTuple [VInt 1; VInt E_RUNTIME])) /\
  (wf ex_await_prog /\ o3 (drive ex_await_prog false) = Ok (VTuple [VList [VInt 3]; VNone])).
Proof. exact explicit_asyncio_fn_in_subtree. Qed.
Print Assumptions C15_explicit_asyncio_fn_in_subtree.
