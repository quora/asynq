(* C13 — the async caches behave like their reference cache for every call history.
   The statements; every proof is a lemma of proofs/CacheProofs.v or proofs/CacheGenProofs.v, or a few lines
   that combine such lemmas.
   K, keqb range over every key type with a correct equality test: the theorems hold for the default
   key, for every key_fn, and for the reference keyed on the bound arguments alike. *)
From Asynq Require Import Base Cache proofs.CacheProofs proofs.CacheGenProofs.

(* ---- keys: the (repaired) default key is the call's bound arguments, whatever the spelling *)
Theorem C13_default_key_normalises : forall s c b,
  bind s c = Some b -> alru_key false KmDefault s c = Some (enc b).
Proof. exact default_key_normalises. Qed.
Print Assumptions C13_default_key_normalises.

Theorem C13_default_key_iff : forall s c1 c2 b1 b2,
  bind s c1 = Some b1 -> bind s c2 = Some b2 ->
  (alru_key false KmDefault s c1 = alru_key false KmDefault s c2 <-> b1 = b2).
Proof.
  intros s c1 c2 b1 b2 H1 H2. rewrite (default_key_normalises _ _ _ H1), (default_key_normalises _ _ _ H2).
  split; [intros H; inversion H; now apply enc_injective | now intros ->].
Qed.
Print Assumptions C13_default_key_iff.

(* the key construction of tools.py before /repo 5f87390 (argspec.args[1:]) does not have this property:
   def f(a, b=2): f(1) / f(1, b=3) collide, f(1) / f(1, 2) get different keys *)
Theorem C13_source_default_key_refuted :
  (exists c1 c2 b1 b2, bind sig_ab2 c1 = Some b1 /\ bind sig_ab2 c2 = Some b2 /\ b1 <> b2 /\
                       alru_key true KmDefault sig_ab2 c1 = alru_key true KmDefault sig_ab2 c2) /\
  (exists c1 c2 b, bind sig_ab2 c1 = Some b /\ bind sig_ab2 c2 = Some b /\
                   alru_key true KmDefault sig_ab2 c1 <> alru_key true KmDefault sig_ab2 c2).
Proof.
  split.
  - exists (mkCall [1] []), (mkCall [1] [(1, 3)]), ([1; 2], []), ([1; 3], []).
    repeat split; try reflexivity. discriminate.
  - exists (mkCall [1] []), (mkCall [1; 2] []), ([1; 2], []).
    repeat split; try reflexivity. discriminate.
Qed.
Print Assumptions C13_source_default_key_refuted.

(* ---- T1 refines_reference: for every history of calls that bind, alru_cache with the default key returns
   exactly what the LRU cache keyed on the bound arguments returns (results, cache sizes, body-run log) *)
Theorem C13_refines_reference : forall s cap ops,
  all_bind s ops ->
  snd (arun key key_eqb (alru_key false KmDefault s) (bindable s) cap ainit ops) =
  snd (arun bound bound_eqb (bind s) (bindable s) cap ainit ops) /\
  runs (fst (arun key key_eqb (alru_key false KmDefault s) (bindable s) cap ainit ops)) =
  runs (fst (arun bound bound_eqb (bind s) (bindable s) cap ainit ops)).
Proof. exact refines_reference. Qed.
Print Assumptions C13_refines_reference.

(* the same for acached_per_instance: per-instance dictionaries keyed on the bound arguments *)
Theorem C13_inst_refines_reference : forall s ops,
  all_bind_inst s ops ->
  snd (prun key key_eqb (inst_key s) (bindable s) pinit ops) =
  snd (prun bound bound_eqb (bind s) (bindable s) pinit ops) /\
  pruns (fst (prun key key_eqb (inst_key s) (bindable s) pinit ops)) =
  pruns (fst (prun bound bound_eqb (bind s) (bindable s) pinit ops)).
Proof. exact inst_refines_reference. Qed.
Print Assumptions C13_inst_refines_reference.

(* ... and what such a cache returns: a hit is the stored value and runs nothing *)
Theorem C13_hit_returns_stored_value : forall K keqb kf valid cap (st : astate K) id c bl b k v,
  kf c = Some k -> lru_find K keqb (store st) k = Some v ->
  snd (astep K keqb kf valid cap st (ACall id c bl b)) = RHit v /\
  runs (fst (astep K keqb kf valid cap st (ACall id c bl b))) = runs st /\
  infl (fst (astep K keqb kf valid cap st (ACall id c bl b))) = infl st.
Proof. exact call_hit. Qed.
Print Assumptions C13_hit_returns_stored_value.

(* a miss runs the body once and returns its fresh result, which is stored unless the body raised *)
Theorem C13_miss_runs_body : forall K keqb, (forall a b : K, keqb a b = true <-> a = b) ->
  forall kf valid cap (st : astate K) id c b k,
  NoDup (map (ekey K) (store st)) ->
  kf c = Some k -> lru_find K keqb (store st) k = None -> valid c = true ->
  let st' := fst (astep K keqb kf valid cap st (ACall id c false b)) in
  let r := snd (astep K keqb kf valid cap st (ACall id c false b)) in
  runs st' = runs st ++ [id] /\ infl st' = infl st /\
  match b with
  | BRet v => r = RMiss v /\ lru_find K keqb (store st') k = Some v
  | BRaise e => r = RRaise e /\ store st' = store st
  end.
Proof. exact call_miss. Qed.
Print Assumptions C13_miss_runs_body.

(* a blocking body: lookup at the start (nothing stored yet), store at completion *)
Theorem C13_blocking_miss_then_finish : forall K keqb, (forall a b : K, keqb a b = true <-> a = b) ->
  forall kf valid cap (st : astate K),
  (forall id c b k, kf c = Some k -> lru_find K keqb (store st) k = None -> valid c = true ->
     let st' := fst (astep K keqb kf valid cap st (ACall id c true b)) in
     snd (astep K keqb kf valid cap st (ACall id c true b)) = RPending /\
     runs st' = runs st ++ [id] /\ infl st' = infl st ++ [(id, k, b)] /\ store st' = store st) /\
  (forall id k b, NoDup (map (ekey K) (store st)) -> infl_find K (infl st) id = Some (k, b) ->
     let st' := fst (astep K keqb kf valid cap st (AFinish id)) in
     let r := snd (astep K keqb kf valid cap st (AFinish id)) in
     runs st' = runs st /\
     match b with
     | BRet v => r = RDone v /\ lru_find K keqb (store st') k = Some v
     | BRaise e => r = RRaise e /\ store st' = store st
     end).
Proof.
  exact (fun K keqb H kf valid cap st =>
    conj (call_miss_blocking K keqb kf valid cap st) (fun id k b => finish_spec K keqb H kf valid cap st id k b)).
Qed.
Print Assumptions C13_blocking_miss_then_finish.

(* ---- T2 no_cross_talk: in every history, every value served from the cache was computed by the body of an
   earlier call with the same key; for the default key: with the same bound arguments *)
Theorem C13_no_cross_talk : forall K keqb, (forall a b : K, keqb a b = true <-> a = b) ->
  forall kf valid cap ops,
  hits_justified K kf valid [] ops (snd (arun K keqb kf valid cap ainit ops)).
Proof. exact no_cross_talk. Qed.
Print Assumptions C13_no_cross_talk.

Theorem C13_no_cross_talk_default_key : forall s cap ops,
  hits_same_bound s [] ops (snd (arun key key_eqb (alru_key false KmDefault s) (bindable s) cap ainit ops)).
Proof. intros s cap ops. apply hits_same_bound_of, no_cross_talk. exact key_eqb_spec. Qed.
Print Assumptions C13_no_cross_talk_default_key.

(* ---- T3 errors_not_cached *)
Theorem C13_errors_not_cached : forall K keqb kf valid cap (st : astate K),
  (forall id c bl e k, kf c = Some k -> lru_find K keqb (store st) k = None ->
     store (fst (astep K keqb kf valid cap st (ACall id c bl (BRaise e)))) = store st) /\
  (forall id k e, infl_find K (infl st) id = Some (k, BRaise e) ->
     store (fst (astep K keqb kf valid cap st (AFinish id))) = store st /\
     snd (astep K keqb kf valid cap st (AFinish id)) = RRaise e).
Proof.
  exact (fun K keqb kf valid cap st =>
    conj (errors_not_cached K keqb kf valid cap st) (errors_not_cached_finish K keqb kf valid cap st)).
Qed.
Print Assumptions C13_errors_not_cached.

(* ---- T4 size_and_lru: after every history at most maxsize entries, no key twice, the list in strict
   recency order (stamp = index of the operation that last looked the key up successfully or stored it);
   a store into a full cache drops exactly the head, whose stamp is the smallest *)
Theorem C13_size_and_lru : forall K keqb, (forall a b : K, keqb a b = true <-> a = b) ->
  forall kf valid cap, (1 <= cap)%nat -> forall ops,
  let st := fst (arun K keqb kf valid cap ainit ops) in
  (length (store st) <= cap)%nat /\ NoDup (map (ekey K) (store st)) /\ stamps_sorted K (store st).
Proof. exact size_and_lru. Qed.
Print Assumptions C13_size_and_lru.

Theorem C13_evicts_least_recently_used : forall K keqb cap t (l : list (entry K)) k v,
  lru_ok K cap t l -> lru_find K keqb l k = None ->
  (length l = cap -> (1 <= cap)%nat ->
     exists e0 rest, l = e0 :: rest /\ lru_setitem K keqb cap l k v t = rest ++ [(k, v, t)] /\
                     forall e, In e rest -> (estamp K e0 < estamp K e)%nat) /\
  (length l <> cap -> lru_setitem K keqb cap l k v t = l ++ [(k, v, t)]).
Proof. exact setitem_evicts_lru. Qed.
Print Assumptions C13_evicts_least_recently_used.

(* ---- T5 per-instance caches: independent, and they vanish with their instance *)
Theorem C13_instances_independent : forall K keqb kf valid (st : pstate K) o j,
  op_inst o <> j -> p_find K (pstore (fst (pstep K keqb kf valid st o))) j = p_find K (pstore st) j.
Proof. exact instances_independent. Qed.
Print Assumptions C13_instances_independent.

Theorem C13_call_depends_on_own_cache : forall K keqb kf valid (st1 st2 : pstate K) id i c bl b,
  p_dict K (pstore st1) i = p_dict K (pstore st2) i ->
  snd (pstep K keqb kf valid st1 (PCall id i c bl b)) = snd (pstep K keqb kf valid st2 (PCall id i c bl b)).
Proof. exact call_depends_on_own_cache. Qed.
Print Assumptions C13_call_depends_on_own_cache.

Theorem C13_instance_vanishes : forall K keqb kf valid ops i,
  let st := fst (prun K keqb kf valid pinit ops) in
  inst_busy K (pinfl st) i = false ->
  let st' := fst (pstep K keqb kf valid st (PDrop i)) in
  p_find K (pstore st') i = None /\
  forall id c k v, kf c = Some k -> valid c = true ->
    snd (pstep K keqb kf valid st' (PCall id i c false (BRet v))) = RMiss v.
Proof. exact instance_vanishes. Qed.
Print Assumptions C13_instance_vanishes.

Theorem C13_inst_no_cross_talk : forall K keqb, (forall a b : K, keqb a b = true <-> a = b) ->
  forall kf valid ops,
  phits_justified K kf valid [] ops (snd (prun K keqb kf valid pinit ops)).
Proof.
  intros K keqb Hk kf valid ops. apply (inst_no_cross_talk_gen K keqb Hk).
  split; cbn; [intros i k v (d & [] & _) | intros; contradiction].
Qed.
Print Assumptions C13_inst_no_cross_talk.

(* ---- T6 alazy_constant: recompute iff never computed / dirtied / ttl expired; dirty() forces exactly one *)
Theorem C13_lazy_recompute_iff : forall ttl st id bl b,
  let st' := fst (lstep ttl st (LCall id bl b)) in
  let r := snd (lstep ttl st (LCall id bl b)) in
  (needs_refresh ttl st = true <-> refresh st = 0 \/ (ttl <> 0 /\ refresh st < now st - ttl)) /\
  (needs_refresh ttl st = true ->
     lruns st' = lruns st ++ [id] /\
     match bl, b with
     | true, _ => r = RPending /\ refresh st' = refresh st /\ cached st' = cached st
     | false, BRet v => r = RMiss v /\ refresh st' = now st /\ cached st' = Some v
     | false, BRaise e => r = RRaise e /\ refresh st' = refresh st /\ cached st' = cached st
     end) /\
  (needs_refresh ttl st = false ->
     st' = st /\ r = match cached st with Some v => RHit v | None => RNone end).
Proof. exact (fun ttl st id bl b => conj (needs_refresh_iff ttl st) (lazy_recompute_iff ttl st id bl b)). Qed.
Print Assumptions C13_lazy_recompute_iff.

Theorem C13_lazy_dirty_exactly_one : forall ttl st id v ops,
  now st <> 0 -> 0 <= ttl -> quiet (ttl =? 0) ttl ops ->
  let st1 := fst (lstep ttl st LDirty) in
  let st2 := fst (lstep ttl st1 (LCall id false (BRet v))) in
  snd (lstep ttl st1 (LCall id false (BRet v))) = RMiss v /\
  lruns st2 = lruns st ++ [id] /\
  lruns (fst (lrun ttl st2 ops)) = lruns st2 /\ all_hits v ops (snd (lrun ttl st2 ops)).
Proof.
  intros ttl st id v ops Hn Ht Hq. cbn. split; [reflexivity|]. split; [reflexivity|].
  apply (quiet_all_hits ops ttl (mkL (now st) (Some v) (now st) (linfl st) (lruns st ++ [id])) v ttl); cbn; auto.
  right. lia.
Qed.
Print Assumptions C13_lazy_dirty_exactly_one.

(* ---- T7 families: several functions decorated through one or several decorator objects.  One cache machine per
   decorated function; in every interleaved history function f observes (results, size of its cache) exactly what
   it observes when the operations of all other functions are deleted: the caches never interact *)
Theorem C13_family_step_isolated : forall K keqb kfs valids caps (st : mstate K) f o g,
  g <> f -> nth_error (mfns (fst (mstep K keqb kfs valids caps st (f, o)))) g = nth_error (mfns st) g.
Proof. exact mstep_other. Qed.
Print Assumptions C13_family_step_isolated.

Theorem C13_family_projection : forall K keqb kfs valids caps n ops f, (f < n)%nat ->
  nth_error (mfns (fst (mrun K keqb kfs valids caps (minit n) ops))) f =
    Some (fst (arun K keqb (kfs f) (valids f) (caps f) ainit (proj f ops))) /\
  obs_on f ops (snd (mrun K keqb kfs valids caps (minit n) ops)) =
    snd (arun K keqb (kfs f) (valids f) (caps f) ainit (proj f ops)).
Proof. intros K keqb kfs valids caps n ops f H. apply family_projection_gen. cbn. apply nth_error_repeat; auto. Qed.
Print Assumptions C13_family_projection.

(* a miss of function f runs the body of function f: the log entries tagged f are f's own body runs, in order *)
Theorem C13_family_body_runs_own : forall K keqb kfs valids caps n ops f, (f < n)%nat ->
  log_of f (mlog (fst (mrun K keqb kfs valids caps (minit n) ops))) =
  runs (fst (arun K keqb (kfs f) (valids f) (caps f) ainit (proj f ops))).
Proof.
  intros K keqb kfs valids caps n ops f H. destruct (C13_family_projection K keqb kfs valids caps n ops f H) as [Hc _].
  apply (log_inv_run K keqb kfs valids caps ops (minit n)); [|exact Hc].
  intros g a Hg. apply nth_error_In, repeat_spec in Hg. now subst.
Qed.
Print Assumptions C13_family_body_runs_own.

(* every value f is served from its cache was computed by the body of an earlier call of f with the same key *)
Theorem C13_family_no_cross_talk : forall K keqb kfs valids caps, (forall a b : K, keqb a b = true <-> a = b) ->
  forall n ops f, (f < n)%nat ->
  hits_justified K (kfs f) (valids f) [] (proj f ops) (obs_on f ops (snd (mrun K keqb kfs valids caps (minit n) ops))).
Proof.
  intros K keqb kfs valids caps Hk n ops f H. destruct (C13_family_projection K keqb kfs valids caps n ops f H) as [_ Ho].
  rewrite Ho. apply no_cross_talk. exact Hk.
Qed.
Print Assumptions C13_family_no_cross_talk.

(* the decorator object carries only configuration: a family decorated through shared objects behaves exactly
   like the same family with one decorator call per function *)
Theorem C13_shared_decorator_unobservable : forall src decos fns ops,
  run_with src (CAlruM decos fns ops) =
  run_with src (CAlruM (map (fun fa => nth (fst fa) decos adflt) fns) (own_decos 0 fns) ops).
Proof. intros src decos fns ops. unfold run_with. rewrite <- (resolve_own adflt decos fns []). reflexivity. Qed.
Print Assumptions C13_shared_decorator_unobservable.

(* methods under acached_per_instance / functions under alazy_constant: an operation on one of them (other than
   the death of an instance / a clock tick, which are common to all) leaves the others untouched; Drop of an idle
   instance removes it from every method's cache *)
Theorem C13_family_inst_step_isolated : forall K keqb kfs valids (st : mpstate K) f o g,
  (forall i, o <> PDrop i) -> g <> f ->
  nth_error (mpfns (fst (mpstep K keqb kfs valids st (f, o)))) g = nth_error (mpfns st) g.
Proof. exact mpstep_other. Qed.
Print Assumptions C13_family_inst_step_isolated.

Theorem C13_family_inst_drop : forall K keqb kfs valids (st : mpstate K) f i,
  let st' := fst (mpstep K keqb kfs valids st (f, PDrop i)) in
  (existsb (fun p => inst_busy K (pinfl p) i) (mpfns st) = true -> st' = st) /\
  (existsb (fun p => inst_busy K (pinfl p) i) (mpfns st) = false ->
   forall g p, nth_error (mpfns st) g = Some p ->
     nth_error (mpfns st') g = Some (mkP (p_remove K (pstore p) i) (pinfl p) (pruns p))).
Proof. exact mpstep_drop. Qed.
Print Assumptions C13_family_inst_drop.

Theorem C13_family_lazy_step_isolated : forall ttls (st : mlstate) f o g,
  (forall dt, o <> LTick dt) -> g <> f ->
  nth_error (mlfns (fst (mlstep ttls st (f, o)))) g = nth_error (mlfns st) g.
Proof. exact mlstep_other. Qed.
Print Assumptions C13_family_lazy_step_isolated.

Theorem C13_family_lazy_projection : forall ttls n now0 ops f, (f < n)%nat ->
  lobs_on f ops (snd (mlrun ttls (mlinit n now0) ops)) = snd (lrun (ttls f) (linit now0) (lproj f ops)).
Proof. intros ttls n now0 ops f H. apply lazy_family_projection_gen. cbn. apply nth_error_repeat; auto. Qed.
Print Assumptions C13_family_lazy_projection.

(* ---- T8 values are opaque payloads: relabelling the values bodies return (rho arbitrary, e.g. everything to one
   value, or the unique integers of the harness to None / 0 / False / '' ...) commutes with every step and every
   history: hit or miss, evictions, cache sizes and the body-run log never depend on what a body returned, and a
   hit returns the (relabelled) stored value *)
Theorem C13_values_opaque_step : forall rho K keqb kf valid cap (st : astate K) o,
  astep K keqb kf valid cap (rl_astate rho K st) (rl_aop rho o) =
  (rl_astate rho K (fst (astep K keqb kf valid cap st o)), rl_res rho (snd (astep K keqb kf valid cap st o))).
Proof.
  intros rho K keqb kf valid cap st o.
  exact (astep_map rho K K keqb keqb (fun k => k) (fun a b => eq_refl) kf kf valid cap st o (agrees_id K kf o)).
Qed.
Print Assumptions C13_values_opaque_step.

Theorem C13_values_opaque : forall rho K keqb kf valid cap ops,
  snd (arun K keqb kf valid cap ainit (map (rl_aop rho) ops)) =
    map (rl_obs rho) (snd (arun K keqb kf valid cap ainit ops)) /\
  runs (fst (arun K keqb kf valid cap ainit (map (rl_aop rho) ops))) =
    runs (fst (arun K keqb kf valid cap ainit ops)).
Proof.
  intros rho K keqb kf valid cap ops. change (@ainit K) with (rl_astate rho K ainit) at 1 3.
  rewrite arun_relabel. split; reflexivity.
Qed.
Print Assumptions C13_values_opaque.

Theorem C13_inst_values_opaque : forall rho K keqb kf valid ops,
  snd (prun K keqb kf valid pinit (map (rl_pop rho) ops)) =
    map (rl_pobs rho) (snd (prun K keqb kf valid pinit ops)) /\
  pruns (fst (prun K keqb kf valid pinit (map (rl_pop rho) ops))) =
    pruns (fst (prun K keqb kf valid pinit ops)).
Proof.
  intros rho K keqb kf valid ops. change (@pinit K) with (rl_pstate rho K pinit) at 1 3.
  rewrite prun_relabel. split; reflexivity.
Qed.
Print Assumptions C13_inst_values_opaque.

Theorem C13_inst_values_opaque_step : forall rho K keqb kf valid (st : pstate K) o,
  pstep K keqb kf valid (rl_pstate rho K st) (rl_pop rho o) =
  (rl_pstate rho K (fst (pstep K keqb kf valid st o)), rl_res rho (snd (pstep K keqb kf valid st o))).
Proof.
  intros rho K keqb kf valid st o.
  exact (pstep_map rho K K keqb keqb (fun k => k) (fun a b => eq_refl) kf kf valid st o (pagrees_id K kf o)).
Qed.
Print Assumptions C13_inst_values_opaque_step.

Theorem C13_lazy_values_opaque_step : forall rho ttl st o,
  lstep ttl (rl_lstate rho st) (rl_lop rho o) =
  (rl_lstate rho (fst (lstep ttl st o)), rl_res rho (snd (lstep ttl st o))).
Proof. exact lstep_relabel. Qed.
Print Assumptions C13_lazy_values_opaque_step.

(* ---- alru_cache on a method, instances with different lifetimes: an instance is a (slot, generation) pair.
   A hit is served from an entry stored for the very instance the method is called on (same slot, same generation) ... *)
Theorem C13_generations_hit_same_instance : forall src s cap st id i c bl b st' v,
  gstep src s cap st (GCall id i c bl b) = (st', RHit v) ->
  exists e, In e (store (ga st)) /\ islot (ekey ikey e) = i /\ igen (ekey ikey e) = gen_of (ggen st) i /\
            eval ikey e = v.
Proof. exact gen_hit_same_instance. Qed.
Print Assumptions C13_generations_hit_same_instance.

(* ... so after any history, once the instance in a slot is dropped, the first call on the fresh instance in that slot
   is never a hit - whatever the dead generations left in the LRU, the same remaining arguments included. *)
Theorem C13_generations_fresh_instance_not_served : forall src s cap ops st i st1 id c bl b,
  fst (grun src s cap ginit ops) = st ->
  gstep src s cap st (GDrop i) = (st1, RUnit) ->
  forall v, snd (gstep src s cap st1 (GCall id i c bl b)) <> RHit v.
Proof. exact gen_fresh_instance_not_served. Qed.
Print Assumptions C13_generations_fresh_instance_not_served.
