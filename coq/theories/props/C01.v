(* C01 — async execution returns exactly what sequential evaluation would.
   Statements only; proofs in proofs/MachineC01.v, proofs/MachineC01S.v, proofs/MachineNoUnwind.v and
   proofs/ProgProofs.v.

   PROVED, for every flush order (oracle), priority assignment, KEEP_DEPENDENCIES setting and fuel:
   - C01_async_eq_seq_tree: the whole-program theorem for yield-only TREE programs: every future is created in
     the yield expression that awaits it (arbitrary nesting of tuples/lists/dicts, None, non-future objects,
     constant / error / lazy futures, batch items of any kinds, child tasks to any depth, try/except by way of
     the continuations, plain AsyncContexts and scoped overrides).
   - C01_async_eq_seq_stree (proofs/MachineC01S.v): the same for the class [stree] = tree +
     SYNCHRONOUS CALLS of fresh tasks, fn(args) / fn.asynq(args).value() inside task code, i.e. the program
     Let (FTask q) (fun h => Sync h k), nested to any depth, the callees being stree programs themselves
     (they may yield batch items, child tasks, call further functions ...).  The reference is [evals]
     (= Seq.eval plus: a call evaluates the callee on the spot); on tree programs evals = eval
     (C01_evals_agrees_with_eval_on_tree) and tree is included in stree, so the stree theorem subsumes the tree
     theorem.  The nested scheduler loops may flush any scheduled batch, including batches the outer
     computations wait for (C01_stree_hypotheses_satisfiable exhibits such a run); the value obtained by
     every caller is still the sequential one.  C01_async_eq_seq_stree_after_history: the same on a scheduler
     state left behind by earlier computations, and the state left behind satisfies the invariant again, so
     the theorem applies to every computation of a history of stree computations.
   Hypotheses of all of them: [pointwise] - no flush body raises half way (otherwise an item's answer depends
   on its position in the batch and "sequential evaluation" is not defined); [no_unwind] - no exception
   unwound through asynq's own frames.
   - For TREE programs the hypothesis [no_unwind] is discharged (proofs/MachineNoUnwind.v): the only exception
     that can unwind is the RuntimeError of the MAX_TASK_STACK_SIZE guard (FutureIsAlreadyComputed is
     unreachable, props/C08.v C08_tree_never_raises_already_computed), so
     C01_async_eq_seq_tree_unless_guard: if the outermost value() returns o then o = eval p OR the guard fired
     at some earlier step ([guard_fires P c]: the boolean test of the _execute loop head in Machine.step,
     `len(tasks) > init_num_tasks and len(tasks) > MAX_TASK_STACK_SIZE`); and
     C01_async_eq_seq_tree_few_futures: no such alternative at all while the number of futures created so far
     (top_next) is at most MAX_TASK_STACK_SIZE - the task stack of a tree computation holds pairwise distinct
     futures, so it cannot be longer (C08_tree_stack_bound).  C01_guard_alternative_is_real: both cases occur
     (c01_demo with MAX_TASK_STACK_SIZE = 1000 resp. 1, where the outcome is the guard's RuntimeError).
     C01_async_eq_seq_stree_unless_guard: the "unless the guard fired" form also for [stree] programs (there the
     RuntimeError may be caught by the caller of a synchronous call and the run go on; nothing is claimed
     about the outcome then).  No "few futures" theorem for stree programs.

   NOT PROVED: programs with stored handles - a future created by
   Let and awaited later or twice (DAGs), LOld leaves, value() on an already existing future (including a
   synchronous value() on a batch item or on somebody else's task) -, programs reading scoped state or the
   active task (ReadVar / Probe; their sequential meaning needs an environment), contexts whose
   pause/resume raise; for them C01 rests on the correspondence and the monitors.
   WITHOUT THE HYPOTHESIS no_unwind FOR stree PROGRAMS (end of the file; proofs/MachineNoUnwind.v): the stree
   theorems whose hypothesis is no_unwind P n (start h s1) are restated with "the MAX_TASK_STACK_SIZE guard has not
   fired before step n" in its place (MachineNoUnwind.stree_no_unwind_iff_guard_silent):
   C01_async_eq_seq_stree_guard. *)
From Asynq Require Import Machine Seq proofs.ProgProofs proofs.MachineC08 proofs.MachineC01 proofs.MachineC01S
     proofs.MachineNoUnwind.

Theorem C01_async_eq_seq_tree : forall P p n o,
  pointwise P -> tree p ->
  let h := fst (create [] (FTask p) (st0 P)) in
  let s1 := snd (create [] (FTask p) (st0 P)) in
  no_unwind P n (start h s1) -> c_mode (run P n (start h s1)) = MDone o -> o = eval p.
Proof. exact async_eq_seq_tree. Qed.
Print Assumptions C01_async_eq_seq_tree.

Theorem C01_async_eq_seq_tree_after_history : forall P spec s p n o,
  pointwise P -> tree p -> SInv spec None s ->
  let h := fst (create [] (FTask p) s) in
  let s1 := snd (create [] (FTask p) s) in
  no_unwind P n (start h s1) -> c_mode (run P n (start h s1)) = MDone o -> o = eval p.
Proof. exact async_eq_seq_tree_from. Qed.
Print Assumptions C01_async_eq_seq_tree_after_history.

(* every transition preserves "computed futures carry their sequential outcome, and every suspended
   task's continuation evaluates to its sequential outcome" *)
Theorem C01_spec_invariant_step : forall P, pointwise P -> forall root res spec c,
  is_unwind (c_mode c) = false -> CInv root res spec c -> exists spec', CInv root res spec' (step P c).
Proof. exact c01_step. Qed.
Print Assumptions C01_spec_invariant_step.

Theorem C01_yield_result_has_same_shape : forall (A : Type) (look : A -> outcome) (f : A -> val) (s : ystruct A),
  (forall a, In a (leaves s) -> look a = Ok (f a)) -> unwrap look s = Ok (fill f s).
Proof. exact (fun A look f s => unwrap_ok_fill look f s). Qed.
Print Assumptions C01_yield_result_has_same_shape.

Theorem C01_hypotheses_satisfiable :
  tree c01_demo /\
  let P := mkP [] 1000 false [] in
  let h := fst (create [] (FTask c01_demo) (st0 P)) in
  let s1 := snd (create [] (FTask c01_demo) (st0 P)) in
  no_unwind_b P 300 (start h s1) = true /\
  c_mode (run P 300 (start h s1)) = MDone (Ok (VTuple [VInt 5; VList [VTuple [VInt 7; VInt 1]; VNone]; VInt 9])) /\
  eval c01_demo = Ok (VTuple [VInt 5; VList [VTuple [VInt 7; VInt 1]; VNone]; VInt 9]).
Proof. exact (conj c01_demo_tree c01_demo_runs). Qed.
Print Assumptions C01_hypotheses_satisfiable.

Theorem C01_async_eq_seq_tree_unless_guard : forall P p n o,
  pointwise P -> tree p ->
  let h := fst (create [] (FTask p) (st0 P)) in
  let s1 := snd (create [] (FTask p) (st0 P)) in
  c_mode (run P n (start h s1)) = MDone o ->
  o = eval p \/ exists k, (k < n)%nat /\ guard_fires P (run P k (start h s1)) = true.
Proof. exact (fun P p n o HP Ht => async_eq_seq_tree_unless_guard P HP p Ht n o). Qed.
Print Assumptions C01_async_eq_seq_tree_unless_guard.

Theorem C01_async_eq_seq_tree_few_futures : forall P p n o,
  pointwise P -> tree p ->
  let h := fst (create [] (FTask p) (st0 P)) in
  let s1 := snd (create [] (FTask p) (st0 P)) in
  (forall k, (k <= n)%nat -> (top_next (c_st (run P k (start h s1))) <= p_maxstack P)%Z) ->
  c_mode (run P n (start h s1)) = MDone o -> o = eval p.
Proof. exact (fun P p n o HP Ht => async_eq_seq_tree_few_futures P HP p Ht n o). Qed.
Print Assumptions C01_async_eq_seq_tree_few_futures.

(* guard_fires is the guard of Machine.step: where it holds the next configuration raises the RuntimeError *)
Theorem C01_guard_fires_is_the_guard : forall P c,
  guard_fires P c = true ->
  c_mode c = MExecLoop /\ (p_maxstack P < Z.of_nat (length (tasks (c_st c))))%Z /\
  c_mode (step P c) = MUnwind E_RUNTIME.
Proof. exact (fun P c G => conj (proj1 (guard_fires_inv P c G)) (conj (proj2 (guard_fires_inv P c G)) (guard_fires_step P c G))). Qed.
Print Assumptions C01_guard_fires_is_the_guard.

(* both alternatives occur: the demo ends with eval's value when MAX_TASK_STACK_SIZE = 1000 (guard silent, never
   more than 1000 futures), and with the guard's RuntimeError when MAX_TASK_STACK_SIZE = 1 *)
Theorem C01_guard_alternative_is_real :
  (let P := mkP [] 1000 false [] in
   let h := fst (create [] (FTask c01_demo) (st0 P)) in
   let s1 := snd (create [] (FTask c01_demo) (st0 P)) in
   guard_silent_b P 300 (start h s1) = true /\ few_futures_b P 300 (start h s1) = true /\
   c_mode (run P 300 (start h s1)) = MDone (Ok (VTuple [VInt 5; VList [VTuple [VInt 7; VInt 1]; VNone]; VInt 9]))) /\
  (let P := mkP [] 1 false [] in
   let h := fst (create [] (FTask c01_demo) (st0 P)) in
   let s1 := snd (create [] (FTask c01_demo) (st0 P)) in
   guard_silent_b P 300 (start h s1) = false /\
   c_mode (run P 300 (start h s1)) = MDone (Err E_RUNTIME)).
Proof. exact (conj nounwind_demo nounwind_demo_guard). Qed.
Print Assumptions C01_guard_alternative_is_real.

Theorem C01_async_eq_seq_stree : forall P p n o,
  pointwise P -> stree p ->
  let h := fst (create [] (FTask p) (st0 P)) in
  let s1 := snd (create [] (FTask p) (st0 P)) in
  no_unwind P n (start h s1) -> c_mode (run P n (start h s1)) = MDone o -> o = evals p.
Proof. exact async_eq_seq_stree. Qed.
Print Assumptions C01_async_eq_seq_stree.

(* on a scheduler state left behind by earlier computations; the state left behind is again such a state *)
Theorem C01_async_eq_seq_stree_after_history : forall P spec s p n o,
  pointwise P -> stree p -> SI spec (fun _ => False) s ->
  let h := fst (create [] (FTask p) s) in
  let s1 := snd (create [] (FTask p) s) in
  no_unwind P n (start h s1) -> c_mode (run P n (start h s1)) = MDone o ->
  o = evals p /\ exists spec', SI spec' (fun _ => False) (c_st (run P n (start h s1))).
Proof. exact async_eq_seq_stree_state. Qed.
Print Assumptions C01_async_eq_seq_stree_after_history.

Theorem C01_stree_initial_state : forall P, SI (fun _ => None) (fun _ => False) (st0 P).
Proof. exact SI_empty. Qed.
Print Assumptions C01_stree_initial_state.

(* [evals] agrees with Seq.eval on the yield-only fragment, and tree is part of stree *)
Theorem C01_evals_agrees_with_eval_on_tree : forall p, tree p -> stree p /\ evals p = eval p.
Proof. exact (fun p H => conj (tree_stree p H) (evals_eval_tree p H)). Qed.
Print Assumptions C01_evals_agrees_with_eval_on_tree.

(* a synchronous call is evaluated on the spot *)
Theorem C01_evals_call : forall q k, evals (Let (FTask q) (fun h => Sync h k)) = evals (k (evals q)).
Proof. exact evals_call. Qed.
Print Assumptions C01_evals_call.

(* every transition preserves the invariant: computed futures carry their sequential outcome, every suspended
   task's continuation evaluates to its sequential outcome, and every caller suspended in a synchronous call
   (FValue t k frame) continues, with the callee's sequential outcome oh, to its own: spec t = evals (k oh) *)
Theorem C01_stree_invariant_step : forall P, pointwise P -> forall res spec c,
  is_unwind (c_mode c) = false -> CI res spec c -> exists spec', CI res spec' (step P c).
Proof. exact s01_step. Qed.
Print Assumptions C01_stree_invariant_step.

(* non-vacuity: a child task awaited together with a batch item calls a function synchronously, which calls
   another one and then yields an item of the same batch kind; the wait loop nested below the caller flushes the
   batch holding the outer computation's item (EvFlush 0 0 [[2]; [5]] between EvGot [3] and EvGot [1]) *)
Theorem C01_stree_hypotheses_satisfiable :
  stree c01s_demo /\
  let P := mkP [] 1000 false [] in
  let h := fst (create [] (FTask c01s_demo) (st0 P)) in
  let s1 := snd (create [] (FTask c01s_demo) (st0 P)) in
  no_unwind_b P 60 (start h s1) = true /\
  c_mode (run P 60 (start h s1)) = MDone (Ok (VTuple [VTuple [VTuple [VInt 7; VInt 3]; VInt 1]; VInt 5])) /\
  evals c01s_demo = Ok (VTuple [VTuple [VTuple [VInt 7; VInt 3]; VInt 1]; VInt 5]) /\
  rev (trace (c_st (run P 60 (start h s1)))) =
    [EvStep [0] 0 (Ok VNone); EvStep [1] 0 (Ok VNone); EvStep [3] 0 (Ok VNone); EvStep [4] 0 (Ok VNone);
     EvDone [4] (Ok (VInt 3)); EvGot [3] (Ok (VInt 3));
     EvBefore 0 0; EvFlush 0 0 [[2]; [5]]; EvItemDone [2] (Ok (VInt 5)); EvItemDone [5] (Ok (VInt 7)); EvAfter 0 0;
     EvStep [3] 1 (Ok (VInt 7)); EvDone [3] (Ok (VTuple [VInt 7; VInt 3]));
     EvGot [1] (Ok (VTuple [VInt 7; VInt 3]));
     EvDone [1] (Ok (VTuple [VTuple [VInt 7; VInt 3]; VInt 1]));
     EvStep [0] 1 (Ok (VTuple [VTuple [VTuple [VInt 7; VInt 3]; VInt 1]; VInt 5]));
     EvDone [0] (Ok (VTuple [VTuple [VTuple [VInt 7; VInt 3]; VInt 1]; VInt 5]))].
Proof. exact (conj c01s_demo_stree c01s_demo_runs). Qed.
Print Assumptions C01_stree_hypotheses_satisfiable.

(* without the hypothesis no_unwind (proofs/MachineNoUnwind.v) *)
Theorem C01_async_eq_seq_stree_unless_guard : forall P p n o,
  pointwise P -> stree p ->
  let h := fst (create [] (FTask p) (st0 P)) in
  let s1 := snd (create [] (FTask p) (st0 P)) in
  c_mode (run P n (start h s1)) = MDone o ->
  o = evals p \/ exists k, (k < n)%nat /\ guard_fires P (run P k (start h s1)) = true.
Proof. exact (fun P p n o HP Ht => async_eq_seq_stree_unless_guard P HP p Ht n o). Qed.
Print Assumptions C01_async_eq_seq_stree_unless_guard.

(* The general statement (any program, including stored handles / DAGs, value() on existing futures and reads
   of scoped state) is not proved: a sequential reference for those needs an environment of handles and, for
   HOAS bodies, a parametricity-style well-formedness predicate; that part of C01 rests on the
   correspondence. *)

(* The stree theorems without an assumption about exceptions unwinding (proofs/MachineNoUnwind.v):
   [no_unwind P n (start h s1)] is replaced by "the MAX_TASK_STACK_SIZE guard has not fired before step n"; also with
   synchronous calls FutureIsAlreadyComputed is proved unreachable (stree_no_unwind_iff_guard_silent), so the guard's
   RuntimeError is the only exception that can unwind through asynq's frames.  Binders and conclusions are those of
   the theorems of the same name without the suffix _guard. *)
From Asynq Require Import proofs.MachineNoUnwind.
Theorem C01_async_eq_seq_stree_guard : forall P p n o,
  pointwise P -> stree p ->
  let h := fst (create [] (FTask p) (st0 P)) in
  let s1 := snd (create [] (FTask p) (st0 P)) in
  (forall k, (k < n)%nat -> guard_fires P (run P k (start h s1)) = false) ->
  c_mode (run P n (start h s1)) = MDone o -> o = evals p.
Proof. exact (fun P p n o HP Ht Hg =>
  async_eq_seq_stree P p n o HP Ht (stree_no_unwind_iff_guard_silent P HP p Ht n Hg)). Qed.
Print Assumptions C01_async_eq_seq_stree_guard.
