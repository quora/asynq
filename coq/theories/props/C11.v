(* C11 — batch lifecycle: pending -> flushed | cancelled exactly once; no item left pending; items
   complete before the batch is announced; the registry is switched before the flush body runs.
   The statements; every proof is a lemma of proofs/BatchProofs.v or a few lines that combine such lemmas.
   `good w` is the invariant (BatchProofs.good)
   that C11_reachable_good establishes for every world reachable from Batch.init by ANY op history
   under ANY list of flush scripts. *)
From Asynq Require Import Base Batch proofs.BatchProofs.
Local Open Scope nat_scope.

Theorem C11_reachable_good : forall sc ops, good (fst (run sc init ops)).
Proof. intros. apply good_run, good_init. Qed.
Print Assumptions C11_reachable_good.

Theorem C11_good_preserved : forall sc ops w,
  good w -> good (fst (run sc w ops)) /\ mono w (fst (run sc w ops)).
Proof. exact good_run. Qed.
Print Assumptions C11_good_preserved.

Theorem C11_lifecycle_once : forall w, good w ->
  (forall b, b < nb w ->
     batch_evs b (log w) = obs_batch w b /\
     length (body_evs b (log w)) = bruns (bat w b) /\ bruns (bat w b) <= 1 /\
     (bout (bat w b) = None -> bruns (bat w b) = 0)) /\
  (forall i, i < ni w -> item_evs i (log w) = obs_item w i).
Proof.
  intros w (I & R). split; [|intros i L; now apply (i_ilog _ _ I)].
  intros b L. destruct (R b L) as (R1 & R2). destruct (i_body _ _ I b L) as (B1 & _).
  repeat split; auto. apply (i_blog _ _ I); auto. discriminate.
Qed.
Print Assumptions C11_lifecycle_once.

Theorem C11_outcomes_stable : forall sc ops w, good w -> mono w (fst (run sc w ops)).
Proof. intros sc ops w G. now apply good_run. Qed.
Print Assumptions C11_outcomes_stable.

Theorem C11_flush_pending : forall sc w b, good w -> b < nb w -> bout (bat w b) = None ->
  exists w', step sc w (OFlush b) = (w', RUnit) /\ bout (bat w' b) <> None /\
             bruns (bat w' b) = 1 /\ bitems (bat w' b) = [] /\ good w'.
Proof. exact flush_pending. Qed.
Print Assumptions C11_flush_pending.

Theorem C11_second_flush : forall sc w b o, b < nb w -> bout (bat w b) = Some o ->
  step sc w (OFlush b) = (w, RRaise E_BATCHING).
Proof.
  intros sc w b o L P. cbn [step]. destruct (Nat.ltb_spec b (nb w)); try lia. unfold flush. now rewrite P.
Qed.
Print Assumptions C11_second_flush.

(* cancel() never raises; it is a no-op on a finished batch; on a pending batch it finishes the batch
   with the given error (BatchCancelledError by default) without running the body *)
Theorem C11_cancel : forall sc w b oe, b < nb w ->
  snd (step sc w (OCancel b oe)) = RUnit /\
  (forall o, bout (bat w b) = Some o -> fst (step sc w (OCancel b oe)) = w) /\
  (good w -> bout (bat w b) = None ->
   let w' := fst (step sc w (OCancel b oe)) in
   bout (bat w' b) = Some (Err (match oe with Some e => e | None => E_CANCELLED end)) /\
   bruns (bat w' b) = 0 /\ good w').
Proof.
  intros sc w b oe L. cbn [step]. destruct (Nat.ltb_spec b (nb w)); try lia. cbn [fst snd]. unfold cancel.
  split; auto. split; [now intros o ->|]. intros G P. cbn zeta. rewrite P.
  pose proof (keeps_batch_computed w b (Err (match oe with Some e => e | None => E_CANCELLED end)) (proj1 G) L P) as K.
  split; [now apply batch_computed_out|]. split; [|now apply (good_keeps w)].
  rewrite (e_runs _ _ _ (proj2 K)) by (auto; discriminate). now apply (proj2 G b L).
Qed.
Print Assumptions C11_cancel.

Theorem C11_no_add_to_finished : forall sc w b v o, b < nb w -> bout (bat w b) = Some o ->
  step sc w (OAddTo b v) = (w, RRaise E_ADDFLUSHED).
Proof.
  intros sc w b v o L P. cbn [step]. destruct (Nat.ltb_spec b (nb w)); try lia. unfold new_item. now rewrite P.
Qed.
Print Assumptions C11_no_add_to_finished.

Theorem C11_add_joins_active : forall sc w v, good w ->
  let w' := fst (step sc w (OAdd v)) in
  snd (step sc w (OAdd v)) = RItem (ni w) (active w) /\
  bout (bat w (active w)) = None /\ active w < nb w /\
  ibatch (itm w' (ni w)) = active w /\ In (ni w) (bitems (bat w' (active w))) /\ ni w' = S (ni w).
Proof.
  intros sc w v (I & _). cbn [step]. unfold new_item. rewrite (i_act_pend _ _ I) by discriminate. cbn.
  rewrite !upd_same. cbn. repeat split; auto; [apply I|apply in_or_app; right; cbn; auto].
Qed.
Print Assumptions C11_add_joins_active.

Theorem C11_no_item_left_pending : forall w i, good w -> i < ni w ->
  bout (bat w (ibatch (itm w i))) <> None -> iout (itm w i) <> None.
Proof. intros w i (I & _) L D. apply (i_done _ _ I); auto. discriminate. Qed.
Print Assumptions C11_no_item_left_pending.

Theorem C11_items_before_announce : forall w l1 l2 b o i, good w ->
  log w = l1 ++ EBatch b o :: l2 -> i < ni w -> ibatch (itm w i) = b ->
  exists oi, In (EItem i oi) l1.
Proof. exact items_before_announce. Qed.
Print Assumptions C11_items_before_announce.

(* completion priority inside _computed: an item keeps what was set; a leftover item of the batch gets
   the flush / cancellation error, or the "not set" AssertionError when the batch succeeded; nothing
   else is touched *)
Theorem C11_computed_items : forall w b o, b < nb w ->
  let w' := batch_computed w b o in
  (forall i x, iout (itm w i) = Some x -> iout (itm w' i) = Some x) /\
  (forall i, iout (itm w i) = None -> In i (bitems (bat w b)) -> iout (itm w' i) = Some (leftover o)) /\
  (forall i, iout (itm w i) = None -> ~ In i (bitems (bat w b)) -> iout (itm w' i) = None).
Proof.
  intros w b o L. cbn zeta. rewrite batch_computed_eq. cbn [itm emit].
  destruct (pre_finish_frame w b o L) as (F1 & F2 & _).
  destruct (finish_items_frame (pre_finish w b o) (bitems (bat (pre_finish w b o) b)) (leftover o))
    as (_ & _ & _ & _ & _ & G6 & G7 & G8).
  rewrite F2, F1 in *. auto.
Qed.
Print Assumptions C11_computed_items.

Theorem C11_completion_priority : forall sc w b w3 r,
  exec (enter w b) b (script_of sc b) = (w3, r) -> bout (bat w3 b) = None -> b < nb w3 ->
  let w' := compute sc w b in
  bout (bat w' b) = Some (match r with None => Ok VNone | Some e => Err e end) /\
  forall i, In i (bitems (bat w3 b)) ->
    iout (itm w' i) = match iout (itm w3 i) with
                      | Some x => Some x
                      | None => Some (Err (match r with None => E_NOTSET | Some e => e end))
                      end.
Proof.
  intros sc w b w3 r E P L. cbn zeta. unfold compute. rewrite E, P.
  destruct (C11_computed_items w3 b (match r with None => Ok VNone | Some e => Err e end) L) as (A1 & A2 & _).
  split; [now apply batch_computed_out|].
  intros i Hi. destruct (iout (itm w3 i)) eqn:Q; [now apply A1|]. rewrite (A2 i Q Hi). now destruct r.
Qed.
Print Assumptions C11_completion_priority.

Theorem C11_item_value_flushes : forall sc w i, good w -> i < ni w -> iout (itm w i) = None ->
  let b := ibatch (itm w i) in
  let w' := fst (step sc w (OItemValue i)) in
  bout (bat w b) = None /\ bout (bat w' b) <> None /\ bruns (bat w' b) = 1 /\
  exists o, iout (itm w' i) = Some o /\ snd (step sc w (OItemValue i)) = report_value (Some o).
Proof. exact item_value_flushes. Qed.
Print Assumptions C11_item_value_flushes.

Theorem C11_single_assignment : forall sc w,
  (forall i o v, i < ni w -> iout (itm w i) = Some o -> step sc w (OItemSet i v) = (w, RRaise E_ALREADY)) /\
  (forall i o e, i < ni w -> iout (itm w i) = Some o -> step sc w (OItemSetErr i e) = (w, RRaise E_ALREADY)) /\
  (forall b o v, b < nb w -> bout (bat w b) = Some o -> step sc w (OBatchSet b v) = (w, RRaise E_ALREADY)) /\
  (forall b o e, b < nb w -> bout (bat w b) = Some o -> step sc w (OBatchSetErr b e) = (w, RRaise E_ALREADY)).
Proof. exact single_assignment. Qed.
Print Assumptions C11_single_assignment.

Theorem C11_fresh_batch : forall w b, good w -> b < nb w ->
  let w1 := enter w b in
  active w1 <> b /\ bout (bat w1 (active w1)) = None /\
  (exists l, log w1 = l ++ [EBody b (active w1)]) /\
  (forall acts, active (fst (exec w1 b acts)) = active w1) /\
  (forall w' v, active w' <> b -> good w' ->
     let w'' := fst (exec1 w' b (ANew v)) in
     ni w'' = S (ni w') /\ ibatch (itm w'' (ni w')) = active w' /\ ibatch (itm w'' (ni w')) <> b).
Proof. exact fresh_batch. Qed.
Print Assumptions C11_fresh_batch.

Theorem C11_registry_ok : forall w, good w ->
  active w < nb w /\ bout (bat w (active w)) = None /\
  forall b, b < nb w -> Forall (fun a => a <> b) (body_evs b (log w)).
Proof.
  intros w (I & _). split; [apply I|]. split; [apply (i_act_pend _ _ I); discriminate|].
  intros b L. apply (i_body _ _ I b L).
Qed.
Print Assumptions C11_registry_ok.

(* ---- re-entrant requests while the flush body of a batch runs (flush scripts with ARead / AReflush /
   ASetRead; all theorems above quantify over these scripts too, so "body entered at most once" holds for them) *)

Theorem C11_body_worlds_inv : forall w b acts, good w -> b < nb w ->
  inv None (fst (exec (enter w b) b acts)) /\ b < nb (fst (exec (enter w b) b acts)).
Proof.
  intros w b acts G L. destruct (inv_enter w b (proj1 G) L) as (I1 & _).
  assert (L1 : b < nb (enter w b)) by (pose proof (m_nb _ _ (e_mono _ _ _ (proj1 (ext_enter w b L)))); lia).
  pose proof (keeps_exec b acts (enter w b) I1 L1) as K. split; [apply K|eapply keeps_nb; eauto].
Qed.
Print Assumptions C11_body_worlds_inv.

Theorem C11_reentrant_read : forall w b k kd c i,
  inv None w -> b < nb w -> nth_error (bitems (bat w b)) k = Some i ->
  let r := sibling_read w b i kd in
  let w' := fst (exec1 w b (ARead k kd c)) in
  exec1 w b (ARead k kd c) = (emit w (ERead b i r), if c then None else raised r) /\
  bat w' = bat w /\ itm w' = itm w /\ nb w' = nb w /\ ni w' = ni w /\ active w' = active w /\
  r <> RNotComputed /\ r <> RSkip /\
  (iout (itm w i) = None -> bout (bat w b) = None /\ r = RRaise E_BATCHING) /\
  (forall o, iout (itm w i) = Some o -> r = rep_of kd (Some o)).
Proof.
  intros w b k kd c i I L E. cbn zeta. cbn [exec1]. rewrite E. cbn [fst].
  destruct (sibling_read_spec w b i kd I L (nth_error_In _ _ E)) as (A1 & A2 & A3 & A4).
  repeat split; auto; apply A3; auto.
Qed.
Print Assumptions C11_reentrant_read.

Theorem C11_reflush_refused : forall w b c,
  exec1 w b (AReflush c) = (emit w (EReflush b (RRaise E_BATCHING)), if c then None else Some E_BATCHING).
Proof. reflexivity. Qed.
Print Assumptions C11_reflush_refused.

Theorem C11_batch_reread_refused : forall w b kd c,
  let r := batch_reread w b kd in
  exec1 w b (AReadBatch kd c) = (emit w (EBRead b r), if c then None else raised r) /\
  (bout (bat w b) = None -> r = RRaise E_BATCHING) /\
  (forall o, bout (bat w b) = Some o -> r = rep_of kd (Some o)).
Proof.
  intros w b kd c. cbn zeta. split; [reflexivity|]. unfold batch_reread. split; [now intros ->|now intros o ->].
Qed.
Print Assumptions C11_batch_reread_refused.

(* an on_computed subscriber of item k asks sibling j for its value as soon as k is set by the body: k gets its
   value, the sibling's request is answered on the world in which k is complete (BatchingError for a pending
   sibling, which stays pending; the body is not entered again) *)
Theorem C11_subscriber_read : forall w b k v j kd i i2,
  inv None w -> b < nb w -> nth_error (bitems (bat w b)) k = Some i -> iout (itm w i) = None ->
  nth_error (bitems (bat w b)) j = Some i2 ->
  let w1 := complete_item w i (Ok v) in
  let r := sibling_read w1 b i2 kd in
  exec1 w b (ASetRead k v j kd) = (emit w1 (ERead b i2 r), None) /\
  (i2 = i -> r = rep_of kd (Some (Ok v))) /\
  (i2 <> i -> iout (itm w i2) = None ->
     r = RRaise E_BATCHING /\ iout (itm (emit w1 (ERead b i2 r)) i2) = None) /\
  bat (emit w1 (ERead b i2 r)) = bat w.
Proof.
  intros w b k v j kd i i2 I L E P E2. cbn zeta. cbn [exec1]. rewrite E. unfold item_set. rewrite P.
  change (bat (complete_item w i (Ok v))) with (bat w). rewrite E2.
  pose proof (inv_complete_item None w i (Ok v) I (listed_lt w b i I L (nth_error_In _ _ E)) P) as I1.
  destruct (sibling_read_spec (complete_item w i (Ok v)) b i2 kd I1 L (nth_error_In _ _ E2)) as (_ & _ & A3 & A4).
  repeat split; auto.
  - intros ->. apply A4. cbn. now rewrite upd_same.
  - apply A3. cbn. now rewrite upd_other.
  - cbn. now rewrite upd_other.
Qed.
Print Assumptions C11_subscriber_read.

Theorem C11_reentrant_requests_refused : forall sc ops,
  Forall read_ok (log (fst (run sc init ops))) /\
  forall b, b < nb (fst (run sc init ops)) -> bruns (bat (fst (run sc init ops)) b) <= 1.
Proof.
  intros sc ops. destruct (good_run sc ops init good_init) as ((I & R) & _). split; [apply (i_reads _ _ I)|].
  intros b L. apply (R b L).
Qed.
Print Assumptions C11_reentrant_requests_refused.
