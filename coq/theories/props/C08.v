(* C08 — active task is always the running one; scheduler is clean after any outcome.
   Statements only; proofs in proofs/MachineC08.v (first five theorems), proofs/MachineC08U.v (the next block),
   proofs/MachineNoUnwind.v (the block on tree / stree programs) and proofs/MachineC08P.v (the last two theorems).
   All theorems are about the executable machine of Machine.v and, except for the tree / stree block, hold for EVERY
   program (nested synchronous calls `Let`/`Sync` included; no tree restriction), every parameter record, flush
   oracle and fuel.

   Exceptions unwind through asynq's own frames from two places only (C08_unwind_sources): the
   MAX_TASK_STACK_SIZE guard (RuntimeError, E_RUNTIME) and _queue_exit (FutureIsAlreadyComputed, E_ALREADY).
     [no_unwind P n c]          no unwinding at all during the first n steps          (MachineC08.v)
     [guard_unwind_only P n c]  the only exception that unwinds is the guard's        (MachineC08U.v)
   no_unwind implies guard_unwind_only (C08_no_unwind_is_guard_only), so the first two theorems below are
   special cases of C08_active_is_running_U / C08_clean_after_outcome_U.

   PROVED (under guard_unwind_only, from `start h s` with an empty task stack):
   * C08_active_is_running_U: at every `MRun t p` reached, active_task = Some t - also in a task that caught
     the guard's RuntimeError after its nested synchronous call tripped the guard (C08_guard_caught gives that
     episode step by step; C08_guard_frames: between the guard and the catching value() call there are only
     one _execute and one wait_for frame, never a _continue_with_task frame).
   * C08_clean_after_outcome_U: at `MDone o` (value, exception delivered through value(), or the guard's
     RuntimeError - caught by some task or escaped to the top): tasks = [], active_task as before the call,
     and the set of scheduled batches is [] or exactly what it was before the call.
   * C08_fresh_after_outcome: if additionally sb = [] and active = None before (sched_fresh), the scheduler is
     sched_fresh again.  C08_clean_after_task_outcome: if the root is a task that is not computed yet, sb = []
     afterwards whatever it was before (the call enters wait_for, whose end drops the scheduled batches).
   * The hypothesis cannot be dropped: C08_clean_sb_any_root_is_false refutes "sb = [] afterwards for any
     root and any initial sb" (value() on a computed / non-task future never enters wait_for and never
     touches the scheduler, so batches scheduled before stay).  This is not a defect of asynq: by the theorems
     above no computation that ends leaves a scheduled batch, so no top-level call starts with one.
   * C08_run_root_fresh / C08_run_history_fresh: run_root on a fresh scheduler that ends yields a fresh
     scheduler and the event `EvSched 0 0 None`; so does every history whose computations all end and unwind
     only through the guard (history_ok).
   * Non-vacuity: C08_guard_caught_run (corpus _GUARD_CAUGHT: guard_unwind_only holds, no_unwind does NOT,
     the probes in the catching task show Some [1]) and C08_guard_escapes_run (_GUARD_BATCH: the RuntimeError
     escapes with a batch scheduled; the next computation flushes only its own batch).

   * C08_paused_task_completes_without_pause (proofs/MachineC08P.v): completing a task whose contexts are already
     paused (_contexts_active = False, which _pause_contexts establishes BEFORE it calls any pause()) emits the task's
     EvDone and nothing else - closing its generator runs every open block's __exit__, and none of them calls pause()
     again.  So a context whose pause() fails PERSISTENTLY (on every call from the k-th on) is asked exactly once and
     the model's one-shot fault `PauseRaises k e` stands for it; on the implementation the harness's persistent
     contexts ("sticky") make a second call fail visibly (escaping generator.close()), the monitors judge the rest.

   TREE PROGRAMS (proofs/MachineNoUnwind.v; [tree], [pointwise] of proofs/MachineC01.v; one root computation on st0):
   * C08_tree_step_never_raises_already_computed: from a configuration satisfying the C01 invariant CInv no
     step raises FutureIsAlreadyComputed (a returning body's task is not computed; a resumed task has a live
     generator).  C08_tree_never_raises_already_computed: the FIRST unwinding of a run is E_RUNTIME, and the
     configuration before it is the head of the _execute loop with len(tasks) > MAX_TASK_STACK_SIZE
     ([guard_fires], the boolean test of Machine.step; C08_guard_fires_step: where it holds the step raises).
     So guard_unwind_only - the hypothesis of the theorems above - holds up to and including the first unwinding,
     and no_unwind is equivalent to "the guard is silent" (C08_tree_no_unwind_if_guard_silent, converse for
     every program: C08_no_unwind_guard_silent).
   * C08_tree_stack_bound: in every configuration reached without unwinding the task stack has no duplicates
     and len(tasks) <= number of futures created (top_next).  C08_tree_guard_silent_while_few_futures: hence
     no_unwind holds outright as long as top_next <= MAX_TASK_STACK_SIZE.
   * C08_stree_step_never_raises_already_computed / C08_stree_never_raises_already_computed /
     C08_stree_no_unwind_if_guard_silent: the first two points for [stree] programs (invariant CI of
     proofs/MachineC01S.v); no stack bound there.
   Not covered there: what happens AFTER the guard fired in a tree program (the RuntimeError escapes to the top:
   tree programs have no Sync frame to catch it; C08_clean_after_outcome_U applies once guard_unwind_only is
   known for the rest of the run, which is not proved here).

   NOT proved:
   * anything about a context whose pause() raises when a with block's __exit__ calls it (model: pause_plain never
     raises; `Exit` has no failing continuation);
   * anything about runs in which FutureIsAlreadyComputed (E_ALREADY, raised by _queue_exit in
     MResume / MRun) unwinds: MUnwind pops _continue_with_task frames without restoring active_task and
     leaves the task stack as it is, the invariant says nothing there.  For TREE programs, and for STREE
     programs (tree + synchronous calls of fresh tasks), under a pointwise service this case is
     UNREACHABLE before the first firing of the guard (see the block above); for programs with stored handles,
     and for stree runs after a caught guard error, it stays open;
   * runs that do not reach MDone within the fuel;
   * "the next computation behaves as on a fresh scheduler" as an equality of traces between the second
     computation of a history and the same computation on st0 (here: the scheduler-owned fields tasks / sb /
     active are those of st0; heap, batch registry, scoped values and the id counter are user state). *)
From Asynq Require Import Machine Seq proofs.MachineC08 proofs.MachineC08U proofs.MachineC01 proofs.MachineC01S
     proofs.MachineNoUnwind proofs.MachineC08P.

Theorem C08_active_is_running : forall P h s n t p,
  tasks s = [] -> no_unwind P n (start h s) ->
  c_mode (run P n (start h s)) = MRun t p -> active (c_st (run P n (start h s))) = Some t.
Proof. exact active_is_running. Qed.
Print Assumptions C08_active_is_running.

Theorem C08_clean_after_outcome : forall P h s n o,
  tasks s = [] -> no_unwind P n (start h s) ->
  c_mode (run P n (start h s)) = MDone o ->
  active (c_st (run P n (start h s))) = active s /\ tasks (c_st (run P n (start h s))) = [].
Proof. exact clean_after_outcome. Qed.
Print Assumptions C08_clean_after_outcome.

Theorem C08_step_preserves_frame_discipline : forall a0 P c,
  is_unwind (c_mode c) = false -> Inv a0 c -> Inv a0 (step P c).
Proof. exact step_inv. Qed.
Print Assumptions C08_step_preserves_frame_discipline.

Theorem C08_guard_resets : forall P init fr s,
  (init < length (tasks s))%nat -> (p_maxstack P < Z.of_nat (length (tasks s)))%Z ->
  let c' := step P (mkC MExecLoop (FExec init :: fr) s) in
  c_mode c' = MUnwind E_RUNTIME /\ tasks (c_st c') = [] /\ sb (c_st c') = [] /\ active (c_st c') = active s.
Proof. exact guard_resets. Qed.
Print Assumptions C08_guard_resets.

Theorem C08_hypotheses_satisfiable :
  no_unwind_b demo_P 200 demo_start = true /\
  c_mode (run demo_P 200 demo_start) = MDone (Ok (VInt 5)).
Proof. exact demo_runs_clean. Qed.
Print Assumptions C08_hypotheses_satisfiable.

(* proofs/MachineC08U.v *)
Theorem C08_no_unwind_is_guard_only : forall P n c, no_unwind P n c -> guard_unwind_only P n c.
Proof. exact no_unwind_guard_only. Qed.
Print Assumptions C08_no_unwind_is_guard_only.

Theorem C08_unwind_sources : forall P c e,
  is_unwind (c_mode c) = false -> c_mode (step P c) = MUnwind e ->
  (e = E_RUNTIME /\ c_mode c = MExecLoop) \/
  (e = E_ALREADY /\ exists t, c_mode c = MResume t \/ exists p, c_mode c = MRun t p).
Proof. exact unwind_sources. Qed.
Print Assumptions C08_unwind_sources.

Theorem C08_guard_frames : forall fr, shape TE fr ->
  exists i r fr', fr = FExec i :: FWait r :: fr' /\
    (fr' = [FTop] \/ exists t k old fr'', fr' = FValue t k :: FCont t old :: fr'' /\ shape TE fr'').
Proof. exact guard_frames. Qed.
Print Assumptions C08_guard_frames.

Theorem C08_step_preserves_Inv2 : forall a0 sb0 P c,
  (forall e, c_mode c = MUnwind e -> e = E_RUNTIME) -> Inv2 a0 sb0 c -> Inv2 a0 sb0 (step P c).
Proof. exact step_inv2. Qed.
Print Assumptions C08_step_preserves_Inv2.

Theorem C08_active_is_running_U : forall P h s n t p,
  tasks s = [] -> guard_unwind_only P n (start h s) ->
  c_mode (run P n (start h s)) = MRun t p -> active (c_st (run P n (start h s))) = Some t.
Proof. exact active_is_running_U. Qed.
Print Assumptions C08_active_is_running_U.

Theorem C08_clean_after_outcome_U : forall P h s n o,
  tasks s = [] -> guard_unwind_only P n (start h s) ->
  c_mode (run P n (start h s)) = MDone o ->
  active (c_st (run P n (start h s))) = active s /\ tasks (c_st (run P n (start h s))) = [] /\
  (sb (c_st (run P n (start h s))) = [] \/ sb (c_st (run P n (start h s))) = sb s).
Proof. exact clean_after_outcome_U. Qed.
Print Assumptions C08_clean_after_outcome_U.

Theorem C08_fresh_after_outcome : forall P h s n o,
  sched_fresh s -> guard_unwind_only P n (start h s) ->
  c_mode (run P n (start h s)) = MDone o -> sched_fresh (c_st (run P n (start h s))).
Proof. exact fresh_after_outcome. Qed.
Print Assumptions C08_fresh_after_outcome.

Theorem C08_clean_after_task_outcome : forall P h s n o out tk,
  tasks s = [] -> get h s = Some (mkFut out (KTask tk)) -> computed h s = false ->
  guard_unwind_only P n (start h s) ->
  c_mode (run P n (start h s)) = MDone o ->
  active (c_st (run P n (start h s))) = active s /\ tasks (c_st (run P n (start h s))) = [] /\
  sb (c_st (run P n (start h s))) = [].
Proof. exact clean_after_task_outcome. Qed.
Print Assumptions C08_clean_after_task_outcome.

Theorem C08_clean_sb_any_root_is_false : ~ clean_sb_any_root_statement.
Proof. exact clean_sb_any_root_is_false. Qed.
Print Assumptions C08_clean_sb_any_root_is_false.

Theorem C08_guard_caught : forall P a0 i r t k fr s,
  Inv a0 (mkC MExecLoop (FExec i :: FWait r :: FValue t k :: fr) s) ->
  (i < length (tasks s))%nat -> (p_maxstack P < Z.of_nat (length (tasks s)))%Z ->
  let c' := run P 4 (mkC MExecLoop (FExec i :: FWait r :: FValue t k :: fr) s) in
  c_mode c' = MRun t (k (Err E_RUNTIME)) /\ c_frames c' = fr /\
  active (c_st c') = Some t /\ tasks (c_st c') = [] /\ sb (c_st c') = [].
Proof. exact guard_caught. Qed.
Print Assumptions C08_guard_caught.

Theorem C08_run_root_fresh : forall P fuel p s o s',
  sched_fresh s -> guard_unwind_only P fuel (root_start p s) ->
  run_root P fuel p s = (Some o, s') ->
  sched_fresh s' /\ exists tr, trace s' = EvSched 0 0 None :: tr.
Proof. exact run_root_fresh. Qed.
Print Assumptions C08_run_root_fresh.

Theorem C08_run_history_fresh : forall P fuel ps s,
  sched_fresh s -> history_ok P fuel ps s -> sched_fresh (snd (run_history P fuel ps s)).
Proof. exact run_history_fresh. Qed.
Print Assumptions C08_run_history_fresh.

Theorem C08_guard_caught_run :
  guard_unwind_only caught_P 200 caught_start /\
  ~ no_unwind caught_P 200 caught_start /\
  c_mode (run caught_P 200 caught_start) = MDone (Ok (VInt 7)) /\
  probes (c_st (run caught_P 200 caught_start)) =
    [EvGot [1] (Err E_RUNTIME); EvProbe [1] (Some [1]); EvProbe [1] (Some [1]);
     EvGot [0] (Ok (VInt 7)); EvProbe [0] (Some [0])] /\
  sched_fresh (c_st (run caught_P 200 caught_start)).
Proof. exact guard_caught_run. Qed.
Print Assumptions C08_guard_caught_run.

Theorem C08_guard_escapes_run :
  history_ok caught_P 200 [escape_prog; next_prog] (st0 caught_P) /\
  fst (run_history caught_P 200 [escape_prog; next_prog] (st0 caught_P)) = [Some (Err E_RUNTIME); Some (Ok (VInt 6))] /\
  filter (fun e => match e with EvSched _ _ _ | EvFlush _ _ _ => true | _ => false end)
         (snd (run_case caught_P 200 [escape_prog; next_prog])) =
    [EvSched 0 0 None; EvFlush 1 0 [[7]]; EvSched 0 0 None].
Proof. exact guard_escapes_run. Qed.
Print Assumptions C08_guard_escapes_run.

(* proofs/MachineNoUnwind.v (tree programs) *)
Theorem C08_guard_fires_step : forall P c, guard_fires P c = true -> c_mode (step P c) = MUnwind E_RUNTIME.
Proof. exact guard_fires_step. Qed.
Print Assumptions C08_guard_fires_step.

Theorem C08_tree_step_never_raises_already_computed : forall P root res spec c,
  CInv root res spec c -> is_unwind (c_mode c) = false -> c_mode (step P c) <> MUnwind E_ALREADY.
Proof. exact tree_step_not_already. Qed.
Print Assumptions C08_tree_step_never_raises_already_computed.

Theorem C08_tree_never_raises_already_computed : forall P p n e,
  pointwise P -> tree p ->
  let h := fst (create [] (FTask p) (st0 P)) in
  let s1 := snd (create [] (FTask p) (st0 P)) in
  (forall k, (k < n)%nat -> is_unwind (c_mode (run P k (start h s1))) = false) ->
  c_mode (run P n (start h s1)) = MUnwind e ->
  e = E_RUNTIME /\
  exists m, n = S m /\ c_mode (run P m (start h s1)) = MExecLoop /\
            (p_maxstack P < Z.of_nat (length (tasks (c_st (run P m (start h s1))))))%Z /\
            guard_fires P (run P m (start h s1)) = true.
Proof. exact (fun P p n e HP Ht => tree_unwind_is_guard P HP p Ht n e). Qed.
Print Assumptions C08_tree_never_raises_already_computed.

Theorem C08_tree_no_unwind_if_guard_silent : forall P p n,
  pointwise P -> tree p ->
  let h := fst (create [] (FTask p) (st0 P)) in
  let s1 := snd (create [] (FTask p) (st0 P)) in
  (forall k, (k < n)%nat -> guard_fires P (run P k (start h s1)) = false) -> no_unwind P n (start h s1).
Proof. exact (fun P p n HP Ht => tree_no_unwind_iff_guard_silent P HP p Ht n). Qed.
Print Assumptions C08_tree_no_unwind_if_guard_silent.

Theorem C08_no_unwind_guard_silent : forall P n c,
  no_unwind P n c -> forall k, (k < n)%nat -> guard_fires P (run P k c) = false.
Proof. exact no_unwind_guard_silent. Qed.
Print Assumptions C08_no_unwind_guard_silent.

Theorem C08_tree_stack_bound : forall P p n,
  pointwise P -> tree p ->
  let h := fst (create [] (FTask p) (st0 P)) in
  let s1 := snd (create [] (FTask p) (st0 P)) in
  no_unwind P n (start h s1) -> is_final (c_mode (run P n (start h s1))) = false ->
  NoDup (tasks (c_st (run P n (start h s1)))) /\
  (Z.of_nat (length (tasks (c_st (run P n (start h s1))))) <= top_next (c_st (run P n (start h s1))))%Z.
Proof. exact (fun P p n HP Ht => tree_stack_bound_run P HP p Ht n). Qed.
Print Assumptions C08_tree_stack_bound.

Theorem C08_tree_guard_silent_while_few_futures : forall P p n,
  pointwise P -> tree p ->
  let h := fst (create [] (FTask p) (st0 P)) in
  let s1 := snd (create [] (FTask p) (st0 P)) in
  (forall k, (k <= n)%nat -> (top_next (c_st (run P k (start h s1))) <= p_maxstack P)%Z) ->
  no_unwind P n (start h s1).
Proof. exact (fun P p n HP Ht => tree_guard_silent_while_few_futures P HP p Ht n). Qed.
Print Assumptions C08_tree_guard_silent_while_few_futures.

(* the same for tree programs with synchronous calls *)
Theorem C08_stree_step_never_raises_already_computed : forall P res spec c,
  CI res spec c -> is_unwind (c_mode c) = false -> c_mode (step P c) <> MUnwind E_ALREADY.
Proof. exact stree_step_not_already. Qed.
Print Assumptions C08_stree_step_never_raises_already_computed.

Theorem C08_stree_never_raises_already_computed : forall P p n e,
  pointwise P -> stree p ->
  let h := fst (create [] (FTask p) (st0 P)) in
  let s1 := snd (create [] (FTask p) (st0 P)) in
  (forall k, (k < n)%nat -> is_unwind (c_mode (run P k (start h s1))) = false) ->
  c_mode (run P n (start h s1)) = MUnwind e ->
  e = E_RUNTIME /\
  exists m, n = S m /\ c_mode (run P m (start h s1)) = MExecLoop /\
            (p_maxstack P < Z.of_nat (length (tasks (c_st (run P m (start h s1))))))%Z /\
            guard_fires P (run P m (start h s1)) = true.
Proof. exact (fun P p n e HP Ht => stree_unwind_is_guard P HP p Ht n e). Qed.
Print Assumptions C08_stree_never_raises_already_computed.

Theorem C08_stree_no_unwind_if_guard_silent : forall P p n,
  pointwise P -> stree p ->
  let h := fst (create [] (FTask p) (st0 P)) in
  let s1 := snd (create [] (FTask p) (st0 P)) in
  (forall k, (k < n)%nat -> guard_fires P (run P k (start h s1)) = false) -> no_unwind P n (start h s1).
Proof. exact (fun P p n HP Ht => stree_no_unwind_iff_guard_silent P HP p Ht n). Qed.
Print Assumptions C08_stree_no_unwind_if_guard_silent.

Theorem C08_paused_task_completes_without_pause : forall t o s tk,
  get_task t s = Some tk -> tk_cact tk = false ->
  trace (complete_task t o s) = EvDone t o :: trace s.
Proof. exact complete_paused_task. Qed.
Print Assumptions C08_paused_task_completes_without_pause.

Theorem C08_paused_task_hypotheses_satisfiable :
  let c := CAsync 1%Z (PauseRaises 1 7%Z) in
  let tk := mkTask (Some (fun _ => Ret VNone)) YNone [] [c] false false 0%Z 0%Z in
  let s := put [0%Z] (mkFut None (KTask tk)) (st0 (mkP [] 1000%Z false [])) in
  get_task [0%Z] s = Some tk /\ tk_cact tk = false /\
  trace (complete_task [0%Z] (Err 7%Z) s) = [EvDone [0%Z] (Err 7%Z)].
Proof. exact complete_paused_task_example. Qed.
Print Assumptions C08_paused_task_hypotheses_satisfiable.
