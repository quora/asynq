(* C16 — computations on different threads never interfere.
   The machine-level theorems are proved in proofs/ThreadsProofs.v; what follows from them in a few steps is derived here.
   Machine (Threads.v, Part 1): options (read-only) x (thread id -> thread-local slot) x the one shared
   deduplicate dict; a thread's code is ANY (next_request, advance); `step i` = thread i runs up to and
   including its next access to the shared dict, made with a key that contains the current thread
   (tools.py:351-352); a schedule is ANY list of thread ids. *)
From Asynq Require Import Base Threads proofs.ThreadsProofs.

(* frame: a step of thread i changes only slot i and dict entries whose key names i *)
Theorem C16_frame : forall RO local (nr : RO -> local -> request) (adv : RO -> local -> response -> local)
  i (g : @global RO local),
  g_ro (step nr adv i g) = g_ro g /\
  (forall j, j <> i -> g_loc (step nr adv i g) j = g_loc g j) /\
  others i (g_dedup (step nr adv i g)) = others i (g_dedup g) /\
  (forall j, j <> i -> owned j (g_dedup (step nr adv i g)) = owned j (g_dedup g)) /\
  (forall k, dk_thread k <> i -> d_get k (g_dedup (step nr adv i g)) = d_get k (g_dedup g)).
Proof. exact frame. Qed.
Print Assumptions C16_frame.

(* solo = interleaved: for every thread code, every starting state, EVERY interleaving, the slot of
   thread i and its entries of the shared dict end as when i makes the same number of steps alone *)
Theorem C16_solo_equals_interleaved : forall RO local (nr : RO -> local -> request)
  (adv : RO -> local -> response -> local) (g : @global RO local) sch i,
  g_loc (run nr adv sch g) i = g_loc (solo nr adv i (count i sch) g) i /\
  owned i (g_dedup (run nr adv sch g)) = owned i (g_dedup (solo nr adv i (count i sch) g)) /\
  g_ro (run nr adv sch g) = g_ro g.
Proof. exact solo_equals_interleaved. Qed.
Print Assumptions C16_solo_equals_interleaved.

(* the same from two starting states that agree on the options, on slot i and on i's dict entries:
   whatever the other threads had done before does not matter either *)
Theorem C16_solo_equals_interleaved_from_similar_states : forall RO local (nr : RO -> local -> request)
  (adv : RO -> local -> response -> local) (g1 g2 : @global RO local) sch i,
  sim RO local i g1 g2 -> sim RO local i (run nr adv sch g1) (solo nr adv i (count i sch) g2).
Proof. intros. unfold solo. rewrite <- filter_repeat. apply run_sim. assumption. Qed.
Print Assumptions C16_solo_equals_interleaved_from_similar_states.

Theorem C16_interleaving_irrelevant : forall RO local (nr : RO -> local -> request)
  (adv : RO -> local -> response -> local) (g : @global RO local) s1 s2 i,
  count i s1 = count i s2 -> g_loc (run nr adv s1 g) i = g_loc (run nr adv s2 g) i.
Proof.
  intros RO local nr adv g s1 s2 i H.
  rewrite (proj1 (solo_equals_interleaved RO local nr adv g s1 i)), (proj1 (solo_equals_interleaved RO local nr adv g s2 i)), H.
  reflexivity.
Qed.
Print Assumptions C16_interleaving_irrelevant.

(* the asynq instance (Threads.v, Part 2: scheduler slot, active task, debug-batch registry, profiler
   buffer and counter, asyncio-mode flag, deduplicated calls; any op programs, any number of threads):
   whole thread-local state, and the per-op event traces the harness compares *)
Theorem C16_asynq_local_state : forall (g : proc) sch i,
  g_loc (trun sch g) i = g_loc (trun (repeat i (count i sch)) g) i.
Proof. intros. apply local_state_solo. reflexivity. Qed.
Print Assumptions C16_asynq_local_state.

Theorem C16_asynq_traces : forall perf progs sch i,
  l_trace (g_loc (trun sch (init_global perf progs)) i) =
  l_trace (g_loc (trun (repeat i (count i sch)) (init_global perf progs)) i).
Proof. intros. apply (f_equal l_trace), C16_asynq_local_state. Qed.
Print Assumptions C16_asynq_traces.

(* the thread component of the key is necessary: without it a two-thread schedule changes what
   thread 0 reads, with it the same schedule does not *)
Theorem C16_without_thread_in_key_threads_interfere :
  g_loc (run_nokey w_next w_adv [1%nat; 0%nat] w_init) 0%nat <> g_loc (run_nokey w_next w_adv [0%nat] w_init) 0%nat
  /\ g_loc (run w_next w_adv [1%nat; 0%nat] w_init) 0%nat = g_loc (run w_next w_adv [0%nat] w_init) 0%nat.
Proof. split; [vm_compute; discriminate | reflexivity]. Qed.
Print Assumptions C16_without_thread_in_key_threads_interfere.

(* thread generations: threads that ran and finished before thread i made its first step — whatever they
   did, including the entries (un-awaited deduplicated tasks) they left in the shared dict when they
   exited — do not change what i does: slot i and i's entries end as when i runs alone from the start *)
Theorem C16_later_generation_unaffected : forall RO local (nr : RO -> local -> request)
  (adv : RO -> local -> response -> local) (g : @global RO local) dead sch i,
  count i dead = O ->
  g_loc (run nr adv (dead ++ sch) g) i = g_loc (solo nr adv i (count i sch) g) i /\
  owned i (g_dedup (run nr adv (dead ++ sch) g)) = owned i (g_dedup (solo nr adv i (count i sch) g)).
Proof.
  intros RO local nr adv g dead sch i H.
  destruct (solo_equals_interleaved RO local nr adv g (dead ++ sch) i) as (A & B & _).
  rewrite count_app, H in A, B. exact (conj A B).
Qed.
Print Assumptions C16_later_generation_unaffected.

(* the entries of a thread that makes no more steps (a dead thread) stay in the dict untouched *)
Theorem C16_entries_of_dead_threads_stay : forall RO local (nr : RO -> local -> request)
  (adv : RO -> local -> response -> local) (g : @global RO local) sch j,
  count j sch = O -> owned j (g_dedup (run nr adv sch g)) = owned j (g_dedup g).
Proof. intros RO local nr adv g sch j H. apply (untouched RO local nr adv g sch j H). Qed.
Print Assumptions C16_entries_of_dead_threads_stay.

(* what the thread component of the key has to be: ANY function of the thread that is injective over all
   threads the process ever has (the Thread object is: `run` is `run_by (fun i => i)`) *)
Theorem C16_any_injective_thread_component : forall RO local (nr : RO -> local -> request)
  (adv : RO -> local -> response -> local) (ident : tid -> nat),
  (forall a b, ident a = ident b -> a = b) ->
  forall (g : @global RO local) sch i,
  g_loc (run_by nr adv ident sch g) i = g_loc (run_by nr adv ident (repeat i (count i sch)) g) i /\
  owned (ident i) (g_dedup (run_by nr adv ident sch g)) =
  owned (ident i) (g_dedup (run_by nr adv ident (repeat i (count i sch)) g)).
Proof. exact solo_equals_interleaved_by_injective_ident. Qed.
Print Assumptions C16_any_injective_thread_component.

Theorem C16_thread_object_is_the_identity_component : forall RO local (nr : RO -> local -> request)
  (adv : RO -> local -> response -> local) sch (g : @global RO local),
  run_by nr adv (fun i => i) sch g = run nr adv sch g.
Proof. exact run_by_id. Qed.
Print Assumptions C16_thread_object_is_the_identity_component.

(* injectivity among the threads alive at the same time is not enough: a number that a later thread
   inherits from a dead one (threads 0 and 1 are distinguished, thread 2 gets thread 1's number) hands the
   dead thread's entry to the new thread; with the thread itself in the key the same schedule does not *)
Theorem C16_reused_ident_in_key_leaks_across_lifetimes :
  g_loc (run_by w_next w_adv reused_ident [1%nat; 2%nat] w_init) 2%nat
    <> g_loc (run_by w_next w_adv reused_ident [2%nat] w_init) 2%nat
  /\ g_loc (run w_next w_adv [1%nat; 2%nat] w_init) 2%nat = g_loc (run w_next w_adv [2%nat] w_init) 2%nat
  /\ (forall a b, (a < 2)%nat -> (b < 2)%nat -> reused_ident a = reused_ident b -> a = b).
Proof.
  split; [vm_compute; discriminate | split; [reflexivity|]].
  intros [|[|a]] [|[|b]] Ha Hb; try lia; cbn; congruence.
Qed.
Print Assumptions C16_reused_ident_in_key_leaks_across_lifetimes.

(* the asynq instance (its op language has un-awaited deduplicated calls `Spec` / `OSpec` and profiler.reset()):
   a thread started after the threads in `dead` have run and exited produces the traces it produces alone *)
Theorem C16_asynq_traces_after_dead_threads : forall perf progs dead sch i, count i dead = O ->
  l_trace (g_loc (trun (dead ++ sch) (init_global perf progs)) i) =
  l_trace (g_loc (trun (repeat i (count i sch)) (init_global perf progs)) i).
Proof.
  intros perf progs dead sch i H. rewrite C16_asynq_local_state, count_app, H. reflexivity.
Qed.
Print Assumptions C16_asynq_traces_after_dead_threads.

(* the generation-wise schedules evaluated by the correspondence (Threads.run_case) *)
Theorem C16_asynq_generation_traces : forall perf progs sizes schs i,
  l_trace (g_loc (trun (gen_schedule progs 0 sizes schs) (init_global perf progs)) i) =
  l_trace (g_loc (trun (repeat i (count i (gen_schedule progs 0 sizes schs))) (init_global perf progs)) i).
Proof. intros. apply C16_asynq_traces. Qed.
Print Assumptions C16_asynq_generation_traces.
