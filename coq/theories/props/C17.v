(* C17 — async generators deliver their Values in order, and only those.
   The statements; every proof is a lemma of proofs/GenProofs.v, or a few lines that combine such lemmas.
   Vocabulary (proofs/GenProofs.v): `values b` = the Values of body b in program order (the
   sequential reference); `clean b` = no await of b fails and b does not raise; `pending s` = the
   task returned last is not computed; `wf s` = invariant of every reachable state
   (C17_reachable_wf); `needed k b` = shortest prefix of b holding k Values (all of b if fewer). *)
From Asynq Require Import Base Gen proofs.GenProofs.

(* list_of_generator returns all Values, in program order, and exhausts the generator *)
Theorem C17_list_all_values : forall s,
  wf s -> pending s = false -> clean (rest s) ->
  let r := list_of_generator s in
  snd r = LOk (map TVal (values (rest s))) /\
  rest (fst r) = [] /\ is_stopped (fst r) = true /\ pending (fst r) = false.
Proof. exact list_all_values. Qed.
Print Assumptions C17_list_all_values.

(* take_first(gen, n) returns the first n Values (none for n <= 0), for every n : Z, from every
   reachable state (so also for a generator that earlier calls have partly consumed);
   bounded consumption: it runs exactly the shortest prefix of the body that holds n Values when
   there are that many (one extra resume, the one that finds the end, otherwise) *)
Theorem C17_take_first_prefix : forall s n,
  wf s -> pending s = false -> clean (rest s) ->
  let r := take_first s n in
  let k := Z.to_nat n in
  snd r = LOk (map TVal (firstn k (values (rest s)))) /\
  rest s = needed k (rest s) ++ rest (fst r) /\
  (pulls (fst r) <= pulls s + length (needed k (rest s)) + 1)%nat /\
  ((k <= length (values (rest s)))%nat -> pulls (fst r) = (pulls s + length (needed k (rest s)))%nat) /\
  wf (fst r) /\ pending (fst r) = false.
Proof. exact take_first_spec. Qed.
Print Assumptions C17_take_first_prefix.

(* n = 0 (and n < 0): nothing returned, nothing consumed, whatever the state or the body *)
Theorem C17_take_first_zero : forall s n, n <= 0 -> take_first s n = (s, LOk []).
Proof. exact take_first_zero. Qed.
Print Assumptions C17_take_first_zero.

(* `needed` is what its name says: a prefix, holding the first k Values, ending with the k-th *)
Theorem C17_needed_is_minimal : forall b k,
  (exists tl, b = needed k b ++ tl) /\ values (needed k b) = firstn k (values b) /\
  ((S k <= length (values b))%nat ->
     exists p v, needed (S k) b = p ++ [GValue v] /\ length (values p) = k).
Proof. exact (fun b k => conj (needed_prefix b k) (conj (values_needed b k) (needed_ends_with_value b k))). Qed.
Print Assumptions C17_needed_is_minimal.

(* repeated take_first calls on the same generator return consecutive chunks of the Values *)
Theorem C17_take_first_repeated : forall ns s,
  wf s -> pending s = false -> clean (rest s) ->
  take_many s ns = map (fun c => LOk (map TVal c)) (chunks (map Z.to_nat ns) (values (rest s))).
Proof. exact take_first_repeated. Qed.
Print Assumptions C17_take_first_repeated.

(* END_OF_GENERATOR never appears, and every element of a result is a Value of the body: for ALL
   bodies (failing awaits, raising bodies, END-valued futures), all states, all n *)
Theorem C17_no_end_marker : forall s n l,
  (snd (list_of_generator s) = LOk l -> ~ In TEnd l) /\
  (snd (take_first s n) = LOk l -> ~ In TEnd l).
Proof. exact no_end_marker. Qed.
Print Assumptions C17_no_end_marker.

Theorem C17_only_values : forall s n l,
  (snd (list_of_generator s) = LOk l -> forall t, In t l -> exists v, t = TVal v /\ In (GValue v) (rest s)) /\
  (snd (take_first s n) = LOk l -> forall t, In t l -> exists v, t = TVal v /\ In (GValue v) (rest s)).
Proof. exact (fun s n l => conj (list_only_values s l) (take_only_values s n l)). Qed.
Print Assumptions C17_only_values.

(* advancing before the previously returned task is computed raises RuntimeError and changes nothing *)
Theorem C17_advance_guard : forall s first,
  last_task s = LPending first -> send s = (s, SRaise E_RUNTIME).
Proof. exact advance_guard. Qed.
Print Assumptions C17_advance_guard.

(* an exhausted generator raises StopIteration, is then flagged, and keeps raising it: after
   is_stopped no op list ever resumes the body or gets anything but StopIteration / [] *)
Theorem C17_exhausted_raises_stop : forall s,
  rest s = [] -> pending s = false ->
  snd (send s) = SRaise E_STOPITER /\ is_stopped (fst (send s)) = true /\
  rest (fst (send s)) = [] /\ pending (fst (send s)) = false.
Proof. exact exhausted_send. Qed.
Print Assumptions C17_exhausted_raises_stop.

Theorem C17_stays_stopped : forall ops s h,
  wf s -> is_stopped s = true ->
  fst (fst (run (s, h) ops)) = s /\ all_stopped ops (snd (run (s, h) ops)).
Proof. exact stays_stopped. Qed.
Print Assumptions C17_stays_stopped.

(* nested generators (a body that iterates another async generator the documented way, to any
   depth): the inlined body is clean and its Values are the Values of the tree in program order,
   so list_of_generator / take_first return them / their first n *)
Theorem C17_nested_values : forall b,
  forallb tclean1 b = true -> clean (inline b) /\ values (inline b) = flat_map tvalues1 b.
Proof. exact nested_values. Qed.
Print Assumptions C17_nested_values.

Theorem C17_nested_list_take : forall b n,
  forallb tclean1 b = true ->
  snd (list_of_generator (init (inline b))) = LOk (map TVal (flat_map tvalues1 b)) /\
  snd (take_first (init (inline b)) n) = LOk (map TVal (firstn (Z.to_nat n) (flat_map tvalues1 b))).
Proof. exact nested_list_take. Qed.
Print Assumptions C17_nested_list_take.

(* a body with a failing await or a raise: list_of_generator raises exactly the first failure (the
   Values before it are lost with the exception); e <> StopIteration because a body cannot raise
   StopIteration (PEP 479) *)
Theorem C17_list_first_failure : forall s e,
  wf s -> pending s = false -> first_failure (rest s) = Some e -> e <> E_STOPITER ->
  snd (list_of_generator s) = LErr e.
Proof.
  intros s e Hwf Hp Hf He. unfold list_of_generator, fuel_of. apply list_loop_fail; auto. lia.
Qed.
Print Assumptions C17_list_first_failure.

(* the hypotheses above hold in every state any op list can reach from any body *)
Theorem C17_reachable_wf : forall b ops, wf (fst (fst (run (init b, HNone) ops))).
Proof. intros b ops. apply run_wf, init_wf. Qed.
Print Assumptions C17_reachable_wf.

(* the loop bounds of the model are artefacts: never reached / irrelevant *)
Theorem C17_no_fuel : forall s n,
  snd (list_of_generator s) <> LFuel /\ snd (take_first s n) <> LFuel.
Proof.
  intros s n. split.
  - rewrite list_is_take. destruct (take_loop_gen (fuel_of s) s 0 0 []) as (_ & _ & _ & H). apply H. unfold fuel_of. lia.
  - unfold take_first. destruct (n <=? 0); [discriminate|].
    destruct (take_loop_gen (fuel_of s) s 0 n []) as (_ & _ & _ & H). apply H. unfold fuel_of. lia.
Qed.
Print Assumptions C17_no_fuel.

Theorem C17_inner_loop_fuel : forall f1 f2 s yr,
  (length (rest s) < f1)%nat -> (length (rest s) < f2)%nat ->
  inner_loop f1 s yr = inner_loop f2 s yr.
Proof. exact inner_loop_fuel. Qed.
Print Assumptions C17_inner_loop_fuel.

(* take_first as it stands in /repo (no `n <= 0` guard) violates the statement at n = 0
   (returns a Value and consumes the generator); for n >= 1 it is the repaired function *)
Theorem C17_take_first_unrepaired_refuted :
  exists b, snd (take_first_orig (init b) 0) <> LOk [] /\
            pulls (fst (take_first_orig (init b) 0)) <> pulls (init b).
Proof. exact take_first_orig_refuted. Qed.
Print Assumptions C17_take_first_unrepaired_refuted.

Theorem C17_take_first_unrepaired_pos : forall s n, 1 <= n -> take_first_orig s n = take_first s n.
Proof. exact take_first_orig_pos. Qed.
Print Assumptions C17_take_first_unrepaired_pos.

(* ---- yields that are not Values: None ("nothing to wait for"), futures, tuples / lists / dicts of
   them (Gen.aw, Gen.unwrap, tree step NYield).  C17_nested_values / C17_nested_list_take above
   quantify over tree bodies that contain them (tclean1 (NYield w) = "no member of w fails",
   tvalues1 (NYield w) = []).  The theorems below say that such a yield is never mistaken for the
   end of the generator, and that the end is signalled only at the end. *)

(* a body that yields w (None included) where a Value or the end could be: send hands out a task
   waiting for unwrap w, resumes the body with None exactly once, and does not flag exhaustion *)
Theorem C17_yield_not_exhaustion : forall s w b,
  rest s = yield_step w :: b -> pending s = false -> is_stopped s = false ->
  send s = (mkG b (S (pulls s)) (sent s ++ [TVal VNone]) (LPending (tres_of (unwrap w))) false, STask).
Proof. exact yield_not_exhaustion. Qed.
Print Assumptions C17_yield_not_exhaustion.

(* StopIteration out of send/next means the body has nothing left (a body cannot raise
   StopIteration itself, PEP 479), in every reachable state *)
Theorem C17_stop_only_when_exhausted : forall s,
  wf s -> pending s = false -> snd (send s) = SRaise E_STOPITER ->
  rest s = [] \/ exists b, rest s = GRaise E_STOPITER :: b.
Proof. exact stop_only_when_exhausted. Qed.
Print Assumptions C17_stop_only_when_exhausted.

(* a task handed out by the generator computes to END_OF_GENERATOR only by running the body to its
   end (and then the generator is flagged): never in the middle of the stream *)
Theorem C17_end_only_when_exhausted : forall s,
  pending s = true -> snd (compute s) = TEnd ->
  rest (fst (compute s)) = [] /\ is_stopped (fst (compute s)) = true.
Proof. exact end_only_when_exhausted. Qed.
Print Assumptions C17_end_only_when_exhausted.

(* for list_of_generator / take_first a tree body with any non-failing None / future / container
   yields, nested to any depth, is the body that yields just its Values *)
Theorem C17_only_values_matter : forall b n,
  forallb tclean1 b = true ->
  let b' := map NValue (flat_map tvalues1 b) in
  snd (list_of_generator (init (inline b))) = snd (list_of_generator (init (inline b'))) /\
  snd (take_first (init (inline b)) n) = snd (take_first (init (inline b'))  n).
Proof.
  intros b n H. cbn zeta. destruct (values_only_clean (flat_map tvalues1 b)) as [C V].
  destruct (nested_list_take b n H) as [-> ->].
  destruct (nested_list_take _ n C) as [-> ->]. rewrite V. auto.
Qed.
Print Assumptions C17_only_values_matter.

Example C17_example_yields :
  let b := example_yields in
  forallb tclean1 b = true /\
  snd (list_of_generator (init (inline b))) = LOk [TVal (VInt 1); TVal (VInt 2); TVal (VInt 3)] /\
  snd (take_first (init (inline b)) 2) = LOk [TVal (VInt 1); TVal (VInt 2)] /\
  snd (send (init (inline b))) = STask /\ is_stopped (fst (send (init (inline b)))) = false.
Proof. vm_compute. repeat split; reflexivity. Qed.

(* ---- the payload of a Value is opaque.  `Value(obj)` may hold anything, in particular a FUTURE that the
   consumer is to receive as an object (an unstarted task, a computed one, a ConstFuture, a batch item ...); in the
   model the v of `GValue v` is a label of that object.  Vocabulary (proofs/GenProofs.v): `rl_state f` / `rl_sh f`
   relabel the payloads of the Values a state still has to yield and of the results it already holds, by any
   f : val -> val; `rl_res` / `rl_lres` / `rl_out` relabel results; `tmap f` relabels a tree body; nothing else of a
   state (awaited outcomes, values sent into the body, counters, flags) is touched by them. *)

(* relabelling the payloads commutes with every consumer: for ALL bodies (failing awaits, raising bodies, END-valued
   futures), all states, all op lists over next / task.value() / list_of_generator / take_first n *)
Theorem C17_payload_opaque : forall f ops sh,
  run (rl_sh f sh) ops = (rl_sh f (fst (run sh ops)), map (rl_out f) (snd (run sh ops))).
Proof. exact run_relabel. Qed.
Print Assumptions C17_payload_opaque.

Theorem C17_payload_opaque_list_take : forall f s n,
  list_of_generator (rl_state f s) = (rl_state f (fst (list_of_generator s)), rl_lres f (snd (list_of_generator s))) /\
  take_first (rl_state f s) n = (rl_state f (fst (take_first s n)), rl_lres f (snd (take_first s n))).
Proof. exact (fun f s n => conj (list_of_generator_rl f s) (take_first_rl f s n)). Qed.
Print Assumptions C17_payload_opaque_list_take.

(* ... and nothing but the results depends on the payloads: the values the body receives at its yields, the number of
   times it is resumed, exhaustion, whether a task is pending and what that task waits for first are the same -
   a payload is never something the generator waits for *)
Theorem C17_payload_never_awaited : forall f ops sh,
  let s1 := fst (fst (run (rl_sh f sh) ops)) in
  let s0 := fst (fst (run sh ops)) in
  sent s1 = sent s0 /\ pulls s1 = pulls s0 /\ is_stopped s1 = is_stopped s0 /\
  length (rest s1) = length (rest s0) /\ pending s1 = pending s0 /\
  (forall first, last_task s0 = LPending first -> last_task s1 = LPending first).
Proof.
  intros f ops sh. cbn zeta. rewrite run_relabel. cbn [fst snd rl_sh rl_state sent pulls is_stopped rest last_task].
  repeat split; try reflexivity.
  - apply map_length.
  - unfold pending, rl_state. cbn [last_task]. generalize (last_task (fst (fst (run sh ops)))). intros lt. destruct lt; reflexivity.
  - intros first E. rewrite E. reflexivity.
Qed.
Print Assumptions C17_payload_never_awaited.

(* the entry point of the correspondence, bodies without nested generators: per op (result, pulls, is_stopped) with
   the results relabelled, and the same list of values received by the body *)
Theorem C17_payload_opaque_run_case : forall f b ops,
  forallb tflat b = true ->
  run_case (map (tmap f) b) ops = (map (rl_out f) (fst (run_case b ops)), snd (run_case b ops)).
Proof.
  intros f b ops H. unfold run_case. rewrite (inline_flat_rl f b H).
  change (init (map (rl_step f) (inline b)), HNone) with (rl_sh f (init (inline b), HNone)).
  rewrite run_relabel. destruct (run (init (inline b), HNone) ops) as [sh rs]. reflexivity.
Qed.
Print Assumptions C17_payload_opaque_run_case.

(* nested generators of any depth whose awaits do not fail: the payloads pass through `x = yield task; yield Value(x)`
   of every level as they are *)
Theorem C17_payload_opaque_nested : forall f b n,
  forallb tclean1 b = true ->
  snd (list_of_generator (init (inline (map (tmap f) b)))) = rl_lres f (snd (list_of_generator (init (inline b)))) /\
  snd (take_first (init (inline (map (tmap f) b))) n) = rl_lres f (snd (take_first (init (inline b)) n)).
Proof.
  intros f b n H. destruct (tmap_clean_values_list f b) as [C V].
  assert (H' : forallb tclean1 (map (tmap f) b) = true) by (rewrite C; exact H).
  destruct (nested_list_take b n H) as [-> ->]. destruct (nested_list_take _ n H') as [-> ->].
  rewrite V. cbn [rl_lres]. rewrite firstn_map, !map_map. split; reflexivity.
Qed.
Print Assumptions C17_payload_opaque_nested.

Example C17_example_payloads :
  let b := example_payloads in
  let f := fun v => match v with VTuple [VInt (-1); VInt k] => VInt (2000 + k) | _ => v end in
  forallb tclean1 b = true /\
  snd (take_first (init (inline b)) 3) =
    LOk [TVal (VTuple [VInt (-1); VInt 1]); TVal (VTuple [VInt (-1); VInt 2]); TVal (VTuple [VInt (-1); VInt 3])] /\
  snd (list_of_generator (init (inline (map (tmap f) b)))) =
    LOk [TVal (VInt 2001); TVal (VInt 2002); TVal (VInt 2003); TVal (VInt 2004)].
Proof. vm_compute. repeat split; reflexivity. Qed.

(* hypotheses are satisfiable, and the theorems compute *)
Example C17_example :
  let b := example_body in
  wf (init b) /\ pending (init b) = false /\ clean b /\
  snd (take_first (init b) 1) = LOk [TVal (VInt 1)] /\ pulls (fst (take_first (init b) 1)) = 2%nat /\
  snd (list_of_generator (fst (take_first (init b) 1))) = LOk [TVal (VInt 2)].
Proof. cbn. split; [intros E; discriminate|]. repeat split; reflexivity. Qed.
