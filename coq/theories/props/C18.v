(* C18 — diagnostics are faithful and total: glued tracebacks, asynq stack, filter_traceback,
   str/repr/dump.  The theorems with an argument of their own are proved in proofs/DiagProofs.v; instances and
   consequences of a few steps are derived here.
   The notions used in the statements that are not of the model are defined in proofs/DiagProofs.v: for
   filter_traceback contains, complete_run, starts_run, rewrites; for tracebacks expected, glued, task_frames,
   caller_user, bottom_user, plain; for observers of a failed task views, observer_view, reader_frames,
   no_handler, innermost_catches; for the asynq stack ancestors, depth, linked, by_parent, names, level_names,
   expected_names, level_entries; for str/repr/dump wf, line_ok, is_future_cls, is_batch_cls. *)
From Asynq Require Import Base Diag proofs.DiagProofs.
From Coq Require Import String List.
Import ListNotations.

(* (a) filter_traceback *)

(* the model's substring test is Python's "needle in hay" *)
Theorem C18_contains_is_substring : forall n h,
  containsb n h = true <-> exists a b, h = (a ++ n ++ b)%string.
Proof. exact containsb_spec. Qed.
Print Assumptions C18_contains_is_substring.

(* output = input with disjoint complete pattern runs replaced by their marker (leftmost, first
   pattern wins), every other line identical and in order, no kept line starts a complete run *)
Theorem C18_only_complete_runs : forall lines, rewrites REPLACEMENTS lines (filter_traceback lines).
Proof. exact only_complete_runs. Qed.
Print Assumptions C18_only_complete_runs.

(* ... and that description determines the output *)
Theorem C18_only_complete_runs_unique : forall lines out,
  rewrites REPLACEMENTS lines out -> out = filter_traceback lines.
Proof. intros lines out. apply rewrites_is_filter, REPLACEMENTS_nonempty. Qed.
Print Assumptions C18_only_complete_runs_unique.

(* (b) gluing *)

(* for every depth, every handler/call mode per level and every raise position: the caller sees its
   own frame followed by the frames the statement's reading [expected] prescribes *)
Theorem C18_frames_in_call_order : forall ms b,
  caller_user ms b = option_map (cons FCaller) (expected 0%Z ms b).
Proof. exact caller_sees_expected. Qed.
Print Assumptions C18_frames_in_call_order.

(* exactly one frame per task level, in call order, ending at the raising frame, when the levels
   have no handler or re-raise with a bare raise (awaited or called synchronously) *)
Theorem C18_one_frame_per_level : forall ms b, forallb plain ms = true ->
  caller_user ms b = Some (FCaller :: task_frames 0%Z (S (List.length ms)) ++ bottom_user b).
Proof. exact one_frame_per_level. Qed.
Print Assumptions C18_one_frame_per_level.

(* the code as found: an instance that went through qcore.prepare_for_reraise at another site keeps
   that site's traceback; the frame of the task that raised it is lost *)
Theorem C18_prepared_instance_as_found_loses_level : forall i k,
  let e := accept_error_as_found
             (pushes [FInt I_cog; FInt I_continue]
                     (push (FTask i) (pushes (rev (helper_frames k 1%Z)) prepared_exn))) in
  pr e = Prepared [PREP_SITE] true.
Proof. intros i k. unfold accept_error_as_found. rewrite pushes_pr. simpl. rewrite pushes_pr. reflexivity. Qed.
Print Assumptions C18_prepared_instance_as_found_loses_level.

(* the same failed task observed several times (by the driver itself, by chains of reader tasks that
   await it or ask synchronously, with or without a handler at any level; the driver a plain caller
   or a task): every observer -- the first and every later one -- sees its own chain, one frame
   per reader level in call order from the catching level down, followed by the failed task's
   frames [expected], and no frame of any other observer.  For raise_if_error as repaired in
   /repo 489ba01. *)
Theorem C18_every_observer_sees_its_own_chain : forall ms b drv os,
  map (option_map user_frames) (observations ms b drv os) =
  match expected 0%Z ms b with
  | None => map (fun _ => None) os
  | Some fs => map Some (views 0%Z os fs)
  end.
Proof. exact every_observer_sees_its_own_chain. Qed.
Print Assumptions C18_every_observer_sees_its_own_chain.

(* the reading [observer_view] for observers without handlers: driver, one frame per reader level *)
Theorem C18_observer_one_frame_per_reader_level : forall k rs fs, no_handler rs = true ->
  observer_view k rs fs = FCaller :: reader_frames k 0%Z (List.length rs) ++ fs.
Proof. intros k rs fs H. unfold observer_view. rewrite (reader_view_plain k rs 0%Z fs H). reflexivity. Qed.
Print Assumptions C18_observer_one_frame_per_reader_level.

(* the code as found: after a reader task that let the error propagate, a later observer gets that
   reader's frame *)
Theorem C18_shared_error_as_found_leaks_reader : forall ms b drv h fs, expected 0%Z ms b = Some fs ->
  map (option_map user_frames) (observations_with false ms b drv [[(h, false)]; []])
  = [Some (FCaller :: FReader 0 0 :: fs); Some (FCaller :: FReader 0 0 :: fs)].
Proof.
  intros ms b drv h fs E. unfold observations_with.
  generalize (task_result_spec ms 0%Z b). rewrite E.
  destruct (task_result 0%Z ms b) as [[t p]|]; [|contradiction].
  intros [G U]. unfold glued in G. simpl in G, U. subst p.
  destruct h, drv; simpl; unfold user_frames; simpl; fold (user_frames t); rewrite U; reflexivity.
Qed.
Print Assumptions C18_shared_error_as_found_leaks_reader.

(* ... and the code as found is right whenever no reader task fails with the error *)
Theorem C18_as_found_agrees_without_failing_reader : forall ms b drv os,
  forallb innermost_catches os = true ->
  observations_with false ms b drv os = observations_with true ms b drv os.
Proof.
  intros ms b drv os C. unfold observations_with.
  generalize (task_result_spec ms 0%Z b).
  destruct (task_result 0%Z ms b) as [e|]; [|reflexivity].
  destruct (expected 0%Z ms b) as [fs|]; [|contradiction].
  intros [G _]. rewrite (glued_saved e G).
  rewrite (observe_seq_same drv os 0%Z (tb e) true e G C). reflexivity.
Qed.
Print Assumptions C18_as_found_agrees_without_failing_reader.

(* the failed future several observers share is not a task (ErrorFuture, batch item given set_error,
   future given set_error from outside) and holds the error a failed task ended with: its observers
   see what the observers of that task see, i.e. C18_every_observer_sees_its_own_chain applies *)
Theorem C18_shared_future_as_task : forall fk ms b drv os, fk <> KLazy ->
  shared_observations fk (EOfTask ms b) drv os = observations ms b drv os.
Proof.
  intros fk ms b drv os H. unfold shared_observations, observations, observations_with, shared_exn.
  destruct (task_result 0%Z ms b) as [e|]; [|reflexivity].
  destruct fk; try reflexivity. contradiction H; reflexivity.
Qed.
Print Assumptions C18_shared_future_as_task.

(* known findings (known/C18.json), model-side witnesses: the code as it is, not what the statement asks for *)
Theorem C18_fresh_shared_error_leaks_reader : forall h1 h2,
  map (option_map user_frames)
      (shared_observations KErrorFuture EFresh HSync [[(h1, false)]; [(h2, false)]; []])
  = [Some [FCaller; FReader 0 0]; Some [FCaller; FReader 1 0; FReader 0 0];
     Some [FCaller; FReader 1 0; FReader 0 0]]%Z.
Proof. intros [] []; reflexivity. Qed.
Print Assumptions C18_fresh_shared_error_leaks_reader.

Theorem C18_awaited_taskless_error_loses_frames : forall drv,
  map (option_map user_frames) (shared_observations KErrorFuture EPrepared drv [[(HAwait, false)]])
  = [Some [FCaller; FReader 0 0]] /\
  map (option_map user_frames) (shared_observations KLazy EFresh drv [[(HAwait, false)]])
  = [Some [FCaller; FReader 0 0]] /\
  map (option_map user_frames) (shared_observations KErrorFuture EPrepared drv [[(HSync, false)]])
  = [Some [FCaller; FReader 0 0; PREP_SITE]].
Proof. intros []; repeat split; reflexivity. Qed.
Print Assumptions C18_awaited_taskless_error_loses_frames.

(* (c) asynq stack *)

(* for every chain of tasks, whatever frame state (live / kept after a failure / gone) and source
   kind (line retrievable or not) each task has: one entry per task of the creator chain, each
   naming its own task, outermost first, ending with the task itself *)
Theorem C18_creator_chain : forall t,
  traceback t = map entry_of (ancestors t) /\
  map entry_name (traceback t) = map tk_name (ancestors t) /\
  last (ancestors t) t = t /\
  (exists r rest, ancestors t = r :: rest /\ tk_creator r = None) /\
  linked (ancestors t) /\
  List.length (traceback t) = S (depth t).
Proof. exact creator_chain. Qed.
Print Assumptions C18_creator_chain.

(* the form of one entry: the "File .. in f" line iff the task has a frame whose source line can
   be found; otherwise -- in particular when _traceback_line raises -- the str(task) text of that
   same task; the failure never reaches past the task's own entry *)
Theorem C18_entry_of_each_task : forall t,
  entry_name (entry_of t) = tk_name t /\
  (entry_of t = EFrame (tk_name t) <-> tk_frame t <> FrGone /\ tk_src t = SrcFile) /\
  (entry_of t = EStr (tk_name t) <-> tk_frame t = FrGone \/ tk_src t = SrcNone) /\
  (traceback_line t = None <-> tk_frame t <> FrGone /\ tk_src t = SrcNone).
Proof. exact entry_of_spec. Qed.
Print Assumptions C18_entry_of_each_task.

(* every creation kind and every source kind at every level: format_asynq_stack() in the deepest
   task names exactly the tasks of the statement's reading [expected_names] *)
Theorem C18_stack_names : forall s0 cs,
  map entry_name (stack_in_deepest s0 cs) = expected_names 0%Z [TL 0%Z] cs.
Proof. exact stack_names. Qed.
Print Assumptions C18_stack_names.

Theorem C18_stack_depth_plus_one : forall s0 cs, forallb by_parent (map fst cs) = true ->
  map entry_name (stack_in_deepest s0 cs) = level_names 0%Z (S (List.length cs)).
Proof. intros s0 cs H. rewrite stack_names, (expected_by_parent cs 0%Z _ H). reflexivity. Qed.
Print Assumptions C18_stack_depth_plus_one.

Theorem C18_stack_entry_forms : forall s0 cs, forallb by_parent (map fst cs) = true ->
  stack_in_deepest s0 cs = level_entries 0%Z (s0 :: map snd cs).
Proof.
  intros s0 cs H. unfold stack_in_deepest. rewrite (deepest_by_parent_entries cs 0%Z _ H).
  destruct s0; reflexivity.
Qed.
Print Assumptions C18_stack_entry_forms.

(* the recursive code as found fails exactly when the chain is longer than the stack budget, and
   otherwise returns what the repaired loop returns *)
Theorem C18_recursive_traceback_budget : forall b t,
  traceback_rec_budget b t = if Nat.ltb (depth t) b then Some (traceback t) else None.
Proof. exact traceback_rec_budget_spec. Qed.
Print Assumptions C18_recursive_traceback_budget.

(* (d) str / repr / dump never raise, for every object kind in every state *)
Theorem C18_repr_total : forall o, wf o = true ->
  str_obj o <> None /\ repr_obj o <> None /\ Forall line_ok (dump_obj o 0%Z).
Proof. exact repr_total. Qed.
Print Assumptions C18_repr_total.

(* the code as found: str/repr of an async generator object raise in every state *)
Theorem C18_asyncgen_repr_as_found_raises : forall st,
  str_obj_with "stopped" (OAGen st) = None /\ repr_obj_with "stopped" (OAGen st) = None.
Proof. intros st. split; reflexivity. Qed.
Print Assumptions C18_asyncgen_repr_as_found_raises.

(* (d') the payload dimension: whatever value a computed future / finished task / batch / Value /
   scoped value / override holds -- every tuple, string, dict, None, nested future -- str and repr
   return a text that shows that very payload (never an element of it, never an exception) *)
Theorem C18_repr_shows_payload : forall p,
  (forall c, is_future_cls c = true ->
     str_obj (OFut c (OkV p)) = Some (SFuture (FOk p)) /\ repr_obj (OFut c (OkV p)) = Some (SFuture (FOk p)) /\
     str_obj (OFut c (ErrV p)) = Some (SFuture (FErr p)) /\ repr_obj (OFut c (ErrV p)) = Some (SFuture (FErr p))) /\
  (forall it g ds,
     str_obj (OTask (OkV p) it g ds) = Some (STask (TOk p) (it - 1)) /\
     repr_obj (OTask (OkV p) it g ds) = Some (SFuture (FOk p)) /\
     str_obj (OTask (ErrV p) it g ds) = Some (STask (TErr p) (it - 1)) /\
     repr_obj (OTask (ErrV p) it g ds) = Some (SFuture (FErr p))) /\
  (forall c its, is_batch_cls c = true ->
     repr_obj (OBatch c (OkV p) its) = Some (SFuture (FOk p)) /\
     repr_obj (OBatch c (ErrV p) its) = Some (SFuture (FErr p))) /\
  str_obj (OValue p) = Some (SValue p) /\ repr_obj (OValue p) = Some (SValue p) /\
  str_obj (OScoped CScopedValue p) = Some (SScoped p) /\ repr_obj (OScoped CScopedValue p) = Some (SScoped p) /\
  repr_obj (OScoped CSVOverride p) = Some (SOverride p) /\
  repr_obj (OScoped CPropOverride p) = Some (SPropOverride p).
Proof.
  intros p. split; [|split; [|split]].
  - intros c Hc. repeat split; apply (repr_future_spec c); left; exact Hc.
  - intros it g ds. repeat split; reflexivity.
  - intros c its Hc. split; apply (repr_future_spec c); right; left; exact Hc.
  - repeat split; reflexivity.
Qed.
Print Assumptions C18_repr_shows_payload.

(* the first line dump() writes for an object is its str text, or that text cut by debug.str when
   it is longer than DEBUG_STR_REPR_MAX_LENGTH -- never the n/a text *)
Theorem C18_dump_line_shows_payload : forall o i, wf o = true ->
  exists s, str_obj o = Some s /\
    hd_error (dump_obj o i) =
      Some (match o with
            | OTask _ _ _ _ => if (MAX_DUMP_INDENT <? i)%Z then ((i + 1)%Z, DEllipsis)
                               else (i, if (DEBUG_STR_REPR_MAX_LENGTH <? summary_len s)%Z then DCut else DObj (Some s))
            | _ => (i, if (DEBUG_STR_REPR_MAX_LENGTH <? summary_len s)%Z then DCut else DObj (Some s))
            end).
Proof.
  intros o i H. generalize (str_total o H). destruct (str_obj o) as [s|] eqn:E; [|congruence].
  intros _. exists s. split; [reflexivity|].
  destruct o; cbn [dump_obj]; try (destruct (MAX_DUMP_INDENT <? i)%Z; [reflexivity|]);
    cbn [hd_error]; rewrite E; reflexivity.
Qed.
Print Assumptions C18_dump_line_shows_payload.

(* "...%r" % payload with the payload as the bare right operand shows the payload iff it is not
   a tuple; a tuple is taken as the argument list: TypeError unless it has exactly one element,
   and then the element is printed in place of the tuple; wrapping it in a 1-tuple is always right *)
Theorem C18_pct_bare_operand : forall p,
  ((forall l, p <> PTuple l) -> pct1 p = Some p) /\
  (forall l, p = PTuple l -> pct1 p = match l with [x] => Some x | _ => None end) /\
  pct1 (PTuple [p]) = Some p.
Proof. intros p. split; [apply pct1_spec | split; [intros l ->; apply pct1_tuple | reflexivity]]. Qed.
Print Assumptions C18_pct_bare_operand.

(* the code as found: repr/str of a generator.Value holding a tuple (defect witness) *)
Theorem C18_value_repr_as_found : forall l,
  str_obj_gen AGEN_REPR_ATTR VALUE_OPERAND_AS_FOUND (OValue (PTuple l)) =
    match l with [x] => Some (SValue x) | _ => None end /\
  repr_obj_gen AGEN_REPR_ATTR VALUE_OPERAND_AS_FOUND (OValue (PTuple l)) =
    match l with [x] => Some (SValue x) | _ => None end.
Proof. intros [|x [|y l]]; split; reflexivity. Qed.
Print Assumptions C18_value_repr_as_found.

Theorem C18_value_repr_as_found_agrees_on_non_tuples : forall p, (forall l, p <> PTuple l) ->
  str_obj_gen AGEN_REPR_ATTR VALUE_OPERAND_AS_FOUND (OValue p) = str_obj (OValue p).
Proof.
  intros p H. unfold str_obj, str_obj_with, str_obj_gen, VALUE_OPERAND_AS_FOUND, VALUE_OPERAND. simpl.
  rewrite (pct1_spec p H). reflexivity.
Qed.
Print Assumptions C18_value_repr_as_found_agrees_on_non_tuples.
