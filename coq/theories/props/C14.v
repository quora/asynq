(* C14 — collection helpers equal their builtin counterparts, in one batching round.
   The statements; every proof is a lemma of proofs/ToolsProofs.v, or a few lines that combine such lemmas. *)
From Asynq Require Import Base Tools proofs.ToolsProofs.
From Coq Require Import Permutation Sorted.

(* every helper call returns / raises what the builtin does with the synchronous function, for every
   iterable kind, call form, function (blocking or not, raising or not) *)
Theorem C14_helpers_equal_builtins : forall c f, call_ok c f -> call_result c f = call_spec c f.
Proof. exact helpers_equal_builtins. Qed.
Print Assumptions C14_helpers_equal_builtins.

Theorem C14_amap_eq_map : forall (h : elt -> elt) it l, fst (traverse it) = Val l ->
  run (fun x => KVal (h x)) (Body (amap it)) = Val (map h l).
Proof. intros h it l H. rewrite amap_run, H. cbn. unfold py_map. apply collect_total. Qed.
Print Assumptions C14_amap_eq_map.

Theorem C14_afilter_eq : forall (p : elt -> elt) it l, fst (traverse it) = Val l ->
  run (fun x => KVal (p x)) (Body (afilter true it)) = Val (filter (fun x => truthy (p x)) l).
Proof. exact afilter_eq. Qed.
Print Assumptions C14_afilter_eq.

Theorem C14_afilterfalse_eq : forall (p : elt -> elt) it l, fst (traverse it) = Val l ->
  run (fun x => KVal (p x)) (Body (afilterfalse it)) = Val (filter (fun x => negb (truthy (p x))) l).
Proof.
  intros p it l H. rewrite afilterfalse_run, H; cbn. rewrite py_filter_by_total.
  apply f_equal, filter_ext. intros a. destruct (truthy (p a)); reflexivity.
Qed.
Print Assumptions C14_afilterfalse_eq.

(* asorted's sort of (key, value) pairs on the key is sorted(values, key=..., reverse=...); the value
   type A is abstract: values are never compared *)
Theorem C14_asorted_eq_sorted : forall (A : Type) (key : A -> elt) reverse (l : list A),
  rmap (map snd) (sorted_total fst reverse (combine (map key l) l)) = sorted_total key reverse l.
Proof. exact @asorted_eq_sorted. Qed.
Print Assumptions C14_asorted_eq_sorted.

Theorem C14_decorate_sort : forall (A K : Type) (kle : K -> K -> bool) (key : A -> K) reverse l,
  map snd (ssort_by kle fst reverse (combine (map key l) l)) = ssort_by kle key reverse l.
Proof. exact (fun A K kle key => decorate_sort kle key (fun k => k)). Qed.
Print Assumptions C14_decorate_sort.

(* the sort is stable for every total preorder on keys, reverse honoured *)
Theorem C14_sort_stable : forall (A K : Type) (kle : K -> K -> bool) (key : A -> K),
  (forall a b, kle a b = true \/ kle b a = true) ->
  (forall a b c, kle a b = true -> kle b c = true -> kle a c = true) ->
  forall reverse l,
    Permutation (ssort_by kle key reverse l) l /\
    StronglySorted (fun a b => if reverse then le_by kle key b a else le_by kle key a b) (ssort_by kle key reverse l) /\
    (forall k, filter (eqv kle key k) (ssort_by kle key reverse l) = filter (eqv kle key k) l).
Proof. exact @ssort_by_stable. Qed.
Print Assumptions C14_sort_stable.

Theorem C14_sorted_total_spec : forall (A : Type) (key : A -> elt) reverse (l : list A),
  match sorted_total key reverse l with
  | Exc e => e = E_TYPEERROR /\ (2 <= length l)%nat /\ exists x, In x l /\ orderable (key x) = false
  | Val out =>
    ((length l < 2)%nat \/ forall x, In x l -> orderable (key x) = true) /\
    Permutation out l /\
    StronglySorted (fun a b => if reverse then rankz (key b) <= rankz (key a) else rankz (key a) <= rankz (key b)) out /\
    (forall k, filter (fun a => Z.eqb (rankz (key a)) k) out = filter (fun a => Z.eqb (rankz (key a)) k) l)
  end.
Proof. exact @sorted_total_spec. Qed.
Print Assumptions C14_sorted_total_spec.

(* amax / amin: max(enumerate(l), key=lambda p: keys[p[0]])[1] is max(l, key=key) *)
Theorem C14_amax_amin_enumerate : forall (A : Type) is_max (key : A -> elt) (l : list A),
  rmap snd (extreme_total is_max (fun p => nth (fst p) (map key l) ENone) (enumerate l)) = extreme_total is_max key l.
Proof. exact @amax_first. Qed.
Print Assumptions C14_amax_amin_enumerate.

(* first extreme wins *)
Theorem C14_amax_amin_first : forall (A : Type) is_max (key : A -> elt) l x,
  extreme_total is_max key l = Val x ->
  ((length l < 2)%nat \/ forall y, In y l -> orderable (key y) = true) /\
  exists pre post, l = pre ++ x :: post /\ Forall (worse is_max key x) pre /\ Forall (notbetter is_max key x) post.
Proof. exact @extreme_total_first. Qed.
Print Assumptions C14_amax_amin_first.

(* CPython's key-then-compare loop is the all-keys-first form when no key raises *)
Theorem C14_builtin_max_min_total : forall is_max g (key : elt -> elt) l,
  (forall y, In y l -> g y = KVal (key y)) -> py_extreme is_max g l = extreme_total is_max key l.
Proof. exact py_extreme_total. Qed.
Print Assumptions C14_builtin_max_min_total.

Theorem C14_asift_partition : forall (p : elt -> elt) it l, fst (traverse it) = Val l ->
  run (fun x => KVal (p x)) (Body (asift it)) =
  Val (filter (fun x => truthy (p x)) l, filter (fun x => negb (truthy (p x))) l).
Proof. intros p it l H. rewrite asift_run, H; cbn. apply py_partition_total. Qed.
Print Assumptions C14_asift_partition.

(* tools.py 151-162 as it stands does not have the property (one-shot iterator) *)
Theorem C14_asift_as_written_refuted :
  exists g it, run g (Body (asift_as_written it)) <> bind (fst (traverse it)) (py_partition g).
Proof. exists (fun _ => KVal (EBool false)), (OneShot [EInt 2]). cbn. discriminate. Qed.
Print Assumptions C14_asift_as_written_refuted.

Theorem C14_asift_as_written_oneshot : forall g l rs, collect (map g l) = Val rs ->
  run g (Body (asift_as_written (OneShot l))) = Val ([], []).
Proof. exact asift_as_written_oneshot. Qed.
Print Assumptions C14_asift_as_written_oneshot.

Theorem C14_aretry_runs : forall listed (max_tries : Z) pre a rest,
  0 < max_tries ->
  Forall (fun x => match x with ARaise cls _ => is_listed listed cls = true | ARet _ => False end) pre ->
  match a with ARaise cls _ => is_listed listed cls = false | ARet _ => True end ->
  let o := aretry listed max_tries (pre ++ a :: rest) in
  let k := length pre in
  r_runs o = Nat.min (k + 1) (Z.to_nat max_tries) /\
  r_result o = (if (k <? Z.to_nat max_tries)%nat then attempt_result a
                else attempt_result (nth (Z.to_nat max_tries - 1) pre (ARet ENone))) /\
  r_sleeps o = (r_runs o - 1)%nat.
Proof. exact aretry_runs. Qed.
Print Assumptions C14_aretry_runs.

Theorem C14_aretry_eq_spec : forall listed (max_tries : Z) script, 0 < max_tries ->
  let o := aretry listed max_tries script in
  (r_result o, r_runs o) = aretry_spec listed (Z.to_nat max_tries) script.
Proof.
  intros listed max_tries script Hm. rewrite aretry_pos by exact Hm.
  destruct (aretry_loop_spec listed (Z.to_nat max_tries) (Z.to_nat max_tries) 0%nat script) as [H1 [H2 _]]; [lia|lia|].
  cbv zeta. unfold aretry_spec. rewrite H1, H2. reflexivity.
Qed.
Print Assumptions C14_aretry_eq_spec.

(* all per-element calls of one invocation sit in one yielded list *)
Theorem C14_one_round : forall c,
  call_yielded c = match call_items c with
                   | Val l => if call_uses_fn c then [l] else []
                   | Exc _ => []
                   end.
Proof. exact one_round. Qed.
Print Assumptions C14_one_round.

Theorem C14_one_flush : forall c f,
  call_flushes c f = match call_items c with
                     | Val l => if call_uses_fn c && existsb (blocks f) l then 1%nat else 0%nat
                     | Exc _ => 0%nat
                     end.
Proof.
  intros c f. rewrite call_flushes_yielded, one_round. destruct (call_items c); [|reflexivity].
  destruct (call_uses_fn c); [|reflexivity]. cbn. destruct (existsb (blocks f) a); reflexivity.
Qed.
Print Assumptions C14_one_flush.
