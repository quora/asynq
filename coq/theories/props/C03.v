(* C03 — a task resumes only when all it awaits is done; start order; exactly once per yield.
   Statements only; proofs in proofs/ProgProofs.v, proofs/MachineC02.v, proofs/MachineSteps.v, proofs/MachineC02S.v and
   proofs/MachineC03T.v, proofs/MachineC03L.v, proofs/MachineC03P.v, proofs/MachineC03N.v, proofs/MachineC03A.v.
   Proved: (1) the dependencies derived from a yielded structure are exactly its futures, in reverse
   written order for list/tuple structures (with the LIFO task stack: tasks first scheduled together
   start in the order written); (2) on the machine, for tree programs, the scheduler resumes a task
   only while it is uncomputed and every future it yielded is computed; (3) exactly-once per yield as
   a trace property of Machine.run_case, for EVERY program (no tree restriction), parameter record,
   history and fuel: an event [EvStep t i _] (the body of t resumed after its i-th yield) occurs at
   most once (C03_step_at_most_once_per_yield), and the steps of a task are numbered 0,1,2,... in
   chronological order - step i > 0 is preceded by step i-1 (C03_steps_numbered_consecutively); so the
   k-th resume of t is the unique step numbered k-1 and there is exactly one resume per yield that is
   resumed at all.  (4) "never runs again after it has completed": the unrestricted trace statement
   C03_no_step_after_done_statement (no EvStep t after EvDone t) is FALSE for the faithful model
   (C03_no_step_after_done_statement_is_false): a task re-entered through a synchronous .value() of a
   task that awaits it can complete in the inner activation and yield again in the outer one; the
   model then steps it again (CPython would raise "generator already executing" at the re-entry
   instead).  The statement holds for every program and history in which each resume
   finds its task uncomputed (C03_no_step_after_done_when_resumes_are_guarded), and that hypothesis
   holds for tree programs by the C01 invariant (C03_no_step_after_done_tree; pointwise service, no
   unwinding, one root computation from the initial state).
   (5) [stree] programs = tree programs + synchronous calls of fresh tasks (proofs/MachineC01S.v,
   proofs/MachineC02S.v): (2) again (C03_resumed_only_when_everything_awaited_is_done_stree);
   the guard hypothesis of (4) holds for their runs (C03_stree_resumes_are_guarded), hence no step after done for
   one stree computation from the initial state (C03_no_step_after_done_stree) and for a whole HISTORY of stree
   (in particular tree) computations on one scheduler in which no computation unwinds and each computation that
   is followed by another one finished (C03_no_step_after_done_stree_history; C03_stree_clean_history: such a
   history exists).  The nested scheduler loops of synchronous calls never resume a suspended caller: they only
   work on tasks at least as young as their wait_for root.
   LIVENESS of tree programs (pointwise service, one root computation from the initial state, and the runaway guard
   does not fire: hypothesis "forall n, no_unwind P n start", i.e. MAX_TASK_STACK_SIZE is large enough for the
   program).  The result is C03_terminates_tree: there is a fuel at which the run is done with the sequential outcome
   Seq.eval p; C03_small_never_unwinds: when MAX_TASK_STACK_SIZE >= 1 + nf p the guard cannot fire, so
   C03_terminates_tree_small has no hypothesis about the run.  It rests on (6)-(9).
   (6) A resumed task returns control to the scheduler (proofs/MachineC03T.v): from a configuration MResume t the
   body of t runs for finitely many steps (through the yields that add no dependency) and reaches MContRet without
   unwinding (C03_resumed_task_returns_to_scheduler).
   (7) Every _execute pass terminates (proofs/MachineC03T.v, proofs/MachineC03P.v): from the head of wait_for with
   the awaited task uncomputed (start of the computation, or right after a flush) the machine reaches MAfterExec
   with an empty task stack after finitely many steps (C03_every_pass_terminates_tree; C03_first_pass_terminates_tree
   is the case n = 1).  Induction over the creation numbers (dependencies are younger, bound = top_next at the start
   of the pass); a top entry that is not a first visit is popped (C03_top_entry_popped_unless_first_visit_tree:
   computed / item / lazy / blocked-and-scheduled entries are popped, an unblocked suspended task is resumed and
   runs with everything it starts until it completes or is stuck again - structural induction over its program); a
   first visit pushes the uncomputed dependencies, whose sets of uncomputed descendants are pairwise disjoint
   (C03_sibling_subtrees_disjoint, from deps_ok.dk_disj), so dealing with one sibling leaves the others' subtrees
   as they were.  After a flush the next pass starts (C03_next_pass_starts_tree).
   (8) Flushes (proofs/MachineC03L.v): dependencies are younger than the task that awaits them, in every
   configuration of a clean run (C03_dependencies_are_younger_tree; the invariant is MachineC01S.SI); at a flush
   point (a pass ended with the awaited task uncomputed) the stuck set of MachineC04B contains a batch item
   (C03_stuck_set_has_item: well-founded descent on top_next - id, no classical logic), that item is uncomputed and
   lies in a scheduled pending batch (C03_flush_point_has_item_tree), so _select_batch_to_flush finds a batch and
   the step computes at least one item that was not computed, losing nothing (C03_flush_makes_progress_tree); while
   the ids stay below N at most N flush points occur (C03_flushes_bounded_tree).
   (9) The allocation bound (proofs/MachineC03N.v, proofs/MachineC03A.v): nf p = number of futures the sequential
   evaluation of p creates, by structural recursion along Seq.eval (C03_nf_yield); while the run has not unwound,
   top_next <= 1 + nf p (C03_allocation_bound_tree).  Invariant (with the ghost spec of C01): top_next + the sum
   over the ids below top_next of the remaining allocation of each uncomputed task (nf of the program in MRun for
   the running task; nf of the generator applied to the specified outcome of the yielded structure for a suspended
   one) <= 1 + nf p.  Transitions other than a yield, a creation and the resume of a generator create nothing and
   keep generator and yielded structure of every uncomputed task (relation gq); MResume uses look_agree; Yield moves
   the futures of the yield expression from the sum to top_next (inst_W).  C03_nf_demos: the demo runs created
   exactly 1 + nf p futures.
   Statements with more hypotheses than C03_terminates_tree: C03_termination_reduced_tree (every pass ends and the
   ids are bounded: the step from (7)-(9) to termination, by counting flushes) and
   C03_terminates_if_allocation_bounded_tree (the ids are bounded); C03_terminates_without_flush_tree (no pass ends
   with the awaited task uncomputed; the conclusion is stated as MDone o with o = Seq.eval p);
   C03_noitem_terminates for item-free programs ([noitem] = tree without FItem), which never hold a batch item in
   the heap (C03_noitem_heap_has_no_item; invariant NIc preserved by every step) and so never end a pass with the
   root uncomputed (C03_noitem_never_flushes).  Non-vacuity: C03_termination_demos (a program with nested tasks that
   needs no flush; c01_demo, which needs flushes, ends its first pass after 17 steps and is done within 41),
   C03_noitem_termination_demo (nested tasks, a lazy future, a constant, a context and a caught exception; guard
   hypothesis proved for every fuel), C03_termination_demo_with_items (c01_demo: guard hypothesis and the bound of
   10 futures proved for every fuel).
   WITHOUT THE HYPOTHESIS no_unwind (proofs/MachineNoUnwind.v, MachineGuardForms.v): the theorems about tree programs are stated again as
   C03_resumed_only_when_everything_awaited_is_done_guard, C03_no_step_after_done_tree_guard,
   C03_resumed_task_returns_to_scheduler_guard (which also concludes that the guard stays silent during the
   segment), C03_first_pass_terminates_tree_guard, C03_terminates_without_flush_tree_guard (hypothesis: forall n,
   guard_fires P (run P n c0) = false), and those about stree programs as
   C03_resumed_only_when_everything_awaited_is_done_stree_guard, C03_stree_resumes_are_guarded_guard,
   C03_no_step_after_done_stree_guard.  These forms need no assumption about exceptions unwinding:
   FutureIsAlreadyComputed is proved unreachable for tree and stree programs, so only the runaway guard's
   RuntimeError can unwind through asynq's frames, and the hypothesis "the guard has not fired before step n"
   (forall k < n, guard_fires P (run P k c0) = false; guard_fires is the boolean test at the head of the _execute
   loop) is a decidable condition on the run.
   NOT proved (correspondence, monitors and the watchdog only): termination outside the tree fragment (stored
   handles, synchronous value() calls, Let: stree and beyond), and termination when the guard does fire;
   never-started for never-awaited tasks; no-step-after-done for programs outside stree (stored handles,
   value() on existing futures) without the guard hypothesis, and after a computation that was cut off by the
   fuel or by the runaway guard. *)
From Asynq Require Import Machine Seq proofs.ProgProofs proofs.MachineC08 proofs.MachineC01 proofs.MachineC02
  proofs.MachineSteps.

Theorem C03_dependencies_are_the_yielded_futures : forall (A : Type) (s : ystruct A) (a : A),
  In a (extract s) <-> In a (leaves s).
Proof. exact (fun A s a => extract_same_elements s a). Qed.
Print Assumptions C03_dependencies_are_the_yielded_futures.

Theorem C03_list_tuple_dependencies_in_reverse_written_order : forall (A : Type) (s : ystruct A),
  dict_free s = true -> extract s = rev (leaves s).
Proof. exact (fun A s => extract_rev_leaves s). Qed.
Print Assumptions C03_list_tuple_dependencies_in_reverse_written_order.

Theorem C03_resumed_only_when_everything_awaited_is_done : forall P, pointwise P -> forall p, tree p -> forall n t,
  let h := fst (create [] (FTask p) (st0 P)) in
  let s1 := snd (create [] (FTask p) (st0 P)) in
  no_unwind P n (start h s1) -> c_mode (run P n (start h s1)) = MResume t ->
  exists tk, get t (c_st (run P n (start h s1))) = Some (mkFut None (KTask tk)) /\
    forall x, In (RFut x) (leaves (tk_last tk)) -> computed x (c_st (run P n (start h s1))) = true.
Proof. exact resume_guard_tree. Qed.
Print Assumptions C03_resumed_only_when_everything_awaited_is_done.

(* ---- exactly once per yield (every program; proofs/MachineSteps.v) ----
   count_step t i tr = number of events [EvStep t i _] in tr; snd (run_case ..) is chronological. *)
Theorem C03_step_at_most_once_per_yield : forall P fuel ps t i,
  (count_step t i (snd (run_case P fuel ps)) <= 1)%nat.
Proof. exact run_case_step_at_most_once. Qed.
Print Assumptions C03_step_at_most_once_per_yield.

Theorem C03_steps_numbered_consecutively : forall P fuel ps t i o l1 l2,
  snd (run_case P fuel ps) = l1 ++ EvStep t i o :: l2 ->
  (0 <= i)%Z /\ ((0 < i)%Z -> exists o', In (EvStep t (i - 1)%Z o') l1).
Proof. exact run_case_steps_consecutive. Qed.
Print Assumptions C03_steps_numbered_consecutively.

(* ---- never runs again after it has completed ---- *)
Definition C03_no_step_after_done_statement : Prop :=
  forall P fuel ps t i o l1 l2,
    snd (run_case P fuel ps) = l1 ++ EvStep t i o :: l2 -> forall o', ~ In (EvDone t o') l1.

Theorem C03_no_step_after_done_statement_is_false : ~ C03_no_step_after_done_statement.
Proof. exact no_step_after_done_fails. Qed.
Print Assumptions C03_no_step_after_done_statement_is_false.

(* every program and history: if each resume (mode MResume t) of each root computation finds t
   uncomputed, no step of t follows EvDone t *)
Theorem C03_no_step_after_done_when_resumes_are_guarded : forall P fuel ps,
  history_guarded P fuel ps (st0 P) ->
  forall t i o l1 l2, snd (run_case P fuel ps) = l1 ++ EvStep t i o :: l2 -> forall o', ~ In (EvDone t o') l1.
Proof. exact run_case_no_step_after_done. Qed.
Print Assumptions C03_no_step_after_done_when_resumes_are_guarded.

Theorem C03_no_step_after_done_tree : forall P p n,
  pointwise P -> tree p ->
  no_unwind P n (start (fst (create [] (FTask p) (st0 P))) (snd (create [] (FTask p) (st0 P)))) ->
  forall t i o l1 l2, snd (run_case P n [p]) = l1 ++ EvStep t i o :: l2 -> forall o', ~ In (EvDone t o') l1.
Proof. exact tree_no_step_after_done. Qed.
Print Assumptions C03_no_step_after_done_tree.

(* non-vacuity: a tree program that yields twice runs clean; its task has steps 0, 1, 2, then EvDone *)
Example C03_three_steps_then_done :
  tree steps_demo /\
  let P := mkP [] 1000 false [] in
  let h := fst (create [] (FTask steps_demo) (st0 P)) in
  let s1 := snd (create [] (FTask steps_demo) (st0 P)) in
  no_unwind_b P 100 (start h s1) = true /\
  fst (run_case P 100 [steps_demo]) = [Some (Ok (VInt 6))] /\
  filter (fun e => match e with EvStep _ _ _ | EvDone _ _ => true | _ => false end) (snd (run_case P 100 [steps_demo])) =
  [EvStep [0%Z] 0 (Ok VNone); EvStep [0%Z] 1 (Ok (VInt 5)); EvStep [0%Z] 2 (Ok (VInt 6)); EvDone [0%Z] (Ok (VInt 6))].
Proof. exact (conj steps_demo_tree steps_demo_runs). Qed.
Print Assumptions C03_three_steps_then_done.

(* ==== tree programs WITH SYNCHRONOUS CALLS ([stree]: proofs/MachineC01S.v, proofs/MachineC02S.v) ==== *)
From Asynq Require Import proofs.MachineC01S proofs.MachineC02S.

Theorem C03_resumed_only_when_everything_awaited_is_done_stree : forall P, pointwise P -> forall p, stree p -> forall n t,
  let h := fst (create [] (FTask p) (st0 P)) in
  let s1 := snd (create [] (FTask p) (st0 P)) in
  no_unwind P n (start h s1) -> c_mode (run P n (start h s1)) = MResume t ->
  exists tk, get t (c_st (run P n (start h s1))) = Some (mkFut None (KTask tk)) /\
    forall x, In (RFut x) (leaves (tk_last tk)) -> computed x (c_st (run P n (start h s1))) = true.
Proof. exact resume_guard_stree. Qed.
Print Assumptions C03_resumed_only_when_everything_awaited_is_done_stree.

(* the guard hypothesis of C03_no_step_after_done_when_resumes_are_guarded holds for stree runs *)
Theorem C03_stree_resumes_are_guarded : forall P p n,
  pointwise P -> stree p ->
  no_unwind P n (start (fst (create [] (FTask p) (st0 P))) (snd (create [] (FTask p) (st0 P)))) ->
  resume_guarded P n (start (fst (create [] (FTask p) (st0 P))) (snd (create [] (FTask p) (st0 P)))).
Proof. exact stree_resume_guarded. Qed.
Print Assumptions C03_stree_resumes_are_guarded.

Theorem C03_no_step_after_done_stree : forall P p n,
  pointwise P -> stree p ->
  no_unwind P n (start (fst (create [] (FTask p) (st0 P))) (snd (create [] (FTask p) (st0 P)))) ->
  forall t i o l1 l2, snd (run_case P n [p]) = l1 ++ EvStep t i o :: l2 -> forall o', ~ In (EvDone t o') l1.
Proof. exact stree_no_step_after_done. Qed.
Print Assumptions C03_no_step_after_done_stree.

(* a whole history of stree computations on one scheduler.  history_clean P fuel ps s: every program is stree, no
   root computation unwinds, and every computation that is followed by another one finished (MDone) *)
Theorem C03_no_step_after_done_stree_history : forall P fuel ps,
  pointwise P -> history_clean P fuel ps (st0 P) ->
  forall t i o l1 l2, snd (run_case P fuel ps) = l1 ++ EvStep t i o :: l2 -> forall o', ~ In (EvDone t o') l1.
Proof. exact stree_history_no_step_after_done. Qed.
Print Assumptions C03_no_step_after_done_stree_history.

(* non-vacuity: the C02 demo program (a synchronous call inside an awaited task, failing siblings) twice on one
   scheduler is a clean history; the second root [6] and its child [7] are stepped and then done *)
Example C03_stree_clean_history :
  let P := mkP [] 1000 false [] in
  history_clean P 60 [c02s_demo; c02s_demo] (st0 P) /\
  fst (run_case P 60 [c02s_demo; c02s_demo]) = [Some (Err 42); Some (Err 42)] /\
  filter (fun e => match e with EvStep [6] _ _ | EvDone [6] _ | EvStep [7] _ _ | EvDone [7] _ => true | _ => false end)
         (snd (run_case P 60 [c02s_demo; c02s_demo])) =
  [EvStep [6] 0 (Ok VNone); EvStep [7] 0 (Ok VNone); EvDone [7] (Ok (VTuple [VInt 7; VInt 1]));
   EvStep [6] 1 (Err 42); EvDone [6] (Err 42)].
Proof. exact c02s_history_clean. Qed.
Print Assumptions C03_stree_clean_history.

(* ==== liveness of tree programs (proofs/MachineC03T.v, proofs/MachineC03A.v) ==== *)
From Asynq Require Import proofs.MachineC03T proofs.MachineC03A.

(* once the scheduler resumes a task (mode MResume t), the body of t runs for finitely many steps - through
   the yields that add no dependency - and control returns to the scheduler loop (MContRet), without
   unwinding; seg_mode t m = true iff m is MResume t or MRun t _ *)
Theorem C03_resumed_task_returns_to_scheduler : forall P p n t,
  pointwise P -> tree p ->
  let h := fst (create [] (FTask p) (st0 P)) in
  let s1 := snd (create [] (FTask p) (st0 P)) in
  no_unwind P n (start h s1) -> c_mode (run P n (start h s1)) = MResume t ->
  exists m, c_mode (run P (n + m) (start h s1)) = MContRet /\ no_unwind P (n + m) (start h s1) /\
    forall j, (j < m)%nat -> seg_mode t (c_mode (run P (n + j) (start h s1))) = true.
Proof. exact resumed_returns_tree. Qed.
Print Assumptions C03_resumed_task_returns_to_scheduler.

(* the FIRST _execute pass of the computation terminates: from the initial state the machine reaches the point
   where wait_for gets control back (MAfterExec) with an empty task stack - every task reachable from the root
   has been started and has run until it completed or got stuck.  Hypothesis on MAX_TASK_STACK_SIZE, explicit:
   the runaway guard never fires (no configuration of the run is unwinding). *)
Theorem C03_first_pass_terminates_tree : forall P p,
  pointwise P -> tree p ->
  let h := fst (create [] (FTask p) (st0 P)) in
  let s1 := snd (create [] (FTask p) (st0 P)) in
  (forall n, no_unwind P n (start h s1)) ->
  exists n, c_mode (run P n (start h s1)) = MAfterExec /\ tasks (c_st (run P n (start h s1))) = [].
Proof. exact first_pass_terminates_tree. Qed.
Print Assumptions C03_first_pass_terminates_tree.

(* TERMINATION when no batch flush is needed: if no pass ends with the awaited task uncomputed, there is a fuel
   at which the computation is done, and its outcome is the sequential one *)
Theorem C03_terminates_without_flush_tree : forall P p,
  pointwise P -> tree p ->
  let h := fst (create [] (FTask p) (st0 P)) in
  let s1 := snd (create [] (FTask p) (st0 P)) in
  (forall n, no_unwind P n (start h s1)) ->
  (forall n, c_mode (run P n (start h s1)) = MAfterExec -> computed h (c_st (run P n (start h s1))) = true) ->
  exists n o, c_mode (run P n (start h s1)) = MDone o /\ o = eval p.
Proof. exact terminates_without_flush_tree. Qed.
Print Assumptions C03_terminates_without_flush_tree.

(* non-vacuity: c01_demo ends its first pass after 17 steps with the root uncomputed and is done within 41 steps;
   c03t_demo (nested tasks, a lazy future, constants, no batch item) never ends a pass with the root
   uncomputed, does not unwind, and is done within 36 steps *)
Theorem C03_termination_demos :
  tree c03t_demo /\
  let P := mkP [] 1000 false [] in
  (let h := fst (create [] (FTask c01_demo) (st0 P)) in
   let s1 := snd (create [] (FTask c01_demo) (st0 P)) in
   c_mode (run P 17 (start h s1)) = MAfterExec /\ computed h (c_st (run P 17 (start h s1))) = false /\
   c_mode (run P 41 (start h s1)) = MDone (eval c01_demo)) /\
  (let h := fst (create [] (FTask c03t_demo) (st0 P)) in
   let s1 := snd (create [] (FTask c03t_demo) (st0 P)) in
   no_unwind_b P 100 (start h s1) = true /\
   forallb (fun n => match c_mode (run P n (start h s1)) with
                     | MAfterExec => computed h (c_st (run P n (start h s1))) | _ => true end) (seq 0 100) = true /\
   c_mode (run P 36 (start h s1)) = MDone (Ok (VTuple [VTuple [VInt 7; VInt 1]; VInt 9; VInt 3])) /\
   eval c03t_demo = Ok (VTuple [VTuple [VInt 7; VInt 1]; VInt 9; VInt 3])).
Proof. exact (conj c03t_demo_tree c03t_demo_runs). Qed.
Print Assumptions C03_termination_demos.

(* ==== flushes (proofs/MachineC03L.v) ==== *)
From Asynq Require Import proofs.MachineC04 proofs.MachineC01S proofs.MachineC04S proofs.MachineC03L.

(* ACYCLICITY: dependencies are younger.  In every configuration of a clean run (not MStuck), a task entry
   [a] (computed or not) has only dependencies whose creation number (fnum d = head of the id) is greater than
   a; an allocated dependency is [b] with a < b.  (The invariant is MachineC01S.SI, preserved by step.) *)
Theorem C03_dependencies_are_younger_tree : forall P p n,
  pointwise P -> tree p ->
  let h := fst (create [] (FTask p) (st0 P)) in
  let s1 := snd (create [] (FTask p) (st0 P)) in
  no_unwind P n (start h s1) -> c_mode (run P n (start h s1)) <> MStuck ->
  forall t o tk, get t (c_st (run P n (start h s1))) = Some (mkFut o (KTask tk)) ->
  exists a, t = [a] /\ (0 <= a < top_next (c_st (run P n (start h s1))))%Z /\
    forall d, In d (tk_deps tk) -> (a < fnum d)%Z /\
      forall f, get d (c_st (run P n (start h s1))) = Some f -> exists b, d = [b] /\ (a < b)%Z.
Proof. exact (fun P p n HP Ht => deps_are_younger P HP p Ht n). Qed.
Print Assumptions C03_dependencies_are_younger_tree.

(* a stuck set contains a batch item: if dependencies are younger, ids are below top_next and
   every member of S is stuck in the sense of MachineC04.S_ok, every member of S leads to a batch item in S *)
Theorem C03_stuck_set_has_item : forall (s : st) (S : fid -> Prop),
  deps_younger s -> (forall d f, get d s = Some f -> (fnum d < top_next s)%Z) ->
  (forall d, S d -> S_ok S s d) ->
  forall d, S d -> exists e kind idx key a, S e /\ get e s = Some (mkFut None (KItem kind idx key a)).
Proof. exact stuck_has_item. Qed.
Print Assumptions C03_stuck_set_has_item.

(* at a flush point (a pass has ended, the awaited task is not computed) the heap holds an uncomputed batch
   item whose batch is scheduled, pending and contains it *)
Theorem C03_flush_point_has_item_tree : forall P p n,
  pointwise P -> tree p ->
  let h := fst (create [] (FTask p) (st0 P)) in
  let s1 := snd (create [] (FTask p) (st0 P)) in
  no_unwind P n (start h s1) -> c_mode (run P n (start h s1)) = MAfterExec ->
  computed h (c_st (run P n (start h s1))) = false ->
  exists e kind idx key a, get e (c_st (run P n (start h s1))) = Some (mkFut None (KItem kind idx key a)) /\
    In (kind, idx) (sb (c_st (run P n (start h s1)))) /\
    In e (b_items (get_batch (kind, idx) (c_st (run P n (start h s1))))) /\
    b_done (get_batch (kind, idx) (c_st (run P n (start h s1)))) = false.
Proof. exact (fun P p n HP Ht => flush_point_has_item P HP p Ht n). Qed.
Print Assumptions C03_flush_point_has_item_tree.

(* FLUSH PROGRESS: the step taken at a flush point goes back to the head of wait_for (the scheduler found a
   batch to flush) and computes at least one batch item that was not computed; nothing computed is lost *)
Theorem C03_flush_makes_progress_tree : forall P p n,
  pointwise P -> tree p ->
  let h := fst (create [] (FTask p) (st0 P)) in
  let s1 := snd (create [] (FTask p) (st0 P)) in
  no_unwind P n (start h s1) -> c_mode (run P n (start h s1)) = MAfterExec ->
  computed h (c_st (run P n (start h s1))) = false ->
  c_mode (run P (S n) (start h s1)) = MWaitHead /\
  (exists d, computed d (c_st (run P n (start h s1))) = false /\ computed d (c_st (run P (S n) (start h s1))) = true /\
     exists kind idx key a, get d (c_st (run P n (start h s1))) = Some (mkFut None (KItem kind idx key a))) /\
  (forall x, computed x (c_st (run P n (start h s1))) = true -> computed x (c_st (run P (S n) (start h s1))) = true).
Proof. exact (fun P p n HP Ht => flush_makes_progress P HP p Ht n). Qed.
Print Assumptions C03_flush_makes_progress_tree.

(* ITEM-FREE programs ([noitem]: tree programs without FItem, for all outcomes passed to the continuations) *)
Theorem C03_noitem_is_tree : forall p, noitem p -> tree p.
Proof. exact noitem_tree. Qed.
Print Assumptions C03_noitem_is_tree.

Theorem C03_noitem_heap_has_no_item : forall P p n,
  noitem p ->
  let h := fst (create [] (FTask p) (st0 P)) in
  let s1 := snd (create [] (FTask p) (st0 P)) in
  forall u o kind idx key a, get u (c_st (run P n (start h s1))) <> Some (mkFut o (KItem kind idx key a)).
Proof. exact noitem_heap_has_no_item. Qed.
Print Assumptions C03_noitem_heap_has_no_item.

(* the no-flush hypothesis of C03_terminates_without_flush_tree holds for item-free programs *)
Theorem C03_noitem_never_flushes : forall P p,
  pointwise P -> noitem p ->
  let h := fst (create [] (FTask p) (st0 P)) in
  let s1 := snd (create [] (FTask p) (st0 P)) in
  forall n, no_unwind P n (start h s1) -> c_mode (run P n (start h s1)) = MAfterExec ->
    computed h (c_st (run P n (start h s1))) = true.
Proof. exact noitem_never_flushes. Qed.
Print Assumptions C03_noitem_never_flushes.

(* TERMINATION of item-free programs, under the guard hypothesis only *)
Theorem C03_noitem_terminates : forall P p,
  pointwise P -> noitem p ->
  let h := fst (create [] (FTask p) (st0 P)) in
  let s1 := snd (create [] (FTask p) (st0 P)) in
  (forall n, no_unwind P n (start h s1)) ->
  exists n, c_mode (run P n (start h s1)) = MDone (eval p).
Proof. exact noitem_terminates. Qed.
Print Assumptions C03_noitem_terminates.

(* non-vacuity: c03l_demo (nested tasks, a lazy future, a constant, a task inside a context that catches the
   exception of the task it awaits) is item-free, its run never unwinds (for EVERY fuel), and it terminates
   with the sequential outcome: the hypotheses and the conclusion of C03_noitem_terminates *)
Theorem C03_noitem_termination_demo :
  let P := mkP [] 1000 false [] in
  let h := fst (create [] (FTask c03l_demo) (st0 P)) in
  let s1 := snd (create [] (FTask c03l_demo) (st0 P)) in
  pointwise P /\ noitem c03l_demo /\ (forall n, no_unwind P n (start h s1)) /\
  exists n, c_mode (run P n (start h s1)) = MDone (Ok (VTuple [VTuple [VInt 7; VInt 1]; VInt 9; VInt 42])).
Proof. exact c03l_demo_terminates. Qed.
Print Assumptions C03_noitem_termination_demo.
(* ==== the same WITHOUT an assumption about exceptions unwinding (proofs/MachineNoUnwind.v, MachineGuardForms.v) ====
   [no_unwind] is replaced by "the MAX_TASK_STACK_SIZE guard has not fired before step n":
   forall k < n, guard_fires P (run P k c0) = false, where guard_fires is the boolean test at the head of the
   _execute loop in Machine.step.  For tree programs under a pointwise service the two say the same:
   FutureIsAlreadyComputed is proved unreachable, so the guard's RuntimeError is the only exception that can
   unwind through asynq's frames. *)
From Asynq Require Import proofs.MachineNoUnwind proofs.MachineGuardForms.
Theorem C03_resumed_only_when_everything_awaited_is_done_guard : forall P, pointwise P -> forall p, tree p -> forall n t,
  let h := fst (create [] (FTask p) (st0 P)) in
  let s1 := snd (create [] (FTask p) (st0 P)) in
  (forall k, (k < n)%nat -> guard_fires P (run P k (start h s1)) = false) ->
  c_mode (run P n (start h s1)) = MResume t ->
  exists tk, get t (c_st (run P n (start h s1))) = Some (mkFut None (KTask tk)) /\
    forall x, In (RFut x) (leaves (tk_last tk)) -> computed x (c_st (run P n (start h s1))) = true.
Proof. exact (fun P HP p Ht n t Hg => resume_guard_tree P HP p Ht n t (tree_no_unwind_iff_guard_silent P HP p Ht n Hg)). Qed.
Print Assumptions C03_resumed_only_when_everything_awaited_is_done_guard.

Theorem C03_no_step_after_done_tree_guard : forall P p n,
  pointwise P -> tree p ->
  (forall k, (k < n)%nat -> guard_fires P (run P k
     (start (fst (create [] (FTask p) (st0 P))) (snd (create [] (FTask p) (st0 P))))) = false) ->
  forall t i o l1 l2, snd (run_case P n [p]) = l1 ++ EvStep t i o :: l2 -> forall o', ~ In (EvDone t o') l1.
Proof. exact (fun P p n HP Ht Hg =>
  tree_no_step_after_done P p n HP Ht (tree_no_unwind_iff_guard_silent P HP p Ht n Hg)). Qed.
Print Assumptions C03_no_step_after_done_tree_guard.

(* liveness fragments: the guard is silent before the resume; it stays silent (and nothing unwinds) during the
   segment *)
Theorem C03_resumed_task_returns_to_scheduler_guard : forall P p n t,
  pointwise P -> tree p ->
  let h := fst (create [] (FTask p) (st0 P)) in
  let s1 := snd (create [] (FTask p) (st0 P)) in
  (forall k, (k < n)%nat -> guard_fires P (run P k (start h s1)) = false) ->
  c_mode (run P n (start h s1)) = MResume t ->
  exists m, c_mode (run P (n + m) (start h s1)) = MContRet /\
    (forall k, (k < n + m)%nat -> guard_fires P (run P k (start h s1)) = false) /\
    no_unwind P (n + m) (start h s1) /\
    forall j, (j < m)%nat -> seg_mode t (c_mode (run P (n + j) (start h s1))) = true.
Proof.
  intros P p n t HP Ht h s1 Hg Hm.
  destruct (resumed_returns_tree P p n t HP Ht (tree_no_unwind_iff_guard_silent P HP p Ht n Hg) Hm) as (m & A & B & C).
  exists m. split; [exact A|]. split; [exact (no_unwind_guard_silent P (n + m) _ B)|]. split; [exact B|exact C].
Qed.
Print Assumptions C03_resumed_task_returns_to_scheduler_guard.

(* hypothesis on MAX_TASK_STACK_SIZE: the guard never fires (a decidable condition on each configuration) *)
Theorem C03_first_pass_terminates_tree_guard : forall P p,
  pointwise P -> tree p ->
  let h := fst (create [] (FTask p) (st0 P)) in
  let s1 := snd (create [] (FTask p) (st0 P)) in
  (forall n, guard_fires P (run P n (start h s1)) = false) ->
  exists n, c_mode (run P n (start h s1)) = MAfterExec /\ tasks (c_st (run P n (start h s1))) = [].
Proof. exact (fun P p HP Ht Hg =>
  first_pass_terminates_tree P p HP Ht (tree_never_unwinds_if_guard_never_fires P HP p Ht Hg)). Qed.
Print Assumptions C03_first_pass_terminates_tree_guard.

Theorem C03_terminates_without_flush_tree_guard : forall P p,
  pointwise P -> tree p ->
  let h := fst (create [] (FTask p) (st0 P)) in
  let s1 := snd (create [] (FTask p) (st0 P)) in
  (forall n, guard_fires P (run P n (start h s1)) = false) ->
  (forall n, c_mode (run P n (start h s1)) = MAfterExec -> computed h (c_st (run P n (start h s1))) = true) ->
  exists n o, c_mode (run P n (start h s1)) = MDone o /\ o = eval p.
Proof. exact (fun P p HP Ht Hg =>
  terminates_without_flush_tree P p HP Ht (tree_never_unwinds_if_guard_never_fires P HP p Ht Hg)). Qed.
Print Assumptions C03_terminates_without_flush_tree_guard.

(* ==== counting flushes (proofs/MachineC03L.v) ==== *)

(* relative bound on the number of flushes: while the ids of the futures created stay below N, at most N flush
   points (a pass ended, the awaited task is uncomputed) occur among the first n configurations *)
Theorem C03_flushes_bounded_tree : forall P p N n,
  pointwise P -> tree p ->
  let h := fst (create [] (FTask p) (st0 P)) in
  let s1 := snd (create [] (FTask p) (st0 P)) in
  (forall n, no_unwind P n (start h s1)) ->
  (forall k, (k <= n)%nat -> (top_next (c_st (run P k (start h s1))) <= Z.of_nat N)%Z) ->
  (length (filter (fun k => match c_mode (run P k (start h s1)) with
                            | MAfterExec => negb (computed h (c_st (run P k (start h s1))))
                            | _ => false end) (seq 0 n)) <= N)%nat.
Proof. exact (fun P p N n HP Ht Hnu HN => proj2 (flushes_bounded P HP p Ht Hnu N n HN)). Qed.
Print Assumptions C03_flushes_bounded_tree.

(* termination from two facts: if every pass that starts with the awaited task uncomputed ends
   and the number of futures ever created is bounded, the computation is done with the sequential outcome *)
Theorem C03_termination_reduced_tree : forall P p N,
  pointwise P -> tree p ->
  let h := fst (create [] (FTask p) (st0 P)) in
  let s1 := snd (create [] (FTask p) (st0 P)) in
  (forall n, no_unwind P n (start h s1)) ->
  (forall n, c_mode (run P n (start h s1)) = MWaitHead -> computed h (c_st (run P n (start h s1))) = false ->
     exists m, c_mode (run P (n + m) (start h s1)) = MAfterExec) ->
  (forall n, (top_next (c_st (run P n (start h s1))) <= Z.of_nat N)%Z) ->
  exists n, c_mode (run P n (start h s1)) = MDone (eval p).
Proof. exact (fun P p N HP Ht Hnu Hpass => terminates_if_passes_end_and_allocation_bounded P HP p Ht Hnu Hpass N). Qed.
Print Assumptions C03_termination_reduced_tree.

(* the next pass starts after a flush *)
Theorem C03_next_pass_starts_tree : forall P p n,
  pointwise P -> tree p ->
  let h := fst (create [] (FTask p) (st0 P)) in
  let s1 := snd (create [] (FTask p) (st0 P)) in
  (forall n, no_unwind P n (start h s1)) ->
  c_mode (run P n (start h s1)) = MWaitHead -> computed h (c_st (run P n (start h s1))) = false ->
  run P (n + 1) (start h s1) = mkC MExecLoop [FExec 0; FWait h; FTop] (with_tasks (c_st (run P n (start h s1))) [h]).
Proof. exact (fun P p n HP Ht Hnu => next_pass_starts P HP p Ht Hnu n). Qed.
Print Assumptions C03_next_pass_starts_tree.

(* in ANY pass the top stack entry is popped after finitely many steps unless it is a first visit *)
Theorem C03_top_entry_popped_unless_first_visit_tree : forall P p n s x ts,
  pointwise P -> tree p ->
  let h := fst (create [] (FTask p) (st0 P)) in
  let s1 := snd (create [] (FTask p) (st0 P)) in
  (forall n, no_unwind P n (start h s1)) ->
  run P n (start h s1) = mkC MExecLoop [FExec 0; FWait h; FTop] s -> tasks s = x :: ts ->
  (forall tk, get x s = Some (mkFut None (KTask tk)) -> is_blocked tk s = true -> tk_ds tk = true) ->
  exists m s', run P (n + m) (start h s1) = mkC MExecLoop [FExec 0; FWait h; FTop] s' /\ tasks s' = ts /\
    forall d, d <> x -> get d s <> None -> get d s' = get d s.
Proof. exact (fun P p n s x ts HP Ht Hnu => top_entry_popped_unless_first_visit P HP p Ht Hnu n s x ts). Qed.
Print Assumptions C03_top_entry_popped_unless_first_visit_tree.

(* ==== EVERY pass terminates (proofs/MachineC03P.v) ==== *)
From Asynq Require Import proofs.MachineC03P.

(* the uncomputed descendants of two distinct uncomputed dependencies of an uncomputed task are disjoint
   (ub s d z: z is below d through dependency lists of uncomputed tasks, along uncomputed dependencies) *)
Theorem C03_sibling_subtrees_disjoint : forall r s x tkx d1 d2, deps_younger s -> deps_ok r s ->
  get x s = Some (mkFut None (KTask tkx)) -> In d1 (tk_deps tkx) -> In d2 (tk_deps tkx) ->
  computed d1 s = false -> computed d2 s = false -> d1 <> d2 ->
  forall z, ub s d1 z -> ub s d2 z -> False.
Proof. exact ub_disjoint. Qed.
Print Assumptions C03_sibling_subtrees_disjoint.

(* EVERY _execute pass terminates: from the head of wait_for with the awaited task uncomputed - the start of
   the first pass or the configuration right after a flush - the machine reaches the end of the pass
   (MAfterExec) after finitely many steps, with an empty task stack *)
Theorem C03_every_pass_terminates_tree : forall P p n,
  pointwise P -> tree p ->
  let h := fst (create [] (FTask p) (st0 P)) in
  let s1 := snd (create [] (FTask p) (st0 P)) in
  (forall n, no_unwind P n (start h s1)) ->
  c_mode (run P n (start h s1)) = MWaitHead -> computed h (c_st (run P n (start h s1))) = false ->
  exists m, c_mode (run P (n + m) (start h s1)) = MAfterExec /\ tasks (c_st (run P (n + m) (start h s1))) = [].
Proof. exact (fun P p n HP Ht Hnu => pass_terminates P HP p Ht Hnu n). Qed.
Print Assumptions C03_every_pass_terminates_tree.

(* termination when the number of futures created is bounded *)
Theorem C03_terminates_if_allocation_bounded_tree : forall P p N,
  pointwise P -> tree p ->
  let h := fst (create [] (FTask p) (st0 P)) in
  let s1 := snd (create [] (FTask p) (st0 P)) in
  (forall n, no_unwind P n (start h s1)) ->
  (forall n, (top_next (c_st (run P n (start h s1))) <= Z.of_nat N)%Z) ->
  exists n, c_mode (run P n (start h s1)) = MDone (eval p).
Proof. exact terminates_if_allocation_bounded_tree. Qed.
Print Assumptions C03_terminates_if_allocation_bounded_tree.

(* non-vacuity for a program WITH batch items: c01_demo needs flushes (C03_termination_demos); the guard
   hypothesis and the allocation bound hold for EVERY fuel, and the theorem gives termination *)
Theorem C03_termination_demo_with_items :
  let P := mkP [] 1000 false [] in
  let h := fst (create [] (FTask c01_demo) (st0 P)) in
  let s1 := snd (create [] (FTask c01_demo) (st0 P)) in
  (forall n, no_unwind P n (start h s1)) /\ (forall n, (top_next (c_st (run P n (start h s1))) <= Z.of_nat 10)%Z) /\
  exists n, c_mode (run P n (start h s1)) = MDone (eval c01_demo).
Proof. exact c01_demo_terminates. Qed.
Print Assumptions C03_termination_demo_with_items.

(* ==== the allocation bound and UNCONDITIONAL termination (proofs/MachineC03N.v, proofs/MachineC03A.v) ==== *)
From Asynq Require Import proofs.MachineC03N proofs.MachineC03A.

(* nf p: the number of futures the sequential evaluation of p creates (along Seq.eval) *)
Theorem C03_nf_yield : forall s k, nf (Yield s k) = (list_sum (map nfl (leaves s)) + nf (k (unwrap leaf_out s)))%nat.
Proof. exact nf_yield. Qed.
Print Assumptions C03_nf_yield.

(* the machine creates no more futures than the sequential evaluation: while the run has not unwound, the id
   counter is at most 1 + nf p (the awaited task + the futures of the sequential evaluation).  Invariant: the
   id counter + the sum over the ids of the remaining allocation of each uncomputed task (nf of the program in
   MRun for the running task, nf of the generator applied to the specified outcome of the yielded structure
   for a suspended one) <= 1 + nf p; only Yield changes it (proofs/MachineC03A.v: gq, inst_W, j_step). *)
Theorem C03_allocation_bound_tree : forall P p n,
  pointwise P -> tree p ->
  let h := fst (create [] (FTask p) (st0 P)) in
  let s1 := snd (create [] (FTask p) (st0 P)) in
  (forall k, (k < n)%nat -> is_unwind (c_mode (run P k (start h s1))) = false) ->
  (top_next (c_st (run P n (start h s1))) <= Z.of_nat (1 + nf p))%Z.
Proof. exact alloc_bound_tree. Qed.
Print Assumptions C03_allocation_bound_tree.

(* TERMINATION of tree programs: the only hypothesis about the run is that the runaway guard never fires *)
Theorem C03_terminates_tree : forall P p,
  pointwise P -> tree p ->
  let h := fst (create [] (FTask p) (st0 P)) in
  let s1 := snd (create [] (FTask p) (st0 P)) in
  (forall n, no_unwind P n (start h s1)) ->
  exists n, c_mode (run P n (start h s1)) = MDone (eval p).
Proof. exact terminates_tree. Qed.
Print Assumptions C03_terminates_tree.

(* with MAX_TASK_STACK_SIZE at least 1 + nf p the guard never fires ... *)
Theorem C03_small_never_unwinds : forall P p,
  pointwise P -> tree p -> (Z.of_nat (1 + nf p) <= p_maxstack P)%Z ->
  forall n, no_unwind P n (start (fst (create [] (FTask p) (st0 P))) (snd (create [] (FTask p) (st0 P)))).
Proof. exact small_never_unwinds. Qed.
Print Assumptions C03_small_never_unwinds.

(* ... and TERMINATION holds with NO hypothesis about the run at all *)
Theorem C03_terminates_tree_small : forall P p,
  pointwise P -> tree p -> (Z.of_nat (1 + nf p) <= p_maxstack P)%Z ->
  exists n, c_mode (run P n (start (fst (create [] (FTask p) (st0 P))) (snd (create [] (FTask p) (st0 P))))) = MDone (eval p).
Proof. exact terminates_tree_small. Qed.
Print Assumptions C03_terminates_tree_small.

(* sanity: the demo programs' finished runs created exactly 1 + nf p futures *)
Theorem C03_nf_demos :
  let P := mkP [] 1000 false [] in
  (nf c01_demo = 4%nat /\ nf c03l_demo = 5%nat /\ nf c03t_demo = 4%nat) /\
  (top_next (c_st (run P 41 (start (fst (create [] (FTask c01_demo) (st0 P))) (snd (create [] (FTask c01_demo) (st0 P)))))) = Z.of_nat (1 + nf c01_demo)) /\
  (top_next (c_st (run P 80 (start (fst (create [] (FTask c03l_demo) (st0 P))) (snd (create [] (FTask c03l_demo) (st0 P)))))) = Z.of_nat (1 + nf c03l_demo)) /\
  (top_next (c_st (run P 36 (start (fst (create [] (FTask c03t_demo) (st0 P))) (snd (create [] (FTask c03t_demo) (st0 P)))))) = Z.of_nat (1 + nf c03t_demo)).
Proof. exact nf_demos. Qed.
Print Assumptions C03_nf_demos.

(* ==== the stree theorems WITHOUT an assumption about exceptions unwinding (proofs/MachineNoUnwind.v) ====
   [no_unwind P n (start h s1)] is replaced by "the MAX_TASK_STACK_SIZE guard has not fired before step n"; also with
   synchronous calls FutureIsAlreadyComputed is proved unreachable (stree_no_unwind_iff_guard_silent), so the guard's
   RuntimeError is the only exception that can unwind through asynq's frames.  Binders and conclusions are those of
   the theorems of the same name without the suffix _guard. *)
From Asynq Require Import proofs.MachineNoUnwind.
Theorem C03_resumed_only_when_everything_awaited_is_done_stree_guard : forall P, pointwise P -> forall p, stree p -> forall n t,
  let h := fst (create [] (FTask p) (st0 P)) in
  let s1 := snd (create [] (FTask p) (st0 P)) in
  (forall k, (k < n)%nat -> guard_fires P (run P k (start h s1)) = false) ->
  c_mode (run P n (start h s1)) = MResume t ->
  exists tk, get t (c_st (run P n (start h s1))) = Some (mkFut None (KTask tk)) /\
    forall x, In (RFut x) (leaves (tk_last tk)) -> computed x (c_st (run P n (start h s1))) = true.
Proof. exact (fun P HP p Ht n t Hg =>
  resume_guard_stree P HP p Ht n t (stree_no_unwind_iff_guard_silent P HP p Ht n Hg)). Qed.
Print Assumptions C03_resumed_only_when_everything_awaited_is_done_stree_guard.

Theorem C03_stree_resumes_are_guarded_guard : forall P p n,
  pointwise P -> stree p ->
  (forall k, (k < n)%nat -> guard_fires P (run P k
     (start (fst (create [] (FTask p) (st0 P))) (snd (create [] (FTask p) (st0 P))))) = false) ->
  resume_guarded P n (start (fst (create [] (FTask p) (st0 P))) (snd (create [] (FTask p) (st0 P)))).
Proof. exact (fun P p n HP Ht Hg => stree_resume_guarded P p n HP Ht (stree_no_unwind_iff_guard_silent P HP p Ht n Hg)). Qed.
Print Assumptions C03_stree_resumes_are_guarded_guard.

Theorem C03_no_step_after_done_stree_guard : forall P p n,
  pointwise P -> stree p ->
  (forall k, (k < n)%nat -> guard_fires P (run P k
     (start (fst (create [] (FTask p) (st0 P))) (snd (create [] (FTask p) (st0 P))))) = false) ->
  forall t i o l1 l2, snd (run_case P n [p]) = l1 ++ EvStep t i o :: l2 -> forall o', ~ In (EvDone t o') l1.
Proof. exact (fun P p n HP Ht Hg =>
  stree_no_step_after_done P p n HP Ht (stree_no_unwind_iff_guard_silent P HP p Ht n Hg)). Qed.
Print Assumptions C03_no_step_after_done_stree_guard.
