(* C07 - "Across all tasks of a thread, the active periods of asynq contexts are properly nested (whatever
   was resumed last is paused first), so save-and-restore contexts compose.  Hence a value read from an
   AsyncScopedValue inside any task is the one established by the innermost enclosing override in that
   task or in the tasks awaiting it - exactly what the same code would read if run sequentially - and after
   the computation ends, normally or with an error, every overridden value is back to what it was before."

   Statements only, class of programs by class: yield-only task trees (tree), trees with synchronous calls (stree),
   both again without the hypothesis no_unwind (_guard), trees with non-branching reads (rtree0), the same with
   synchronous calls (rstree0), and one DAG-shaped program.  The notions (wn, layers, vars_ok, apply_l) are in
   proofs/MachineC07.v; the proofs in proofs/MachineC07S.v (stree, and tree as the special case without calls),
   proofs/MachineC07R.v (reads), proofs/MachineC07D.v (the DAG-shaped program) and proofs/MachineNoUnwind.v (_guard);
   all built on the C01/C06/C04 invariants of the scheduler machine (Machine.v).

   Throughout: P is any pointwise service (no flush body raises half way), with any flush order, batch priorities and
   KEEP_DEPENDENCIES setting; n is any fuel; s1 is the state in which the computation starts and s the state after n
   steps; init x = var_get x s1, the value of x before the computation.
   The ghost list [layers s] lists the (task, context) pairs whose contexts are active in state s: task by
   task from the bottom of the scheduler's task stack to its top, inside a task in entry order; both kinds
   of context (AsyncContext and override) are recorded.  [apply_l init l x] is init x overridden by the override
   layers of l in order.

   ---------------------------------------------------------------------------------------------------------
   YIELD-ONLY TASK TREES.  For every program p with
     tree p   - Ret/Result/Raise, Yield of new futures (tasks, batch items, constant, error and lazy futures, in
                nested tuples/lists/dicts), Enter/Exit of AsyncContext objects whose resume/pause do not raise and
                of AsyncScopedValue.override(v); and
     wn [] p  - every with-block is closed on every exit path, innermost first, and contexts open at the
                same time in one task have distinct ids (what harness/lib/machprog.py emits for `with`),
   as long as no exception unwound through asynq's frames (no_unwind: the MAX_TASK_STACK_SIZE guard did
   not fire):
   C07_values_restored: at every flush point (mode MAfterExec: the _execute pass has ended, possibly
     with suspended tasks inside with-blocks that are still open) and when the outermost call has
     returned (MDone o, o a value or an error) every scoped variable is what it was before the computation.
   C07_reads_see_enclosing_overrides: whenever the body of a task t runs (mode MRun t q), every scoped
     variable x has the value [apply_l init (layers s) x].  The layers are those of uncomputed tasks BELOW t on the
     scheduler's task stack whose contexts are active (the tasks whose pending await led the scheduler to
     t), followed by t's own open contexts in entry order - nothing else: no sibling, no finished task, no
     task blocked on a batch contributes.  (tree excludes ReadVar: the theorem is about the state while code runs;
     for programs that read see rtree0 below.)  C07_reads_innermost: hence x has the value of the LAST override
     layer for x - the innermost enclosing override in t, else in the nearest such task below t - or its
     initial value when there is none.  This is what the same nesting of with-blocks gives when the
     awaited code is run inline.
   C07_layer_owners_await: the owner u of every layer below t's own awaits t: t is reachable from u through
     the dependency lists of uncompleted tasks (MachineC04.reach) - "the tasks awaiting it" of the property.
     (Needs tree p only.)
   C07_contexts_nest_lifo: every machine step changes [layers] at its END only: it appends some
     layers (a task's contexts are resumed, or a with-block is entered) or removes some
     from the end (a task's contexts are paused, or the innermost with-block is left).
     So across all tasks whatever was resumed last is paused first.
   C07_saved_values: at every reachable non-final configuration each active override instance holds, in
     its saved-value slot (ci_old), exactly the value below it ([apply_l init pre var]), and the keys
     (task, cid) of active layers are distinct; this is the save-and-restore composition invariant from
     which the theorems above follow.
   C07_hypotheses_are_met: a run with nested overrides in three tasks (non-vacuity).

   ---------------------------------------------------------------------------------------------------------
   SYNCHRONOUS CALLS.  The same theorems for the larger class  stree p /\ wns [] p :
     MachineC01S.stree - tree programs plus synchronous calls of fresh tasks  fn(args) = Let (FTask q) (fun h =>
                Sync h k), nested to any depth (the callee is run by a scheduler loop NESTED below the caller's frames);
     MachineC06S.wns   - wn plus the case of a synchronous call (callee body well nested on its own, continuations
                well nested with the caller's open list).
   [layers s] is the same ghost list.  The callers suspended in value() (owners of the FValue frames,
   MachineC01S.fvals) stay on the scheduler's stack below the callee's segment with their contexts ACTIVE, so their
   layers stay applied while the nested loop runs the callee and whatever it awaits.
   C07_contexts_nest_lifo_stree: every machine step - of the outermost loop, of a nested loop, of a task body, of
     value() entering / returning - changes [layers] at its END only.
   C07_reads_see_enclosing_overrides_stree: whenever code of t runs (MRun t q, also at the moment t makes a synchronous
     call) every scoped variable is  apply_l init (layers s) : the layers of the tasks below t on the stack whose
     contexts are active, then t's own open contexts.  Every owner of a lower layer is a caller inside value() or a
     task with scheduled dependencies; every caller inside value() is below t, active, and contributes ALL its open
     contexts - the callee (and everything the nested loop runs for it) reads the caller's overrides, as in
     synchronous code.  C07_reads_innermost_stree: the last override layer for x wins, else the initial value.
   C07_values_restored_stree: when the outermost call has returned (value or error) and at every flush point of the
     OUTERMOST loop (no caller inside value()) every scoped variable is what it was before the computation.
   C07_values_at_flush_stree: at EVERY flush point (also of a loop nested in synchronous calls) the variables are
     apply_l init (layers s), [layers s] consists exactly of the open contexts of the uncompleted tasks whose contexts
     are active, and each such task is on the scheduler's stack and is a caller inside value() or has scheduled its
     dependencies; all callers inside value() are active.
   C07_values_restored_at_every_flush_stree_is_false: the tree statement "at EVERY flush point every scoped value is
     back to its initial value" is false once a nested loop flushes (vm_compute witness: MachineC07S.c07s_demo, step
     40: x = 40, the override of the caller two calls up, not 0).  The two theorems above are the true form.
   C07_layers_are_the_active_contexts_stree: the membership characterisation of [layers] at every non-final
     configuration.
   C07_layer_owners_await_stree ("the tasks (transitively) awaiting it"; needs stree p only): while code of t runs, the
     owner u of every layer below t's own awaits t - [MachineC07S.awaits s frames u t]: a chain from u to t whose links are
     (a) v is in the dependency list of an uncompleted task w (w yielded v), or (b) a caller w is suspended in value() on
     r: the frames contain  FWait r :: FValue w k  (w called r synchronously).  For yield-only programs only (a) occurs
     and this is C07_layer_owners_await.
   C07_saved_values_stree: the save-and-restore invariant (ci_old of every active override = value
     below it, layer keys distinct) at every reachable configuration.
   C07_stree_hypotheses_are_met: the demo run (non-vacuity; all flush points with the layers still applied).

   ---------------------------------------------------------------------------------------------------------
   WITHOUT THE HYPOTHESIS no_unwind (proofs/MachineNoUnwind.v).  Every tree and stree theorem above whose hypothesis
   is no_unwind P n (start h s1) is stated again under the name with suffix _guard (C07_values_restored_guard, ...,
   C07_saved_values_stree_guard), with "the MAX_TASK_STACK_SIZE guard has not fired before step n" in its place:
   forall k < n, guard_fires P (run P k c0) = false, where guard_fires is the boolean test at the head of the _execute
   loop in Machine.step - a decidable condition on the run.  No assumption about exceptions unwinding is left:
   FutureIsAlreadyComputed is proved unreachable for tree and for stree programs, so only the runaway guard's
   RuntimeError can unwind through asynq's frames (MachineNoUnwind.tree_no_unwind_iff_guard_silent,
   stree_no_unwind_iff_guard_silent).

   ---------------------------------------------------------------------------------------------------------
   PROGRAMS WITH ACTUAL, NON-BRANCHING READS (proofs in proofs/MachineC07R.v).
     MachineC07R.rtree0 - tree programs plus ReadVar (AsyncScopedValue.get()) whose continuation does not depend on the
                value read (forall v v', k v = k v'); MachineC07R.wnr - wn plus reads; MachineC07R.erase - the program
                with its reads removed (a tree program, C07_erased_program_is_covered_rtree0).
   Route: a stuttering simulation.  The run of p with every stored generator erased and the EvRead events filtered out
   of the trace is, step for step, the run of [erase p], except that a read step of p is matched by no step
   (MachineC07R.step_est, run_est); every body the machine runs stays in the class
   (C07_reads_do_not_branch_rtree0), so erasing a read is sound whatever value it returned.
   For rtree0 p, wnr [] p, under no_unwind:
   C07_actual_reads_see_enclosing_overrides_rtree0: whenever code of t runs - in particular when t is AT a read,
     MRun t (ReadVar x k) - every scoped variable is apply_l init (layers s): the layers of the uncomputed active
     tasks below t on the stack, then t's own open contexts (same characterisation as C07_reads_see_enclosing_overrides).
   C07_actual_read_value_rtree0: at MRun t (ReadVar x k) the next step appends EXACTLY the event
     EvRead t x (apply_l init (layers s) x) to the trace and continues with k of that value - the value get() returns.
   C07_actual_reads_innermost_rtree0: that value is the one of the last override layer for x (innermost enclosing
     override in t, else in the nearest active task below t), or the initial value when there is none.
   C07_values_restored_rtree0: at every flush point and when the outermost call has returned every scoped variable is
     back to its initial value.
   C07_async_eq_seq_rtree0: value() = Seq.eval (erase p) (the C01 equation; reads do not influence the result in this class).
   C07_contexts_nest_lifo_rtree0, C07_saved_values_rtree0, C07_layer_owners_await_rtree0: the LIFO step theorem
     (a read step leaves [layers] unchanged), the save-and-restore invariant and "layer owners await the running task"
     for rtree0, by the same transport (layers, ci_old and dependency lists are untouched by the erasure).
   C07_rtree0_hypotheses_are_met: a parent with two nested overrides reads 0 / 20, its child reads the parent's 20,
     its own 30, blocks on a batch item, reads 30 again after the flush, 20 after its block; the parent reads 20, 10, 0.
   READS WITH SYNCHRONOUS CALLS.  MachineC07R.rstree0 = stree plus non-branching reads; the erased program is an stree
     program (MachineC07R.stree_erase) and the same simulation holds.  One theorem is stated for this class,
     C07_async_eq_seq_rstree0: value() = MachineC01S.evals (erase p).

   ---------------------------------------------------------------------------------------------------------
   DAGs (proofs/MachineC07D.v): no general theorem - shared futures stay outside the proved classes.
   Two computed facts (vm_compute) about the minimal DAG-shaped program in which the shape matters, a SHARED pending task
   (stored handle awaited by two overriding tasks) that holds an override across a suspension, started under one awaiter
   and completed under the other:
   C07_shared_task_reads (the run: every read is the innermost enclosing override of the reading task; in particular the
     awaiter under which the shared task was completed reads its OWN override after the shared task left its block) and
   C07_shared_task_saves_at_every_resume (the saved-value slot of the shared task's override holds the first awaiter's
     value while it is suspended and the second awaiter's value after its last resume; variables back to the initial
     value at the flush point and at the end).  The same program is the corpus case _SHARED_HOLDS_OVERRIDE of
     harness/props/c07.py, executed on the implementation and compared with the model on every run; generated DAG-shaped
     programs (machgen.Gen.diamond) are covered by correspondence + monitors only.

   ---------------------------------------------------------------------------------------------------------
   NOT PROVED in any class (covered by the correspondence harness + monitors in harness/props/c07.py):
   - programs that BRANCH on ReadVar or Probe values; for rstree0 the read, restoration and layer theorems (only the
     value equation is stated); Sync on an existing handle (LOld) and shared futures (DAGs) in general;
     NonAsyncContext (raises on pause/resume), AsyncContext objects whose resume()/pause() raise, async_override of
     attributes, with-blocks left open when a task ends (generator.close() path of complete_task), non-pointwise
     services, and runs in which the task-stack guard fired;
   - an end-to-end equation with a sequential evaluator for scoped values (Seq.eval has no variables; the
     read theorems are stated on the machine state at the moments a task's code runs). *)
From Asynq Require Import Machine Seq proofs.MachineC08 proofs.MachineC01 proofs.MachineC04 proofs.MachineC07.
From Asynq Require Import proofs.MachineC07R.
From Asynq Require Import proofs.MachineC01S proofs.MachineDFSS proofs.MachineC06S proofs.MachineC07S proofs.MachineC07D.
From Asynq Require Import proofs.MachineNoUnwind.

Theorem C07_values_restored : forall P, pointwise P -> forall p, tree p -> wn [] p -> forall n,
  let h := fst (create [] (FTask p) (st0 P)) in
  let s1 := snd (create [] (FTask p) (st0 P)) in
  no_unwind P n (start h s1) ->
  (c_mode (run P n (start h s1)) = MAfterExec \/ exists o, c_mode (run P n (start h s1)) = MDone o) ->
  forall x, var_get x (c_st (run P n (start h s1))) = var_get x s1.
Proof. exact values_restored_tree. Qed.
Print Assumptions C07_values_restored.

Theorem C07_reads_see_enclosing_overrides : forall P, pointwise P -> forall p, tree p -> wn [] p -> forall n t q,
  let h := fst (create [] (FTask p) (st0 P)) in
  let s1 := snd (create [] (FTask p) (st0 P)) in
  no_unwind P n (start h s1) -> c_mode (run P n (start h s1)) = MRun t q ->
  let s := c_st (run P n (start h s1)) in
  (forall x, var_get x s = apply_l (fun x => var_get x s1) (layers s) x) /\
  exists tk rest, get t s = Some (mkFut None (KTask tk)) /\ tk_cact tk = true /\ wn (tk_ctxs tk) q /\
    tasks s = t :: rest /\ layers s = lower s rest ++ map (pair t) (tk_ctxs tk) /\
    forall u c, In (u, c) (lower s rest) ->
      In u rest /\ exists tku, get u s = Some (mkFut None (KTask tku)) /\ tk_cact tku = true /\ In c (tk_ctxs tku).
Proof. exact reads_see_enclosing_overrides_tree. Qed.
Print Assumptions C07_reads_see_enclosing_overrides.

Theorem C07_reads_innermost : forall P, pointwise P -> forall p, tree p -> wn [] p -> forall n t q x,
  let h := fst (create [] (FTask p) (st0 P)) in
  let s1 := snd (create [] (FTask p) (st0 P)) in
  no_unwind P n (start h s1) -> c_mode (run P n (start h s1)) = MRun t q ->
  let s := c_st (run P n (start h s1)) in
  (forall pre u cid v post, layers s = pre ++ (u, COverride cid x v) :: post ->
     (forall l, In l post -> ovar (snd l) <> Some x) -> var_get x s = v) /\
  ((forall l, In l (layers s) -> ovar (snd l) <> Some x) -> var_get x s = var_get x s1).
Proof. exact reads_innermost_tree. Qed.
Print Assumptions C07_reads_innermost.

Theorem C07_layer_owners_await : forall P, pointwise P -> forall p, tree p -> forall n t q,
  let h := fst (create [] (FTask p) (st0 P)) in
  let s1 := snd (create [] (FTask p) (st0 P)) in
  no_unwind P n (start h s1) -> c_mode (run P n (start h s1)) = MRun t q ->
  let s := c_st (run P n (start h s1)) in
  forall rest, tasks s = t :: rest -> forall u c, In (u, c) (lower s rest) -> reach s u t.
Proof. exact layer_owners_await_tree. Qed.
Print Assumptions C07_layer_owners_await.

Theorem C07_contexts_nest_lifo : forall P, pointwise P -> forall p, tree p -> wn [] p -> forall n,
  let h := fst (create [] (FTask p) (st0 P)) in
  let s1 := snd (create [] (FTask p) (st0 P)) in
  no_unwind P n (start h s1) ->
  exists l, layers (c_st (run P (S n) (start h s1))) = layers (c_st (run P n (start h s1))) ++ l \/
            layers (c_st (run P n (start h s1))) = layers (c_st (run P (S n) (start h s1))) ++ l.
Proof. exact contexts_nest_lifo_tree. Qed.
Print Assumptions C07_contexts_nest_lifo.

Theorem C07_saved_values : forall P, pointwise P -> forall p, tree p -> wn [] p -> forall n,
  let h := fst (create [] (FTask p) (st0 P)) in
  let s1 := snd (create [] (FTask p) (st0 P)) in
  no_unwind P n (start h s1) ->
  match c_mode (run P n (start h s1)) with
  | MUnwind _ | MStuck | MDone _ => True
  | _ =>
    let s := c_st (run P n (start h s1)) in
    let init := fun x => var_get x s1 in
    (forall x, var_get x s = apply_l init (layers s) x) /\
    (forall pre t cid var v post, layers s = pre ++ (t, COverride cid var v) :: post ->
       ci_old (ci_get (t, cid) s) = apply_l init pre var) /\
    NoDup (map lkey (layers s))
  end.
Proof. exact saved_values_tree. Qed.
Print Assumptions C07_saved_values.

(* non-vacuity: a parent with two nested overrides of variable 0 awaits a child, which overrides it again
   and blocks on a batch item, and a sibling, which opens an AsyncContext and another override.
   Step 12: the child's body runs and reads 30 (its own override over the parent's 20 over 10);
   step 21: the sibling runs while the child is blocked - the child's layer is gone, the sibling reads its
   own 40 over the parent's layers; step 28 is the flush point with the parent and the child suspended
   inside their with-blocks: the variable is back to its initial value; step 47: done. *)
(* the demo program c07_demo and this fact are in proofs/MachineC07.v *)
Example C07_hypotheses_are_met :
  let P := mkP [] 1000 false [] in
  let h := fst (create [] (FTask c07_demo) (st0 P)) in
  let s1 := snd (create [] (FTask c07_demo) (st0 P)) in
  let st_at k := c_st (run P k (start h s1)) in
  let keys k := map lkey (layers (st_at k)) in
  tree c07_demo /\ wn [] c07_demo /\ no_unwind_b P 100 (start h s1) = true /\
  c_mode (run P 100 (start h s1)) = MDone (Ok (VTuple [VInt 5; VInt 1])) /\
  (* the child runs *)
  (exists q, c_mode (run P 12 (start h s1)) = MRun [1] q) /\
  keys 12%nat = [([0], 1); ([0], 2); ([1], 1)] /\ var_get 0 (st_at 12%nat) = VInt 30 /\
  (* the sibling runs while the child is blocked on its batch item *)
  (exists q, c_mode (run P 21 (start h s1)) = MRun [2] q) /\
  keys 21%nat = [([0], 1); ([0], 2); ([2], 7); ([2], 3)] /\ var_get 0 (st_at 21%nat) = VInt 40 /\
  computed [1] (st_at 21%nat) = false /\
  (* a flush point with open with-blocks in suspended tasks *)
  c_mode (run P 28 (start h s1)) = MAfterExec /\ computed h (st_at 28%nat) = false /\
  var_get 0 (st_at 28%nat) = var_get 0 s1 /\
  var_get 0 (st_at 100%nat) = var_get 0 s1.
Proof. exact c07_demo_runs. Qed.

(* ================================================================== tree programs WITH SYNCHRONOUS CALLS (stree, wns) *)
Theorem C07_contexts_nest_lifo_stree : forall P, pointwise P -> forall p, stree p -> wns [] p -> forall n,
  let h := fst (create [] (FTask p) (st0 P)) in
  let s1 := snd (create [] (FTask p) (st0 P)) in
  no_unwind P n (start h s1) ->
  exists l, layers (c_st (run P (S n) (start h s1))) = layers (c_st (run P n (start h s1))) ++ l \/
            layers (c_st (run P n (start h s1))) = layers (c_st (run P (S n) (start h s1))) ++ l.
Proof. exact contexts_nest_lifo_stree. Qed.
Print Assumptions C07_contexts_nest_lifo_stree.

Theorem C07_reads_see_enclosing_overrides_stree : forall P, pointwise P -> forall p, stree p -> wns [] p -> forall n t q,
  let h := fst (create [] (FTask p) (st0 P)) in
  let s1 := snd (create [] (FTask p) (st0 P)) in
  no_unwind P n (start h s1) -> c_mode (run P n (start h s1)) = MRun t q ->
  let c := run P n (start h s1) in
  let s := c_st c in
  (forall x, var_get x s = apply_l (fun x => var_get x s1) (layers s) x) /\
  exists tk rest, get t s = Some (mkFut None (KTask tk)) /\ tk_cact tk = true /\
    (wns (tk_ctxs tk) q \/ exists h' k, q = Sync h' k /\ forall o, wns (tk_ctxs tk) (k o)) /\
    tasks s = t :: rest /\ ~ In t rest /\ layers s = lower s rest ++ map (pair t) (tk_ctxs tk) /\
    (forall u cx, In (u, cx) (lower s rest) ->
       In u rest /\ exists tku, get u s = Some (mkFut None (KTask tku)) /\ tk_cact tku = true /\ In cx (tk_ctxs tku) /\
                                (In u (fvals (c_frames c)) \/ tk_ds tku = true)) /\
    (forall x, In x (fvals (c_frames c)) ->
       In x rest /\ exists tkx, get x s = Some (mkFut None (KTask tkx)) /\ tk_cact tkx = true /\
                                forall cx, In cx (tk_ctxs tkx) -> In (x, cx) (lower s rest)).
Proof. exact reads_see_enclosing_overrides_stree. Qed.
Print Assumptions C07_reads_see_enclosing_overrides_stree.

Theorem C07_reads_innermost_stree : forall P, pointwise P -> forall p, stree p -> wns [] p -> forall n t q x,
  let h := fst (create [] (FTask p) (st0 P)) in
  let s1 := snd (create [] (FTask p) (st0 P)) in
  no_unwind P n (start h s1) -> c_mode (run P n (start h s1)) = MRun t q ->
  let s := c_st (run P n (start h s1)) in
  (forall pre u cid v post, layers s = pre ++ (u, COverride cid x v) :: post ->
     (forall l, In l post -> ovar (snd l) <> Some x) -> var_get x s = v) /\
  ((forall l, In l (layers s) -> ovar (snd l) <> Some x) -> var_get x s = var_get x s1).
Proof. exact reads_innermost_stree. Qed.
Print Assumptions C07_reads_innermost_stree.

(* the end of the computation and the flush points of the outermost loop *)
Theorem C07_values_restored_stree : forall P, pointwise P -> forall p, stree p -> wns [] p -> forall n,
  let h := fst (create [] (FTask p) (st0 P)) in
  let s1 := snd (create [] (FTask p) (st0 P)) in
  no_unwind P n (start h s1) ->
  ((exists o, c_mode (run P n (start h s1)) = MDone o) \/
   (c_mode (run P n (start h s1)) = MAfterExec /\ fvals (c_frames (run P n (start h s1))) = [])) ->
  forall x, var_get x (c_st (run P n (start h s1))) = var_get x s1.
Proof. exact values_restored_stree. Qed.
Print Assumptions C07_values_restored_stree.

(* every flush point, nested ones included *)
Theorem C07_values_at_flush_stree : forall P, pointwise P -> forall p, stree p -> wns [] p -> forall n,
  let h := fst (create [] (FTask p) (st0 P)) in
  let s1 := snd (create [] (FTask p) (st0 P)) in
  no_unwind P n (start h s1) -> c_mode (run P n (start h s1)) = MAfterExec ->
  let c := run P n (start h s1) in
  let s := c_st c in
  (forall x, var_get x s = apply_l (fun x => var_get x s1) (layers s) x) /\
  (forall u cx, In (u, cx) (layers s) <->
     exists tk, get u s = Some (mkFut None (KTask tk)) /\ tk_cact tk = true /\ In cx (tk_ctxs tk)) /\
  (forall u tk, get u s = Some (mkFut None (KTask tk)) -> tk_cact tk = true ->
     In u (tasks s) /\ (In u (fvals (c_frames c)) \/ tk_ds tk = true)) /\
  (forall u, In u (fvals (c_frames c)) -> exists tk, get u s = Some (mkFut None (KTask tk)) /\ tk_cact tk = true).
Proof. exact values_at_flush_stree. Qed.
Print Assumptions C07_values_at_flush_stree.

(* the tree statement ("back to the initial values at EVERY flush point") is false for stree *)
Theorem C07_values_restored_at_every_flush_stree_is_false :
  ~ (forall P, pointwise P -> forall p, stree p -> wns [] p -> forall n,
     let h := fst (create [] (FTask p) (st0 P)) in
     let s1 := snd (create [] (FTask p) (st0 P)) in
     no_unwind P n (start h s1) -> c_mode (run P n (start h s1)) = MAfterExec ->
     forall x, var_get x (c_st (run P n (start h s1))) = var_get x s1).
Proof. exact values_restored_at_every_flush_stree_is_false. Qed.
Print Assumptions C07_values_restored_at_every_flush_stree_is_false.

Theorem C07_layers_are_the_active_contexts_stree : forall P, pointwise P -> forall p, stree p -> wns [] p -> forall n u c,
  let h := fst (create [] (FTask p) (st0 P)) in
  let s1 := snd (create [] (FTask p) (st0 P)) in
  no_unwind P n (start h s1) -> is_final (c_mode (run P n (start h s1))) = false ->
  let s := c_st (run P n (start h s1)) in
  In (u, c) (layers s) <->
  exists tk, get u s = Some (mkFut None (KTask tk)) /\ tk_cact tk = true /\ In c (tk_ctxs tk).
Proof. exact layers_are_the_active_contexts_stree. Qed.
Print Assumptions C07_layers_are_the_active_contexts_stree.

(* the owners of the lower layers await the running task: dependency links and synchronous-call links *)
Theorem C07_layer_owners_await_stree : forall P, pointwise P -> forall p, stree p -> forall n t q,
  let h := fst (create [] (FTask p) (st0 P)) in
  let s1 := snd (create [] (FTask p) (st0 P)) in
  no_unwind P n (start h s1) -> c_mode (run P n (start h s1)) = MRun t q ->
  let c := run P n (start h s1) in
  let s := c_st c in
  forall rest, tasks s = t :: rest -> forall u cx, In (u, cx) (lower s rest) -> awaits s (c_frames c) u t.
Proof. exact layer_owners_await_stree. Qed.
Print Assumptions C07_layer_owners_await_stree.

Theorem C07_saved_values_stree : forall P, pointwise P -> forall p, stree p -> wns [] p -> forall n,
  let h := fst (create [] (FTask p) (st0 P)) in
  let s1 := snd (create [] (FTask p) (st0 P)) in
  no_unwind P n (start h s1) ->
  match c_mode (run P n (start h s1)) with
  | MUnwind _ | MStuck => True
  | _ =>
    let s := c_st (run P n (start h s1)) in
    let init := fun x => var_get x s1 in
    (forall x, var_get x s = apply_l init (layers s) x) /\
    (forall pre t cid var v post, layers s = pre ++ (t, COverride cid var v) :: post ->
       ci_old (ci_get (t, cid) s) = apply_l init pre var) /\
    NoDup (map lkey (layers s))
  end.
Proof. exact saved_values_stree. Qed.
Print Assumptions C07_saved_values_stree.

(* non-vacuity: root [0] (x := 10) awaits sibling [1] (x := 20, blocks on a batch) and caller [2] (ctx 9, x := 30), which
   calls mid [4] (x := 40, later 41) synchronously, which calls leaf [5] / [7] (x := 70) synchronously; the leaves block
   on batch items, so the loop nested two calls deep flushes (steps 40, 49, 66, 75) with x = 40 / 41, the loop nested
   one call deep flushes at step 82 with x = 30, the outermost loop at steps 91 and 107 with x = 0 (initial value).
   The demo program c07s_demo and this fact are in proofs/MachineC07S.v *)
Theorem C07_stree_hypotheses_are_met :
  let P := c06s_P in
  let h := fst (create [] (FTask c07s_demo) (st0 P)) in
  let s1 := snd (create [] (FTask c07s_demo) (st0 P)) in
  let c k := run P k (start h s1) in
  let keys k := map lkey (layers (c_st (c k))) in
  let x k := var_get 0 (c_st (c k)) in
  stree c07s_demo /\ wns [] c07s_demo /\ pointwise P /\ no_unwind_b P 200 (start h s1) = true /\
  c_mode (c 200%nat) = MDone (Ok (VTuple [VInt 10; VInt 30])) /\ x 0%nat = VInt 0 /\
  (exists q, c_mode (c 34%nat) = MRun [5] q) /\ fvals (c_frames (c 34%nat)) = [[4]; [2]] /\
  keys 34%nat = [([0], 0); ([2], 9); ([2], 5); ([4], 1); ([5], 7)] /\ x 34%nat = VInt 70 /\
  map (fun k => (k, fvals (c_frames (c k)), tasks (c_st (c k)), x k, keys k))
      (filter (fun k => match c_mode (c k) with MAfterExec => true | _ => false end) (seq 0 200)) =
    [(40%nat, [[4]; [2]], [[4]; [2]; [0]], VInt 40, [([0], 0); ([2], 9); ([2], 5); ([4], 1)]);
     (49%nat, [[4]; [2]], [[4]; [2]; [0]], VInt 40, [([0], 0); ([2], 9); ([2], 5); ([4], 1)]);
     (66%nat, [[4]; [2]], [[4]; [2]; [0]], VInt 41, [([0], 0); ([2], 9); ([2], 5); ([4], 1)]);
     (75%nat, [[4]; [2]], [[4]; [2]; [0]], VInt 41, [([0], 0); ([2], 9); ([2], 5); ([4], 1)]);
     (82%nat, [[2]], [[2]; [0]], VInt 30, [([0], 0); ([2], 9); ([2], 5)]);
     (91%nat, [], [], VInt 0, []); (107%nat, [], [], VInt 0, [])]%Z /\
  x 200%nat = VInt 0.
Proof. exact c07s_demo_runs. Qed.
Print Assumptions C07_stree_hypotheses_are_met.


(* ==== the same WITHOUT an assumption about exceptions unwinding (proofs/MachineNoUnwind.v) ====
   [no_unwind] is replaced by "the MAX_TASK_STACK_SIZE guard has not fired before step n":
   forall k < n, guard_fires P (run P k c0) = false, where guard_fires is the boolean test at the head of the
   _execute loop in Machine.step.  For tree programs under a pointwise service the two say the same:
   FutureIsAlreadyComputed is proved unreachable, so the guard's RuntimeError is the only exception that can
   unwind through asynq's frames. *)
Theorem C07_values_restored_guard : forall P, pointwise P -> forall p, tree p -> wn [] p -> forall n,
  let h := fst (create [] (FTask p) (st0 P)) in
  let s1 := snd (create [] (FTask p) (st0 P)) in
  (forall k, (k < n)%nat -> guard_fires P (run P k (start h s1)) = false) ->
  (c_mode (run P n (start h s1)) = MAfterExec \/ exists o, c_mode (run P n (start h s1)) = MDone o) ->
  forall x, var_get x (c_st (run P n (start h s1))) = var_get x s1.
Proof. exact (fun P HP p Ht Hw n Hg =>
  values_restored_tree P HP p Ht Hw n (tree_no_unwind_iff_guard_silent P HP p Ht n Hg)). Qed.
Print Assumptions C07_values_restored_guard.

Theorem C07_reads_see_enclosing_overrides_guard : forall P, pointwise P -> forall p, tree p -> wn [] p -> forall n t q,
  let h := fst (create [] (FTask p) (st0 P)) in
  let s1 := snd (create [] (FTask p) (st0 P)) in
  (forall k, (k < n)%nat -> guard_fires P (run P k (start h s1)) = false) ->
  c_mode (run P n (start h s1)) = MRun t q ->
  let s := c_st (run P n (start h s1)) in
  (forall x, var_get x s = apply_l (fun x => var_get x s1) (layers s) x) /\
  exists tk rest, get t s = Some (mkFut None (KTask tk)) /\ tk_cact tk = true /\ wn (tk_ctxs tk) q /\
    tasks s = t :: rest /\ layers s = lower s rest ++ map (pair t) (tk_ctxs tk) /\
    forall u c, In (u, c) (lower s rest) ->
      In u rest /\ exists tku, get u s = Some (mkFut None (KTask tku)) /\ tk_cact tku = true /\ In c (tk_ctxs tku).
Proof. exact (fun P HP p Ht Hw n t q Hg =>
  reads_see_enclosing_overrides_tree P HP p Ht Hw n t q (tree_no_unwind_iff_guard_silent P HP p Ht n Hg)). Qed.
Print Assumptions C07_reads_see_enclosing_overrides_guard.

Theorem C07_reads_innermost_guard : forall P, pointwise P -> forall p, tree p -> wn [] p -> forall n t q x,
  let h := fst (create [] (FTask p) (st0 P)) in
  let s1 := snd (create [] (FTask p) (st0 P)) in
  (forall k, (k < n)%nat -> guard_fires P (run P k (start h s1)) = false) ->
  c_mode (run P n (start h s1)) = MRun t q ->
  let s := c_st (run P n (start h s1)) in
  (forall pre u cid v post, layers s = pre ++ (u, COverride cid x v) :: post ->
     (forall l, In l post -> ovar (snd l) <> Some x) -> var_get x s = v) /\
  ((forall l, In l (layers s) -> ovar (snd l) <> Some x) -> var_get x s = var_get x s1).
Proof. exact (fun P HP p Ht Hw n t q x Hg =>
  reads_innermost_tree P HP p Ht Hw n t q x (tree_no_unwind_iff_guard_silent P HP p Ht n Hg)). Qed.
Print Assumptions C07_reads_innermost_guard.

Theorem C07_layer_owners_await_guard : forall P, pointwise P -> forall p, tree p -> forall n t q,
  let h := fst (create [] (FTask p) (st0 P)) in
  let s1 := snd (create [] (FTask p) (st0 P)) in
  (forall k, (k < n)%nat -> guard_fires P (run P k (start h s1)) = false) ->
  c_mode (run P n (start h s1)) = MRun t q ->
  let s := c_st (run P n (start h s1)) in
  forall rest, tasks s = t :: rest -> forall u c, In (u, c) (lower s rest) -> reach s u t.
Proof. exact (fun P HP p Ht n t q Hg =>
  layer_owners_await_tree P HP p Ht n t q (tree_no_unwind_iff_guard_silent P HP p Ht n Hg)). Qed.
Print Assumptions C07_layer_owners_await_guard.

(* the step n -> n+1 is covered: the guard must be silent strictly before n only *)
Theorem C07_contexts_nest_lifo_guard : forall P, pointwise P -> forall p, tree p -> wn [] p -> forall n,
  let h := fst (create [] (FTask p) (st0 P)) in
  let s1 := snd (create [] (FTask p) (st0 P)) in
  (forall k, (k < n)%nat -> guard_fires P (run P k (start h s1)) = false) ->
  exists l, layers (c_st (run P (S n) (start h s1))) = layers (c_st (run P n (start h s1))) ++ l \/
            layers (c_st (run P n (start h s1))) = layers (c_st (run P (S n) (start h s1))) ++ l.
Proof. exact (fun P HP p Ht Hw n Hg =>
  contexts_nest_lifo_tree P HP p Ht Hw n (tree_no_unwind_iff_guard_silent P HP p Ht n Hg)). Qed.
Print Assumptions C07_contexts_nest_lifo_guard.


(* ==== the stree theorems WITHOUT an assumption about exceptions unwinding (proofs/MachineNoUnwind.v) ====
   [no_unwind P n (start h s1)] is replaced by "the MAX_TASK_STACK_SIZE guard has not fired before step n"; also with
   synchronous calls FutureIsAlreadyComputed is proved unreachable (stree_no_unwind_iff_guard_silent), so the guard's
   RuntimeError is the only exception that can unwind through asynq's frames.  Binders and conclusions are those of
   the theorems of the same name without the suffix _guard. *)
Theorem C07_contexts_nest_lifo_stree_guard : forall P, pointwise P -> forall p, stree p -> wns [] p -> forall n,
  let h := fst (create [] (FTask p) (st0 P)) in
  let s1 := snd (create [] (FTask p) (st0 P)) in
  (forall k, (k < n)%nat -> guard_fires P (run P k (start h s1)) = false) ->
  exists l, layers (c_st (run P (S n) (start h s1))) = layers (c_st (run P n (start h s1))) ++ l \/
            layers (c_st (run P n (start h s1))) = layers (c_st (run P (S n) (start h s1))) ++ l.
Proof. exact (fun P HP p Ht Hw n Hg =>
  contexts_nest_lifo_stree P HP p Ht Hw n (stree_no_unwind_iff_guard_silent P HP p Ht n Hg)). Qed.
Print Assumptions C07_contexts_nest_lifo_stree_guard.

Theorem C07_reads_see_enclosing_overrides_stree_guard : forall P, pointwise P -> forall p, stree p -> wns [] p -> forall n t q,
  let h := fst (create [] (FTask p) (st0 P)) in
  let s1 := snd (create [] (FTask p) (st0 P)) in
  (forall j, (j < n)%nat -> guard_fires P (run P j (start h s1)) = false) -> c_mode (run P n (start h s1)) = MRun t q ->
  let c := run P n (start h s1) in
  let s := c_st c in
  (forall x, var_get x s = apply_l (fun x => var_get x s1) (layers s) x) /\
  exists tk rest, get t s = Some (mkFut None (KTask tk)) /\ tk_cact tk = true /\
    (wns (tk_ctxs tk) q \/ exists h' k, q = Sync h' k /\ forall o, wns (tk_ctxs tk) (k o)) /\
    tasks s = t :: rest /\ ~ In t rest /\ layers s = lower s rest ++ map (pair t) (tk_ctxs tk) /\
    (forall u cx, In (u, cx) (lower s rest) ->
       In u rest /\ exists tku, get u s = Some (mkFut None (KTask tku)) /\ tk_cact tku = true /\ In cx (tk_ctxs tku) /\
                                (In u (fvals (c_frames c)) \/ tk_ds tku = true)) /\
    (forall x, In x (fvals (c_frames c)) ->
       In x rest /\ exists tkx, get x s = Some (mkFut None (KTask tkx)) /\ tk_cact tkx = true /\
                                forall cx, In cx (tk_ctxs tkx) -> In (x, cx) (lower s rest)).
Proof. exact (fun P HP p Ht Hw n t q Hg =>
  reads_see_enclosing_overrides_stree P HP p Ht Hw n t q (stree_no_unwind_iff_guard_silent P HP p Ht n Hg)). Qed.
Print Assumptions C07_reads_see_enclosing_overrides_stree_guard.

Theorem C07_reads_innermost_stree_guard : forall P, pointwise P -> forall p, stree p -> wns [] p -> forall n t q x,
  let h := fst (create [] (FTask p) (st0 P)) in
  let s1 := snd (create [] (FTask p) (st0 P)) in
  (forall k, (k < n)%nat -> guard_fires P (run P k (start h s1)) = false) -> c_mode (run P n (start h s1)) = MRun t q ->
  let s := c_st (run P n (start h s1)) in
  (forall pre u cid v post, layers s = pre ++ (u, COverride cid x v) :: post ->
     (forall l, In l post -> ovar (snd l) <> Some x) -> var_get x s = v) /\
  ((forall l, In l (layers s) -> ovar (snd l) <> Some x) -> var_get x s = var_get x s1).
Proof. exact (fun P HP p Ht Hw n t q x Hg =>
  reads_innermost_stree P HP p Ht Hw n t q x (stree_no_unwind_iff_guard_silent P HP p Ht n Hg)). Qed.
Print Assumptions C07_reads_innermost_stree_guard.

Theorem C07_values_restored_stree_guard : forall P, pointwise P -> forall p, stree p -> wns [] p -> forall n,
  let h := fst (create [] (FTask p) (st0 P)) in
  let s1 := snd (create [] (FTask p) (st0 P)) in
  (forall k, (k < n)%nat -> guard_fires P (run P k (start h s1)) = false) ->
  ((exists o, c_mode (run P n (start h s1)) = MDone o) \/
   (c_mode (run P n (start h s1)) = MAfterExec /\ fvals (c_frames (run P n (start h s1))) = [])) ->
  forall x, var_get x (c_st (run P n (start h s1))) = var_get x s1.
Proof. exact (fun P HP p Ht Hw n Hg =>
  values_restored_stree P HP p Ht Hw n (stree_no_unwind_iff_guard_silent P HP p Ht n Hg)). Qed.
Print Assumptions C07_values_restored_stree_guard.

Theorem C07_values_at_flush_stree_guard : forall P, pointwise P -> forall p, stree p -> wns [] p -> forall n,
  let h := fst (create [] (FTask p) (st0 P)) in
  let s1 := snd (create [] (FTask p) (st0 P)) in
  (forall k, (k < n)%nat -> guard_fires P (run P k (start h s1)) = false) ->
  c_mode (run P n (start h s1)) = MAfterExec ->
  let c := run P n (start h s1) in
  let s := c_st c in
  (forall x, var_get x s = apply_l (fun x => var_get x s1) (layers s) x) /\
  (forall u cx, In (u, cx) (layers s) <->
     exists tk, get u s = Some (mkFut None (KTask tk)) /\ tk_cact tk = true /\ In cx (tk_ctxs tk)) /\
  (forall u tk, get u s = Some (mkFut None (KTask tk)) -> tk_cact tk = true ->
     In u (tasks s) /\ (In u (fvals (c_frames c)) \/ tk_ds tk = true)) /\
  (forall u, In u (fvals (c_frames c)) -> exists tk, get u s = Some (mkFut None (KTask tk)) /\ tk_cact tk = true).
Proof. exact (fun P HP p Ht Hw n Hg =>
  values_at_flush_stree P HP p Ht Hw n (stree_no_unwind_iff_guard_silent P HP p Ht n Hg)). Qed.
Print Assumptions C07_values_at_flush_stree_guard.

Theorem C07_layers_are_the_active_contexts_stree_guard : forall P, pointwise P -> forall p, stree p -> wns [] p -> forall n u c,
  let h := fst (create [] (FTask p) (st0 P)) in
  let s1 := snd (create [] (FTask p) (st0 P)) in
  (forall k, (k < n)%nat -> guard_fires P (run P k (start h s1)) = false) ->
  is_final (c_mode (run P n (start h s1))) = false ->
  let s := c_st (run P n (start h s1)) in
  In (u, c) (layers s) <->
  exists tk, get u s = Some (mkFut None (KTask tk)) /\ tk_cact tk = true /\ In c (tk_ctxs tk).
Proof. exact (fun P HP p Ht Hw n u c Hg =>
  layers_are_the_active_contexts_stree P HP p Ht Hw n u c (stree_no_unwind_iff_guard_silent P HP p Ht n Hg)). Qed.
Print Assumptions C07_layers_are_the_active_contexts_stree_guard.

Theorem C07_layer_owners_await_stree_guard : forall P, pointwise P -> forall p, stree p -> forall n t q,
  let h := fst (create [] (FTask p) (st0 P)) in
  let s1 := snd (create [] (FTask p) (st0 P)) in
  (forall k, (k < n)%nat -> guard_fires P (run P k (start h s1)) = false) -> c_mode (run P n (start h s1)) = MRun t q ->
  let c := run P n (start h s1) in
  let s := c_st c in
  forall rest, tasks s = t :: rest -> forall u cx, In (u, cx) (lower s rest) -> awaits s (c_frames c) u t.
Proof. exact (fun P HP p Ht n t q Hg =>
  layer_owners_await_stree P HP p Ht n t q (stree_no_unwind_iff_guard_silent P HP p Ht n Hg)). Qed.
Print Assumptions C07_layer_owners_await_stree_guard.

Theorem C07_saved_values_stree_guard : forall P, pointwise P -> forall p, stree p -> wns [] p -> forall n,
  let h := fst (create [] (FTask p) (st0 P)) in
  let s1 := snd (create [] (FTask p) (st0 P)) in
  (forall k, (k < n)%nat -> guard_fires P (run P k (start h s1)) = false) ->
  match c_mode (run P n (start h s1)) with
  | MUnwind _ | MStuck => True
  | _ =>
    let s := c_st (run P n (start h s1)) in
    let init := fun x => var_get x s1 in
    (forall x, var_get x s = apply_l init (layers s) x) /\
    (forall pre t cid var v post, layers s = pre ++ (t, COverride cid var v) :: post ->
       ci_old (ci_get (t, cid) s) = apply_l init pre var) /\
    NoDup (map lkey (layers s))
  end.
Proof. exact (fun P HP p Ht Hw n Hg =>
  saved_values_stree P HP p Ht Hw n (stree_no_unwind_iff_guard_silent P HP p Ht n Hg)). Qed.
Print Assumptions C07_saved_values_stree_guard.


(* ================================================================== programs with actual, non-branching reads (rtree0, wnr) *)
Theorem C07_erased_program_is_covered_rtree0 : forall p, rtree0 p -> wnr [] p -> tree (erase p) /\ wn [] (erase p).
Proof. exact (fun p H1 H2 => conj (tree_erase p H1) (wn_erase [] p H2)). Qed.
Print Assumptions C07_erased_program_is_covered_rtree0.

Theorem C07_reads_do_not_branch_rtree0 : forall P p n t q, rtree0 p ->
  let h := fst (create [] (FTask p) (st0 P)) in
  let s1 := snd (create [] (FTask p) (st0 P)) in
  c_mode (run P n (start h s1)) = MRun t q ->
  rtree0 q /\ forall x k, q = ReadVar x k -> forall v, erase (k v) = erase q.
Proof. exact rtree0_run_class. Qed.
Print Assumptions C07_reads_do_not_branch_rtree0.

Theorem C07_actual_reads_see_enclosing_overrides_rtree0 : forall P, pointwise P -> forall p, rtree0 p -> wnr [] p -> forall n t q,
  let h := fst (create [] (FTask p) (st0 P)) in
  let s1 := snd (create [] (FTask p) (st0 P)) in
  no_unwind P n (start h s1) -> c_mode (run P n (start h s1)) = MRun t q ->
  let s := c_st (run P n (start h s1)) in
  (forall x, var_get x s = apply_l (fun x => var_get x s1) (layers s) x) /\
  exists tk rest, get t s = Some (mkFut None (KTask tk)) /\ tk_cact tk = true /\ wn (tk_ctxs tk) (erase q) /\
    tasks s = t :: rest /\ layers s = lower s rest ++ map (pair t) (tk_ctxs tk) /\
    forall u c, In (u, c) (lower s rest) ->
      In u rest /\ exists tku, get u s = Some (mkFut None (KTask tku)) /\ tk_cact tku = true /\ In c (tk_ctxs tku).
Proof. exact reads_see_enclosing_overrides_rtree0. Qed.
Print Assumptions C07_actual_reads_see_enclosing_overrides_rtree0.

Theorem C07_actual_read_value_rtree0 : forall P, pointwise P -> forall p, rtree0 p -> wnr [] p -> forall n t x k,
  let h := fst (create [] (FTask p) (st0 P)) in
  let s1 := snd (create [] (FTask p) (st0 P)) in
  no_unwind P n (start h s1) -> c_mode (run P n (start h s1)) = MRun t (ReadVar x k) ->
  let s := c_st (run P n (start h s1)) in
  let v := apply_l (fun x => var_get x s1) (layers s) x in
  c_mode (run P (S n) (start h s1)) = MRun t (k v) /\
  trace (c_st (run P (S n) (start h s1))) = EvRead t x v :: trace s.
Proof. exact actual_read_value_rtree0. Qed.
Print Assumptions C07_actual_read_value_rtree0.

Theorem C07_actual_reads_innermost_rtree0 : forall P, pointwise P -> forall p, rtree0 p -> wnr [] p -> forall n t q x,
  let h := fst (create [] (FTask p) (st0 P)) in
  let s1 := snd (create [] (FTask p) (st0 P)) in
  no_unwind P n (start h s1) -> c_mode (run P n (start h s1)) = MRun t q ->
  let s := c_st (run P n (start h s1)) in
  (forall pre u cid v post, layers s = pre ++ (u, COverride cid x v) :: post ->
     (forall l, In l post -> ovar (snd l) <> Some x) -> var_get x s = v) /\
  ((forall l, In l (layers s) -> ovar (snd l) <> Some x) -> var_get x s = var_get x s1).
Proof. exact reads_innermost_rtree0. Qed.
Print Assumptions C07_actual_reads_innermost_rtree0.

Theorem C07_values_restored_rtree0 : forall P, pointwise P -> forall p, rtree0 p -> wnr [] p -> forall n,
  let h := fst (create [] (FTask p) (st0 P)) in
  let s1 := snd (create [] (FTask p) (st0 P)) in
  no_unwind P n (start h s1) ->
  (c_mode (run P n (start h s1)) = MAfterExec \/ exists o, c_mode (run P n (start h s1)) = MDone o) ->
  forall x, var_get x (c_st (run P n (start h s1))) = var_get x s1.
Proof. exact values_restored_rtree0. Qed.
Print Assumptions C07_values_restored_rtree0.

Theorem C07_async_eq_seq_rtree0 : forall P, pointwise P -> forall p, rtree0 p -> forall n o,
  let h := fst (create [] (FTask p) (st0 P)) in
  let s1 := snd (create [] (FTask p) (st0 P)) in
  no_unwind P n (start h s1) -> c_mode (run P n (start h s1)) = MDone o -> o = eval (erase p).
Proof. exact async_eq_seq_rtree0. Qed.
Print Assumptions C07_async_eq_seq_rtree0.

Theorem C07_contexts_nest_lifo_rtree0 : forall P, pointwise P -> forall p, rtree0 p -> wnr [] p -> forall n,
  let h := fst (create [] (FTask p) (st0 P)) in
  let s1 := snd (create [] (FTask p) (st0 P)) in
  no_unwind P n (start h s1) ->
  exists l, layers (c_st (run P (S n) (start h s1))) = layers (c_st (run P n (start h s1))) ++ l \/
            layers (c_st (run P n (start h s1))) = layers (c_st (run P (S n) (start h s1))) ++ l.
Proof. exact contexts_nest_lifo_rtree0. Qed.
Print Assumptions C07_contexts_nest_lifo_rtree0.

Theorem C07_saved_values_rtree0 : forall P, pointwise P -> forall p, rtree0 p -> wnr [] p -> forall n,
  let h := fst (create [] (FTask p) (st0 P)) in
  let s1 := snd (create [] (FTask p) (st0 P)) in
  no_unwind P n (start h s1) ->
  match c_mode (run P n (start h s1)) with
  | MUnwind _ | MStuck | MDone _ => True
  | _ =>
    let s := c_st (run P n (start h s1)) in
    let init := fun x => var_get x s1 in
    (forall x, var_get x s = apply_l init (layers s) x) /\
    (forall pre t cid var v post, layers s = pre ++ (t, COverride cid var v) :: post ->
       ci_old (ci_get (t, cid) s) = apply_l init pre var) /\
    NoDup (map lkey (layers s))
  end.
Proof. exact saved_values_rtree0. Qed.
Print Assumptions C07_saved_values_rtree0.

Theorem C07_layer_owners_await_rtree0 : forall P p n t q, pointwise P -> rtree0 p ->
  let h := fst (create [] (FTask p) (st0 P)) in
  let s1 := snd (create [] (FTask p) (st0 P)) in
  no_unwind P n (start h s1) -> c_mode (run P n (start h s1)) = MRun t q ->
  let s := c_st (run P n (start h s1)) in
  forall rest, tasks s = t :: rest -> forall u c, In (u, c) (lower s rest) -> reach s u t.
Proof. exact (fun P p n t q HP Hp => layer_owners_await_rtree0 P HP p Hp n t q). Qed.
Print Assumptions C07_layer_owners_await_rtree0.

(* non-vacuity; the demo program c07r_demo and this fact are in proofs/MachineC07R.v *)
Theorem C07_rtree0_hypotheses_are_met :
  let P := mkP [] 1000 false [] in
  let h := fst (create [] (FTask c07r_demo) (st0 P)) in
  let s1 := snd (create [] (FTask c07r_demo) (st0 P)) in
  rtree0 c07r_demo /\ wnr [] c07r_demo /\ pointwise P /\ no_unwind_b P 100 (start h s1) = true /\
  c_mode (run P 100 (start h s1)) = MDone (Ok (VInt 5)) /\ eval (erase c07r_demo) = Ok (VInt 5) /\
  filter c07r_obs (rev (trace (c_st (run P 100 (start h s1))))) =
    [EvRead [0] 0 (VInt 0); EvRead [0] 0 (VInt 20); EvRead [1] 0 (VInt 20); EvRead [1] 0 (VInt 30);
     EvFlush 0 0 [[2]]; EvRead [1] 0 (VInt 30); EvRead [1] 0 (VInt 20); EvRead [0] 0 (VInt 20);
     EvRead [0] 0 (VInt 10); EvRead [0] 0 (VInt 0)]%Z.
Proof. exact c07r_demo_runs. Qed.
Print Assumptions C07_rtree0_hypotheses_are_met.


(* synchronous calls + non-branching reads (rstree0): the C01S value equation *)
Theorem C07_async_eq_seq_rstree0 : forall P p n o, pointwise P -> rstree0 p ->
  let h := fst (create [] (FTask p) (st0 P)) in
  let s1 := snd (create [] (FTask p) (st0 P)) in
  no_unwind P n (start h s1) -> c_mode (run P n (start h s1)) = MDone o -> o = evals (erase p).
Proof. exact async_eq_seq_rstree0. Qed.
Print Assumptions C07_async_eq_seq_rstree0.

(* ---- a shared pending task holding an override (DAG; computed facts about one program) ---- *)
Theorem C07_shared_task_reads :
  let r := run_case c07d_P 2000 [c07d_root; c07d_after] in
  fst r = [Some (Ok (VInt 0)); Some (Ok (VInt 0))] /\
  filter c07d_view (snd r) =
    [EvStep [0] 0 (Ok VNone); EvStep [2] 0 (Ok VNone); EvStep [3] 0 (Ok VNone); EvStep [1] 0 (Ok VNone);
     EvStep [2] 1 (Ok (VInt 2)); EvStep [1] 1 (Ok (VInt 1)); EvRead [1] 0 (VInt 140);
     EvStep [2] 2 (Ok (VInt 0)); EvRead [2] 0 (VInt 120);
     EvStep [3] 1 (Ok (VInt 0)); EvRead [3] 0 (VInt 130);
     EvStep [0] 1 (Ok (VTuple [VInt 0; VInt 0])); EvRead [0] 0 (VInt 110); EvRead [0] 0 (VInt 0);
     EvStep [6] 0 (Ok VNone); EvRead [6] 0 (VInt 0)]%Z.
Proof. exact c07d_diamond_runs. Qed.
Print Assumptions C07_shared_task_reads.

Theorem C07_shared_task_saves_at_every_resume :
  let h := fst (create [] (FTask c07d_root) (st0 c07d_P)) in
  let s1 := snd (create [] (FTask c07d_root) (st0 c07d_P)) in
  let c k := run c07d_P k (start h s1) in
  let after_exec := filter (fun k => match c_mode (c k) with MAfterExec => true | _ => false end) (seq 0 200) in
  map (fun k => (k, ci_old (ci_get ([1], 4%Z) (c_st (c k))), var_get 0 (c_st (c k)))) after_exec =
    [(34%nat, VInt 130, VInt 0); (72%nat, VInt 120, VInt 0)] /\
  c_mode (c 200%nat) = MDone (Ok (VInt 0)) /\
  var_get 0 (c_st (c 200%nat)) = VInt 0.
Proof. exact c07d_saved_value_follows_the_last_resume. Qed.
Print Assumptions C07_shared_task_saves_at_every_resume.
