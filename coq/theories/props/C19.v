(* C19 — asynq.mock.patch replaces every calling convention and always restores.
   The invariant of the patcher stack, the monotone part of the state and the dispatch of one call are in
   proofs/MockProofs.v; what follows from them in a few steps is derived here. *)
From Asynq Require Import Base Mock proofs.MockProofs.

(* While a patch is active: for every target kind x replacement kind of the statement (compat),
   every way the attribute is fetched and every calling convention, the call reaches the
   replacement's body with the given arguments (preceded by what the descriptor protocol binds,
   which does not depend on the convention).  The argument type is arbitrary. *)
Theorem C19_conventions_reach_replacement :
  forall (A : Type) (self_ cls_ : A) tk r own_present c (args : list A),
    compat tk r = true -> inst_callable (installed r) = true ->
    dispatch A self_ cls_ (installed r) (access_of tk own_present) c args
    = Reached (bound_prefix A self_ cls_ tk r own_present ++ args).
Proof. exact conventions_reach_replacement. Qed.
Print Assumptions C19_conventions_reach_replacement.

Theorem C19_conventions_agree :
  forall (A : Type) (self_ cls_ : A) tk r own_present c1 c2 (args : list A),
    compat tk r = true -> inst_callable (installed r) = true ->
    dispatch A self_ cls_ (installed r) (access_of tk own_present) c1 args
    = dispatch A self_ cls_ (installed r) (access_of tk own_present) c2 args.
Proof. exact conventions_agree. Qed.
Print Assumptions C19_conventions_agree.

Theorem C19_bound_prefix_shape :
  forall (A : Type) (self_ cls_ : A) tk r own_present,
    bound_prefix A self_ cls_ tk r own_present = [] \/
    bound_prefix A self_ cls_ tk r own_present = [self_] \/
    bound_prefix A self_ cls_ tk r own_present = [cls_].
Proof. intros. unfold bound_prefix. destruct (installed r); auto using prefix_shape. Qed.
Print Assumptions C19_bound_prefix_shape.

(* _maybe_wrap_new: the whole decision table; a non-callable is installed as is and never called *)
Theorem C19_maybe_wrap_new_spec : forall d,
  maybe_wrap_new d =
    if is_default d then WDefault
    else if is_fn_cm_sm d then WPair
    else if is_callable d && negb (takes_attrs d) then WWrapper else WAsIs.
Proof. exact maybe_wrap_new_spec. Qed.
Print Assumptions C19_maybe_wrap_new_spec.

Theorem C19_noncallable_as_is : forall d,
  is_default d = false -> is_fn_cm_sm d = false -> is_callable d = false -> maybe_wrap_new d = WAsIs.
Proof. intros d H1 H2 H3. rewrite C19_maybe_wrap_new_spec, H1, H2, H3. reflexivity. Qed.
Print Assumptions C19_noncallable_as_is.

Theorem C19_installed_table : forall r,
  installed r = match r with
                | RDefault | RNcMock => IMock
                | RFunc => IPair FPlain | RClassmethod => IPair FCM | RStaticmethod => IPair FSM
                | RAsynqFn => IAsynq
                | RBound | RSlotsObj => IWrapper
                | RCallableObj | RNcObj | RMockObj | RClassObj => IObj
                | RNonCallable | RNcNonCallable => IPlain
                | RNcSlots => ISlots RefAttr
                | RNcFrozen | RNcType => ISlots RefType
                | RNcRaiser => ISlots RefOther
                end.
Proof. exact installed_table. Qed.
Print Assumptions C19_installed_table.

(* When the patches end: after ANY well-bracketed op list (with-blocks, decorators, start/stop,
   stopall, exits by exception, nested and sequential patches of the same or of different targets,
   failed activations included), over any world of targets and patchers, every slot holds what
   it held at the beginning and no patcher is left started or holding a saved original. *)
Theorem C19_restored : forall w ops st,
  clean st -> wb [] ops = true ->
  (forall t, own (exec w st ops) t = own st t) /\ clean (exec w st ops).
Proof. exact restored. Qed.
Print Assumptions C19_restored.

(* the same for every program built from nested/sequential blocks (induction over the bracket
   structure: its op list is well-bracketed) *)
Theorem C19_restored_prog : forall w pr st,
  clean st -> ok_prog [] pr = true ->
  (forall t, own (exec w st (flatten pr)) t = own st t) /\ clean (exec w st (flatten pr)).
Proof.
  intros w pr st Hc Hok. apply restored; [exact Hc|].
  rewrite <- (app_nil_r (flatten pr)). rewrite flatten_wb by exact Hok. reflexivity.
Qed.
Print Assumptions C19_restored_prog.

(* a successful activation installs the replacement; a failed one leaves everything as it was *)
Theorem C19_enter_installs : forall w st p st' sp,
  enter w st p = (st', RDone) -> specs w p = Some sp ->
  own st' (ptarget sp) = Some (new_obj p sp (gen st p)) /\ gen st' p = gen st p + 1.
Proof. exact enter_installs. Qed.
Print Assumptions C19_enter_installs.

Theorem C19_enter_failure_restores : forall w st p st' e, enter w st p = (st', RFail e) -> st' = st.
Proof.
  intros w st p st' e He.
  destruct (enter_cases w st p st' (RFail e) He) as [[H _]|[H _]]; [assumption|discriminate].
Qed.
Print Assumptions C19_enter_failure_restores.

(* which replacements make attaching .asynq/.asyncio fail, and with which exception; a replacement
   given as new= never does (it has been wrapped) *)
Theorem C19_attach_failure_spec : forall r,
  attach_failure (installed r) =
    match r with
    | RNcSlots => Some E_ATTRIBUTE
    | RNcFrozen | RNcType => Some E_TYPE
    | RNcRaiser => Some E_RUNTIME
    | _ => None
    end.
Proof. exact attach_failure_spec. Qed.
Print Assumptions C19_attach_failure_spec.

(* an attribute-refusing product of new_callable, WHATEVER exception class it refuses with: the
   activation leaves the state exactly as it was (nothing patched, nothing saved, nothing started)
   and re-raises that exception *)
Theorem C19_enter_refusal : forall w st p sp r,
  specs w p = Some sp -> installed (prk sp) = ISlots r -> current w st (ptarget sp) <> None ->
  enter w st p = (st, RFail (refusal_exn r)).
Proof. exact enter_refusal. Qed.
Print Assumptions C19_enter_refusal.

(* the same patcher activated again (any op list in between): a replacement that is made per
   activation (default mock, new_callable) is a different object each time, an explicit new= object
   is the same object; and every convention of a probe reaches the object that is in place now *)
Theorem C19_reactivation_fresh : forall w st p sp st1 ops st2,
  specs w p = Some sp -> per_activation (prk sp) = true ->
  enter w st p = (st1, RDone) -> enter w (exec w st1 ops) p = (st2, RDone) ->
  own st2 (ptarget sp) <> own st1 (ptarget sp).
Proof.
  intros w st p sp st1 ops st2 Hs Hp H1 H2.
  destruct (enter_installs w st p st1 sp H1 Hs) as [E1 G1].
  destruct (enter_installs w _ p st2 sp H2 Hs) as [E2 _].
  rewrite E1, E2. unfold new_obj. rewrite Hp.
  pose proof (proj1 (exec_grows w ops st1) p). intro H0. inversion H0. lia.
Qed.
Print Assumptions C19_reactivation_fresh.

Theorem C19_reactivation_same : forall w st p sp st1 ops st2,
  specs w p = Some sp -> per_activation (prk sp) = false ->
  enter w st p = (st1, RDone) -> enter w (exec w st1 ops) p = (st2, RDone) ->
  own st2 (ptarget sp) = own st1 (ptarget sp).
Proof.
  intros w st p sp st1 ops st2 Hs Hp H1 H2.
  destruct (enter_installs w st p st1 sp H1 Hs) as [E1 _].
  destruct (enter_installs w _ p st2 sp H2 Hs) as [E2 _].
  rewrite E1, E2. unfold new_obj. rewrite Hp. reflexivity.
Qed.
Print Assumptions C19_reactivation_same.

Theorem C19_probe_reaches_current : forall w st t args cur cs,
  probe w st t args = RProbe cur cs ->
  cur = current w st t /\
  forall c, In c cs -> c = CNotCallable \/ c = CDetached
                       \/ exists o recv b, cur = Some o /\ c = CReached (body_of w o) recv b.
Proof. exact probe_reaches_current. Qed.
Print Assumptions C19_probe_reaches_current.

(* once restored, all four conventions reach the original again *)
Theorem C19_original_reached :
  forall (A : Type) (self_ cls_ : A) tk own_present c (args : list A),
    tk <> TAttr ->
    dispatch A self_ cls_ (IOrig (orig_ftype tk)) (access_of tk own_present) c args
    = Reached (prefix A self_ cls_ (orig_ftype tk) (access_of tk own_present) ++ args).
Proof. intros. apply dispatch_reached; [reflexivity | discriminate]. Qed.
Print Assumptions C19_original_reached.

(* ---- one replacement object shared by several patches (overlapping lifetimes) ---- *)

(* nothing ever takes .asynq/.async/.asyncio off an object again: over any world and ANY op list
   (ends of other patches, stopall, malformed orders included) an attached object stays attached *)
Theorem C19_attach_persists : forall w ops st o,
  attached st o = true -> attached (exec w st ops) o = true.
Proof. intros w ops st. apply exec_grows. Qed.
Print Assumptions C19_attach_persists.

Theorem C19_enter_attaches : forall w st p st' sp,
  enter w st p = (st', RDone) -> specs w p = Some sp -> inst_callable (installed (prk sp)) = true ->
  attached st' (new_obj p sp (gen st p)) = true.
Proof. exact enter_attaches. Qed.
Print Assumptions C19_enter_attaches.

(* the same caller-supplied object given to two patchers: installed as is (callable object, Mock
   instance, class, @asynq function, non-callable) it is ONE object in both slots; wrapped by
   _maybe_wrap_new (function, bound method, attribute-refusing callable) every patcher has its own
   wrapper object, and the code that runs is the shared object's *)
Theorem C19_shared_same_object : forall p q sp sq g h,
  per_activation (prk sp) = false -> given_as_is (prk sp) = true ->
  prk sq = prk sp -> pshare sq = pshare sp ->
  new_obj p sp g = new_obj q sq h.
Proof. exact shared_same_object. Qed.
Print Assumptions C19_shared_same_object.

Theorem C19_shared_wrapped_distinct : forall p q sp sq g h,
  per_activation (prk sp) = false -> given_as_is (prk sp) = false -> prk sq = prk sp -> p <> q ->
  new_obj p sp g <> new_obj q sq h.
Proof. exact shared_wrapped_distinct. Qed.
Print Assumptions C19_shared_wrapped_distinct.

Theorem C19_shared_body : forall w p sp g,
  specs w p = Some sp -> per_activation (prk sp) = false ->
  (given_as_is (prk sp) = true -> exists so, specs w (pshare sp) = Some so /\ per_activation (prk so) = false
                                             /\ pshare so = pshare sp) ->
  body_of w (new_obj p sp g) = ONew (pshare sp) 0.
Proof. exact shared_body. Qed.
Print Assumptions C19_shared_body.

(* The surviving patch.  p is activated with a callable replacement; then ANY op list runs (other
   patches - sharing p's replacement object or not - are activated and ended, in any order);
   whenever the target then holds p's object, a probe yields four results, none of them is
   "attribute missing", each is the code of p's replacement with the behaviour of p's replacement
   (or, for a classmethod object fetched without binding, not callable by any convention);
   and for the (target kind, replacement kind) pairs of the statement all four are the same
   `CReached` with the same received arguments. *)
Theorem C19_survivor_reached : forall w st p sp st1 ops t args,
  enter w st p = (st1, RDone) -> specs w p = Some sp -> inst_callable (installed (prk sp)) = true ->
  obj_inst w (new_obj p sp (gen st p)) = Some (installed (prk sp), pbeh sp) ->
  current w (exec w st1 ops) t = Some (new_obj p sp (gen st p)) ->
  exists cs, probe w (exec w st1 ops) t args = RProbe (Some (new_obj p sp (gen st p))) cs /\
    length cs = 4%nat /\
    forall c, In c cs -> c = CNotCallable \/
      exists recv, c = CReached (body_of w (new_obj p sp (gen st p))) recv (pbeh sp).
Proof.
  intros w st p sp st1 ops t args He Hs Hc Hi Hcur. rewrite (survivor_probe w st p sp st1 ops t args He Hs Hc Hi Hcur).
  eexists. split; [reflexivity|]. split; [reflexivity|].
  intros c Hin. apply in_map_iff in Hin. destruct Hin as [cv [<- _]].
  unfold probe_conv. destruct (dispatch _ _ _ _ _ _ _); eauto.
Qed.
Print Assumptions C19_survivor_reached.

Theorem C19_survivor_agree : forall w st p sp st1 ops t args tk,
  enter w st p = (st1, RDone) -> specs w p = Some sp -> inst_callable (installed (prk sp)) = true ->
  obj_inst w (new_obj p sp (gen st p)) = Some (installed (prk sp), pbeh sp) ->
  current w (exec w st1 ops) t = Some (new_obj p sp (gen st p)) ->
  tkinds w t = tk -> compat tk (prk sp) = true ->
  exists recv, probe w (exec w st1 ops) t args =
    RProbe (Some (new_obj p sp (gen st p)))
           (map (fun _ => CReached (body_of w (new_obj p sp (gen st p))) recv (pbeh sp)) all_convs).
Proof.
  intros w st p sp st1 ops t args tk He Hs Hc Hi Hcur Htk Hcompat.
  rewrite (survivor_probe w st p sp st1 ops t args He Hs Hc Hi Hcur), Htk.
  eexists. f_equal. cbn [map all_convs]. unfold probe_conv.
  rewrite !(conventions_reach_replacement Z SELF CLS tk (prk sp) _ _ args Hcompat Hc). reflexivity.
Qed.
Print Assumptions C19_survivor_agree.

(* The kind of VALUE the replacement returns (beh: a plain value, None, an exception instance handed
   back as data, a FUTURE OBJECT - computed ConstFuture / unstarted task / unflushed batch item - as
   the result, or a raise) is not looked at by any convention: a convention that reaches the
   replacement delivers exactly what its body produced (the ConstFuture that .asynq() makes around it
   is the only level `value` / a yield takes off), and which arguments the body receives does not
   depend on the kind of value either.  Together with C19_survivor_agree (stated for every `pbeh sp`):
   all four conventions deliver the very same object also when that object is itself a future. *)
Theorem C19_result_as_is : forall i att acc who b c args who' recv b',
  probe_conv i att acc who b c args = CReached who' recv b' -> who' = who /\ b' = b.
Proof.
  intros i att acc who b c args who' recv b' H.
  destruct (probe_conv_shape i att acc c args) as [[r E]|[E|E]]; rewrite E in H; inversion H; auto.
Qed.
Print Assumptions C19_result_as_is.

Theorem C19_result_kind_irrelevant : forall i att acc who b b2 c args recv,
  probe_conv i att acc who b c args = CReached who recv b ->
  probe_conv i att acc who b2 c args = CReached who recv b2.
Proof.
  intros i att acc who b b2 c args recv H.
  destruct (probe_conv_shape i att acc c args) as [[r E]|[E|E]]; rewrite E in *; congruence.
Qed.
Print Assumptions C19_result_kind_irrelevant.
