(* C10 — a future is completed at most once and reports one consistent outcome.
   The statements; every proof is a lemma of proofs/FuturesProofs.v, TaskFutProofs.v or BatchFutProofs.v, or a few
   lines that combine such lemmas. *)
From Asynq Require Import Base Futures proofs.FuturesProofs BatchFut proofs.BatchFutProofs TaskFut proofs.TaskFutProofs.

Theorem C10_single_assignment : forall s oc, out s = Some oc ->
  (forall v, step s (OSetValue v) = (s, RRaise E_ALREADY)) /\
  (forall e, step s (OSetError e) = (s, RRaise E_ALREADY)).
Proof. exact single_assignment. Qed.
Print Assumptions C10_single_assignment.

Theorem C10_stable : forall ops s oc,
  out s = Some oc -> forallb (fun o => negb (is_reset o)) ops = true ->
  let '(s', rs) := run s ops in
  out s' = Some oc /\ log s' = log s /\ runs s' = runs s /\ all_reads_report ops rs oc.
Proof. exact stable. Qed.
Print Assumptions C10_stable.

Theorem C10_read_reports : forall s o s' r oc,
  step s o = (s', r) -> is_read o = true -> out s' = Some oc -> r = report o oc.
Proof.
  intros s o s' r oc E Hr Ho. change s' with (fst (s', r)) in Ho. change r with (snd (s', r)). rewrite <- E in *.
  destruct o; try discriminate Hr; try exact (read_reports_out _ _ _ Ho). cbn in *. now rewrite Ho.
Qed.
Print Assumptions C10_read_reports.

Theorem C10_compute_once : forall s o,
  (runs (fst (step s o)) <= S (runs s))%nat /\ (out s <> None -> runs (fst (step s o)) = runs s).
Proof. exact compute_once. Qed.
Print Assumptions C10_compute_once.

Theorem C10_notify_once_after : forall s o,
  let s' := fst (step s o) in
  match out s, out s' with
  | None, Some oc => log s' = log s ++ notes (subs s) oc /\ subs s' = after_notify (subs s)
  | _, _ => log s' = log s
  end.
Proof. exact notify_once_after. Qed.
Print Assumptions C10_notify_once_after.

(* re-entrant subscribers: the notification loop calls exactly the subscribers that were registered
   when the completion began (the snapshot), each once, in order - whatever their scripts do to the
   live subscription list (unsubscribe themselves / a later / an earlier one, subscribe, raise) *)
Theorem C10_notify_snapshot : forall snap live, snd (notify snap live) = map fst snap.
Proof. exact notify_snapshot. Qed.
Print Assumptions C10_notify_snapshot.

Theorem C10_notify_plain_keeps_subscribers : forall snap live,
  forallb (fun sb => plain (snd sb)) snap = true -> fst (notify snap live) = live.
Proof. exact notify_plain. Qed.
Print Assumptions C10_notify_plain_keeps_subscribers.

Theorem C10_subscribers_change_only_by : forall s o,
  subs (fst (step s o)) = subs s \/
  (exists id k, o = OSubscribe id k /\ subs (fst (step s o)) = subs s ++ [(id, k)]) \/
  (out s = None /\ out (fst (step s o)) <> None /\ subs (fst (step s o)) = after_notify (subs s)).
Proof.
  intros s o. destruct (step_cases s o) as [->|[(N & _ & _ & A)|[->|(id & k & -> & ->)]]]; cbn; eauto 6.
  destruct (out (fst (step s o))); [right; right; repeat split; try tauto; discriminate|tauto].
Qed.
Print Assumptions C10_subscribers_change_only_by.

Theorem C10_renotify_after_reset : forall s v e,
  out s = None ->
  let s1 := fst (step s (OSetValue v)) in
  let s3 := fst (step (fst (step s1 OReset)) (OSetError e)) in
  log s3 = log s ++ notes (subs s) (Ok v) ++ notes (after_notify (subs s)) (Err e) /\
  subs s3 = after_notify (after_notify (subs s)).
Proof.
  intros s v e H. cbn. rewrite H. cbn. unfold notes, after_notify.
  rewrite !notify_snapshot, !map_map, <- app_assoc. auto.
Qed.
Print Assumptions C10_renotify_after_reset.

Theorem C10_const_error_complete : forall p v e,
  out (init KConst p (Ok v)) = Some (Ok v) /\ out (init KError p (Err e)) = Some (Err e).
Proof. exact const_error_complete. Qed.
Print Assumptions C10_const_error_complete.

(* ---- scheduled AsyncTask completed from outside while suspended (TaskFut.v) ---- *)

Theorem C10_task_single_assignment : forall s oc, tout s = Some oc ->
  (forall v, tstep s (OSetValue v) = (s, RRaise E_ALREADY)) /\
  (forall e, tstep s (OSetError e) = (s, RRaise E_ALREADY)) /\
  (forall c v, istep c s (ISetValue v) = (s, RRaise E_ALREADY)) /\
  (forall c e, istep c s (ISetError e) = (s, RRaise E_ALREADY)).
Proof. intros s oc H; repeat split; intros; cbn; rewrite H; reflexivity. Qed.
Print Assumptions C10_task_single_assignment.

Theorem C10_task_ext_set_completes : forall c s, tout s = None ->
  (forall v, let '(s', r) := istep c s (ISetValue v) in
     tout s' = Some (Ok v) /\ tgen s' = None /\ tlog s' = tlog s ++ notes (tsubs s) (Ok v) /\
     tsubs s' = after_notify (tsubs s) /\ r = close_result c) /\
  (forall e, let '(s', r) := istep c s (ISetError e) in
     tout s' = Some (Err e) /\ tgen s' = None /\ tlog s' = tlog s ++ notes (tsubs s) (Err e) /\
     tsubs s' = after_notify (tsubs s) /\ r = close_result c).
Proof. exact ext_set_completes. Qed.
Print Assumptions C10_task_ext_set_completes.

Theorem C10_task_inner_notify_once_after : forall c s o,
  let s' := fst (istep c s o) in
  match tout s, tout s' with
  | None, Some oc => tlog s' = tlog s ++ notes (tsubs s) oc /\ tsubs s' = after_notify (tsubs s)
  | _, _ => tlog s' = tlog s
  end.
Proof. exact inner_notify_once_after. Qed.
Print Assumptions C10_task_inner_notify_once_after.

Theorem C10_task_inner_computed : forall c s oc o, tout s = Some oc ->
  let '(s', r) := istep c s o in
  quiet s s' /\ truns s' = truns s /\
  (is_iset o = true -> s' = s /\ r = RRaise E_ALREADY) /\
  (is_iread o = true -> r = ireport o oc).
Proof. exact istep_computed. Qed.
Print Assumptions C10_task_inner_computed.

Theorem C10_task_body_completes_once : forall ph s, tout s = None -> completed_once s (exec s ph).
Proof. exact exec_completes_once. Qed.
Print Assumptions C10_task_body_completes_once.

Theorem C10_task_notify_once_after : forall s o,
  let s' := fst (tstep s o) in
  match tout s with
  | Some _ => tlog s' = tlog s
  | None => (tout s' = None /\ tlog s' = tlog s) \/ completed_once s s'
  end.
Proof.
  intros s o. cbn zeta. destruct (tout s) as [oc|] eqn:H.
  - destruct (is_reset o) eqn:R; [now destruct o|]. now destruct (tstep_computed s oc o H R) as ((_ & B & _) & _).
  - destruct (tstep_uncomputed s o H) as ([(A & B & _)|(C & _)] & _); auto.
Qed.
Print Assumptions C10_task_notify_once_after.

Theorem C10_task_stable : forall ops s oc,
  tout s = Some oc -> forallb (fun o => negb (is_reset o)) ops = true ->
  let '(s', rs) := trun s ops in
  tout s' = Some oc /\ tlog s' = tlog s /\ truns s' = truns s /\ tall_reads_report ops rs oc.
Proof. exact task_stable. Qed.
Print Assumptions C10_task_stable.

Theorem C10_task_read_reports : forall s o s' r oc,
  tstep s o = (s', r) -> is_read o = true -> tout s' = Some oc -> r = report o oc.
Proof.
  intros s o s' r oc E Hr Ho. change s' with (fst (s', r)) in Ho. change r with (snd (s', r)). rewrite <- E in *.
  destruct (tout s) as [oc0|] eqn:Hs.
  - destruct (tstep_computed s oc0 o Hs) as ((A & _) & D); [now destruct o|]. rewrite D by exact Hr. congruence.
  - now apply (tstep_uncomputed s o Hs).
Qed.
Print Assumptions C10_task_read_reports.

Theorem C10_task_compute_once : forall s o,
  (truns (fst (tstep s o)) <= S (truns s))%nat /\ (tout s <> None -> truns (fst (tstep s o)) = truns s).
Proof.
  intros s o. destruct (tout s) as [oc|] eqn:H.
  - assert (E : truns (fst (tstep s o)) = truns s).
    { destruct (is_reset o) eqn:R; [now destruct o|]. now destruct (tstep_computed s oc o H R) as ((_ & _ & C) & _). }
    rewrite E. auto.
  - split; [|congruence]. destruct (tstep_uncomputed s o H) as ([(_ & _ & R)|(_ & R)] & _); lia.
Qed.
Print Assumptions C10_task_compute_once.

(* ---- "... even if another subscriber raises an Exception": WHICH Exception class a subscriber
   raises (AssertionError, ValueError, KeyError, RuntimeError, StopIteration, a user-defined subclass,
   asynq's own FutureIsAlreadyComputed, ... - Futures.xcls) is irrelevant: relabelling the classes of
   all raises by an arbitrary function changes no op result, no callback record, no run count and
   nobody's registration - per operation, per op list, and for every case of the correspondence ---- *)

Theorem C10_raise_class_step : forall f s o,
  step (recls_state f s) (recls_op f o) = (recls_state f (fst (step s o)), snd (step s o)).
Proof. exact step_recls. Qed.
Print Assumptions C10_raise_class_step.

Theorem C10_raise_class_notify : forall f snap live,
  notify (map (recls_sub f) snap) (map (recls_sub f) live) =
  (map (recls_sub f) (fst (notify snap live)), snd (notify snap live)).
Proof. exact notify_recls. Qed.
Print Assumptions C10_raise_class_notify.

Theorem C10_raise_class_irrelevant : forall f k p o ops,
  run_case k p o (map (recls_op f) ops) = run_case k p o ops.
Proof. exact raise_class_irrelevant. Qed.
Print Assumptions C10_raise_class_irrelevant.

Theorem C10_unsubscribe_absent_is_a_raise : forall t live,
  remove_first t live = None -> run_cb (CbUnsub t) live = run_cb (CbRaise XValue) live.
Proof. intros t live H. cbn. now rewrite H. Qed.
Print Assumptions C10_unsubscribe_absent_is_a_raise.

Theorem C10_task_raise_class_step : forall f s o,
  tstep (recls_tstate f s) (recls_op f o) = (recls_tstate f (fst (tstep s o)), snd (tstep s o)).
Proof. intros f. exact (tstep_F _ _ _ (recls_tmorph f)). Qed.
Print Assumptions C10_task_raise_class_step.

Theorem C10_task_raise_class_inner_step : forall f c s o,
  istep c (recls_tstate f s) (recls_iop f o) = (recls_tstate f (fst (istep c s o)), snd (istep c s o)).
Proof. intros f. exact (istep_F _ _ _ (recls_tmorph f)). Qed.
Print Assumptions C10_task_raise_class_inner_step.

(* ---- a batch and its items as futures (BatchFut.v): item completions are nested in the batch's
   completion (flush body, BatchBase._computed's item loop) ---- *)

(* Every statement below holds with CROSS-FUTURE CALLBACKS: a subscriber of one future may complete
   another future of the case from inside its notification (CbSet: a later / earlier sibling item, the
   item itself, the batch), a _cancel() override may set items; nested to any depth.
   [ext_at s s' u] is C10 for future u between two states: computed => outcome, callback records and
   subscription list untouched; uncomputed => untouched, or completed ONCE: it holds an outcome oc and
   the records of u grew by exactly one per subscriber u had in s, in order, each carrying oc.       *)

Theorem C10_batch_single_assignment : forall s t oc o,
  fout s t = Some oc -> bset s t o = (s, RRaise E_ALREADY).
Proof. intros s t oc o. apply bset_at_single. Qed.
Print Assumptions C10_batch_single_assignment.

Theorem C10_batch_single_assignment_nested : forall d s t oc o,
  fout s t = Some oc -> bset_at (S d) s t o = (s, RRaise E_ALREADY).
Proof. exact bset_at_single. Qed.
Print Assumptions C10_batch_single_assignment_nested.

Theorem C10_batch_set_completes : forall s t o, fout s t = None -> fexists s t = true ->
  fout (fst (bset s t o)) t = Some o /\ snd (bset s t o) = RUnit.
Proof. intros s t o. exact (proj1 (proj2 (bset_level_spec _ (bset_at_wb (depth_of s)) s t o))). Qed.
Print Assumptions C10_batch_set_completes.

Theorem C10_batch_set_every_future_once : forall s t o,
  ext s (fst (bset s t o)) /\ (all_items_computed s -> all_items_computed (fst (bset s t o))).
Proof. intros s t o. apply (bset_at_wb (S (depth_of s))). Qed.
Print Assumptions C10_batch_set_every_future_once.

Theorem C10_batch_nested_every_future_once : forall d, wb (bset_at d).
Proof. exact bset_at_wb. Qed.
Print Assumptions C10_batch_nested_every_future_once.

Theorem C10_batch_completion_computes_all_items : forall s o, bout s = None -> allcomp (fst (bset s 0 o)).
Proof.
  intros s o F. unfold bset. cbn [bset_at bset_level].
  destruct (bset0_spec (bset_at (depth_of s)) (bset_at_wb _) s o) as (_ & _ & N & _). now destruct (N F) as (_ & A & _).
Qed.
Print Assumptions C10_batch_completion_computes_all_items.

Theorem C10_batch_item_loop_rechecks : forall d e n i s j oc,
  (i + n <= length (bitems s))%nat -> item_out s j = Some oc ->
  item_out (fill_loop (bset_at d) i n e s) j = Some oc.
Proof.
  intros d e n i s j oc H F. destruct (fill_loop_spec (bset_at d) (bset_at_wb d) e n i s H) as (E & _).
  exact (ext_computed _ _ (S j) oc E F).
Qed.
Print Assumptions C10_batch_item_loop_rechecks.

Theorem C10_batch_step_every_future_once : forall s o,
  all_items_computed s -> is_subscribe o = false -> step_ok s (fst (bstep s o)).
Proof. exact bstep_spec. Qed.
Print Assumptions C10_batch_step_every_future_once.

Theorem C10_batch_subscribe_only_appends : forall s t id k, all_items_computed s ->
  let s' := fst (bstep s (BOn t (OSubscribe id k))) in
  all_items_computed s' /\ (s' = s \/ s' = set_fsubs s t (fsubs s t ++ [(id, k)])).
Proof. exact bstep_subscribe. Qed.
Print Assumptions C10_batch_subscribe_only_appends.

Theorem C10_batch_items_computed_with_batch : forall ops its fin cs,
  all_items_computed (fst (brun (binit its fin cs) ops)).
Proof. intros ops its fin cs. apply brun_inv. left. reflexivity. Qed.
Print Assumptions C10_batch_items_computed_with_batch.

(* `bout s = None` names the case of interest (a read that has to run the body); the conclusion holds without it *)
Theorem C10_batch_read_completes : forall s, all_items_computed s -> bout s = None ->
  bout (bcompute_top s) <> None /\ allcomp (bcompute_top s).
Proof. intros s I _. now destruct (bcompute_top_spec s I) as (_ & A & B & _). Qed.
Print Assumptions C10_batch_read_completes.

Theorem C10_batch_read_reports : forall s rep oc,
  bout (fst (bread s rep)) = Some oc -> snd (bread s rep) = rep oc.
Proof. intros s rep oc. unfold bread. destruct (bout s) eqn:B; cbn [fst snd]; intros H; rewrite ?H; congruence. Qed.
Print Assumptions C10_batch_read_reports.

Theorem C10_item_read_reports : forall s i rep oc,
  item_out (fst (iread s i rep)) i = Some oc -> snd (iread s i rep) = rep oc.
Proof.
  intros s i rep oc. unfold iread. destruct (item_out s i) eqn:F; cbn [fst snd]; [congruence|].
  destruct (bout s); cbn [fst snd]; intros H; [congruence|now rewrite H].
Qed.
Print Assumptions C10_item_read_reports.

Theorem C10_batch_stable : forall s oc o, bout s = Some oc -> allcomp s -> is_subscribe o = false ->
  fst (bstep s o) = s.
Proof. exact bstep_all_computed. Qed.
Print Assumptions C10_batch_stable.

Theorem C10_batch_raise_class_irrelevant : forall f its fin cs ops,
  run_batch (map (recls_ispec f) its) fin cs (map (recls_bop f) ops) = run_batch its fin cs ops.
Proof. exact batch_raise_class_irrelevant. Qed.
Print Assumptions C10_batch_raise_class_irrelevant.

Theorem C10_any_raise_class_irrelevant : forall f c, run_any (recls_case f c) = run_any c.
Proof.
  intros f c. destruct c; cbn [run_any recls_case];
    [now rewrite raise_class_irrelevant | now rewrite task_raise_class_irrelevant | now rewrite batch_raise_class_irrelevant].
Qed.
Print Assumptions C10_any_raise_class_irrelevant.

Theorem C10_same_shape_same_result : forall c c',
  recls_case (fun _ => XUser) c = recls_case (fun _ => XUser) c' -> run_any c = run_any c'.
Proof.
  intros c c' H. rewrite <- (C10_any_raise_class_irrelevant (fun _ => XUser) c), H.
  apply C10_any_raise_class_irrelevant.
Qed.
Print Assumptions C10_same_shape_same_result.

(* ---- the Exception class a PROVIDER / body / flush body raises (Futures.pout PRaise c e): the raised
   instance becomes the future's error whatever its class - also FutureIsAlreadyComputed about another
   future (PDouble: genuinely raised by a second set_value on a shared promise), AssertionError,
   StopIteration, BatchingError ... ; a generator body is subject to PEP 479 only ---- *)

Theorem C10_lazy_read_completes : forall s o,
  fkind s = KLazy -> out s = None -> is_computing_read o = true ->
  (forall e rest, prov s <> PBase e :: rest) ->
  let s' := fst (step s o) in
  exists oc, out s' = Some oc /\ runs s' = S (runs s) /\ log s' = log s ++ notes (subs s) oc /\
    snd (step s o) = report o oc /\
    match prov s with
    | PRaise _ e :: _ => oc = Err e
    | PDouble :: _ => oc = Err E_ALREADY
    | PRet v :: _ => oc = Ok v
    | _ => oc = Ok VNone
    end.
Proof. exact lazy_read_completes. Qed.
Print Assumptions C10_lazy_read_completes.

Theorem C10_provider_class_step : forall f s o, (fkind s = KTask -> gen_cls_ok f) ->
  step (pstate f s) o = (pstate f (fst (step s o)), snd (step s o)).
Proof. exact step_pstate. Qed.
Print Assumptions C10_provider_class_step.

Theorem C10_provider_class_irrelevant : forall f k p o ops, (k = KTask -> gen_cls_ok f) ->
  run_case k (map (recls_pout f) p) o ops = run_case k p o ops.
Proof. exact provider_class_irrelevant. Qed.
Print Assumptions C10_provider_class_irrelevant.

Theorem C10_lazy_provider_class_irrelevant : forall f p o ops,
  run_case KLazy (map (recls_pout f) p) o ops = run_case KLazy p o ops.
Proof. intros. apply provider_class_irrelevant. discriminate. Qed.
Print Assumptions C10_lazy_provider_class_irrelevant.

Theorem C10_task_provider_class_irrelevant : forall f ph fin ops, gen_cls_ok f ->
  run_task ph (recls_pout f fin) ops = run_task ph fin ops.
Proof. exact task_provider_class_irrelevant. Qed.
Print Assumptions C10_task_provider_class_irrelevant.

Theorem C10_batch_provider_class_irrelevant : forall f its fin cs ops,
  run_batch its (recls_pout f fin) cs ops = run_batch its fin cs ops.
Proof. exact batch_provider_class_irrelevant. Qed.
Print Assumptions C10_batch_provider_class_irrelevant.

Theorem C10_any_provider_class_irrelevant : forall f c,
  (generator_body c = true -> gen_cls_ok f) -> run_any (precls_case f c) = run_any c.
Proof.
  intros f c G. destruct c as [k p o ops|ph fin ops|its fin cs ops]; cbn [run_any precls_case].
  - rewrite provider_class_irrelevant; auto. intros ->. apply G. reflexivity.
  - rewrite task_provider_class_irrelevant; auto.
  - now rewrite batch_provider_class_irrelevant.
Qed.
Print Assumptions C10_any_provider_class_irrelevant.

Theorem C10_pep479_respecting_relabelling_exists :
  gen_cls_ok (fun c => match c with XStopIteration => XStopIteration | _ => XAlreadyComputed end).
Proof. intros c e. destruct c; reflexivity. Qed.
Print Assumptions C10_pep479_respecting_relabelling_exists.
