(* C06 — an AsyncContext is active exactly while its task, or work it awaits, runs.
   Statements only; proofs in proofs/MachineDFS.v (flags, statements (1)-(2)), proofs/MachineC06T.v (the resume/pause
   events and the trace invariant TO), proofs/MachineDFSS.v (flags and trace for programs with SYNCHRONOUS CALLS,
   statements (8)-(16)) and proofs/MachineC06S.v (ALTERNATION of the resume/pause events for programs with
   synchronous calls, statements (17)-(30); its last section has (3)-(6), the case of yield-only tree programs);
   (7) is in the last section of proofs/MachineC07S.v, the demo of an exit-time pause fault in proofs/MachineC06X.v.
   The model keeps, per task, the flag _contexts_active; _resume_contexts/_pause_contexts flip it and call
   resume()/pause() on every open context of the task, so the flag IS the state of the task's contexts between
   enter and exit.  An AsyncContext with id cid in task t logs EvResume t cid at every resume() (on entry:
   enter_ctx; by the scheduler: resume1) and EvPause t cid at every pause() (on exit: pause_plain in exit_ctx;
   by the scheduler: pause1).  [ctx_events t cid tr] is the list of these two events of the key (t, cid) in the
   newest-first trace tr, OLDEST first; [alternates t cid true l] says l is resume, pause, resume, ... starting
   with a resume; [filter (evk t cid) tr] is the same list newest first.

   PROVED, for every pointwise service P (no flush body raises half way), every flush order/priorities/fuel n, as long
   as no exception unwound through asynq's frames (no_unwind: the MAX_TASK_STACK_SIZE guard did not fire):
   for yield-only tree programs (tree p: plain AsyncContexts whose resume/pause do not raise, and scoped overrides):
   (1) C06_contexts_paused_at_every_flush_tree: at the end of every _execute pass, hence at every scheduler flush,
       no uncompleted task has active contexts;
   (2) C06_contexts_active_while_own_code_runs_tree: while a task's body runs its contexts are active and any other
       uncompleted task with active contexts is still on the scheduler's stack;
   and for tree programs whose with-blocks are well nested (wn [] p: every with-block is closed on every exit path -
   normal end, exception, early result - innermost first; contexts open at the same time in one task have distinct
   ids; an id may be re-used after its block was left):
   (3) C06_resume_pause_alternate, also as C06_run_case_resume_pause_alternate on the chronological trace of
       Machine.run_case: for every task t and context id cid the resume/pause events of (t, cid) strictly alternate,
       starting with a resume - at every point of the run, across suspensions, batch flushes and re-use of the id;
   (4) C06_newest_is_resume_iff_active: at every reachable configuration the newest event of (t, cid) is a resume
       exactly when t is an uncompleted task with _contexts_active set and an AsyncContext cid open (the invariant
       from which the others follow);
   (5) C06_all_paused_at_flush_and_end: at every flush point (MAfterExec) and when the outermost call has returned
       (MDone o, value or error) the newest event of every (t, cid) that has any event is a pause;
   (6) C06_resumed_while_own_code_runs: while the body of t runs, the newest event of every AsyncContext that t
       has open is a resume;
   (7) C06_resumed_only_in_awaiting_tasks: while the body of t runs, a context of a task u whose newest event is a
       resume belongs to u = t or to a task that awaits t (t is reachable from u through the dependency lists of
       uncompleted tasks, MachineC04.reach): a context is paused whenever a task its owner is not awaiting runs.
   REFUTED ON THE UNREPAIRED CODE: statement (3) for ALL programs with well-nested with-blocks, i.e. also for
   NonAsyncContext and contexts whose pause()/resume() raise (MachineC06T.alternation_all_contexts_statement), is
   false on the model of the unrepaired code: with a NonAsyncContext nested inside an AsyncContext in a task that
   blocks, _pause_contexts paused the AsyncContext, the NonAsyncContext's assertion error was delivered through
   _accept_error, generator.close() ran the with-blocks' __exit__, and the AsyncContext was paused a second time:
   resume, pause, pause (a single AsyncContext whose scheduler-driven pause() raises gave the same).  The witness
   reproduced on the implementation (known finding C06:alternation / double-pause) and was repaired in /repo
   ("fix: AsyncContext.__exit__ does not pause a context twice"); Machine.exit_ctx follows the repaired code and
   C06_former_witnesses_alternate shows by vm_compute that these witnesses alternate there.  The general statement
   beyond tree and stree programs is neither proved nor refuted.
   PROVED FOR TREE PROGRAMS WITH SYNCHRONOUS CALLS (MachineC01S.stree: tree programs in which a task body may also call
   another @asynq function synchronously, fn(args) = fn.asynq(args).value() = Let (FTask q) (fun h => Sync h k), nested
   to any depth; the call runs a NESTED scheduler loop below the caller's frames on the same task stack), same
   hypotheses (pointwise P, no_unwind), on the flags (_contexts_active = tk_cact, _dependencies_scheduled = tk_ds);
   fvals fr = the callers that are inside value() (owners of the FValue frames of fr), MachineDFSS.stk ts fr = "the
   task stack ts decomposes along the levels of fr: empty at FTop, and  t :: rest ++ below  with length below = i at a
   level  FValue t k :: FCont t old :: FExec i :: FWait r :: fr'":
   (8)  C06_contexts_at_every_flush_stree: at the end of every _execute pass (= every scheduler flush), of the
        outermost loop or of a loop nested in synchronous calls: the stack is exactly what the enclosing levels own (stk:
        the segment of the finished pass is empty, the height is the one recorded by the callers' _execute frames); every
        caller inside value() is an uncompleted task with ACTIVE contexts (it is not paused around the flush: "including
        synchronous calls it makes"); every other uncompleted task with tk_cact or tk_ds set is on that stack - at or
        below the innermost caller -, has tk_cact set and has tk_ds set (it is suspended at a yield with its
        dependencies scheduled); hence every uncompleted task that is not on the stack is paused.
        C06_contexts_at_nested_flush_stree spells this out for frames  FWait r :: FValue t k :: ... .
   (9)  C06_contexts_paused_at_outer_flush_stree: at a flush issued by the outermost loop (no caller inside value())
        the stack is empty and no uncompleted task has tk_cact or tk_ds set - statement (1) for every stree program;
        C06_contexts_paused_at_every_flush_tree_rederived: (1) itself follows (tree programs never enter value()).
   (10) C06_contexts_active_while_own_code_runs_stree: while the body of t runs, t is on top of the stack, t and
        EVERY caller suspended in a synchronous call that led to t's code have active contexts, and every other
        uncompleted task with active contexts is on the stack and has tk_ds set.
   (11) C06_callers_stay_resumed_inside_value: at EVERY non-final configuration of the run every caller inside value()
        is an uncompleted task with active contexts.
   (12) C06_contexts_untouched_inside_value (trace): over any stretch of the run during which t stays inside value() the
        trace gains no EvResume/EvPause event of any context of t (MachineDFSS.cevt t = those events, newest first).
   (13) C06_all_paused_at_end_stree: when the outermost call has returned the stack is empty and no uncompleted task has
        tk_cact or tk_ds set.
   REFUTED for stree (14) C06_paused_at_every_flush_stree_is_false: "at every flush no uncompleted task other than the
        callers inside value() has active contexts" (MachineDFSS.contexts_paused_at_every_flush_stree_statement, i.e.
        (1) with the exception the property text itself demands) is FALSE.  Witness c06s_demo, step 31: root [0] holds
        ctx 0 and awaits caller [2]; [2] holds ctx 1 and calls callee [4] synchronously; [4] blocks on a batch item;
        the loop nested below [2] flushes the batch while [0] - SUSPENDED AT ITS YIELD - still has its contexts resumed
        (tk_cact = tk_ds = true).  This is what scheduler.py does: value() -> wait_for -> _execute -> _continue_with_batch
        run inside [2]'s _continue_with_task, nobody pauses the tasks that are grey on the stack below.  By the clause
        "resumed whenever tasks that only it is awaiting run ... including synchronous calls" this is the intended
        behaviour; the clause "paused whenever a batch is flushed while the task is suspended" read literally is
        violated (candidate finding: the two clauses of the property conflict for the awaiting ancestors of a
        synchronous caller; the strongest true statement is (8)).
   (15)/(16) non-vacuity: C06_stree_hypotheses_are_met (the run of c06s_demo with its flags at the nested flush and its
        events: the sibling's context is paused before the flush, the caller's and the root's are not),
        C06_stree_caller_is_quiet (the hypothesis of (12) holds for caller [2] from step 21 to step 40).
   ALTERNATION FOR TREE PROGRAMS WITH SYNCHRONOUS CALLS (proofs/MachineC06S.v; pointwise P, no_unwind, stree p and
   wns [] p).  MachineC07.wn has no case for a synchronous call - (27) C06_wn_stree_is_tree: a program that is wn and
   stree is a yield-only tree program - so the well-nestedness hypothesis is MachineC06S.wns = wn plus the case
   wns op (Let (FTask q) (fun h => Sync h k))  when  wns [] q  and  wns op (k o)  for every o  ((26) C06_wn_implies_wns;
   (28) C06_resume_pause_alternate_stree_wn is the literal port with wn, a corollary that adds nothing to (3)).
   The invariant TO of MachineC06T is carried over MachineDFSS.FLS through nested scheduler loops of any depth:
   (17) C06_resume_pause_alternate_stree, (18) C06_run_case_resume_pause_alternate_stree on the chronological
        trace of Machine.run_case: for every task t and context id cid the resume/pause events of (t, cid) strictly
        alternate, starting with a resume, at every point of the run - also for the contexts of callers that are
        inside value() while nested loops run and flush, for contexts opened by callees, and across re-use of an id;
   (19) C06_newest_is_resume_iff_active_stree: the newest event of (t, cid) is a resume exactly when t is an
        uncompleted task with _contexts_active set and an AsyncContext cid open (statement (4) for stree);
   (20) C06_all_paused_at_end_stree_trace: when the outermost call has returned the newest event of every key
        that has an event is a pause ("ending with pause");
   (21) C06_resumed_at_flush_stree: at the end of every _execute pass (outermost or nested) a key whose
        newest event is a resume belongs to a task that is ON the scheduler's stack and is a caller inside value() or
        has tk_ds set; (22) C06_all_paused_at_outer_flush_stree_trace: at a flush of the outermost loop every key is
        paused (statement (5) for stree, outer flushes);
   (23) C06_resumed_while_code_runs_stree: while the body of t runs every AsyncContext open in t AND in every caller
        suspended in a synchronous call that led to t's code has a resume as newest event; (24)
        C06_caller_contexts_resumed_stree: the same for the callers at EVERY non-final configuration (inside nested
        loops and flushes); (25) C06_resumed_only_on_stack_stree: while t runs a key whose newest event is a resume
        belongs to t, to a caller inside value(), or to a task on the stack with tk_ds set;
   REFUTED (29) C06_all_paused_at_every_flush_stree_trace_is_false: statement (5) for every flush, even with the callers
        inside value() excepted, is false for stree (witness c06n_demo, step 39: a loop nested two calls deep flushes
        while the root's context 0 is resumed) - the trace form of (14); (21)/(22) are the true variants;
   (30) C06_stree_alternation_hypotheses_are_met / C06_stree_alternation_demo_is_not_tree: non-vacuity (c06n_demo: calls
        nested two deep, contexts in callers and callees, an id re-used inside a caller; all events of the run; the
        program is stree and wns but neither tree nor wn).
   WITHOUT THE HYPOTHESIS no_unwind (end of the file; proofs/MachineNoUnwind.v): the tree-
   program theorems are stated again as C06_contexts_paused_at_every_flush_tree_guard,
   C06_contexts_active_while_own_code_runs_tree_guard, C06_resume_pause_alternate_guard,
   C06_run_case_resume_pause_alternate_guard, C06_newest_is_resume_iff_active_guard,
   C06_all_paused_at_flush_and_end_guard, C06_resumed_while_own_code_runs_guard,
   C06_resumed_only_in_awaiting_tasks_guard. These forms need no assumption about exceptions unwinding:
   FutureIsAlreadyComputed is proved unreachable for tree programs, so only the runaway guard's RuntimeError can
   unwind through asynq's frames, and the hypothesis "the guard has not fired before step n" (forall k < n,
   guard_fires P (run P k c0) = false; guard_fires is the boolean test at the head of the _execute loop) is a
   decidable condition on the run.
   WITHOUT THE HYPOTHESIS no_unwind FOR stree PROGRAMS (end of the file; proofs/MachineNoUnwind.v): the stree
   theorems whose hypothesis is no_unwind P n (start h s1) are restated with "the MAX_TASK_STACK_SIZE guard has not
   fired before step n" in its place (MachineNoUnwind.stree_no_unwind_iff_guard_silent):
   C06_contexts_at_every_flush_stree_guard, C06_contexts_at_nested_flush_stree_guard,
   C06_contexts_paused_at_outer_flush_stree_guard, C06_contexts_active_while_own_code_runs_stree_guard,
   C06_callers_stay_resumed_inside_value_guard, C06_contexts_untouched_inside_value_guard,
   C06_all_paused_at_end_stree_guard, C06_resume_pause_alternate_stree_guard,
   C06_run_case_resume_pause_alternate_stree_guard, C06_newest_is_resume_iff_active_stree_guard,
   C06_all_paused_at_end_stree_trace_guard, C06_resumed_at_flush_stree_guard,
   C06_all_paused_at_outer_flush_stree_trace_guard, C06_resumed_while_code_runs_stree_guard,
   C06_caller_contexts_resumed_stree_guard, C06_resumed_only_on_stack_stree_guard,
   C06_resume_pause_alternate_stree_wn_guard.
   NOT PROVED: for stree programs - statement (7) and its converse at event level: that a task with tk_ds set on the
   stack AWAITS the running task / the caller is proved for the owners of the active context layers as
   C07_layer_owners_await_stree (props/C07.v; relation awaits and invariant AWc of proofs/MachineC07S.v), not as a
   statement about the events; (21) and (25) say "on the stack with tk_ds set" instead of "awaits"; programs outside tree/stree/wn/wns - Sync on an
   existing handle (LOld / value() of a shared future), ReadVar/Probe branching, shared futures (DAGs), with-blocks
   left open when a task ends, contexts whose resume()/pause() raise, NonAsyncContext (three runs computed in
   C06_former_witnesses_alternate; nothing proved), non-pointwise services, runs in which the task-stack guard fired;
   the converse of (7) (every awaiting task's contexts ARE resumed while t runs) is only proved for t itself (6) and for
   the suspended callers (10) - for ancestors it follows from MachineC07's layer structure but is not stated here.
   These are covered by the correspondence harness + monitors. *)
From Asynq Require Import Machine Seq proofs.MachineC08 proofs.MachineC01 proofs.MachineDFS proofs.MachineC04
     proofs.MachineC07 proofs.MachineC06T proofs.MachineC06X proofs.MachineC06S proofs.MachineC07S
     proofs.MachineC01S proofs.MachineDFSS proofs.MachineNoUnwind.

Theorem C06_contexts_paused_at_every_flush_tree : forall P, pointwise P -> forall p, tree p -> forall n,
  let h := fst (create [] (FTask p) (st0 P)) in
  let s1 := snd (create [] (FTask p) (st0 P)) in
  no_unwind P n (start h s1) -> c_mode (run P n (start h s1)) = MAfterExec ->
  forall u tk, get u (c_st (run P n (start h s1))) = Some (mkFut None (KTask tk)) ->
    tk_cact tk = false /\ tk_ds tk = false.
Proof. exact contexts_paused_at_flush_tree. Qed.
Print Assumptions C06_contexts_paused_at_every_flush_tree.

Theorem C06_contexts_active_while_own_code_runs_tree : forall P, pointwise P -> forall p, tree p -> forall n t q,
  let h := fst (create [] (FTask p) (st0 P)) in
  let s1 := snd (create [] (FTask p) (st0 P)) in
  no_unwind P n (start h s1) -> c_mode (run P n (start h s1)) = MRun t q ->
  (exists tk, get t (c_st (run P n (start h s1))) = Some (mkFut None (KTask tk)) /\ tk_cact tk = true) /\
  (forall u tk, get u (c_st (run P n (start h s1))) = Some (mkFut None (KTask tk)) -> tk_cact tk = true ->
     In u (tasks (c_st (run P n (start h s1))))).
Proof. exact contexts_active_while_running_tree. Qed.
Print Assumptions C06_contexts_active_while_own_code_runs_tree.

Theorem C06_resume_pause_alternate : forall P, pointwise P -> forall p, tree p -> wn [] p -> forall n t cid,
  let h := fst (create [] (FTask p) (st0 P)) in
  let s1 := snd (create [] (FTask p) (st0 P)) in
  no_unwind P n (start h s1) ->
  alternates t cid true (ctx_events t cid (trace (c_st (run P n (start h s1))))).
Proof. exact resume_pause_alternate_tree. Qed.
Print Assumptions C06_resume_pause_alternate.

Theorem C06_run_case_resume_pause_alternate : forall P p n t cid,
  pointwise P -> tree p -> wn [] p ->
  no_unwind P n (start (fst (create [] (FTask p) (st0 P))) (snd (create [] (FTask p) (st0 P)))) ->
  alternates t cid true (filter (evk t cid) (snd (run_case P n [p]))).
Proof. exact run_case_resume_pause_alternate. Qed.
Print Assumptions C06_run_case_resume_pause_alternate.

(* the invariant *)
Theorem C06_newest_is_resume_iff_active : forall P, pointwise P -> forall p, tree p -> wn [] p -> forall n t cid,
  let h := fst (create [] (FTask p) (st0 P)) in
  let s1 := snd (create [] (FTask p) (st0 P)) in
  no_unwind P n (start h s1) ->
  let s := c_st (run P n (start h s1)) in
  (exists rest, filter (evk t cid) (trace s) = EvResume t cid :: rest) <->
  (exists tk f, get t s = Some (mkFut None (KTask tk)) /\ tk_cact tk = true /\ In (CAsync cid f) (tk_ctxs tk)).
Proof. exact newest_is_resume_iff_active_tree. Qed.
Print Assumptions C06_newest_is_resume_iff_active.

Theorem C06_all_paused_at_flush_and_end : forall P, pointwise P -> forall p, tree p -> wn [] p -> forall n t cid,
  let h := fst (create [] (FTask p) (st0 P)) in
  let s1 := snd (create [] (FTask p) (st0 P)) in
  no_unwind P n (start h s1) ->
  (c_mode (run P n (start h s1)) = MAfterExec \/ exists o, c_mode (run P n (start h s1)) = MDone o) ->
  match filter (evk t cid) (trace (c_st (run P n (start h s1)))) with [] => True | e :: _ => e = EvPause t cid end.
Proof. exact all_paused_at_flush_and_end_tree. Qed.
Print Assumptions C06_all_paused_at_flush_and_end.

Theorem C06_resumed_while_own_code_runs : forall P, pointwise P -> forall p, tree p -> wn [] p -> forall n t q,
  let h := fst (create [] (FTask p) (st0 P)) in
  let s1 := snd (create [] (FTask p) (st0 P)) in
  no_unwind P n (start h s1) -> c_mode (run P n (start h s1)) = MRun t q ->
  let s := c_st (run P n (start h s1)) in
  forall tk, get t s = Some (mkFut None (KTask tk)) -> forall cid f, In (CAsync cid f) (tk_ctxs tk) ->
    exists rest, filter (evk t cid) (trace s) = EvResume t cid :: rest.
Proof. exact resumed_while_own_code_runs_tree. Qed.
Print Assumptions C06_resumed_while_own_code_runs.

Theorem C06_resumed_only_in_awaiting_tasks : forall P, pointwise P -> forall p, tree p -> wn [] p -> forall n t q u cid,
  let h := fst (create [] (FTask p) (st0 P)) in
  let s1 := snd (create [] (FTask p) (st0 P)) in
  no_unwind P n (start h s1) -> c_mode (run P n (start h s1)) = MRun t q ->
  let s := c_st (run P n (start h s1)) in
  (exists rest, filter (evk u cid) (trace s) = EvResume u cid :: rest) -> reach s u t.
Proof. exact resumed_only_in_awaiting_tasks_tree. Qed.
Print Assumptions C06_resumed_only_in_awaiting_tasks.

(* the programs that refute the unrestricted alternation statement on the unrepaired code alternate on the repaired one *)
Example C06_former_witnesses_alternate :
  let P := mkP [] 1000 false [] in
  let ev p := let h := fst (create [] (FTask p) (st0 P)) in
              let s1 := snd (create [] (FTask p) (st0 P)) in
              (no_unwind_b P 100 (start h s1), c_mode (run P 100 (start h s1)),
               ctx_events [0] 1 (trace (c_st (run P 100 (start h s1))))) in
  wn [] c06_cx /\
  ev c06_cx = (true, MDone (Err E_NONASYNC), [EvResume [0] 1; EvPause [0] 1]) /\
  ev (c06_cx_one (CAsync 1 (PauseRaises 1 77))) = (true, MDone (Err 77), [EvResume [0] 1; EvPause [0] 1]) /\
  ev (c06_cx_one (CAsync 1 (ResumeRaises 1 77))) =
    (true, MDone (Err 77), [EvResume [0] 1; EvPause [0] 1; EvResume [0] 1; EvPause [0] 1]).
Proof. exact c06_former_witnesses_alternate. Qed.
Print Assumptions C06_former_witnesses_alternate.

(* non-vacuity: the parent's AsyncContext 1 is resumed and paused four times (entry, two suspensions around batch
   flushes, exit and re-entry with the same id, exit), the child's context 1 twice; the run ends with a value *)
Example C06_hypotheses_are_met :
  let P := mkP [] 1000 false [] in
  let h := fst (create [] (FTask c06_demo) (st0 P)) in
  let s1 := snd (create [] (FTask c06_demo) (st0 P)) in
  let tr_at k := trace (c_st (run P k (start h s1))) in
  let R t := EvResume t 1 in let Z t := EvPause t 1 in
  tree c06_demo /\ wn [] c06_demo /\ no_unwind_b P 200 (start h s1) = true /\
  c_mode (run P 200 (start h s1)) = MDone (Ok (VInt 6)) /\
  ctx_events [0] 1 (tr_at 200%nat) = [R [0]; Z [0]; R [0]; Z [0]; R [0]; Z [0]; R [0]; Z [0]] /\
  ctx_events [1] 1 (tr_at 200%nat) = [R [1]; Z [1]; R [1]; Z [1]].
Proof. exact c06_demo_runs. Qed.
Print Assumptions C06_hypotheses_are_met.

(* A context whose pause() RAISES WHEN __exit__ MAKES IT (harness fault {"exit": e}; proofs/MachineC06X.v): for the model
   this is a program whose Exit continuation is the error continuation on every exit path (Exit c (Raise e), or
   Exit c (handler e) under a try) - a tree program with well-nested with-blocks, so (3)-(7) above apply: the pause made
   on exit is the LAST event of the context also when it raised and the task, having caught the error, is suspended for
   further flushes.  Non-vacuity on the minimal instance (block spans a suspension, exit fault 7 caught, one more yield of a
   batch item): two flushes, the caught error is returned, and the context has exactly resume, pause, resume, pause. *)
Example C06_exit_time_pause_fault_is_in_the_proved_class :
  let P := mkP [] 1000 false [] in
  let h := fst (create [] (FTask c06x_demo) (st0 P)) in
  let s1 := snd (create [] (FTask c06x_demo) (st0 P)) in
  let tr := trace (c_st (run P 200 (start h s1))) in
  tree c06x_demo /\ wn [] c06x_demo /\ pointwise P /\ no_unwind_b P 200 (start h s1) = true /\
  c_mode (run P 200 (start h s1)) = MDone (Ok (VTuple [VInt (-999); VInt 7])) /\
  length (filter (fun e => match e with EvFlush _ _ _ => true | _ => false end) tr) = 2%nat /\
  ctx_events [0] 1 tr = [EvResume [0] 1; EvPause [0] 1; EvResume [0] 1; EvPause [0] 1].
Proof. exact c06x_demo_runs. Qed.
Print Assumptions C06_exit_time_pause_fault_is_in_the_proved_class.

(* ------------------------------------------------------------------ tree programs with synchronous calls *)

Theorem C06_contexts_at_every_flush_stree : forall P, pointwise P -> forall p, stree p -> forall n,
  let h := fst (create [] (FTask p) (st0 P)) in
  let s1 := snd (create [] (FTask p) (st0 P)) in
  no_unwind P n (start h s1) -> c_mode (run P n (start h s1)) = MAfterExec ->
  let c := run P n (start h s1) in
  exists r vs, c_frames c = FWait r :: vs /\ stk (tasks (c_st c)) vs /\
    (forall t, In t (fvals vs) -> exists tk, get t (c_st c) = Some (mkFut None (KTask tk)) /\ tk_cact tk = true) /\
    (forall u tk, get u (c_st c) = Some (mkFut None (KTask tk)) -> tk_cact tk = true \/ tk_ds tk = true ->
       In u (tasks (c_st c)) /\ tk_cact tk = true /\ (In u (fvals vs) \/ tk_ds tk = true)).
Proof. exact flush_stree. Qed.
Print Assumptions C06_contexts_at_every_flush_stree.

Theorem C06_contexts_at_nested_flush_stree : forall P, pointwise P -> forall p, stree p -> forall n r t k fr',
  let h := fst (create [] (FTask p) (st0 P)) in
  let s1 := snd (create [] (FTask p) (st0 P)) in
  no_unwind P n (start h s1) -> c_mode (run P n (start h s1)) = MAfterExec ->
  c_frames (run P n (start h s1)) = FWait r :: FValue t k :: fr' ->
  let s := c_st (run P n (start h s1)) in
  exists old i r' vs rest below,
    fr' = FCont t old :: FExec i :: FWait r' :: vs /\ tasks s = t :: rest ++ below /\ length below = i /\
    stk below vs /\
    (exists tk, get t s = Some (mkFut None (KTask tk)) /\ tk_cact tk = true) /\
    (forall u tk, get u s = Some (mkFut None (KTask tk)) -> tk_cact tk = true \/ tk_ds tk = true ->
       (u = t \/ In u (rest ++ below)) /\ tk_cact tk = true /\ (u = t \/ In u (fvals vs) \/ tk_ds tk = true)).
Proof. exact nested_flush_stree. Qed.
Print Assumptions C06_contexts_at_nested_flush_stree.

Theorem C06_contexts_paused_at_outer_flush_stree : forall P, pointwise P -> forall p, stree p -> forall n,
  let h := fst (create [] (FTask p) (st0 P)) in
  let s1 := snd (create [] (FTask p) (st0 P)) in
  no_unwind P n (start h s1) -> c_mode (run P n (start h s1)) = MAfterExec ->
  fvals (c_frames (run P n (start h s1))) = [] ->
  tasks (c_st (run P n (start h s1))) = [] /\
  forall u tk, get u (c_st (run P n (start h s1))) = Some (mkFut None (KTask tk)) ->
    tk_cact tk = false /\ tk_ds tk = false.
Proof. exact outer_flush_stree. Qed.
Print Assumptions C06_contexts_paused_at_outer_flush_stree.

Theorem C06_contexts_paused_at_every_flush_tree_rederived : forall P p n, pointwise P -> tree p ->
  let h := fst (create [] (FTask p) (st0 P)) in
  let s1 := snd (create [] (FTask p) (st0 P)) in
  no_unwind P n (start h s1) -> c_mode (run P n (start h s1)) = MAfterExec ->
  forall u tk, get u (c_st (run P n (start h s1))) = Some (mkFut None (KTask tk)) ->
    tk_cact tk = false /\ tk_ds tk = false.
Proof. exact contexts_paused_at_flush_tree_again. Qed.
Print Assumptions C06_contexts_paused_at_every_flush_tree_rederived.

Theorem C06_contexts_active_while_own_code_runs_stree : forall P, pointwise P -> forall p, stree p -> forall n t q,
  let h := fst (create [] (FTask p) (st0 P)) in
  let s1 := snd (create [] (FTask p) (st0 P)) in
  no_unwind P n (start h s1) -> c_mode (run P n (start h s1)) = MRun t q ->
  let c := run P n (start h s1) in
  (exists rest, tasks (c_st c) = t :: rest) /\
  (forall x, x = t \/ In x (fvals (c_frames c)) ->
     exists tk, get x (c_st c) = Some (mkFut None (KTask tk)) /\ tk_cact tk = true) /\
  (forall u tk, get u (c_st c) = Some (mkFut None (KTask tk)) -> tk_cact tk = true ->
     In u (tasks (c_st c)) /\ (u = t \/ In u (fvals (c_frames c)) \/ tk_ds tk = true)).
Proof. exact running_stree. Qed.
Print Assumptions C06_contexts_active_while_own_code_runs_stree.

Theorem C06_callers_stay_resumed_inside_value : forall P, pointwise P -> forall p, stree p -> forall n t,
  let h := fst (create [] (FTask p) (st0 P)) in
  let s1 := snd (create [] (FTask p) (st0 P)) in
  no_unwind P n (start h s1) -> is_final (c_mode (run P n (start h s1))) = false ->
  In t (fvals (c_frames (run P n (start h s1)))) ->
  exists tk, get t (c_st (run P n (start h s1))) = Some (mkFut None (KTask tk)) /\ tk_cact tk = true.
Proof. exact callers_stay_resumed. Qed.
Print Assumptions C06_callers_stay_resumed_inside_value.

Theorem C06_contexts_untouched_inside_value : forall P p n m t, pointwise P -> stree p ->
  let h := fst (create [] (FTask p) (st0 P)) in
  let s1 := snd (create [] (FTask p) (st0 P)) in
  no_unwind P (n + m) (start h s1) ->
  (forall k, (n <= k < n + m)%nat -> In t (fvals (c_frames (run P k (start h s1))))) ->
  cevt t (c_st (run P (n + m) (start h s1))) = cevt t (c_st (run P n (start h s1))).
Proof. exact contexts_untouched_inside_value. Qed.
Print Assumptions C06_contexts_untouched_inside_value.

Theorem C06_all_paused_at_end_stree : forall P, pointwise P -> forall p, stree p -> forall n o,
  let h := fst (create [] (FTask p) (st0 P)) in
  let s1 := snd (create [] (FTask p) (st0 P)) in
  no_unwind P n (start h s1) -> c_mode (run P n (start h s1)) = MDone o ->
  tasks (c_st (run P n (start h s1))) = [] /\
  forall u tk, get u (c_st (run P n (start h s1))) = Some (mkFut None (KTask tk)) ->
    tk_cact tk = false /\ tk_ds tk = false.
Proof. exact end_stree. Qed.
Print Assumptions C06_all_paused_at_end_stree.

(* the naive generalisation of (1) - even with the callers inside value() excepted - is false *)
Theorem C06_paused_at_every_flush_stree_is_false :
  ~ (forall P, pointwise P -> forall p, stree p -> forall n,
     let h := fst (create [] (FTask p) (st0 P)) in
     let s1 := snd (create [] (FTask p) (st0 P)) in
     no_unwind P n (start h s1) -> c_mode (run P n (start h s1)) = MAfterExec ->
     forall u tk, get u (c_st (run P n (start h s1))) = Some (mkFut None (KTask tk)) ->
       ~ In u (fvals (c_frames (run P n (start h s1)))) -> tk_cact tk = false /\ tk_ds tk = false).
Proof. exact contexts_paused_at_every_flush_stree_is_false. Qed.
Print Assumptions C06_paused_at_every_flush_stree_is_false.

(* non-vacuity: root [0] (ctx 0) awaits sibling [1] (ctx 2, blocks on a batch item) and caller [2] (ctx 1), which calls
   callee [4] synchronously; [4] blocks on an item of the same batch; the loop nested below [2] ends its pass at step 31
   and flushes: [2] is inside value() with ctx 1 resumed, [0] is grey with ctx 0 resumed, [1] is paused *)
Example C06_stree_hypotheses_are_met :
  let P := c06s_P in
  let h := fst (create [] (FTask c06s_demo) (st0 P)) in
  let s1 := snd (create [] (FTask c06s_demo) (st0 P)) in
  let c k := run P k (start h s1) in
  no_unwind_b P 100 (start h s1) = true /\
  c_mode (c 100%nat) = MDone (Ok (VTuple [VInt 5; VInt 7])) /\ evals c06s_demo = Ok (VTuple [VInt 5; VInt 7]) /\
  c_mode (c 31%nat) = MAfterExec /\ fvals (c_frames (c 31%nat)) = [[2%Z]] /\ tasks (c_st (c 31%nat)) = [[2%Z]; [0%Z]] /\
  uflags (c_st (c 31%nat)) = [([0%Z], (true, true)); ([1%Z], (false, false)); ([2%Z], (true, false)); ([4%Z], (false, false))] /\
  filter is_rp (rev (trace (c_st (c 32%nat)))) =
    [EvResume [0%Z] 0; EvResume [1%Z] 2; EvPause [1%Z] 2; EvResume [2%Z] 1; EvBefore 0 0; EvAfter 0 0] /\
  rev (trace (c_st (c 100%nat))) =
    [EvStep [0%Z] 0 (Ok VNone); EvResume [0%Z] 0;
     EvStep [1%Z] 0 (Ok VNone); EvResume [1%Z] 2; EvPause [1%Z] 2;
     EvStep [2%Z] 0 (Ok VNone); EvResume [2%Z] 1;
     EvStep [4%Z] 0 (Ok VNone);
     EvBefore 0 0; EvFlush 0 0 [[3%Z]; [5%Z]]; EvItemDone [3%Z] (Ok (VInt 5)); EvItemDone [5%Z] (Ok (VInt 7)); EvAfter 0 0;
     EvStep [4%Z] 1 (Ok (VInt 7)); EvDone [4%Z] (Ok (VInt 7)); EvGot [2%Z] (Ok (VInt 7));
     EvPause [2%Z] 1; EvDone [2%Z] (Ok (VInt 7));
     EvPause [0%Z] 0; EvResume [0%Z] 0; EvResume [1%Z] 2;
     EvStep [1%Z] 1 (Ok (VInt 5)); EvPause [1%Z] 2; EvDone [1%Z] (Ok (VInt 5));
     EvStep [0%Z] 1 (Ok (VTuple [VInt 5; VInt 7])); EvPause [0%Z] 0; EvDone [0%Z] (Ok (VTuple [VInt 5; VInt 7]))].
Proof. exact c06s_demo_runs. Qed.
Print Assumptions C06_stree_hypotheses_are_met.

Example C06_stree_demo_is_stree_and_pointwise : stree c06s_demo /\ pointwise c06s_P.
Proof. exact (conj c06s_demo_stree c06s_P_pointwise). Qed.
Print Assumptions C06_stree_demo_is_stree_and_pointwise.

Example C06_stree_caller_is_quiet :
  let P := c06s_P in
  let h := fst (create [] (FTask c06s_demo) (st0 P)) in
  let s1 := snd (create [] (FTask c06s_demo) (st0 P)) in
  let c k := run P k (start h s1) in
  forallb (fun k => existsb (fid_eqb [2%Z]) (fvals (c_frames (c k)))) (seq 21 20) = true /\
  cevt [2%Z] (c_st (c 21%nat)) = [EvResume [2%Z] 1] /\ cevt [2%Z] (c_st (c 41%nat)) = [EvResume [2%Z] 1] /\
  cevt [2%Z] (c_st (c 42%nat)) = [EvPause [2%Z] 1; EvResume [2%Z] 1].
Proof. exact c06s_demo_quiet. Qed.
Print Assumptions C06_stree_caller_is_quiet.

(* ------------------------------------------------------------------ alternation for tree programs with synchronous calls *)

Theorem C06_resume_pause_alternate_stree : forall P, pointwise P -> forall p, stree p -> wns [] p -> forall n t cid,
  let h := fst (create [] (FTask p) (st0 P)) in
  let s1 := snd (create [] (FTask p) (st0 P)) in
  no_unwind P n (start h s1) ->
  alternates t cid true (ctx_events t cid (trace (c_st (run P n (start h s1))))).
Proof. exact resume_pause_alternate_stree. Qed.
Print Assumptions C06_resume_pause_alternate_stree.

Theorem C06_run_case_resume_pause_alternate_stree : forall P p n t cid,
  pointwise P -> stree p -> wns [] p ->
  no_unwind P n (start (fst (create [] (FTask p) (st0 P))) (snd (create [] (FTask p) (st0 P)))) ->
  alternates t cid true (filter (evk t cid) (snd (run_case P n [p]))).
Proof. exact run_case_resume_pause_alternate_stree. Qed.
Print Assumptions C06_run_case_resume_pause_alternate_stree.

(* the invariant *)
Theorem C06_newest_is_resume_iff_active_stree : forall P, pointwise P -> forall p, stree p -> wns [] p -> forall n t cid,
  let h := fst (create [] (FTask p) (st0 P)) in
  let s1 := snd (create [] (FTask p) (st0 P)) in
  no_unwind P n (start h s1) ->
  let s := c_st (run P n (start h s1)) in
  (exists rest, filter (evk t cid) (trace s) = EvResume t cid :: rest) <->
  (exists tk f, get t s = Some (mkFut None (KTask tk)) /\ tk_cact tk = true /\ In (CAsync cid f) (tk_ctxs tk)).
Proof. exact newest_is_resume_iff_active_stree. Qed.
Print Assumptions C06_newest_is_resume_iff_active_stree.

Theorem C06_all_paused_at_end_stree_trace : forall P, pointwise P -> forall p, stree p -> wns [] p -> forall n t cid o,
  let h := fst (create [] (FTask p) (st0 P)) in
  let s1 := snd (create [] (FTask p) (st0 P)) in
  no_unwind P n (start h s1) -> c_mode (run P n (start h s1)) = MDone o ->
  match filter (evk t cid) (trace (c_st (run P n (start h s1)))) with [] => True | e :: _ => e = EvPause t cid end.
Proof. exact all_paused_at_end_stree_events. Qed.
Print Assumptions C06_all_paused_at_end_stree_trace.

Theorem C06_resumed_at_flush_stree : forall P, pointwise P -> forall p, stree p -> wns [] p -> forall n t cid,
  let h := fst (create [] (FTask p) (st0 P)) in
  let s1 := snd (create [] (FTask p) (st0 P)) in
  no_unwind P n (start h s1) -> c_mode (run P n (start h s1)) = MAfterExec ->
  let c := run P n (start h s1) in
  (exists rest, filter (evk t cid) (trace (c_st c)) = EvResume t cid :: rest) ->
  In t (tasks (c_st c)) /\
  exists tk, get t (c_st c) = Some (mkFut None (KTask tk)) /\ (In t (fvals (c_frames c)) \/ tk_ds tk = true).
Proof. exact resumed_at_flush_stree. Qed.
Print Assumptions C06_resumed_at_flush_stree.

Theorem C06_all_paused_at_outer_flush_stree_trace : forall P, pointwise P -> forall p, stree p -> wns [] p -> forall n t cid,
  let h := fst (create [] (FTask p) (st0 P)) in
  let s1 := snd (create [] (FTask p) (st0 P)) in
  no_unwind P n (start h s1) -> c_mode (run P n (start h s1)) = MAfterExec ->
  fvals (c_frames (run P n (start h s1))) = [] ->
  match filter (evk t cid) (trace (c_st (run P n (start h s1)))) with [] => True | e :: _ => e = EvPause t cid end.
Proof. exact all_paused_at_outer_flush_stree. Qed.
Print Assumptions C06_all_paused_at_outer_flush_stree_trace.

Theorem C06_resumed_while_code_runs_stree : forall P, pointwise P -> forall p, stree p -> wns [] p -> forall n t q x,
  let h := fst (create [] (FTask p) (st0 P)) in
  let s1 := snd (create [] (FTask p) (st0 P)) in
  no_unwind P n (start h s1) -> c_mode (run P n (start h s1)) = MRun t q ->
  let c := run P n (start h s1) in
  x = t \/ In x (fvals (c_frames c)) ->
  forall tk, get x (c_st c) = Some (mkFut None (KTask tk)) -> forall cid f, In (CAsync cid f) (tk_ctxs tk) ->
    exists rest, filter (evk x cid) (trace (c_st c)) = EvResume x cid :: rest.
Proof. exact resumed_while_code_runs_stree. Qed.
Print Assumptions C06_resumed_while_code_runs_stree.

Theorem C06_caller_contexts_resumed_stree : forall P, pointwise P -> forall p, stree p -> wns [] p -> forall n x,
  let h := fst (create [] (FTask p) (st0 P)) in
  let s1 := snd (create [] (FTask p) (st0 P)) in
  no_unwind P n (start h s1) -> is_final (c_mode (run P n (start h s1))) = false ->
  let c := run P n (start h s1) in
  In x (fvals (c_frames c)) ->
  exists tk, get x (c_st c) = Some (mkFut None (KTask tk)) /\
    forall cid f, In (CAsync cid f) (tk_ctxs tk) -> exists rest, filter (evk x cid) (trace (c_st c)) = EvResume x cid :: rest.
Proof. exact caller_contexts_resumed_stree. Qed.
Print Assumptions C06_caller_contexts_resumed_stree.

Theorem C06_resumed_only_on_stack_stree : forall P, pointwise P -> forall p, stree p -> wns [] p -> forall n t q u cid,
  let h := fst (create [] (FTask p) (st0 P)) in
  let s1 := snd (create [] (FTask p) (st0 P)) in
  no_unwind P n (start h s1) -> c_mode (run P n (start h s1)) = MRun t q ->
  let c := run P n (start h s1) in
  (exists rest, filter (evk u cid) (trace (c_st c)) = EvResume u cid :: rest) ->
  In u (tasks (c_st c)) /\
  (u = t \/ In u (fvals (c_frames c)) \/ exists tk, get u (c_st c) = Some (mkFut None (KTask tk)) /\ tk_ds tk = true).
Proof. exact resumed_only_on_stack_stree. Qed.
Print Assumptions C06_resumed_only_on_stack_stree.

(* wn versus wns *)
Theorem C06_wn_implies_wns : forall op p, wn op p -> wns op p.
Proof. exact wn_wns. Qed.
Print Assumptions C06_wn_implies_wns.

Theorem C06_wn_stree_is_tree : forall op p, wn op p -> stree p -> tree p.
Proof. exact wn_stree_tree. Qed.
Print Assumptions C06_wn_stree_is_tree.

Theorem C06_resume_pause_alternate_stree_wn : forall P p n t cid,
  pointwise P -> stree p -> wn [] p ->
  no_unwind P n (start (fst (create [] (FTask p) (st0 P))) (snd (create [] (FTask p) (st0 P)))) ->
  alternates t cid true (ctx_events t cid (trace (c_st (run P n (start (fst (create [] (FTask p) (st0 P))) (snd (create [] (FTask p) (st0 P)))))))).
Proof. exact resume_pause_alternate_stree_wn. Qed.
Print Assumptions C06_resume_pause_alternate_stree_wn.

(* (5) for EVERY flush is false once synchronous calls are allowed *)
Theorem C06_all_paused_at_every_flush_stree_trace_is_false :
  ~ (forall P, pointwise P -> forall p, stree p -> wns [] p -> forall n t cid,
     let h := fst (create [] (FTask p) (st0 P)) in
     let s1 := snd (create [] (FTask p) (st0 P)) in
     no_unwind P n (start h s1) -> c_mode (run P n (start h s1)) = MAfterExec ->
     ~ In t (fvals (c_frames (run P n (start h s1)))) ->
     match filter (evk t cid) (trace (c_st (run P n (start h s1)))) with [] => True | e :: _ => e = EvPause t cid end).
Proof. exact all_paused_at_every_flush_stree_is_false. Qed.
Print Assumptions C06_all_paused_at_every_flush_stree_trace_is_false.

(* non-vacuity: root [0] (ctx 0) awaits sibling [1] (ctx 2) and caller [2] (ctx 5); [2] calls mid [4] synchronously; [4]
   (ctx 1, then ctx 1 again) calls leaf [5] and then leaf [7] synchronously (ctx 7 each), which block on batch items *)
Theorem C06_stree_alternation_hypotheses_are_met :
  let P := c06s_P in
  let h := fst (create [] (FTask c06n_demo) (st0 P)) in
  let s1 := snd (create [] (FTask c06n_demo) (st0 P)) in
  let c k := run P k (start h s1) in
  let R t i := EvResume t i in let Z t i := EvPause t i in
  stree c06n_demo /\ wns [] c06n_demo /\ pointwise P /\ no_unwind_b P 300 (start h s1) = true /\
  c_mode (c 300%nat) = MDone (Ok (VTuple [VInt 10; VInt 30])) /\
  filter isctx (rev (trace (c_st (c 300%nat)))) =
    [R [0] 0; R [1] 2; Z [1] 2; R [2] 5; R [4] 1; R [5] 7; Z [5] 7; R [5] 7; Z [5] 7; Z [4] 1; R [4] 1;
     R [7] 7; Z [7] 7; R [7] 7; Z [7] 7; Z [4] 1; Z [2] 5; Z [0] 0; R [0] 0; R [1] 2; Z [1] 2; Z [0] 0] /\
  ctx_events [0] 0 (trace (c_st (c 300%nat))) = [R [0] 0; Z [0] 0; R [0] 0; Z [0] 0] /\
  ctx_events [4] 1 (trace (c_st (c 300%nat))) = [R [4] 1; Z [4] 1; R [4] 1; Z [4] 1] /\
  ctx_events [5] 7 (trace (c_st (c 300%nat))) = [R [5] 7; Z [5] 7; R [5] 7; Z [5] 7] /\
  ctx_events [2] 5 (trace (c_st (c 300%nat))) = [R [2] 5; Z [2] 5] /\
  map (fun k => (k, fvals (c_frames (c k)), tasks (c_st (c k))))
      (filter (fun k => match c_mode (c k) with MAfterExec => true | _ => false end) (seq 0 300)) =
    [(39%nat, [[4]; [2]], [[4]; [2]; [0]]); (48%nat, [[4]; [2]], [[4]; [2]; [0]]); (65%nat, [[4]; [2]], [[4]; [2]; [0]]);
     (74%nat, [[4]; [2]], [[4]; [2]; [0]]); (81%nat, [[2]], [[2]; [0]]); (89%nat, [], []); (105%nat, [], [])]%Z /\
  filter isctx (rev (trace (c_st (c 39%nat)))) = [R [0] 0; R [1] 2; Z [1] 2; R [2] 5; R [4] 1; R [5] 7; Z [5] 7].
Proof. exact c06n_demo_runs. Qed.
Print Assumptions C06_stree_alternation_hypotheses_are_met.

Theorem C06_stree_alternation_demo_is_not_tree : ~ tree c06n_demo /\ ~ wn [] c06n_demo.
Proof. exact c06n_demo_not_tree. Qed.
Print Assumptions C06_stree_alternation_demo_is_not_tree.

(* ==== the same WITHOUT an assumption about exceptions unwinding (proofs/MachineNoUnwind.v) ====
   [no_unwind] is replaced by "the MAX_TASK_STACK_SIZE guard has not fired before step n":
   forall k < n, guard_fires P (run P k c0) = false, where guard_fires is the boolean test at the head of the
   _execute loop in Machine.step.  For tree programs under a pointwise service the two say the same:
   FutureIsAlreadyComputed is proved unreachable, so the guard's RuntimeError is the only exception that can
   unwind through asynq's frames. *)
Theorem C06_contexts_paused_at_every_flush_tree_guard : forall P, pointwise P -> forall p, tree p -> forall n,
  let h := fst (create [] (FTask p) (st0 P)) in
  let s1 := snd (create [] (FTask p) (st0 P)) in
  (forall k, (k < n)%nat -> guard_fires P (run P k (start h s1)) = false) ->
  c_mode (run P n (start h s1)) = MAfterExec ->
  forall u tk, get u (c_st (run P n (start h s1))) = Some (mkFut None (KTask tk)) ->
    tk_cact tk = false /\ tk_ds tk = false.
Proof. exact (fun P HP p Ht n Hg =>
  contexts_paused_at_flush_tree P HP p Ht n (tree_no_unwind_iff_guard_silent P HP p Ht n Hg)). Qed.
Print Assumptions C06_contexts_paused_at_every_flush_tree_guard.

Theorem C06_contexts_active_while_own_code_runs_tree_guard : forall P, pointwise P -> forall p, tree p -> forall n t q,
  let h := fst (create [] (FTask p) (st0 P)) in
  let s1 := snd (create [] (FTask p) (st0 P)) in
  (forall k, (k < n)%nat -> guard_fires P (run P k (start h s1)) = false) ->
  c_mode (run P n (start h s1)) = MRun t q ->
  (exists tk, get t (c_st (run P n (start h s1))) = Some (mkFut None (KTask tk)) /\ tk_cact tk = true) /\
  (forall u tk, get u (c_st (run P n (start h s1))) = Some (mkFut None (KTask tk)) -> tk_cact tk = true ->
     In u (tasks (c_st (run P n (start h s1))))).
Proof. exact (fun P HP p Ht n t q Hg =>
  contexts_active_while_running_tree P HP p Ht n t q (tree_no_unwind_iff_guard_silent P HP p Ht n Hg)). Qed.
Print Assumptions C06_contexts_active_while_own_code_runs_tree_guard.

Theorem C06_resume_pause_alternate_guard : forall P, pointwise P -> forall p, tree p -> wn [] p -> forall n t cid,
  let h := fst (create [] (FTask p) (st0 P)) in
  let s1 := snd (create [] (FTask p) (st0 P)) in
  (forall k, (k < n)%nat -> guard_fires P (run P k (start h s1)) = false) ->
  alternates t cid true (ctx_events t cid (trace (c_st (run P n (start h s1))))).
Proof. exact (fun P HP p Ht Hw n t cid Hg =>
  resume_pause_alternate_tree P HP p Ht Hw n t cid (tree_no_unwind_iff_guard_silent P HP p Ht n Hg)). Qed.
Print Assumptions C06_resume_pause_alternate_guard.

Theorem C06_run_case_resume_pause_alternate_guard : forall P p n t cid,
  pointwise P -> tree p -> wn [] p ->
  (forall k, (k < n)%nat -> guard_fires P (run P k
     (start (fst (create [] (FTask p) (st0 P))) (snd (create [] (FTask p) (st0 P))))) = false) ->
  alternates t cid true (filter (evk t cid) (snd (run_case P n [p]))).
Proof. exact (fun P p n t cid HP Ht Hw Hg =>
  run_case_resume_pause_alternate P p n t cid HP Ht Hw (tree_no_unwind_iff_guard_silent P HP p Ht n Hg)). Qed.
Print Assumptions C06_run_case_resume_pause_alternate_guard.

Theorem C06_newest_is_resume_iff_active_guard : forall P, pointwise P -> forall p, tree p -> wn [] p -> forall n t cid,
  let h := fst (create [] (FTask p) (st0 P)) in
  let s1 := snd (create [] (FTask p) (st0 P)) in
  (forall k, (k < n)%nat -> guard_fires P (run P k (start h s1)) = false) ->
  let s := c_st (run P n (start h s1)) in
  (exists rest, filter (evk t cid) (trace s) = EvResume t cid :: rest) <->
  (exists tk f, get t s = Some (mkFut None (KTask tk)) /\ tk_cact tk = true /\ In (CAsync cid f) (tk_ctxs tk)).
Proof. exact (fun P HP p Ht Hw n t cid Hg =>
  newest_is_resume_iff_active_tree P HP p Ht Hw n t cid (tree_no_unwind_iff_guard_silent P HP p Ht n Hg)). Qed.
Print Assumptions C06_newest_is_resume_iff_active_guard.

Theorem C06_all_paused_at_flush_and_end_guard : forall P, pointwise P -> forall p, tree p -> wn [] p -> forall n t cid,
  let h := fst (create [] (FTask p) (st0 P)) in
  let s1 := snd (create [] (FTask p) (st0 P)) in
  (forall k, (k < n)%nat -> guard_fires P (run P k (start h s1)) = false) ->
  (c_mode (run P n (start h s1)) = MAfterExec \/ exists o, c_mode (run P n (start h s1)) = MDone o) ->
  match filter (evk t cid) (trace (c_st (run P n (start h s1)))) with [] => True | e :: _ => e = EvPause t cid end.
Proof. exact (fun P HP p Ht Hw n t cid Hg =>
  all_paused_at_flush_and_end_tree P HP p Ht Hw n t cid (tree_no_unwind_iff_guard_silent P HP p Ht n Hg)). Qed.
Print Assumptions C06_all_paused_at_flush_and_end_guard.

Theorem C06_resumed_while_own_code_runs_guard : forall P, pointwise P -> forall p, tree p -> wn [] p -> forall n t q,
  let h := fst (create [] (FTask p) (st0 P)) in
  let s1 := snd (create [] (FTask p) (st0 P)) in
  (forall k, (k < n)%nat -> guard_fires P (run P k (start h s1)) = false) ->
  c_mode (run P n (start h s1)) = MRun t q ->
  let s := c_st (run P n (start h s1)) in
  forall tk, get t s = Some (mkFut None (KTask tk)) -> forall cid f, In (CAsync cid f) (tk_ctxs tk) ->
    exists rest, filter (evk t cid) (trace s) = EvResume t cid :: rest.
Proof. exact (fun P HP p Ht Hw n t q Hg =>
  resumed_while_own_code_runs_tree P HP p Ht Hw n t q (tree_no_unwind_iff_guard_silent P HP p Ht n Hg)). Qed.
Print Assumptions C06_resumed_while_own_code_runs_guard.

Theorem C06_resumed_only_in_awaiting_tasks_guard : forall P, pointwise P -> forall p, tree p -> wn [] p -> forall n t q u cid,
  let h := fst (create [] (FTask p) (st0 P)) in
  let s1 := snd (create [] (FTask p) (st0 P)) in
  (forall k, (k < n)%nat -> guard_fires P (run P k (start h s1)) = false) ->
  c_mode (run P n (start h s1)) = MRun t q ->
  let s := c_st (run P n (start h s1)) in
  (exists rest, filter (evk u cid) (trace s) = EvResume u cid :: rest) -> reach s u t.
Proof. exact (fun P HP p Ht Hw n t q u cid Hg =>
  resumed_only_in_awaiting_tasks_tree P HP p Ht Hw n t q u cid (tree_no_unwind_iff_guard_silent P HP p Ht n Hg)). Qed.
Print Assumptions C06_resumed_only_in_awaiting_tasks_guard.

(* ==== the stree theorems WITHOUT an assumption about exceptions unwinding (proofs/MachineNoUnwind.v) ====
   [no_unwind P n (start h s1)] is replaced by "the MAX_TASK_STACK_SIZE guard has not fired before step n"; also with
   synchronous calls FutureIsAlreadyComputed is proved unreachable (stree_no_unwind_iff_guard_silent), so the guard's
   RuntimeError is the only exception that can unwind through asynq's frames.  Binders and conclusions are those of
   the theorems of the same name without the suffix _guard. *)
Theorem C06_contexts_at_every_flush_stree_guard : forall P, pointwise P -> forall p, stree p -> forall n,
  let h := fst (create [] (FTask p) (st0 P)) in
  let s1 := snd (create [] (FTask p) (st0 P)) in
  (forall k, (k < n)%nat -> guard_fires P (run P k (start h s1)) = false) ->
  c_mode (run P n (start h s1)) = MAfterExec ->
  let c := run P n (start h s1) in
  exists r vs, c_frames c = FWait r :: vs /\ stk (tasks (c_st c)) vs /\
    (forall t, In t (fvals vs) -> exists tk, get t (c_st c) = Some (mkFut None (KTask tk)) /\ tk_cact tk = true) /\
    (forall u tk, get u (c_st c) = Some (mkFut None (KTask tk)) -> tk_cact tk = true \/ tk_ds tk = true ->
       In u (tasks (c_st c)) /\ tk_cact tk = true /\ (In u (fvals vs) \/ tk_ds tk = true)).
Proof. exact (fun P HP p Ht n Hg => flush_stree P HP p Ht n (stree_no_unwind_iff_guard_silent P HP p Ht n Hg)). Qed.
Print Assumptions C06_contexts_at_every_flush_stree_guard.

Theorem C06_contexts_at_nested_flush_stree_guard : forall P, pointwise P -> forall p, stree p -> forall n r t k fr',
  let h := fst (create [] (FTask p) (st0 P)) in
  let s1 := snd (create [] (FTask p) (st0 P)) in
  (forall j, (j < n)%nat -> guard_fires P (run P j (start h s1)) = false) ->
  c_mode (run P n (start h s1)) = MAfterExec ->
  c_frames (run P n (start h s1)) = FWait r :: FValue t k :: fr' ->
  let s := c_st (run P n (start h s1)) in
  exists old i r' vs rest below,
    fr' = FCont t old :: FExec i :: FWait r' :: vs /\ tasks s = t :: rest ++ below /\ length below = i /\
    stk below vs /\
    (exists tk, get t s = Some (mkFut None (KTask tk)) /\ tk_cact tk = true) /\
    (forall u tk, get u s = Some (mkFut None (KTask tk)) -> tk_cact tk = true \/ tk_ds tk = true ->
       (u = t \/ In u (rest ++ below)) /\ tk_cact tk = true /\ (u = t \/ In u (fvals vs) \/ tk_ds tk = true)).
Proof. exact (fun P HP p Ht n r t k fr' Hg =>
  nested_flush_stree P HP p Ht n r t k fr' (stree_no_unwind_iff_guard_silent P HP p Ht n Hg)). Qed.
Print Assumptions C06_contexts_at_nested_flush_stree_guard.

Theorem C06_contexts_paused_at_outer_flush_stree_guard : forall P, pointwise P -> forall p, stree p -> forall n,
  let h := fst (create [] (FTask p) (st0 P)) in
  let s1 := snd (create [] (FTask p) (st0 P)) in
  (forall k, (k < n)%nat -> guard_fires P (run P k (start h s1)) = false) ->
  c_mode (run P n (start h s1)) = MAfterExec ->
  fvals (c_frames (run P n (start h s1))) = [] ->
  tasks (c_st (run P n (start h s1))) = [] /\
  forall u tk, get u (c_st (run P n (start h s1))) = Some (mkFut None (KTask tk)) ->
    tk_cact tk = false /\ tk_ds tk = false.
Proof. exact (fun P HP p Ht n Hg => outer_flush_stree P HP p Ht n (stree_no_unwind_iff_guard_silent P HP p Ht n Hg)). Qed.
Print Assumptions C06_contexts_paused_at_outer_flush_stree_guard.

Theorem C06_contexts_active_while_own_code_runs_stree_guard : forall P, pointwise P -> forall p, stree p -> forall n t q,
  let h := fst (create [] (FTask p) (st0 P)) in
  let s1 := snd (create [] (FTask p) (st0 P)) in
  (forall k, (k < n)%nat -> guard_fires P (run P k (start h s1)) = false) -> c_mode (run P n (start h s1)) = MRun t q ->
  let c := run P n (start h s1) in
  (exists rest, tasks (c_st c) = t :: rest) /\
  (forall x, x = t \/ In x (fvals (c_frames c)) ->
     exists tk, get x (c_st c) = Some (mkFut None (KTask tk)) /\ tk_cact tk = true) /\
  (forall u tk, get u (c_st c) = Some (mkFut None (KTask tk)) -> tk_cact tk = true ->
     In u (tasks (c_st c)) /\ (u = t \/ In u (fvals (c_frames c)) \/ tk_ds tk = true)).
Proof. exact (fun P HP p Ht n t q Hg =>
  running_stree P HP p Ht n t q (stree_no_unwind_iff_guard_silent P HP p Ht n Hg)). Qed.
Print Assumptions C06_contexts_active_while_own_code_runs_stree_guard.

Theorem C06_callers_stay_resumed_inside_value_guard : forall P, pointwise P -> forall p, stree p -> forall n t,
  let h := fst (create [] (FTask p) (st0 P)) in
  let s1 := snd (create [] (FTask p) (st0 P)) in
  (forall k, (k < n)%nat -> guard_fires P (run P k (start h s1)) = false) ->
  is_final (c_mode (run P n (start h s1))) = false ->
  In t (fvals (c_frames (run P n (start h s1)))) ->
  exists tk, get t (c_st (run P n (start h s1))) = Some (mkFut None (KTask tk)) /\ tk_cact tk = true.
Proof. exact (fun P HP p Ht n t Hg =>
  callers_stay_resumed P HP p Ht n t (stree_no_unwind_iff_guard_silent P HP p Ht n Hg)). Qed.
Print Assumptions C06_callers_stay_resumed_inside_value_guard.

Theorem C06_contexts_untouched_inside_value_guard : forall P p n m t, pointwise P -> stree p ->
  let h := fst (create [] (FTask p) (st0 P)) in
  let s1 := snd (create [] (FTask p) (st0 P)) in
  (forall j, (j < n + m)%nat -> guard_fires P (run P j (start h s1)) = false) ->
  (forall k, (n <= k < n + m)%nat -> In t (fvals (c_frames (run P k (start h s1))))) ->
  cevt t (c_st (run P (n + m) (start h s1))) = cevt t (c_st (run P n (start h s1))).
Proof. exact (fun P p n m t HP Ht Hg =>
  contexts_untouched_inside_value P p n m t HP Ht (stree_no_unwind_iff_guard_silent P HP p Ht (n + m) Hg)). Qed.
Print Assumptions C06_contexts_untouched_inside_value_guard.

Theorem C06_all_paused_at_end_stree_guard : forall P, pointwise P -> forall p, stree p -> forall n o,
  let h := fst (create [] (FTask p) (st0 P)) in
  let s1 := snd (create [] (FTask p) (st0 P)) in
  (forall k, (k < n)%nat -> guard_fires P (run P k (start h s1)) = false) -> c_mode (run P n (start h s1)) = MDone o ->
  tasks (c_st (run P n (start h s1))) = [] /\
  forall u tk, get u (c_st (run P n (start h s1))) = Some (mkFut None (KTask tk)) ->
    tk_cact tk = false /\ tk_ds tk = false.
Proof. exact (fun P HP p Ht n o Hg => end_stree P HP p Ht n o (stree_no_unwind_iff_guard_silent P HP p Ht n Hg)). Qed.
Print Assumptions C06_all_paused_at_end_stree_guard.

Theorem C06_resume_pause_alternate_stree_guard : forall P, pointwise P -> forall p, stree p -> wns [] p -> forall n t cid,
  let h := fst (create [] (FTask p) (st0 P)) in
  let s1 := snd (create [] (FTask p) (st0 P)) in
  (forall k, (k < n)%nat -> guard_fires P (run P k (start h s1)) = false) ->
  alternates t cid true (ctx_events t cid (trace (c_st (run P n (start h s1))))).
Proof. exact (fun P HP p Ht Hw n t cid Hg =>
  resume_pause_alternate_stree P HP p Ht Hw n t cid (stree_no_unwind_iff_guard_silent P HP p Ht n Hg)). Qed.
Print Assumptions C06_resume_pause_alternate_stree_guard.

Theorem C06_run_case_resume_pause_alternate_stree_guard : forall P p n t cid,
  pointwise P -> stree p -> wns [] p ->
  (forall k, (k < n)%nat -> guard_fires P (run P k
     (start (fst (create [] (FTask p) (st0 P))) (snd (create [] (FTask p) (st0 P))))) = false) ->
  alternates t cid true (filter (evk t cid) (snd (run_case P n [p]))).
Proof. exact (fun P p n t cid HP Ht Hw Hg =>
  run_case_resume_pause_alternate_stree P p n t cid HP Ht Hw (stree_no_unwind_iff_guard_silent P HP p Ht n Hg)). Qed.
Print Assumptions C06_run_case_resume_pause_alternate_stree_guard.

Theorem C06_newest_is_resume_iff_active_stree_guard : forall P, pointwise P -> forall p, stree p -> wns [] p -> forall n t cid,
  let h := fst (create [] (FTask p) (st0 P)) in
  let s1 := snd (create [] (FTask p) (st0 P)) in
  (forall k, (k < n)%nat -> guard_fires P (run P k (start h s1)) = false) ->
  let s := c_st (run P n (start h s1)) in
  (exists rest, filter (evk t cid) (trace s) = EvResume t cid :: rest) <->
  (exists tk f, get t s = Some (mkFut None (KTask tk)) /\ tk_cact tk = true /\ In (CAsync cid f) (tk_ctxs tk)).
Proof. exact (fun P HP p Ht Hw n t cid Hg =>
  newest_is_resume_iff_active_stree P HP p Ht Hw n t cid (stree_no_unwind_iff_guard_silent P HP p Ht n Hg)). Qed.
Print Assumptions C06_newest_is_resume_iff_active_stree_guard.

Theorem C06_all_paused_at_end_stree_trace_guard : forall P, pointwise P -> forall p, stree p -> wns [] p -> forall n t cid o,
  let h := fst (create [] (FTask p) (st0 P)) in
  let s1 := snd (create [] (FTask p) (st0 P)) in
  (forall k, (k < n)%nat -> guard_fires P (run P k (start h s1)) = false) -> c_mode (run P n (start h s1)) = MDone o ->
  match filter (evk t cid) (trace (c_st (run P n (start h s1)))) with [] => True | e :: _ => e = EvPause t cid end.
Proof. exact (fun P HP p Ht Hw n t cid o Hg =>
  all_paused_at_end_stree_events P HP p Ht Hw n t cid o (stree_no_unwind_iff_guard_silent P HP p Ht n Hg)). Qed.
Print Assumptions C06_all_paused_at_end_stree_trace_guard.

Theorem C06_resumed_at_flush_stree_guard : forall P, pointwise P -> forall p, stree p -> wns [] p -> forall n t cid,
  let h := fst (create [] (FTask p) (st0 P)) in
  let s1 := snd (create [] (FTask p) (st0 P)) in
  (forall k, (k < n)%nat -> guard_fires P (run P k (start h s1)) = false) ->
  c_mode (run P n (start h s1)) = MAfterExec ->
  let c := run P n (start h s1) in
  (exists rest, filter (evk t cid) (trace (c_st c)) = EvResume t cid :: rest) ->
  In t (tasks (c_st c)) /\
  exists tk, get t (c_st c) = Some (mkFut None (KTask tk)) /\ (In t (fvals (c_frames c)) \/ tk_ds tk = true).
Proof. exact (fun P HP p Ht Hw n t cid Hg =>
  resumed_at_flush_stree P HP p Ht Hw n t cid (stree_no_unwind_iff_guard_silent P HP p Ht n Hg)). Qed.
Print Assumptions C06_resumed_at_flush_stree_guard.

Theorem C06_all_paused_at_outer_flush_stree_trace_guard : forall P, pointwise P -> forall p, stree p -> wns [] p -> forall n t cid,
  let h := fst (create [] (FTask p) (st0 P)) in
  let s1 := snd (create [] (FTask p) (st0 P)) in
  (forall k, (k < n)%nat -> guard_fires P (run P k (start h s1)) = false) ->
  c_mode (run P n (start h s1)) = MAfterExec ->
  fvals (c_frames (run P n (start h s1))) = [] ->
  match filter (evk t cid) (trace (c_st (run P n (start h s1)))) with [] => True | e :: _ => e = EvPause t cid end.
Proof. exact (fun P HP p Ht Hw n t cid Hg =>
  all_paused_at_outer_flush_stree P HP p Ht Hw n t cid (stree_no_unwind_iff_guard_silent P HP p Ht n Hg)). Qed.
Print Assumptions C06_all_paused_at_outer_flush_stree_trace_guard.

Theorem C06_resumed_while_code_runs_stree_guard : forall P, pointwise P -> forall p, stree p -> wns [] p -> forall n t q x,
  let h := fst (create [] (FTask p) (st0 P)) in
  let s1 := snd (create [] (FTask p) (st0 P)) in
  (forall k, (k < n)%nat -> guard_fires P (run P k (start h s1)) = false) -> c_mode (run P n (start h s1)) = MRun t q ->
  let c := run P n (start h s1) in
  x = t \/ In x (fvals (c_frames c)) ->
  forall tk, get x (c_st c) = Some (mkFut None (KTask tk)) -> forall cid f, In (CAsync cid f) (tk_ctxs tk) ->
    exists rest, filter (evk x cid) (trace (c_st c)) = EvResume x cid :: rest.
Proof. exact (fun P HP p Ht Hw n t q x Hg =>
  resumed_while_code_runs_stree P HP p Ht Hw n t q x (stree_no_unwind_iff_guard_silent P HP p Ht n Hg)). Qed.
Print Assumptions C06_resumed_while_code_runs_stree_guard.

Theorem C06_caller_contexts_resumed_stree_guard : forall P, pointwise P -> forall p, stree p -> wns [] p -> forall n x,
  let h := fst (create [] (FTask p) (st0 P)) in
  let s1 := snd (create [] (FTask p) (st0 P)) in
  (forall k, (k < n)%nat -> guard_fires P (run P k (start h s1)) = false) ->
  is_final (c_mode (run P n (start h s1))) = false ->
  let c := run P n (start h s1) in
  In x (fvals (c_frames c)) ->
  exists tk, get x (c_st c) = Some (mkFut None (KTask tk)) /\
    forall cid f, In (CAsync cid f) (tk_ctxs tk) -> exists rest, filter (evk x cid) (trace (c_st c)) = EvResume x cid :: rest.
Proof. exact (fun P HP p Ht Hw n x Hg =>
  caller_contexts_resumed_stree P HP p Ht Hw n x (stree_no_unwind_iff_guard_silent P HP p Ht n Hg)). Qed.
Print Assumptions C06_caller_contexts_resumed_stree_guard.

Theorem C06_resumed_only_on_stack_stree_guard : forall P, pointwise P -> forall p, stree p -> wns [] p -> forall n t q u cid,
  let h := fst (create [] (FTask p) (st0 P)) in
  let s1 := snd (create [] (FTask p) (st0 P)) in
  (forall k, (k < n)%nat -> guard_fires P (run P k (start h s1)) = false) -> c_mode (run P n (start h s1)) = MRun t q ->
  let c := run P n (start h s1) in
  (exists rest, filter (evk u cid) (trace (c_st c)) = EvResume u cid :: rest) ->
  In u (tasks (c_st c)) /\
  (u = t \/ In u (fvals (c_frames c)) \/ exists tk, get u (c_st c) = Some (mkFut None (KTask tk)) /\ tk_ds tk = true).
Proof. exact (fun P HP p Ht Hw n t q u cid Hg =>
  resumed_only_on_stack_stree P HP p Ht Hw n t q u cid (stree_no_unwind_iff_guard_silent P HP p Ht n Hg)). Qed.
Print Assumptions C06_resumed_only_on_stack_stree_guard.

Theorem C06_resume_pause_alternate_stree_wn_guard : forall P p n t cid,
  pointwise P -> stree p -> wn [] p ->
  (forall k, (k < n)%nat -> guard_fires P (run P k
     (start (fst (create [] (FTask p) (st0 P))) (snd (create [] (FTask p) (st0 P))))) = false) ->
  alternates t cid true (ctx_events t cid (trace (c_st (run P n (start (fst (create [] (FTask p) (st0 P))) (snd (create [] (FTask p) (st0 P)))))))).
Proof. exact (fun P p n t cid HP Ht Hw Hg =>
  resume_pause_alternate_stree_wn P p n t cid HP Ht Hw (stree_no_unwind_iff_guard_silent P HP p Ht n Hg)). Qed.
Print Assumptions C06_resume_pause_alternate_stree_wn_guard.
