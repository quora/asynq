(* C12 — deduplicate: one in-flight execution per key, shared by all callers.
   Statements; the lemmas are in proofs/DedupProofs.v.
   `Repaired` = tools.py of /repo (the callback removes only its own task, a2ce350; the key keeps surplus
   positional arguments apart, 95f34cb); `AsWritten` = tools.py before these two commits; the two _refuted
   theorems show where it breaks the statement. *)
From Asynq Require Import Base Dedup proofs.DedupProofs.

(* T1.  From any state in which key k is registered to task t: over every sequence of actions
   (calls from anywhere, dirty() of other keys, bodies starting / suspending / completing) that
   contains no dirty() for k and not t's own completion, every call whose key is k and that is
   issued while t's body is not the running one returns t itself and creates nothing, and k stays
   registered to t. *)
Theorem C12_shared_while_in_flight : forall acts st k t,
  find k (reg st) = Some t -> all_harmless Repaired k t acts ->
  calls_share Repaired st k t acts /\ find k (reg (fst (run_micro Repaired st acts))) = Some t.
Proof. exact shared_while_in_flight. Qed.
Print Assumptions C12_shared_while_in_flight.

(* ... and such a registration is what the first call for a key establishes (satisfiability of
   T1's hypothesis; also the "runs the body again" half of T2) *)
Theorem C12_call_when_absent_creates : forall v st c k,
  key_of v c = Some k -> find k (reg st) = None -> bind_of c <> None ->
  exists st', micro v st (ACall c) = (st', MTask (length (pool st)) true) /\
              find k (reg st') = Some (length (pool st)) /\
              nth_error (pool st') (length (pool st)) = Some (new_task k true).
Proof.
  intros v st c k Hk Hf Hb. unfold micro. rewrite Hk, Hf. destruct (bind_of c); [|congruence].
  eexists. split; [reflexivity|]. cbn. destruct (key_eq_dec k k); [|congruence]. split; [reflexivity|apply nth_new].
Qed.
Print Assumptions C12_call_when_absent_creates.

Theorem C12_shared_while_in_flight_as_written_refuted : ~ shared_statement AsWritten.
Proof. exact shared_as_written_refuted. Qed.
Print Assumptions C12_shared_while_in_flight_as_written_refuted.

(* T2.  In every reachable state a call hands out either a new task or a registered one that is in
   flight (never a completed one); completion of the registered task and dirty() both leave the key
   unregistered, so that (C12_call_when_absent_creates) the next call runs the body again. *)
Theorem C12_rerun_after_done_or_dirty : forall st, reach Repaired st ->
  (forall c st' t, micro Repaired st (ACall c) = (st', MTask t false) ->
     exists x, nth_error (pool st) t = Some x /\ Some (tkey x) = key_of Repaired c /\
               tstatus x <> Done /\ tstatus x <> Running) /\
  (forall k t o, find k (reg st) = Some t -> is_running st t = true ->
     find k (reg (fst (micro Repaired st (AFinish t o)))) = None) /\
  (forall c k, key_of Repaired c = Some k -> find k (reg (fst (micro Repaired st (ADirty c)))) = None).
Proof. exact rerun_after_done_or_dirty. Qed.
Print Assumptions C12_rerun_after_done_or_dirty.

(* T3.  Two calls anywhere in any history that receive the same task have the same key ... *)
Theorem C12_keys_disjoint : forall st c1 s1 t b1 acts c2 b2,
  reach Repaired st ->
  micro Repaired st (ACall c1) = (s1, MTask t b1) ->
  snd (micro Repaired (fst (run_micro Repaired s1 acts)) (ACall c2)) = MTask t b2 ->
  key_of Repaired c1 = key_of Repaired c2.
Proof. exact keys_disjoint. Qed.
Print Assumptions C12_keys_disjoint.

(* ... and keys differ when the function object (another def statement, or another execution of
   the same def statement: a closure from a factory called again, a name defined again - equal
   __module__ and __qualname__), the thread or (for a method) the instance differs *)
Theorem C12_keys_differ : forall v c1 c2 k1 k2,
  key_of v c1 = Some k1 -> key_of v c2 = Some k2 ->
  (cfn c1 <> cfn c2 \/ cgen c1 <> cgen c2 \/ cthread c1 <> cthread c2 \/
   (cfn c1 = 4 /\ cfn c2 = 4 /\ cinst c1 <> cinst c2)) ->
  k1 <> k2.
Proof. exact keys_differ. Qed.
Print Assumptions C12_keys_differ.

(* T3 on tasks: in any history two calls of different function objects (in particular same-named
   ones), on different threads or of a method on different instances never receive the same task *)
Theorem C12_distinct_callables_never_share : forall st c1 s1 t1 b1 acts c2 t2 b2,
  reach Repaired st ->
  micro Repaired st (ACall c1) = (s1, MTask t1 b1) ->
  snd (micro Repaired (fst (run_micro Repaired s1 acts)) (ACall c2)) = MTask t2 b2 ->
  (cfn c1 <> cfn c2 \/ cgen c1 <> cgen c2 \/ cthread c1 <> cthread c2 \/
   (cfn c1 = 4 /\ cfn c2 = 4 /\ cinst c1 <> cinst c2)) ->
  t1 <> t2.
Proof.
  intros st c1 s1 t1 b1 acts c2 t2 b2 Hr H1 H2 Hd E. subst t2.
  pose proof (keys_disjoint _ _ _ _ _ _ _ _ Hr H1 H2) as Hk.
  destruct (key_of Repaired c1) as [k1|] eqn:E1.
  - symmetry in Hk. exact (keys_differ Repaired c1 c2 k1 k1 E1 Hk Hd eq_refl).
  - unfold micro in H1. rewrite E1 in H1. discriminate.
Qed.
Print Assumptions C12_distinct_callables_never_share.

(* ... and dirty() issued for one of them leaves the other's in-flight task registered (so by T1
   it keeps being shared) *)
Theorem C12_dirty_of_other_callable_keeps_task : forall st c0 k t c,
  key_of Repaired c0 = Some k -> find k (reg st) = Some t ->
  (cfn c0 <> cfn c \/ cgen c0 <> cgen c \/ cthread c0 <> cthread c \/
   (cfn c0 = 4 /\ cfn c = 4 /\ cinst c0 <> cinst c)) ->
  find k (reg (fst (micro Repaired st (ADirty c)))) = Some t.
Proof.
  intros st c0 k t c Hk Hf Hd. apply owner_preserved; [exact Hf|]. intros E.
  exact (keys_differ Repaired c0 c k k Hk E Hd eq_refl).
Qed.
Print Assumptions C12_dirty_of_other_callable_keeps_task.

(* T4.  Two well-formed spellings (Python's own binding succeeds) get the same key component iff
   they bind the same arguments: for every signature with the repaired keygetter, for signatures
   without *rest with the keygetter as written; with *rest the code as written collides. *)
Theorem C12_normalise_sound : forall s p1 k1 p2 k2 b1 b2,
  bind s p1 k1 = Some b1 -> bind s p2 k2 = Some b2 ->
  (keygetter Repaired s p1 k1 = keygetter Repaired s p2 k2 <-> b1 = b2).
Proof. exact normalise_sound. Qed.
Print Assumptions C12_normalise_sound.

Theorem C12_normalise_sound_as_written_no_varargs : forall s p1 k1 p2 k2 b1 b2,
  varargs s = false -> bind s p1 k1 = Some b1 -> bind s p2 k2 = Some b2 ->
  (keygetter AsWritten s p1 k1 = keygetter AsWritten s p2 k2 <-> b1 = b2).
Proof.
  intros s p1 k1 p2 k2 b1 b2 Hv H1 H2.
  assert (E : forall p k, keygetter AsWritten s p k = keygetter Repaired s p k) by (intros; unfold keygetter; rewrite Hv; reflexivity).
  rewrite !E. apply normalise_sound; assumption.
Qed.
Print Assumptions C12_normalise_sound_as_written_no_varargs.

Theorem C12_normalise_as_written_varargs_refuted :
  let s := sig_of 6 in
  exists p1 k1 p2 k2 b1 b2,
    bind s p1 k1 = Some b1 /\ bind s p2 k2 = Some b2 /\ b1 <> b2 /\
    keygetter AsWritten s p1 k1 = keygetter AsWritten s p2 k2.
Proof.
  exists [AInt 1; AInt 2], [], [AInt 1], [(N_D, AInt 2)].
  eexists. eexists. split; [vm_compute; reflexivity|]. split; [vm_compute; reflexivity|].
  split; [discriminate|reflexivity].
Qed.
Print Assumptions C12_normalise_as_written_varargs_refuted.

(* The body of a task starts at most once, an outcome exists exactly when the task is Done, and
   once it exists no action changes the task: all holders of the task see that one outcome. *)
Theorem C12_body_once_one_outcome : forall v st t x, reach v st -> nth_error (pool st) t = Some x ->
  ((tstarts x <= 1)%nat /\ (tstatus x <> Created -> tstarts x = 1%nat) /\ (tout x <> None <-> tstatus x = Done)) /\
  (forall a o, tout x = Some o -> nth_error (pool (fst (micro v st a))) t = Some x).
Proof.
  intros v st t x H Hx. exact (conj (body_runs_once v st t x H Hx) (fun a o => outcome_stable v st a t x o H Hx)).
Qed.
Print Assumptions C12_body_once_one_outcome.

(* The executable driver evaluated by the correspondence (run_case) only ever acts through
   `micro`: every state it reaches is covered by the theorems above. *)
Theorem C12_driver_reachable : forall v scripts ops,
  reach v (core (loop v scripts (fuel_for scripts ops) ops d_init)).
Proof. intros v scripts ops. apply loop_reach. constructor. Qed.
Print Assumptions C12_driver_reachable.

(* ---- Scale: sharing does not depend on how many other keys are registered (the table of in-flight
   tasks is unbounded; an entry leaves it only by its own task's completion or dirty() of its key).

   Frame.  In every variant, whatever a key k maps to (a task, or nothing) is not changed by any
   sequence of actions that concern other keys: calls and dirty() with other keys, completions of
   tasks created for other keys, bodies starting and suspending (off_key / all_off_key in
   DedupProofs.v) - of any length. *)
Theorem C12_frame_other_keys : forall v acts st k,
  all_off_key v st k acts -> find k (reg (fst (run_micro v st acts))) = find k (reg st).
Proof.
  intros v acts. induction acts as [|a acts IH]; intros st k H; [reflexivity|].
  destruct H as [Ha Hr]. rewrite fst_run_micro_cons, (IH _ _ Hr). apply frame_step, Ha.
Qed.
Print Assumptions C12_frame_other_keys.

(* Registering other keys - any number of calls cs with keys different from k, every variant -
   never changes the task k maps to, and the next call for k (issued while t's body is not the
   running one) returns t itself and creates nothing. *)
Theorem C12_shared_whatever_else_is_registered : forall v cs st c k t,
  key_of v c = Some k -> find k (reg st) = Some t -> is_running st t = false ->
  Forall (fun c' => key_of v c' <> Some k) cs ->
  let st' := fst (run_micro v st (map ACall cs)) in
  find k (reg st') = Some t /\ micro v st' (ACall c) = (st', MTask t false).
Proof. exact shared_whatever_else_is_registered. Qed.
Print Assumptions C12_shared_whatever_else_is_registered.

(* The compact fan-out op of the driver (OFan / BFan: [fn.asynq(i) for i in range(lo, lo + n)]) is
   exactly its n calls performed one after the other through `micro` ... *)
Theorem C12_fan_is_calls : forall v d ctx th fn gen inst sp lo n,
  core (d_fan v d ctx th fn gen inst sp lo n)
  = fst (run_micro v (core d) (map ACall (fan_calls th fn gen inst sp lo n))).
Proof. exact fan_is_calls. Qed.
Print Assumptions C12_fan_is_calls.

(* ... its keys are pairwise distinct (n calls = n keys registered at the same time) ... *)
Theorem C12_fan_keys_distinct : forall v th fn gen inst sp lo i j ki kj,
  key_of v (fan_call th fn gen inst sp lo i) = Some ki ->
  key_of v (fan_call th fn gen inst sp lo j) = Some kj -> i <> j -> ki <> kj.
Proof. exact fan_keys_distinct. Qed.
Print Assumptions C12_fan_keys_distinct.

(* ... and for EVERY size n a key that is not one of the fan-out's keeps its task and is shared by
   the next call, *)
Theorem C12_shared_after_fan : forall v d ctx th fn gen inst sp lo n c k t,
  key_of v c = Some k -> find k (reg (core d)) = Some t -> is_running (core d) t = false ->
  (forall i, (i < Z.to_nat n)%nat -> key_of v (fan_call th fn gen inst sp lo i) <> Some k) ->
  let st' := core (d_fan v d ctx th fn gen inst sp lo n) in
  find k (reg st') = Some t /\ micro v st' (ACall c) = (st', MTask t false).
Proof.
  intros v d ctx th fn gen inst sp lo n c k t Hk Hf Hr Hn. cbv zeta. rewrite fan_is_calls.
  apply shared_whatever_else_is_registered; try assumption.
  apply Forall_forall. intros c' Hc. unfold fan_calls in Hc. apply in_map_iff in Hc.
  destruct Hc as (i & <- & Hi). apply in_seq in Hi. apply Hn. lia.
Qed.
Print Assumptions C12_shared_after_fan.

(* which is the case in particular when the fan-out is over another def statement, another
   generation of the same def, another thread or (method) another instance. *)
Theorem C12_fan_of_other_callable_off_key : forall v c k th fn gen inst sp lo,
  key_of v c = Some k ->
  (cfn c <> fn \/ cgen c <> gen \/ cthread c <> th \/ (cfn c = 4 /\ fn = 4 /\ cinst c <> inst)) ->
  forall i : nat, key_of v (fan_call th fn gen inst sp lo i) <> Some k.
Proof.
  intros v c k th fn gen inst sp lo Hk Hd i E.
  apply (keys_differ v c (fan_call th fn gen inst sp lo i) k k Hk E); [|reflexivity].
  unfold differ, fan_call. destruct (Z.eqb sp 1); exact Hd.
Qed.
Print Assumptions C12_fan_of_other_callable_off_key.

(* satisfiable: one key, then a fan-out of 64 keys of another function, then the first key in
   another spelling: 65 keys registered, the call returns task 0 *)
Example C12_example_fan :
  let c := mkCall 0 0 0 0 [AInt 1] [] in
  let d := d_call Repaired d_init (-1) c in
  let d' := d_fan Repaired d (-1) 0 1 0 0 0 0 64 in
  length (reg (core d')) = 65%nat /\
  snd (micro Repaired (core d') (ACall (mkCall 0 0 0 0 [] [(N_A, AInt 1)]))) = MTask 0 false.
Proof. vm_compute. split; reflexivity. Qed.

(* the hypotheses are satisfiable: a concrete history in which a second spelling shares and a call
   after completion gets a new task *)
Example C12_example_share :
  let c1 := mkCall 0 0 0 0 [AInt 1] [] in
  let c2 := mkCall 0 0 0 0 [] [(N_B, AInt 0); (N_A, AInt 1)] in
  snd (run_micro Repaired init [ACall c1; ARun 0; AGate 0; ACall c2; ARun 0; AFinish 0 (Ok (VInt 7)); ACall c1])
  = [MTask 0 true; MUnit; MUnit; MTask 0 false; MUnit; MUnit; MTask 1 true].
Proof. vm_compute. reflexivity. Qed.

(* two executions of one def statement (same module and qualname, different function objects):
   equal arguments on one thread give separate tasks, dirty() of one leaves the other shared *)
Example C12_example_generations :
  let c1 := mkCall 0 0 0 0 [AInt 1] [] in
  let c2 := mkCall 0 0 1 0 [AInt 1] [] in
  (cfn c1 <> cfn c2 \/ cgen c1 <> cgen c2 \/ cthread c1 <> cthread c2 \/
   (cfn c1 = 4 /\ cfn c2 = 4 /\ cinst c1 <> cinst c2)) /\
  snd (run_micro Repaired init [ACall c1; ACall c2; ADirty c2; ACall c1; ACall c2])
  = [MTask 0 true; MTask 1 true; MUnit; MTask 0 false; MTask 2 true].
Proof. split; [right; left; discriminate|vm_compute; reflexivity]. Qed.
