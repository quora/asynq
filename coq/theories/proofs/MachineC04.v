(* C04 on the scheduler machine (tree programs): a batch is flushed only when every uncompleted task
   reachable from the awaited computation has started and is stuck - blocked, directly or through other
   stuck tasks, on batch items whose batch is still pending and known to the scheduler.

   Route: a ghost set S of futures "settled in this _execute pass".  Members of S are never on the task
   stack; a settled task has started, has an uncomputed dependency in S and all its dependencies are
   computed or in S; a settled item belongs to a pending scheduled batch.  A grey stack entry (its
   dependencies are scheduled) has every dependency computed, settled or above it on the stack.  When
   the pass ends the root is computed or settled.  (A settled item is an item that is still uncomputed;
   that a flush computes every item of the flushed batch is C05_flush_answers_every_item.)
   The invariant is stated once, for one level of the wait_for nesting and over the notion of "settled"
   ([passG], [level_exec], [level_run]); here it is used for the outermost loop ([pass_ok]), in MachineC04S.v for nested loops. *)
From Asynq Require Import Machine Seq proofs.ProgProofs proofs.MachineFrame proofs.MachineC05 proofs.MachineC08 proofs.MachineHelpers
     proofs.MachineCases proofs.MachineC01 proofs.MachineC01S proofs.MachineDFS.

From Coq Require Import Permutation.

Definition Sset := fid -> Prop.

Definition uncomputed (s : st) (d : fid) : Prop := computed d s = false.

(* what it means to be settled *)
Definition S_ok (S : Sset) (s : st) (d : fid) : Prop :=
  (exists tk, get d s = Some (mkFut None (KTask tk)) /\ (1 <= tk_iter tk)%Z /\
              (exists e, In e (tk_deps tk) /\ S e) /\
              (forall e, In e (tk_deps tk) -> computed e s = true \/ S e)) \/
  (exists kind idx key a, get d s = Some (mkFut None (KItem kind idx key a))).

(* The dependency facts about task entries that the pass relies on.  dk_disj is the tree property: an uncomputed future
   is awaited by at most one uncompleted task, so a pushed dependency is not already on the stack for somebody else.
   dk_iter/dk_iter0 are here because a settled task must have started (S_ok) and only a started task has dependencies. *)
Record deps_ok (root : fid) (s : st) : Prop := {
  dk_alloc : forall p o tk d, get p s = Some (mkFut o (KTask tk)) -> In d (tk_deps tk) -> get d s <> None;
  dk_disj : forall p p' tk tk' d, get p s = Some (mkFut None (KTask tk)) -> get p' s = Some (mkFut None (KTask tk')) ->
              In d (tk_deps tk) -> In d (tk_deps tk') -> computed d s = false -> p = p';
  dk_nodup : forall p tk, get p s = Some (mkFut None (KTask tk)) -> NoDup (filter (fun d => negb (computed d s)) (tk_deps tk));
  dk_root : forall p o tk, get p s = Some (mkFut o (KTask tk)) -> ~ In root (tk_deps tk);
  dk_iter : forall p tk, get p s = Some (mkFut None (KTask tk)) -> tk_deps tk <> [] -> (1 <= tk_iter tk)%Z;
  dk_iter0 : forall p o tk, get p s = Some (mkFut o (KTask tk)) -> (0 <= tk_iter tk)%Z
}.

Lemma create_id parent f s :
  fst (create parent f s) = [top_next s] /\ top_next (snd (create parent f s)) = (top_next s + 1)%Z.
Proof. unfold create, alloc. destruct f; cbn; auto. Qed.

Lemma futs_app a b : futs (a ++ b) = futs a ++ futs b.
Proof. unfold futs. apply flat_map_app. Qed.

Definition ids_in (lo hi : Z) (l : list fid) : Prop := forall h, In h l -> exists n, h = [n] /\ (lo <= n < hi)%Z.

Lemma NoDup_app_ranges lo mid hi a b :
  NoDup a -> NoDup b -> ids_in lo mid a -> ids_in mid hi b -> NoDup (a ++ b).
Proof.
  intros Na Nb Ia Ib. induction Na as [|x a Hx Na IH]; [exact Nb|]. simpl. constructor.
  - intros Hin. apply in_app_or in Hin as [Hin|Hin]; [contradiction|].
    destruct (Ia x (or_introl eq_refl)) as (n & -> & Hn). destruct (Ib _ Hin) as (m & E & Hm). inversion E. lia.
  - apply IH. intros h Hh. apply Ia. right. exact Hh.
Qed.

Definition no_old (y : ystruct leaf) : Prop := forall l, In l (leaves y) -> forall h, l <> LOld h.

Lemma tree_no_old y : (forall l, In l (leaves y) -> tree_leaf l) -> no_old y.
Proof. intros H l Hl h ->. specialize (H _ Hl). inversion H. Qed.

Lemma stree_no_old y : (forall l, In l (leaves y) -> stree_leaf l) -> no_old y.
Proof. intros H l Hl h ->. specialize (H _ Hl). inversion H. Qed.

(* the futures of l were created between s and s': numbered from the counter of s up to that of s', none twice *)
Definition ids_new (s s' : st) (l : list rleaf) : Prop :=
  (top_next s <= top_next s')%Z /\ ids_in (top_next s) (top_next s') (futs l) /\ NoDup (futs l).

Lemma ids_new_none s l : futs l = [] -> ids_new s s l.
Proof. intros E. unfold ids_new. rewrite E. split; [lia|]. split; [intros h []|constructor]. Qed.

Lemma ids_new_app s s1 s2 a b : ids_new s s1 a -> ids_new s1 s2 b -> ids_new s s2 (a ++ b).
Proof.
  intros (L1 & I1 & N1) (L2 & I2 & N2). unfold ids_new. rewrite futs_app. split; [lia|]. split.
  - intros h Hh. apply in_app_or in Hh as [Hh|Hh]; [destruct (I1 h Hh) as (n & -> & Hn)|destruct (I2 h Hh) as (n & -> & Hn)];
      exists n; (split; [reflexivity|lia]).
  - apply (NoDup_app_ranges (top_next s) (top_next s1) (top_next s2)); auto.
Qed.

(* the list recursions inside [inst]: over the components of a tuple or list (pa, pb the identity) and over the
   values of a dict (pa, pb the second projection) *)
Lemma inst_ids_list {A B} (pa : A -> ystruct leaf) (pb : B -> ystruct rleaf) (mk : A -> ystruct rleaf -> B) parent
    (go : list A -> st -> list B * st) :
  (forall a x', pb (mk a x') = x') -> (forall s, go [] s = ([], s)) ->
  (forall a l s, go (a :: l) s = let '(x', s1) := inst parent (pa a) s in let '(l'', s2) := go l s1 in (mk a x' :: l'', s2)) ->
  forall l, Forall (fun a => forall s, no_old (pa a) ->
                      ids_new s (snd (inst parent (pa a) s)) (leaves (fst (inst parent (pa a) s)))) l ->
  forall s, (forall x, In x (flat_map (fun a => leaves (pa a)) l) -> forall h, x <> LOld h) ->
  ids_new s (snd (go l s)) (flat_map (fun b => leaves (pb b)) (fst (go l s))).
Proof.
  intros Hpb G0 G1 l IH. induction IH as [|a l Ha _ IHl]; intros s Ht.
  - rewrite G0. apply ids_new_none. reflexivity.
  - rewrite G1. cbn [flat_map] in Ht.
    pose proof (Ha s (fun z Hz => Ht z (in_or_app _ _ _ (or_introl Hz)))) as H1.
    destruct (inst parent (pa a) s) as [x' s1]. cbn [fst snd] in H1.
    pose proof (IHl s1 (fun z Hz => Ht z (in_or_app _ _ _ (or_intror Hz)))) as H2.
    destruct (go l s1) as [l'' s2]. cbn [fst snd flat_map] in *. rewrite Hpb. exact (ids_new_app s s1 s2 _ _ H1 H2).
Qed.

Lemma inst_idsS parent (y : ystruct leaf) : forall s,
  no_old y ->
  (top_next s <= top_next (snd (inst parent y s)))%Z /\
  ids_in (top_next s) (top_next (snd (inst parent y s))) (futs (leaves (fst (inst parent y s)))) /\
  NoDup (futs (leaves (fst (inst parent y s)))).
Proof.
  change (forall s, no_old y -> ids_new s (snd (inst parent y s)) (leaves (fst (inst parent y s)))).
  induction y as [| a | l IH | l IH | l IH] using ystruct_ind2; intros s Ht; unfold no_old in Ht.
  - apply ids_new_none. reflexivity.
  - destruct a as [f|h|]; [|destruct (Ht (LOld h) (or_introl eq_refl) h eq_refl)|apply ids_new_none; reflexivity].
    cbn [inst]. pose proof (create_id parent f s) as [E1 E2]. destruct (create parent f s) as [h s1]. cbn [fst snd] in *.
    subst h. unfold ids_new. rewrite E2. cbn. split; [lia|]. split.
    + intros h [<-|[]]. exists (top_next s). split; [reflexivity|lia].
    + constructor; [intros []|constructor].
  - rewrite leaves_tuple in Ht. cbn [inst]. match goal with |- context [(?g l s)] => set (go := g) end.
    pose proof (inst_ids_list (fun x => x) (fun x => x) (fun _ x => x) parent go (fun _ _ => eq_refl) (fun _ => eq_refl)
                  (fun _ _ _ => eq_refl) l IH s Ht) as H.
    destruct (go l s) as [l' s1]. cbn [fst snd] in *. rewrite leaves_tuple. exact H.
  - rewrite leaves_ylist in Ht. cbn [inst]. match goal with |- context [(?g l s)] => set (go := g) end.
    pose proof (inst_ids_list (fun x => x) (fun x => x) (fun _ x => x) parent go (fun _ _ => eq_refl) (fun _ => eq_refl)
                  (fun _ _ _ => eq_refl) l IH s Ht) as H.
    destruct (go l s) as [l' s1]. cbn [fst snd] in *. rewrite leaves_ylist. exact H.
  - rewrite leaves_ydict in Ht. cbn [inst]. match goal with |- context [(?g l s)] => set (go := g) end.
    pose proof (inst_ids_list snd snd (fun a x => (fst a, x)) parent go (fun _ _ => eq_refl) (fun _ => eq_refl)
                  (fun a _ _ => match a with (_, _) => eq_refl end) l IH s Ht) as H.
    destruct (go l s) as [l' s1]. cbn [fst snd] in *. rewrite leaves_ydict. exact H.
Qed.

Lemma inst_ids parent (y : ystruct leaf) s :
  (forall l, In l (leaves y) -> tree_leaf l) ->
  (top_next s <= top_next (snd (inst parent y s)))%Z /\
  ids_in (top_next s) (top_next (snd (inst parent y s))) (futs (leaves (fst (inst parent y s)))) /\
  NoDup (futs (leaves (fst (inst parent y s)))).
Proof. intros Ht. apply inst_idsS, tree_no_old, Ht. Qed.

Definition deps_step (s s' : st) : Prop :=
  (forall d, get d s <> None -> get d s' <> None) /\
  (forall d, computed d s = true -> computed d s' = true) /\
  (forall p o' tk', get p s' = Some (mkFut o' (KTask tk')) ->
     (get p s = None /\ tk_deps tk' = [] /\ (0 <= tk_iter tk')%Z) \/
     (exists o tk, get p s = Some (mkFut o (KTask tk)) /\ (o' = None -> o = None) /\
        (tk_deps tk' = tk_deps tk \/ tk_deps tk' = []) /\ (tk_iter tk <= tk_iter tk')%Z)).

Lemma deps_step_refl s : deps_step s s.
Proof.
  split; [auto|]. split; [auto|]. intros p o' tk' Hg. right. exists o', tk'. repeat split; auto. lia.
Qed.

Lemma deps_step_trans a b c : deps_step a b -> deps_step b c -> deps_step a c.
Proof.
  intros (A1 & A2 & A3) (B1 & B2 & B3). split; [auto|]. split; [auto|].
  intros p o' tk' Hg. destruct (B3 p o' tk' Hg) as [(N & D & I)|(o & tk & Hb & Ho & Hd & Hi)].
  - left. split; [|auto]. destruct (get p a) eqn:E; [|reflexivity]. exfalso. apply (A1 p); [rewrite E; discriminate|exact N].
  - destruct (A3 p o tk Hb) as [(N & D & I)|(o0 & tk0 & Ha & Ho0 & Hd0 & Hi0)].
    + left. split; [exact N|]. split; [destruct Hd as [Hd|Hd]; congruence|lia].
    + right. exists o0, tk0. split; [exact Ha|]. split; [auto|]. split; [|lia].
      destruct Hd as [Hd|Hd]; [rewrite Hd; exact Hd0|right; exact Hd].
Qed.

Lemma deps_step_view s s' : heap s' = heap s -> deps_step s s'.
Proof.
  intros Hh. assert (G : forall h, get h s' = get h s) by (intros h; unfold get; rewrite Hh; reflexivity).
  split; [intros d; rewrite G; auto|]. split; [intros d; unfold computed; rewrite G; auto|].
  intros p o' tk' Hg. rewrite G in Hg. right. exists o', tk'. repeat split; auto. lia.
Qed.

Lemma mono_unc s s' : (forall e, computed e s = true -> computed e s' = true) ->
  forall d, computed d s' = false -> computed d s = false.
Proof. intros M d H. destruct (computed d s) eqn:E; [rewrite (M d E) in H; discriminate|reflexivity]. Qed.

(* [mono_unc] for a step of the dependency relation *)
Lemma unc_mono s s' : deps_step s s' -> forall d, computed d s' = false -> computed d s = false.
Proof. intros (_ & M & _). exact (mono_unc s s' M). Qed.

(* a task entry of s' that has a dependency is the entry s had, up to its outcome and step count *)
Lemma deps_step_back s s' p o' tk' d : deps_step s s' -> get p s' = Some (mkFut o' (KTask tk')) -> In d (tk_deps tk') ->
  exists o tk, get p s = Some (mkFut o (KTask tk)) /\ (o' = None -> o = None) /\ tk_deps tk' = tk_deps tk /\ (tk_iter tk <= tk_iter tk')%Z.
Proof.
  intros (_ & _ & D3) Hg Hin. destruct (D3 p o' tk' Hg) as [(_ & E & _)|(o & tk & Hg0 & Ho & [Hd|Hd] & Hi)];
    [rewrite E in Hin; destruct Hin|exists o, tk; auto|rewrite Hd in Hin; destruct Hin].
Qed.

Lemma deps_step_new s s' u o tk : deps_step s s' -> get u s = None -> get u s' = Some (mkFut o (KTask tk)) -> tk_deps tk = [].
Proof. intros (_ & _ & D3) Hn Hg. destruct (D3 u o tk Hg) as [(_ & E & _)|(o0 & tk0 & Hg0 & _)]; [exact E|congruence]. Qed.

Lemma upd_entry_mono s s' x f f' : get x s = Some f -> upd_entry s s' x f' -> (f_out f <> None -> f_out f' <> None) ->
  forall d, computed d s = true -> computed d s' = true.
Proof.
  intros Hg (A & B & _) Ho d Hc. unfold computed in *. destruct (fid_eqb_spec d x) as [->|N]; [|rewrite B by exact N; exact Hc].
  rewrite A. rewrite Hg in Hc. destruct (f_out f); [|discriminate].
  destruct (f_out f'); [reflexivity|]. exfalso. apply Ho; [discriminate|reflexivity].
Qed.

(* one entry is replaced: an outcome once set stays; a task entry stays one, with the same or emptied dependencies *)
Lemma deps_step_entry s s' x f f' :
  get x s = Some f -> upd_entry s s' x f' -> (f_out f <> None -> f_out f' <> None) ->
  (forall tk', f_kind f' = KTask tk' -> exists tk, f_kind f = KTask tk /\
     (tk_deps tk' = tk_deps tk \/ tk_deps tk' = []) /\ (tk_iter tk <= tk_iter tk')%Z) ->
  deps_step s s'.
Proof.
  intros Hg U Ho Hk. pose proof (upd_entry_dom _ _ _ _ _ Hg U) as Dom.
  split; [intros d; apply Dom|]. split; [exact (upd_entry_mono s s' x f f' Hg U Ho)|]. destruct U as (A & B & _).
  intros p o2 tk2 Hg2. right. destruct (fid_eqb_spec p x) as [->|N].
  - rewrite A in Hg2. injection Hg2 as ->. destruct (Hk tk2 eq_refl) as (tk & Ek & Hd & Hi).
    destruct f as [o k]. cbn in Ek, Ho. subst k. exists o, tk. split; [exact Hg|]. split; [|auto].
    intros ->. destruct o; [exfalso; apply Ho; [discriminate|reflexivity]|reflexivity].
  - rewrite B in Hg2 by exact N. exists o2, tk2. repeat split; auto. lia.
Qed.

(* the entry of x is replaced by a task entry with the same or emptied dependencies *)
Lemma deps_step_upd s s' x o tk o' tk' :
  get x s = Some (mkFut o (KTask tk)) -> upd_entry s s' x (mkFut o' (KTask tk')) ->
  (o' = None -> o = None) -> (tk_deps tk' = tk_deps tk \/ tk_deps tk' = []) -> (tk_iter tk <= tk_iter tk')%Z ->
  deps_step s s'.
Proof.
  intros Hg U Ho Hd Hi. apply (deps_step_entry s s' x _ _ Hg U); cbn.
  - intros H E. apply H, Ho, E.
  - intros tk2 E. injection E as <-. exists tk. auto.
Qed.

Lemma NoDup_filter_weaken {A} (f g : A -> bool) (l : list A) :
  (forall x, g x = true -> f x = true) -> NoDup (filter f l) -> NoDup (filter g l).
Proof.
  intros H. induction l as [|x l IH]; [auto|]. cbn. destruct (g x) eqn:Eg.
  - rewrite (H x Eg). intros N. inversion N; subst. constructor; [|auto].
    intros Hin. apply filter_In in Hin as [Hin Hgx]. apply H2. apply filter_In. split; [exact Hin|apply H; exact Hgx].
  - destruct (f x); intros N; [inversion N; auto|auto].
Qed.

Lemma deps_ok_along root s s' : deps_ok root s -> deps_step s s' -> deps_ok root s'.
Proof.
  intros [K1 K2 K3 K4 K5 K6] Hd. pose proof (unc_mono s s' Hd) as Hunc.
  constructor.
  - intros p o tk d Hg Hin. destruct (deps_step_back s s' p o tk d Hd Hg Hin) as (o0 & tk0 & Hg0 & _ & E & _).
    rewrite E in Hin. apply (proj1 Hd). apply (K1 p o0 tk0 d Hg0 Hin).
  - intros p p' tk tk' d Hg Hg' Hin Hin' Hc.
    destruct (deps_step_back s s' p None tk d Hd Hg Hin) as (o0 & tk0 & Hg0 & Ho0 & E & _).
    destruct (deps_step_back s s' p' None tk' d Hd Hg' Hin') as (o1 & tk1 & Hg1 & Ho1 & E1 & _).
    rewrite E in Hin. rewrite E1 in Hin'. rewrite (Ho0 eq_refl) in Hg0. rewrite (Ho1 eq_refl) in Hg1.
    apply (K2 p p' tk0 tk1 d Hg0 Hg1 Hin Hin' (Hunc d Hc)).
  - intros p tk Hg. destruct (tk_deps tk) as [|d l] eqn:El; [constructor|].
    destruct (deps_step_back s s' p None tk d Hd Hg) as (o0 & tk0 & Hg0 & Ho0 & E & _); [rewrite El; left; reflexivity|].
    rewrite <- El, E. rewrite (Ho0 eq_refl) in Hg0.
    apply (NoDup_filter_weaken (fun d => negb (computed d s))); [|apply (K3 p tk0 Hg0)].
    intros x Hx. apply negb_true_iff in Hx. apply negb_true_iff. apply Hunc. exact Hx.
  - intros p o tk Hg Hin. destruct (deps_step_back s s' p o tk root Hd Hg Hin) as (o0 & tk0 & Hg0 & _ & E & _).
    rewrite E in Hin. apply (K4 p o0 tk0 Hg0 Hin).
  - intros p tk Hg Hne. destruct (tk_deps tk) as [|d l] eqn:El; [congruence|].
    destruct (deps_step_back s s' p None tk d Hd Hg) as (o0 & tk0 & Hg0 & Ho0 & E & Hi); [rewrite El; left; reflexivity|].
    rewrite (Ho0 eq_refl) in Hg0. assert (Hne0 : tk_deps tk0 <> []) by (rewrite <- E, El; discriminate).
    pose proof (K5 p tk0 Hg0 Hne0). lia.
  - intros p o tk Hg. destruct Hd as (_ & _ & D3). destruct (D3 p o tk Hg) as [(_ & _ & I)|(o0 & tk0 & Hg0 & _ & _ & Hi)]; [exact I|].
    pose proof (K6 p o0 tk0 Hg0). lia.
Qed.

(* every allocated root keeps its dependency facts *)
Definition keeps_deps (s s' : st) : Prop := forall r, get r s <> None -> deps_ok r s -> get r s' <> None /\ deps_ok r s'.

Lemma deps_step_keeps s s' : deps_step s s' -> keeps_deps s s'.
Proof. intros Hd r Hr HD. split; [exact (proj1 Hd r Hr)|exact (deps_ok_along r s s' HD Hd)]. Qed.

(* creating futures only adds entries; a new task entry has no dependencies yet *)
Lemma deps_step_create parent f s : get [top_next s] s = None -> deps_step s (snd (create parent f s)) /\
  (forall h, get h s <> None -> get h (snd (create parent f s)) = get h s).
Proof.
  intros Hfresh. destruct (create_spec parent f s) as (_ & _ & Hoth & Hnew & _). cbn zeta in Hoth, Hnew.
  assert (Hold : forall x, get x s <> None -> get x (snd (create parent f s)) = get x s).
  { intros x Hx. apply Hoth. intros ->. congruence. }
  split; [|exact Hold]. split; [intros d Hd; rewrite Hold; auto|]. split.
  - intros d Hc. unfold computed in *. destruct (get d s) eqn:E; [|discriminate]. rewrite Hold; [rewrite E; exact Hc|rewrite E; discriminate].
  - intros p o' tk' Hg. destruct (fid_eqb_spec p [top_next s]) as [->|N].
    + left. rewrite Hnew in Hg. destruct f; inversion Hg. cbn. repeat split; [exact Hfresh|lia].
    + rewrite Hoth in Hg by exact N. right. exists o', tk'. repeat split; auto. lia.
Qed.

Definition grow (s s' : st) : Prop :=
  deps_step s s' /\ (forall h, get h s <> None -> get h s' = get h s).

Lemma grow_refl s : grow s s. Proof. split; [apply deps_step_refl|auto]. Qed.
Lemma grow_trans a b c : grow a b -> grow b c -> grow a c.
Proof.
  intros (A1 & A2) (B1 & B2). split; [eapply deps_step_trans; eauto|].
  intros h Hh. rewrite B2, A2; auto. rewrite A2; auto.
Qed.

Lemma grow_instS parent (y : ystruct leaf) s : above_free s -> grow s (snd (inst parent y s)).
Proof.
  intros Hf.
  apply (inst_pres (fun s' => grow s s' /\ above_free s')); [|split; [apply grow_refl|exact Hf]].
  intros p0 f s1 (G1 & F1). split; [|exact (proj1 (create_old p0 f s1 F1))].
  eapply grow_trans; [exact G1|]. apply deps_step_create. apply F1. lia.
Qed.

Lemma inst_alloc parent (y : ystruct leaf) s : above_free s -> no_old y ->
  forall h, In h (futs (leaves (fst (inst parent y s)))) -> get h (snd (inst parent y s)) <> None.
Proof.
  intros Hf Hno h Hin. destruct (inst_idsS parent y s Hno) as (_ & Hids & _). destruct (Hids h Hin) as (n & -> & Hn).
  clear Hin Hids. revert n Hn.
  apply (inst_pres (fun s' => above_free s' /\ forall n, (top_next s <= n < top_next s')%Z -> get [n] s' <> None)); [|split; [exact Hf|intros n Hn; lia]].
  intros p0 f s1 (F1 & A1). destruct (create_old p0 f s1 F1) as (F2 & O2). split; [exact F2|].
  intros n Hn. destruct (create_id p0 f s1) as [_ E2]. rewrite E2 in Hn.
  destruct (Z.eq_dec n (top_next s1)) as [->|N].
  - destruct (create_spec p0 f s1) as (_ & _ & _ & Hnew & _). cbn zeta in Hnew. rewrite Hnew. discriminate.
  - rewrite O2; apply A1; lia.
Qed.

(* a transition made while task t runs: only t's entry changes, new entries may appear, stack untouched *)
Definition frame_t (t : fid) (s s' : st) : Prop :=
  tasks s' = tasks s /\ deps_step s s' /\ (forall h, h <> t -> get h s <> None -> get h s' = get h s).

Lemma frame_t_refl t s : frame_t t s s.
Proof. split; [reflexivity|]. split; [apply deps_step_refl|auto]. Qed.

Lemma S_ok_alloc S s d : S_ok S s d -> get d s <> None.
Proof. intros [(tk & Hg & _)|(kind & idx & key & a & Hg)]; rewrite Hg; discriminate. Qed.

Lemma S_ok_task (S : Sset) s d tk : get d s = Some (mkFut None (KTask tk)) -> (1 <= tk_iter tk)%Z ->
  (exists e, In e (tk_deps tk) /\ S e) -> (forall e, In e (tk_deps tk) -> computed e s = true \/ S e) -> S_ok S s d.
Proof. intros Hg Hi He Ha. left. exists tk. auto. Qed.

Lemma S_ok_item (S : Sset) s d kind idx key a : get d s = Some (mkFut None (KItem kind idx key a)) -> S_ok S s d.
Proof. intros Hg. right. exists kind, idx, key, a. exact Hg. Qed.

(* as frame_t, except that t's own dependencies may change (a yield appends to them).
   grow implies frame_t for every t (frame_t_grow), frame_t implies frame_w (frame_t_w), frame_w implies MachineC04S.chg. *)
Definition frame_w (t : fid) (s s' : st) : Prop :=
  tasks s' = tasks s /\
  (forall d, get d s <> None -> get d s' <> None) /\
  (forall d, computed d s = true -> computed d s' = true) /\
  (forall h, h <> t -> get h s <> None -> get h s' = get h s) /\
  (forall u tk, u <> t -> get u s = None -> get u s' = Some (mkFut None (KTask tk)) -> tk_deps tk = []).

Lemma frame_t_w t s s' : frame_t t s s' -> frame_w t s s'.
Proof.
  intros (Ft & (Dom & Mono & New) & Fo). split; [exact Ft|]. split; [exact Dom|]. split; [exact Mono|]. split; [exact Fo|].
  intros u tk _ Hn Hg. exact (deps_step_new s s' u None tk (conj Dom (conj Mono New)) Hn Hg).
Qed.

Lemma frame_t_grow t s s' : grow s s' -> tasks s' = tasks s -> frame_t t s s'.
Proof. intros (G1 & G2) Ht. split; [exact Ht|]. split; [exact G1|]. intros h _ Hh. apply G2. exact Hh. Qed.

Lemma deps_step_tupd s s' x tk o' tk' :
  get x s = Some (mkFut None (KTask tk)) -> tupd s s' x o' tk' ->
  (tk_deps tk' = tk_deps tk \/ tk_deps tk' = []) -> (tk_iter tk <= tk_iter tk')%Z -> deps_step s s'.
Proof. intros Hg U. apply (deps_step_upd s s' x None tk o' tk' Hg (tupd_upd_entry _ _ _ _ _ U)). auto. Qed.

Lemma frame_t_tupd t s s' tk o' tk' :
  get t s = Some (mkFut None (KTask tk)) -> tupd s s' t o' tk' ->
  (tk_deps tk' = tk_deps tk \/ tk_deps tk' = []) -> (tk_iter tk <= tk_iter tk')%Z -> frame_t t s s'.
Proof.
  intros Hg U Hd Hi. split; [exact (tupd_tasks _ _ _ _ _ U)|]. split; [exact (deps_step_tupd s s' t tk o' tk' Hg U Hd Hi)|].
  intros h N _. apply (tupd_other _ _ _ _ _ U). exact N.
Qed.

Lemma split_cons {A} (x : A) ts above y below :
  x :: ts = above ++ y :: below ->
  (above = [] /\ y = x /\ below = ts) \/ (exists above', above = x :: above' /\ ts = above' ++ y :: below).
Proof.
  destruct above as [|a above']; cbn; intros H; inversion H; subst; [left; auto|right; eauto].
Qed.

Lemma split_app {A} (Pf old above : list A) y below :
  Pf ++ old = above ++ y :: below ->
  (exists above', above = Pf ++ above' /\ old = above' ++ y :: below) \/
  (exists p1 p2, Pf = p1 ++ y :: p2 /\ above = p1 /\ below = p2 ++ old).
Proof.
  revert above. induction Pf as [|a Pf IH]; intros above H; cbn in *.
  - left. exists above. auto.
  - destruct above as [|b above']; cbn in H; inversion H; subst.
    + right. exists [], Pf. auto.
    + destruct (IH above' H2) as [(a' & -> & E)|(p1 & p2 & E1 & E2 & E3)].
      * left. exists a'. auto.
      * right. exists (b :: p1), p2. subst. auto.
Qed.

Lemma NoDup_app_intro {A} (a b : list A) : NoDup a -> NoDup b -> (forall x, In x a -> ~ In x b) -> NoDup (a ++ b).
Proof.
  intros Na Nb H. induction Na as [|x a Hx Na IH]; [exact Nb|]. cbn. constructor.
  - intros Hin. apply in_app_or in Hin as [Hin|Hin]; [contradiction|]. apply (H x (or_introl eq_refl) Hin).
  - apply IH. intros y Hy. apply H. right. exact Hy.
Qed.

Lemma S_ok_mono (S S' : Sset) s s' d :
  S_ok S s d -> (forall e, S e -> S' e) -> get d s' = get d s -> (forall e, computed e s = true -> computed e s' = true) ->
  S_ok S' s' d.
Proof.
  intros [(tk & Hg & Hi & (e0 & He0 & Hs0) & Ha)|(kind & idx & key & a & Hg)] HS E M.
  - left. exists tk. rewrite E. split; [exact Hg|]. split; [exact Hi|]. split; [exists e0; auto|].
    intros e Hin. destruct (Ha e Hin); auto.
  - right. exists kind, idx, key, a. rewrite E. exact Hg.
Qed.

Definition S_add (S : Sset) (x : fid) : Sset := fun d => S d \/ d = x.

(* The pass invariant of one level of the wait_for nesting, over the notion [ok] of "settled" (MachineC04.S_ok for
   tree programs; with nested loops a settled item may meanwhile be computed).  [seg] is the segment of the task stack
   the level's _execute loop owns, [below] the stack underneath it (empty for the outermost loop); Rn are the tasks
   whose generator is executing (their entries are in flux: the grey and white clauses skip them), Un the universe of
   tasks the "white" clause talks about (everything for a live level; for the level of a caller suspended in value()
   only what is older than the callee).  pg_bottom: the awaited r is pushed first and popped last, so pg_end speaks
   when the segment is empty. *)
Section Pass.
  Variable ok : Sset -> st -> fid -> Prop.
  Hypothesis ok_same : forall (S S' : Sset) s s' d, ok S s d -> (forall e, S e -> S' e) -> get d s' = get d s ->
    (forall e, computed e s = true -> computed e s' = true) -> ok S' s' d.
  Hypothesis ok_alloc : forall S s d, ok S s d -> get d s <> None.

  Record passG (r : fid) (S : Sset) (Rn Un : fid -> Prop) (seg below : list fid) (s : st) : Prop := {
    pg_off : forall d, S d -> ~ In d (seg ++ below);
    pg_ok : forall d, S d -> ok S s d;
    pg_grey : forall above x rest tk, seg = above ++ x :: rest ->
                get x s = Some (mkFut None (KTask tk)) -> tk_ds tk = true -> ~ Rn x ->
                forall e, In e (tk_deps tk) -> computed e s = true \/ S e \/ In e above;
    pg_white : forall u tk, Un u -> get u s = Some (mkFut None (KTask tk)) -> tk_ds tk = false -> ~ Rn u -> ~ S u ->
                forall e, In e (tk_deps tk) -> computed e s = false -> ~ S e /\ ~ In e (seg ++ below);
    pg_nodup : NoDup (seg ++ below);
    pg_alloc : forall d, In d (seg ++ below) -> get d s <> None;
    pg_bottom : seg = [] \/ exists above, seg = above ++ [r];
    pg_end : seg = [] -> computed r s = true \/ S r
  }.

  (* one entry x changes (x is running, or is foreign to this level); new entries may appear, new tasks have no deps *)
  Lemma passG_chg r S Rn Un seg below x s s' :
    passG r S Rn Un seg below s -> (Rn x \/ (~ In x seg /\ ~ Un x)) -> ~ S x ->
      (forall d, get d s <> None -> get d s' <> None) -> (forall e, computed e s = true -> computed e s' = true) ->
      (forall h, h <> x -> get h s <> None -> get h s' = get h s) ->
      (forall u tk, u <> x -> get u s = None -> get u s' = Some (mkFut None (KTask tk)) -> tk_deps tk = []) ->
    passG r S Rn Un seg below s'.
  Proof.
    intros [K1 K2 K3 K4 K5 K6 K7 K8] Hx HSx Dom Mono Fo New.
    constructor.
    - exact K1.
    - intros d Hd. assert (Nd : d <> x) by (intros ->; contradiction).
      assert (Ad : get d s <> None) by (apply (ok_alloc S s); apply K2; exact Hd).
      apply (ok_same S S s s' d (K2 d Hd)); [auto|apply Fo; assumption|exact Mono].
    - intros above y rest tk Hseg Hg Hds Hr e He.
      assert (Ny : y <> x).
      { intros ->. destruct Hx as [Hx|[Hx _]]; [contradiction|]. apply Hx. rewrite Hseg. apply in_or_app. right. left. reflexivity. }
      assert (Ay : get y s <> None) by (apply K6; rewrite Hseg; apply in_or_app; left; apply in_or_app; right; left; reflexivity).
      rewrite (Fo y Ny Ay) in Hg. destruct (K3 above y rest tk Hseg Hg Hds Hr e He) as [H|[H|H]]; auto.
    - intros u tk HU Hg Hds Hr HSu e He Hc.
      assert (Nu : u <> x) by (intros ->; destruct Hx as [Hx|[_ Hx]]; contradiction).
      destruct (get u s) as [fu|] eqn:Eu.
      + rewrite (Fo u Nu) in Hg by (rewrite Eu; discriminate). rewrite Eu in Hg. inversion Hg; subst fu.
        apply (K4 u tk HU Eu Hds Hr HSu e He). apply (mono_unc s s' Mono). exact Hc.
      + rewrite (New u tk Nu Eu Hg) in He. destruct He.
    - exact K5.
    - intros d Hd. apply Dom. apply K6. exact Hd.
    - exact K7.
    - intros E. destruct (K8 E) as [H|H]; [left; apply Mono; exact H|right; exact H].
  Qed.

  Lemma passG_weaken r S (Rn Rn' Un Un' : fid -> Prop) seg below s :
    passG r S Rn Un seg below s -> (forall u, Rn u -> Rn' u) -> (forall u, Un' u -> Un u) -> passG r S Rn' Un' seg below s.
  Proof.
    intros [K1 K2 K3 K4 K5 K6 K7 K8] HR HU. constructor; auto.
    - intros above x rest tk Hseg Hg Hds Hr. apply (K3 above x rest tk Hseg Hg Hds). intros H. apply Hr, HR, H.
    - intros u tk Hu Hg Hds Hr. apply (K4 u tk (HU u Hu) Hg Hds). intros H. apply Hr, HR, H.
  Qed.

  (* popping the top entry x of the segment once it is computed (S unchanged) or settled (S := S + x) *)
  Lemma passG_pop r (S S' : Sset) Rn Un seg' below s s' x :
    passG r S Rn Un (x :: seg') below s ->
    (forall h, h <> x -> get h s' = get h s) -> (forall d, get d s <> None -> get d s' <> None) -> (forall e, computed e s = true -> computed e s' = true) ->
    ((S' = S /\ computed x s' = true) \/ (S' = S_add S x /\ ok S' s' x)) ->
    passG r S' Rn Un seg' below s'.
  Proof.
    intros [K1 K2 K3 K4 K5 K6 K7 K8] Hoth Hdom Hmono Hx.
    assert (Nx : ~ In x (seg' ++ below)) by (cbn [app] in K5; inversion K5; assumption).
    assert (HS : forall d, S d -> S' d) by (intros d Hd; destruct Hx as [[-> _]|[-> _]]; [exact Hd|left; exact Hd]).
    assert (HS' : forall d, S' d -> S d \/ d = x) by (intros d Hd; destruct Hx as [[-> _]|[-> _]]; [left; exact Hd|exact Hd]).
    assert (HSx : ~ S x) by (intros H; apply (K1 x H); left; reflexivity).
    constructor.
    - intros d Hd. destruct (HS' d Hd) as [H| ->]; [|exact Nx]. intros Hin. apply (K1 d H). right. exact Hin.
    - intros d Hd. destruct (HS' d Hd) as [H|E].
      + apply (ok_same S S' s s'); auto. apply Hoth. intros ->. contradiction.
      + subst d. destruct Hx as [[-> _]|[_ Hok]]; [contradiction|exact Hok].
    - intros above y rest tk Hseg Hg Hds Hr e He.
      assert (Ny : y <> x) by (intros ->; apply Nx; rewrite Hseg; apply in_or_app; left; apply in_or_app; right; left; reflexivity).
      rewrite (Hoth y Ny) in Hg.
      assert (Hold : x :: seg' = (x :: above) ++ y :: rest) by (rewrite Hseg; reflexivity).
      destruct (K3 (x :: above) y rest tk Hold Hg Hds Hr e He) as [H|[H|[H|H]]]; auto.
      subst e. destruct Hx as [[_ Hc]|[-> _]]; [left; exact Hc|right; left; right; reflexivity].
    - intros u tk HU Hg Hds Hr HSu e He Hc.
      destruct (fid_eqb_spec u x) as [->|Nu].
      + exfalso. destruct Hx as [[_ Hcx]|[-> _]].
        * rewrite (computed_get _ _ _ Hg) in Hcx. discriminate.
        * apply HSu. right. reflexivity.
      + rewrite (Hoth u Nu) in Hg.
        destruct (K4 u tk HU Hg Hds Hr (fun H => HSu (HS u H)) e He (mono_unc s s' Hmono e Hc)) as [H1 H2].
        split.
        * intros H. destruct (HS' e H) as [H3| ->]; [contradiction|]. apply H2. left. reflexivity.
        * intros H. apply H2. right. exact H.
    - cbn [app] in K5. inversion K5. assumption.
    - intros d Hd. apply Hdom. apply K6. right. exact Hd.
    - destruct K7 as [K7|(above & K7)]; [discriminate|].
      destruct above as [|a above']; cbn in K7; inversion K7; subst; [left; reflexivity|right; exists above'; reflexivity].
    - intros ->. destruct K7 as [K7|(above & K7)]; [discriminate|].
      destruct above as [|a above']; cbn in K7; inversion K7; subst.
      + destruct Hx as [[_ Hc]|[-> _]]; [left; exact Hc|right; right; reflexivity].
      + destruct above'; discriminate.
  Qed.

  (* first visit of a white blocked task x on top of the segment: it becomes grey, its uncomputed dependencies are pushed *)
  Lemma passG_push r (S : Sset) (Rn Un : fid -> Prop) seg' below s s' x tk tk' root0 :
    passG r S Rn Un (x :: seg') below s ->
    (forall y tky, get y s = Some (mkFut None (KTask tky)) -> tk_ds tky = true -> In y ((x :: seg') ++ below)) ->
    deps_ok root0 s -> (forall u, Un u) -> ~ Rn x ->
    get x s = Some (mkFut None (KTask tk)) -> tk_ds tk = false ->
    get x s' = Some (mkFut None (KTask tk')) -> tk_deps tk' = tk_deps tk -> tk_ds tk' = true ->
    (forall h, h <> x -> get h s' = get h s) -> (forall e, computed e s' = computed e s) ->
    passG r S Rn Un (rev (filter (fun d => negb (computed d s)) (tk_deps tk)) ++ x :: seg') below s'.
  Proof.
    intros [K1 K2 K3 K4 K5 K6 K7 K8] HF [D1 D2 D3 D4 D5 D6] HUn HRx Hg Hds Hg' Hdeps Hds' Hoth Hcomp.
    set (todo := filter (fun d => negb (computed d s)) (tk_deps tk)) in *.
    assert (HSx : ~ S x) by (intros H; apply (K1 x H); left; reflexivity).
    assert (Htodo : forall e, In e todo -> In e (tk_deps tk) /\ computed e s = false).
    { intros e He. apply filter_In in He as [H1 H2]. apply negb_true_iff in H2. auto. }
    assert (Hfree : forall e, In e todo -> ~ S e /\ ~ In e ((x :: seg') ++ below)).
    { intros e He. destruct (Htodo e He) as [H1 H2]. apply (K4 x tk (HUn x) Hg Hds HRx HSx e H1 H2). }
    assert (Hdom : forall h, get h s <> None -> get h s' <> None).
    { intros h Hh. destruct (fid_eqb_spec h x) as [->|N]; [rewrite Hg'; discriminate|rewrite Hoth by exact N; exact Hh]. }
    assert (Hmono : forall e, computed e s = true -> computed e s' = true) by (intros e; rewrite Hcomp; auto).
    assert (Happ : (rev todo ++ x :: seg') ++ below = rev todo ++ ((x :: seg') ++ below)) by (rewrite <- app_assoc; reflexivity).
    constructor.
    - intros d Hd. rewrite Happ. intros Hin. apply in_app_or in Hin as [Hin|Hin].
      + apply in_rev in Hin. destruct (Hfree d Hin) as [H _]. contradiction.
      + apply (K1 d Hd). exact Hin.
    - intros d Hd. apply (ok_same S S s s'); [apply K2; exact Hd|auto| |exact Hmono].
      apply Hoth. intros ->. contradiction.
    - intros above y rest tky Hsplit Hgy Hdsy Hry e He.
      destruct (split_app _ _ _ _ _ Hsplit) as [(above' & -> & Hold)|(p1 & p2 & Hp & -> & ->)].
      + destruct (split_cons _ _ _ _ _ Hold) as [(-> & -> & ->)|(a'' & -> & Hts)].
        * rewrite Hg' in Hgy. inversion Hgy; subst tky. rewrite Hdeps in He. rewrite Hcomp.
          destruct (computed e s) eqn:Ec; [left; reflexivity|]. right. right. rewrite app_nil_r. apply -> in_rev.
          apply filter_In. split; [exact He|]. rewrite Ec. reflexivity.
        * assert (Ny : y <> x).
          { intros ->. cbn [app] in K5. inversion K5. apply H1. rewrite Hts. apply in_or_app. left. apply in_or_app. right. left. reflexivity. }
          rewrite (Hoth y Ny) in Hgy.
          assert (Hold2 : x :: seg' = (x :: a'') ++ y :: rest) by (rewrite Hts; reflexivity).
          destruct (K3 (x :: a'') y rest tky Hold2 Hgy Hdsy Hry e He) as [H|[H|H]].
          -- left. rewrite Hcomp. exact H.
          -- right. left. exact H.
          -- right. right. apply in_or_app. right. exact H.
      + (* y is one of the pushed dependencies: it cannot be grey *)
        assert (Hy : In y todo) by (apply in_rev; rewrite Hp; apply in_or_app; right; left; reflexivity).
        destruct (Hfree y Hy) as [_ Hny].
        assert (Ny : y <> x) by (intros ->; apply Hny; left; reflexivity).
        rewrite (Hoth y Ny) in Hgy. exfalso. apply Hny. apply (HF y tky Hgy Hdsy).
    - intros u tku _ Hgu Hdsu Hru HSu e He Hc. rewrite Hcomp in Hc.
      assert (Nu : u <> x) by (intros ->; rewrite Hg' in Hgu; inversion Hgu; subst; congruence).
      rewrite (Hoth u Nu) in Hgu. destruct (K4 u tku (HUn u) Hgu Hdsu Hru HSu e He Hc) as [H1 H2].
      split; [exact H1|]. rewrite Happ. intros Hin. apply in_app_or in Hin as [Hin|Hin]; [|apply H2; exact Hin].
      apply in_rev in Hin. destruct (Htodo e Hin) as [H3 _]. apply Nu. apply (D2 u x tku tk e Hgu Hg He H3 Hc).
    - rewrite Happ. apply NoDup_app_intro.
      + apply NoDup_rev. apply (D3 x tk Hg).
      + exact K5.
      + intros e He. apply in_rev in He. destruct (Hfree e He) as [_ H]. exact H.
    - intros d Hd. rewrite Happ in Hd. apply in_app_or in Hd as [Hd|Hd].
      + apply in_rev in Hd. destruct (Htodo d Hd) as [H1 _]. apply Hdom. apply (D1 x None tk d Hg H1).
      + apply Hdom. apply K6. exact Hd.
    - right. destruct K7 as [K7|(above & K7)]; [discriminate|].
      exists (rev todo ++ above). rewrite K7, app_assoc. reflexivity.
    - intros E. apply app_eq_nil in E as [_ E]. discriminate.
  Qed.

  (* back in the pass: the task that ran is an ordinary (white) stack entry again *)
  Lemma passG_unrun r S (Rn Rn' Un : fid -> Prop) t rest below s s2 :
    passG r S Rn Un (t :: rest) below s -> (forall u, Rn u -> Rn' u \/ u = t) ->
    (forall tk, get t s = Some (mkFut None (KTask tk)) ->
         forall e, In e (tk_deps tk) -> computed e s = false -> ~ S e /\ ~ In e ((t :: rest) ++ below)) ->
    (forall h, h <> t -> get h s2 = get h s) -> (forall e, computed e s2 = computed e s) ->
    (get t s <> None -> get t s2 <> None) ->
    (forall tk', get t s2 = Some (mkFut None (KTask tk')) ->
       tk_ds tk' = false /\ exists tk, get t s = Some (mkFut None (KTask tk)) /\ tk_deps tk' = tk_deps tk) ->
    passG r S Rn' Un (t :: rest) below s2.
  Proof.
    intros [K1 K2 K3 K4 K5 K6 K7 K8] HR Har Hoth Hcomp Hdomt Hent.
    assert (HSt : ~ S t) by (intros H; apply (K1 t H); left; reflexivity).
    assert (Hmono : forall e, computed e s = true -> computed e s2 = true) by (intros e; rewrite Hcomp; auto).
    constructor.
    - exact K1.
    - intros d Hd. apply (ok_same S S s s2); [apply K2; exact Hd|auto| |exact Hmono].
      apply Hoth. intros ->. contradiction.
    - intros above x rest0 tk Hseg Hg Hds Hr e He. rewrite Hcomp.
      destruct (fid_eqb_spec x t) as [->|Nx].
      + destruct (Hent tk Hg) as [E1 _]. congruence.
      + rewrite (Hoth x Nx) in Hg.
        apply (K3 above x rest0 tk Hseg Hg Hds); [|exact He]. intros H. destruct (HR x H) as [H'|H']; [contradiction|contradiction].
    - intros u tk HU Hg Hds Hr HSu e He Hc. rewrite Hcomp in Hc.
      destruct (fid_eqb_spec u t) as [->|Nu].
      + destruct (Hent tk Hg) as (_ & tk0 & Hg0 & Hd0). rewrite Hd0 in He.
        apply (Har tk0 Hg0 e He Hc).
      + rewrite (Hoth u Nu) in Hg.
        apply (K4 u tk HU Hg Hds); [|exact HSu|exact He|exact Hc]. intros H. destruct (HR u H) as [H'|H']; contradiction.
    - exact K5.
    - intros d Hd. destruct (fid_eqb_spec d t) as [->|Nd]; [apply Hdomt|rewrite (Hoth d Nd)]; apply K6; exact Hd.
    - exact K7.
    - intros E. discriminate.
  Qed.
End Pass.

Definition pass_ok (root : fid) (S : Sset) (running : option fid) (s : st) : Prop :=
  passG S_ok root S (fun u => running = Some u) (fun _ => True) (tasks s) [] s.

Lemma pk_off root S r s : pass_ok root S r s -> forall d, S d -> ~ In d (tasks s).
Proof. intros H d Hd. rewrite <- (app_nil_r (tasks s)). exact (pg_off _ _ _ _ _ _ _ _ H d Hd). Qed.
Lemma pk_ok root S r s : pass_ok root S r s -> forall d, S d -> S_ok S s d.
Proof. exact (pg_ok _ _ _ _ _ _ _ _). Qed.
Lemma pk_nodup root S r s : pass_ok root S r s -> NoDup (tasks s).
Proof. intros H. rewrite <- (app_nil_r (tasks s)). exact (pg_nodup _ _ _ _ _ _ _ _ H). Qed.
Lemma pk_alloc root S r s : pass_ok root S r s -> forall d, In d (tasks s) -> get d s <> None.
Proof. intros H d Hd. apply (pg_alloc _ _ _ _ _ _ _ _ H). rewrite app_nil_r. exact Hd. Qed.
Lemma pk_end root S r s : pass_ok root S r s -> tasks s = [] -> computed root s = true \/ S root.
Proof. exact (pg_end _ _ _ _ _ _ _ _). Qed.

Lemma pass_ok_frame_w root S t s s' :
  pass_ok root S (Some t) s -> In t (tasks s) -> frame_w t s s' -> pass_ok root S (Some t) s'.
Proof.
  intros H Hin (Ft & Dom & Mono & Fo & New). unfold pass_ok. rewrite Ft.
  apply (passG_chg S_ok S_ok_mono S_ok_alloc _ _ _ _ _ _ t s s' H); auto. intros HS. exact (pk_off _ _ _ _ H t HS Hin).
Qed.

Lemma pass_ok_frame root S t s s' :
  pass_ok root S (Some t) s -> In t (tasks s) -> frame_t t s s' -> pass_ok root S (Some t) s'.
Proof. intros H Hin F. apply (pass_ok_frame_w root S t s s' H Hin). apply frame_t_w. exact F. Qed.

(* a task yields: its dependencies become (old ones, all computed) ++ (fresh, distinct futures) *)
Lemma deps_ok_yield root s s' t tk tk' (newd : list fid) :
  deps_ok root s ->
  get t s = Some (mkFut None (KTask tk)) -> upd_entry s s' t (mkFut None (KTask tk')) ->
  tk_deps tk' = tk_deps tk ++ newd -> (forall e, In e (tk_deps tk) -> computed e s = true) ->
  NoDup newd -> (forall e, In e newd -> get e s <> None /\ e <> root /\
                   forall p o tkp, get p s = Some (mkFut o (KTask tkp)) -> ~ In e (tk_deps tkp)) ->
  (1 <= tk_iter tk)%Z -> tk_iter tk' = tk_iter tk ->
  deps_ok root s'.
Proof.
  intros [K1 K2 K3 K4 K5 K6] Hg U Hd Hold Hnd Hnew Hi Hi'.
  pose proof (upd_entry_dom _ _ _ _ _ Hg U) as Dom. pose proof (upd_entry_computed s s' t None tk tk' Hg U) as Hcomp.
  destruct U as (A & B & _).
  assert (Hent : forall p o tkp, get p s' = Some (mkFut o (KTask tkp)) ->
            (p = t /\ o = None /\ tkp = tk') \/ (p <> t /\ get p s = Some (mkFut o (KTask tkp)))).
  { intros p o tkp Hp. destruct (fid_eqb_spec p t) as [->|N]; [rewrite A in Hp; inversion Hp; subst; left; auto|].
    rewrite B in Hp by exact N. right. auto. }
  constructor.
  - intros p o tkp d Hp Hin. apply Dom. destruct (Hent p o tkp Hp) as [(-> & -> & ->)|(N & Hp0)].
    + rewrite Hd in Hin. apply in_app_or in Hin as [Hin|Hin]; [apply (K1 t None tk d Hg Hin)|apply Hnew; exact Hin].
    + apply (K1 p o tkp d Hp0 Hin).
  - intros p p' tkp tkp' d Hp Hp' Hin Hin' Hc. rewrite Hcomp in Hc.
    destruct (Hent p None tkp Hp) as [(-> & _ & ->)|(N & Hp0)]; destruct (Hent p' None tkp' Hp') as [(-> & _ & ->)|(N' & Hp0')]; auto.
    + rewrite Hd in Hin. apply in_app_or in Hin as [Hin|Hin].
      * rewrite (Hold d Hin) in Hc. discriminate.
      * exfalso. destruct (Hnew d Hin) as (_ & _ & H). apply (H p' None tkp' Hp0' Hin').
    + rewrite Hd in Hin'. apply in_app_or in Hin' as [Hin'|Hin'].
      * rewrite (Hold d Hin') in Hc. discriminate.
      * exfalso. destruct (Hnew d Hin') as (_ & _ & H). apply (H p None tkp Hp0 Hin).
    + apply (K2 p p' tkp tkp' d Hp0 Hp0' Hin Hin' Hc).
  - intros p tkp Hp. destruct (Hent p None tkp Hp) as [(-> & _ & ->)|(N & Hp0)].
    + rewrite Hd, filter_app.
      assert (filter (fun d => negb (computed d s')) (tk_deps tk) = []) as ->.
      { clear - Hold Hcomp. induction (tk_deps tk) as [|e l IH]; [reflexivity|]. cbn. rewrite Hcomp, (Hold e (or_introl eq_refl)). cbn.
        apply IH. intros e' He'. apply Hold. right. exact He'. }
      cbn. apply NoDup_filter. exact Hnd.
    + apply (NoDup_filter_weaken (fun d => negb (computed d s))); [intros z; rewrite Hcomp; auto|apply (K3 p tkp Hp0)].
  - intros p o tkp Hp Hin. destruct (Hent p o tkp Hp) as [(-> & -> & ->)|(N & Hp0)].
    + rewrite Hd in Hin. apply in_app_or in Hin as [Hin|Hin]; [apply (K4 t None tk Hg Hin)|].
      destruct (Hnew root Hin) as (_ & H & _). congruence.
    + apply (K4 p o tkp Hp0 Hin).
  - intros p tkp Hp Hne. destruct (Hent p None tkp Hp) as [(-> & _ & ->)|(N & Hp0)]; [lia|apply (K5 p tkp Hp0 Hne)].
  - intros p o tkp Hp. destruct (Hent p o tkp Hp) as [(-> & -> & ->)|(N & Hp0)]; [pose proof (K6 t None tk Hg); lia|apply (K6 p o tkp Hp0)].
Qed.

Lemma not_blocked_done tk s : is_blocked tk s = false -> forall e, In e (tk_deps tk) -> computed e s = true.
Proof.
  unfold is_blocked. intros H e He. destruct (computed e s) eqn:E; [reflexivity|].
  assert (X : existsb (fun d => negb (computed d s)) (tk_deps tk) = true) by (apply existsb_exists; exists e; rewrite E; auto).
  congruence.
Qed.

Lemma blocked_witness tk s : is_blocked tk s = true -> exists e, In e (tk_deps tk) /\ computed e s = false.
Proof.
  unfold is_blocked. intros H. apply existsb_exists in H as (e & He & Hc). exists e. split; [exact He|]. apply negb_true_iff. exact Hc.
Qed.

Lemma blocked_intro tk s e : In e (tk_deps tk) -> computed e s = false -> is_blocked tk s = true.
Proof. intros He Hc. unfold is_blocked. apply existsb_exists. exists e. split; [exact He|]. rewrite Hc. reflexivity. Qed.

(* A yield of task t, all of whose earlier dependencies are computed: futures are created, then the entry of t gets the new
   continuation and the new dependencies appended.  What the pass invariant and the dependency facts need of it. *)
Lemma yield_frame t (y : ystruct leaf) s s2 tk tk2 :
  above_free s -> no_old y -> get t s = Some (mkFut None (KTask tk)) ->
  tupd (snd (inst t y s)) s2 t None tk2 ->
  tk_deps tk2 = tk_deps tk ++ futs (extract (fst (inst t y s))) -> tk_iter tk2 = tk_iter tk ->
  (forall e, In e (tk_deps tk) -> computed e s = true) -> (1 <= tk_iter tk)%Z ->
  frame_w t s s2 /\ (forall e, In e (futs (extract (fst (inst t y s)))) -> get e s = None) /\
  (forall e, In e (tk_deps tk) -> computed e s2 = true) /\
  keeps_deps s s2.
Proof.
  intros Hf Hno Hg U Hd Hi Hold Hit.
  pose proof (grow_instS t y s Hf) as (Gd & Go).
  pose proof (inst_idsS t y s Hno) as (Hle & Hids & Hnd).
  pose proof (inst_alloc t y s Hf Hno) as A.
  pose proof (tasks_of_regs _ _ (regs_inst t y s)) as Htk1.
  destruct (inst t y s) as [y' s1]. cbn [fst snd] in *.
  assert (Hg1 : get t s1 = Some (mkFut None (KTask tk))) by (rewrite Go; [exact Hg|rewrite Hg; discriminate]).
  set (newd := futs (extract y')) in *.
  assert (Hperm : Permutation newd (futs (leaves y'))) by (unfold newd, futs; apply Permutation_flat_map; apply extract_permutation).
  assert (Hfresh : forall e, In e newd -> get e s = None).
  { intros e He. apply (Permutation_in _ Hperm) in He. destruct (Hids e He) as (n & -> & Hn). apply Hf. lia. }
  assert (Hnew1 : forall e, In e newd -> get e s1 <> None) by (intros e He; apply A, (Permutation_in _ Hperm), He).
  assert (Hndn : NoDup newd) by (apply (Permutation_NoDup (Permutation_sym Hperm)); exact Hnd).
  pose proof (tupd_upd_entry _ _ _ _ _ U) as U2.
  pose proof (tupd_computed s1 s2 t tk tk2 Hg1 U) as Hc2.
  assert (Hold1 : forall e, In e (tk_deps tk) -> computed e s1 = true).
  { intros e He. destruct Gd as (_ & D2 & _). apply D2. apply (Hold e He). }
  pose proof (upd_entry_dom _ _ _ _ _ Hg1 U2) as Dom2.
  split; [|split; [exact Hfresh|split; [intros e He; rewrite Hc2; apply Hold1; exact He|]]].
  - destruct Gd as (D1 & D2 & D3). destruct U2 as (A2 & B2 & _).
    split; [rewrite (tupd_tasks _ _ _ _ _ U); exact Htk1|]. split; [intros d Hd0; apply Dom2; apply D1; exact Hd0|].
    split; [intros d Hd0; rewrite Hc2; apply D2; exact Hd0|].
    split; [intros h N Hh; rewrite B2 by exact N; apply Go; exact Hh|].
    intros u tku N Hn Hgu. rewrite B2 in Hgu by exact N. exact (deps_step_new s s1 u None tku (conj D1 (conj D2 D3)) Hn Hgu).
  - intros r Hroot HD.
    assert (HD1 : deps_ok r s1) by (apply (deps_ok_along r s); assumption).
    assert (Hroot1 : get r s1 <> None) by (destruct Gd as (D1 & _); apply D1; exact Hroot).
    split; [apply Dom2; exact Hroot1|].
    apply (deps_ok_yield r s1 s2 t tk tk2 newd HD1 Hg1 U2 Hd Hold1 Hndn); [|exact Hit|exact Hi].
    intros e He. split; [apply Hnew1; exact He|]. split.
    + intros ->. apply Hroot. apply Hfresh. exact He.
    + intros p0 o tkp Hp Hin. destruct (deps_step_back s s1 p0 o tkp e Gd Hp Hin) as (o0 & tk0 & Hg0 & _ & E & _).
      rewrite E in Hin. apply (dk_alloc r s HD p0 o0 tk0 e Hg0 Hin). apply Hfresh. exact He.
Qed.

Lemma item_steps_dom s s' : item_steps s s' -> forall h, get h s <> None -> get h s' <> None.
Proof. intros (_ & _ & H) h Hh. destruct (H h) as [E|(? & ? & ? & ? & _ & G')]; [rewrite E; exact Hh|rewrite G'; discriminate]. Qed.

Lemma deps_step_item_steps s s' : item_steps s s' -> deps_step s s'.
Proof.
  intros S. split; [exact (item_steps_dom s s' S)|]. split; [intros d; apply (item_steps_computed _ _ _ S)|].
  intros p o' tk' Hg. right. exists o', tk'. split; [exact (item_steps_task_back s s' S p o' tk' Hg)|].
  split; [auto|]. split; [left; reflexivity|lia].
Qed.

Lemma deps_ok_drop_sb root s : deps_ok root s -> deps_ok root (drop_sb s).
Proof. intros HD. apply (deps_ok_along root s _ HD), deps_step_view, heap_drop_sb. Qed.

Definition running_deps_done (s : st) (t : fid) : Prop :=
  forall tk, get t s = Some (mkFut None (KTask tk)) -> forall e, In e (tk_deps tk) -> computed e s = true.

(* One iteration of _execute, for one level of the wait_for nesting: the top x of the level's segment is popped (computed;
   or settled and added to S), or turns grey and has its uncomputed dependencies pushed, or is run. *)
Definition works_on (x : fid) (s s' : st) : Prop := deps_step s s' /\ forall h, h <> x -> get h s' = get h s.

Section Level.
  Variable ok : Sset -> st -> fid -> Prop.
  Hypothesis ok_same : forall (S S' : Sset) s s' d, ok S s d -> (forall e, S e -> S' e) -> get d s' = get d s ->
    (forall e, computed e s = true -> computed e s' = true) -> ok S' s' d.
  Hypothesis ok_alloc : forall S s d, ok S s d -> get d s <> None.
  Hypothesis ok_task : forall (S : Sset) s d tk, get d s = Some (mkFut None (KTask tk)) -> (1 <= tk_iter tk)%Z ->
    (exists e, In e (tk_deps tk) /\ S e) -> (forall e, In e (tk_deps tk) -> computed e s = true \/ S e) -> ok S s d.
  Hypothesis ok_item : forall (S : Sset) s d kind idx key a, get d s = Some (mkFut None (KItem kind idx key a)) -> ok S s d.

  Lemma level_exec P i fr' r (S : Sset) (Rn : fid -> Prop) seg below s c' :
    exec_case P i fr' s c' -> tasks s = seg ++ below -> length below = i ->
    passG ok r S Rn (fun _ => True) seg below s -> deps_ok r s ->
    (forall y tky, get y s = Some (mkFut None (KTask tky)) -> tk_ds tky = true -> In y (tasks s)) ->
    (forall x o, get x s = Some (mkFut o KOther) -> o <> None) ->
    (forall x seg0, seg = x :: seg0 -> ~ Rn x) ->
    match c_mode c' with
    | MAfterExec => seg = [] /\ c_st c' = s /\ c_frames c' = fr'
    | MExecLoop => c_frames c' = FExec i :: fr' /\ exists (S' : Sset) x seg0 seg', seg = x :: seg0 /\ works_on x s (c_st c') /\
        tasks (c_st c') = seg' ++ below /\ passG ok r S' Rn (fun _ => True) seg' below (c_st c') /\
        forall d, S' d -> S d \/ d = x
    | MResume x => exists seg0, c_frames c' = FCont x (active s) :: FExec i :: fr' /\ seg = x :: seg0 /\ works_on x s (c_st c') /\
        tasks (c_st c') = seg ++ below /\
        passG ok r S (fun u => u = x \/ Rn u) (fun _ => True) seg below (c_st c') /\
        running_deps_done (c_st c') x
    | MUnwind _ => True
    | _ => False
    end.
  Proof.
    intros HE Hts Hlen HPk HD HF Hoth HRn.
    assert (Htop : forall x ts, tasks s = x :: ts -> (i < length (tasks s))%nat -> exists seg0, seg = x :: seg0 /\ ts = seg0 ++ below).
    { intros x ts Hts0 Hlt. destruct seg as [|y seg0]; [cbn [app] in Hts; rewrite Hts in Hlt; lia|].
      rewrite Hts0 in Hts. cbn [app] in Hts. inversion Hts. exists seg0. auto. }
    (* popping x: the heap may have changed at x only *)
    assert (Hpop : forall x seg0 (S' : Sset) s2, seg = x :: seg0 -> works_on x s s2 -> tasks s2 = x :: seg0 ++ below ->
              ((S' = S /\ computed x s2 = true) \/ (S' = S_add S x /\ ok S' (pop_task s2) x)) ->
              exists (S' : Sset) x seg0 seg', seg = x :: seg0 /\ works_on x s (pop_task s2) /\
                tasks (pop_task s2) = seg' ++ below /\ passG ok r S' Rn (fun _ => True) seg' below (pop_task s2) /\
                forall d, S' d -> S d \/ d = x).
    { intros x seg0 S' s2 E (Hd & Hoth2) Ht2 Hx. exists S', x, seg0, seg0. split; [exact E|]. rewrite E in HPk.
      split; [split; [eapply deps_step_trans; [exact Hd|apply deps_step_view; reflexivity]|exact Hoth2]|].
      split; [cbn; rewrite Ht2; reflexivity|]. split.
      - exact (passG_pop ok ok_same r S S' _ _ seg0 below s (pop_task s2) x HPk Hoth2 (proj1 Hd) (proj1 (proj2 Hd)) Hx).
      - intros d Hd0. destruct Hx as [[-> _]|[-> _]]; [left; exact Hd0|exact Hd0]. }
    destruct HE as [Hle| |x ts Hts0 Hlt Hx|x ts kind idx key a Hts0 Hlt Hg|x ts o Hts0 Hlt Hg|x ts tk s2 Hts0 Hlt Hg Hb Hds U _|x ts tk s2 Hts0 Hlt Hg Hb Hds U _|x ts tk s2 Hts0 Hlt Hg Hb U _];
      cbn [c_mode c_st c_frames]; try exact I; try (destruct (Htop x ts Hts0 Hlt) as (seg0 & Eseg & ->); clear Htop).
    - split; [|split; reflexivity]. rewrite Hts, app_length, Hlen in Hle. destruct seg; [reflexivity|cbn in Hle; lia].
    - (* x is computed: an entry of another kind is computed, an unallocated id is not on the stack *)
      assert (Hcx : computed x s = true).
      { destruct Hx as [Hx|[Hx|(o & Hx)]]; [exact Hx|exfalso; apply (pg_alloc _ _ _ _ _ _ _ _ HPk x); [rewrite Eseg; left; reflexivity|exact Hx]|].
        unfold computed. rewrite Hx. destruct o; [reflexivity|]. destruct (Hoth x None Hx eq_refl). }
      split; [reflexivity|]. apply (Hpop x seg0 S s Eseg); [split; [apply deps_step_refl|auto]|exact Hts0|left; auto].
    - (* an uncomputed item is settled *)
      pose proof (heap_schedule_batch (kind, idx) s) as Hh.
      assert (G : forall h, get h (schedule_batch (kind, idx) s) = get h s) by (intros h; unfold get; rewrite Hh; reflexivity).
      split; [reflexivity|]. apply (Hpop x seg0 (S_add S x) (schedule_batch (kind, idx) s) Eseg).
      + split; [apply deps_step_view; exact Hh|intros h _; apply G].
      + rewrite (tasks_of_regs s); [exact Hts0|]. rewrite regs_schedule_batch. reflexivity.
      + right. split; [reflexivity|]. apply (ok_item _ _ _ kind idx key a). exact (eq_trans (G x) Hg).
    - split; [reflexivity|]. apply (Hpop x seg0 S (put x (mkFut (Some o) (KLazy o)) s) Eseg).
      + split; [|intros h N; apply get_put_other; exact N].
        apply (deps_step_entry s _ x _ _ Hg (upd_entry_put s x _)); cbn; [discriminate|intros tk' E; discriminate].
      + exact Hts0.
      + left. split; [reflexivity|]. unfold computed. rewrite get_put_same. reflexivity.
    - (* a grey blocked task is settled: each dependency is computed or settled, one of them settled *)
      pose proof (tupd_computed s s2 x tk _ Hg U) as Hcomp.
      split; [reflexivity|]. apply (Hpop x seg0 (S_add S x) s2 Eseg).
      + split; [apply (deps_step_tupd s s2 x tk None _ Hg U); [left; reflexivity|cbn; lia]|exact (tupd_other _ _ _ _ _ U)].
      + rewrite (tupd_tasks _ _ _ _ _ U). exact Hts0.
      + right. split; [reflexivity|]. destruct (blocked_witness tk s Hb) as (e0 & He0 & Hc0).
        assert (Hgrey : forall e, In e (tk_deps tk) -> computed e s = true \/ S e).
        { intros e He. destruct (pg_grey _ _ _ _ _ _ _ _ HPk [] x seg0 tk Eseg Hg Hds (HRn x seg0 Eseg) e He) as [H|[H|[]]]; auto. }
        apply (ok_task _ (pop_task s2) _ _ (tupd_get _ _ _ _ _ U)).
        * cbn. apply (dk_iter r s HD x tk Hg). intros E. rewrite E in He0. destruct He0.
        * exists e0. split; [exact He0|]. left. destruct (Hgrey e0 He0) as [H|H]; [congruence|exact H].
        * intros e He. destruct (Hgrey e He) as [H|H]; [left; exact (eq_trans (Hcomp e) H)|right; left; exact H].
    - (* first visit of a white blocked task *)
      pose proof (tupd_computed s s2 x tk _ Hg U) as Hcomp. pose proof (tupd_other _ _ _ _ _ U) as Hoth2. subst seg.
      split; [reflexivity|]. exists S, x, seg0, (rev (filter (fun d => negb (computed d s)) (tk_deps tk)) ++ x :: seg0). split; [reflexivity|].
      split; [split; [|exact Hoth2]|].
      { eapply deps_step_trans; [|apply deps_step_view; reflexivity]. apply (deps_step_tupd s s2 x tk None _ Hg U); [left; reflexivity|cbn; lia]. }
      split; [cbn [tasks with_tasks]; rewrite <- app_assoc; reflexivity|]. split; [|auto].
      apply (passG_push ok ok_same r S _ _ seg0 below s _ x tk (tk_flags tk true true) r HPk); try reflexivity; auto.
      + intros y tky Hgy Hdy. cbn [app]. rewrite <- Hts0. exact (HF y tky Hgy Hdy).
      + exact (HRn x seg0 eq_refl).
      + exact (tupd_get _ _ _ _ _ U).
    - (* not blocked: the task runs *)
      pose proof (tupd_other _ _ _ _ _ U) as Hoth2.
      assert (Hd2 : deps_step s s2) by (apply (deps_step_tupd s s2 x tk None _ Hg U); [left; reflexivity|cbn; lia]).
      exists seg0. split; [reflexivity|]. split; [exact Eseg|]. split; [split; [eapply deps_step_trans; [exact Hd2|apply deps_step_view; reflexivity]|exact Hoth2]|].
      split; [cbn [tasks with_active]; rewrite (tupd_tasks _ _ _ _ _ U), Hts0, Eseg; reflexivity|]. split.
      + apply (passG_chg ok ok_same ok_alloc r S _ _ _ _ x s _ (passG_weaken ok r S Rn _ _ _ seg below s HPk (fun u H => or_intror H) (fun u H => H))).
        * left. left. reflexivity.
        * intros H. apply (pg_off _ _ _ _ _ _ _ _ HPk x H). rewrite Eseg. left. reflexivity.
        * exact (proj1 Hd2).
        * exact (proj1 (proj2 Hd2)).
        * intros h N _. exact (Hoth2 h N).
        * intros u tku N Hn Hgu. change (get u (with_active s2 (Some x))) with (get u s2) in Hgu. rewrite (Hoth2 u N) in Hgu. congruence.
      + intros tk2 Hg2 e He. change (get x (with_active ?a ?b)) with (get x a) in Hg2. rewrite (tupd_get _ _ _ _ _ U) in Hg2.
        inversion Hg2; subst tk2. change (computed e (with_active ?a ?b)) with (computed e a).
        rewrite (tupd_computed s s2 x tk _ Hg U e). apply (not_blocked_done tk s Hb e He).
  Qed.
  (* One step of the generator of task t, the top of its level's segment, other than a synchronous call: only the entry
     of t changes and futures may be created (frame_w); the dependency facts survive for every allocated root; and what
     the next mode has to know of t's entry. *)
  Lemma level_run P t p fr r (S : Sset) Rn Un rest below s tk :
    stree p -> get t s = Some (mkFut None (KTask tk)) -> above_free s ->
    passG ok r S Rn Un (t :: rest) below s ->
    (forall e, In e (tk_deps tk) -> computed e s = true) -> (1 <= tk_iter tk)%Z ->
    (exists q k, p = Let (FTask q) (fun h => Sync h k) /\ stree q) \/
    exists m' s2, step P (mkC (MRun t p) fr s) = mkC m' fr s2 /\ frame_w t s s2 /\
      keeps_deps s s2 /\
      match m' with
      | MContRet => forall tk', get t s2 = Some (mkFut None (KTask tk')) ->
          forall e, In e (tk_deps tk') -> computed e s2 = false -> ~ S e /\ ~ In e ((t :: rest) ++ below)
      | MResume t' => t' = t /\ running_deps_done s2 t
      | MRun t' q => t' = t /\ stree q /\ running_deps_done s2 t /\
          (forall tk', get t s2 = Some (mkFut None (KTask tk')) -> (1 <= tk_iter tk')%Z)
      | _ => False
      end.
  Proof.
    intros Htree Hg Hfree HPk Hrd Hit.
    assert (Hupd : forall s2 o tk1, tupd s s2 t o tk1 -> (tk_deps tk1 = tk_deps tk \/ tk_deps tk1 = []) -> (tk_iter tk <= tk_iter tk1)%Z ->
              frame_w t s s2 /\ keeps_deps s s2).
    { intros s2 o tk1 U Hd Hi. pose proof (frame_t_tupd t s s2 tk o tk1 Hg U Hd Hi) as Fr.
      split; [exact (frame_t_w t s s2 Fr)|exact (deps_step_keeps s s2 (proj1 (proj2 Fr)))]. }
    (* the body ends: the entry becomes computed, nothing is left to say about its dependencies *)
    assert (Hfin : forall o, finishes p o -> exists s2, step P (mkC (MRun t p) fr s) = mkC MContRet fr s2 /\ frame_w t s s2 /\
              keeps_deps s s2 /\
              forall tk', get t s2 = Some (mkFut None (KTask tk')) ->
                forall e, In e (tk_deps tk') -> computed e s2 = false -> ~ S e /\ ~ In e ((t :: rest) ++ below)).
    { intros o Hf. destruct (step_run_finish P t fr s tk Hg p o Hf) as (s2 & E & U & _). exists s2. split; [exact E|].
      destruct (Hupd s2 _ _ U (or_intror eq_refl)) as (Fw & HDK); [cbn; lia|]. split; [exact Fw|]. split; [exact HDK|].
      intros tk' Hg'. rewrite (tupd_get _ _ _ _ _ U) in Hg'. discriminate. }
    (* the body goes on with q: same dependencies and step count *)
    assert (Hctx : forall q s2 tk1, tupd s s2 t None tk1 -> tk_deps tk1 = tk_deps tk -> tk_iter tk1 = tk_iter tk -> stree q ->
              frame_w t s s2 /\ keeps_deps s s2 /\
              t = t /\ stree q /\ running_deps_done s2 t /\
              (forall tk', get t s2 = Some (mkFut None (KTask tk')) -> (1 <= tk_iter tk')%Z)).
    { intros q s2 tk1 U Hd1 Hi1 Hq. destruct (Hupd s2 _ _ U (or_introl Hd1)) as (Fw & HDK); [lia|].
      split; [exact Fw|]. split; [exact HDK|]. split; [reflexivity|]. split; [exact Hq|].
      split; intros tk' Hg'; rewrite (tupd_get _ _ _ _ _ U) in Hg'; inversion Hg'; subst tk'; [|lia].
      intros e He. rewrite Hd1 in He. rewrite (tupd_computed s s2 t tk tk1 Hg U). exact (Hrd e He). }
    inversion Htree as [v Ev|v Ev|e Ev|y k Hl Hk Ev|c k Hc Hk Ev|c k Hc Hk Ev|q k Hq Hk Ev]; subst p.
    - right. destruct (Hfin _ (fin_ret v)) as (s2 & H). exists MContRet, s2. exact H.
    - right. destruct (Hfin _ (fin_result v)) as (s2 & H). exists MContRet, s2. exact H.
    - right. destruct (Hfin _ (fin_raise e)) as (s2 & H). exists MContRet, s2. exact H.
    - (* Yield: the new dependencies are fresh, hence neither settled nor on the stack *)
      right. destruct (step_run_yield P t fr s tk Hg y k Hfree) as (s2 & E & _ & U).
      destruct (yield_frame t y s s2 tk _ Hfree (stree_no_old y Hl) Hg U eq_refl eq_refl Hrd Hit) as (Fw & Hfresh & Hold2 & HDK).
      pose proof (tupd_get _ _ _ _ _ U) as Hg2. eexists _, s2. split; [exact E|]. split; [exact Fw|]. split; [exact HDK|].
      destruct (futs (extract (fst (inst t y s)))) as [|d0 dl]; cbv iota.
      + split; [reflexivity|]. intros tk' Hg' e He. rewrite Hg2 in Hg'. inversion Hg'; subst tk'.
        cbn [tk_deps] in He. rewrite app_nil_r in He. exact (Hold2 e He).
      + intros tk' Hg' e He Hc. rewrite Hg2 in Hg'. inversion Hg'; subst tk'. cbn [tk_deps] in He.
        apply in_app_or in He as [He'|He']; [rewrite (Hold2 e He') in Hc; discriminate|]. split.
        * intros HSe. apply (ok_alloc S s e); [apply (pg_ok _ _ _ _ _ _ _ _ HPk); exact HSe|apply Hfresh; exact He'].
        * intros Hin. apply (pg_alloc _ _ _ _ _ _ _ _ HPk e Hin). apply Hfresh. exact He'.
    - right. destruct (step_run_enter P t fr s tk Hg c k) as (s2 & E & U). exists (MRun t k), s2. split; [exact E|].
      exact (Hctx k s2 _ U eq_refl eq_refl Hk).
    - right. destruct (step_run_exit P t fr s tk Hg c k) as (s2 & E & U). exists (MRun t k), s2. split; [exact E|].
      exact (Hctx k s2 _ U eq_refl eq_refl Hk).
    - left. exists q, k. split; [reflexivity|exact Hq].
  Qed.
End Level.

Section C04.
  Variable P : params.
  Hypothesis HP : pointwise P.
  Variable root : fid.
  Variable res : outcome.

  Definition after_run (S : Sset) (s : st) (t : fid) : Prop :=
    forall tk, get t s = Some (mkFut None (KTask tk)) ->
      forall e, In e (tk_deps tk) -> computed e s = false -> ~ S e /\ ~ In e (tasks s).

  Definition stuck (S : Sset) (s : st) : Prop :=
    computed root s = true \/ (S root /\ forall d, S d -> S_ok S s d).

  Definition DL (spec : specmap) (S : Sset) (c : cfg) : Prop :=
    FL root res spec c /\
    match c_mode c with
    | MUnwind _ | MDone _ | MStuck => True
    | m => deps_ok root (c_st c) /\
      match m with
      | MExecLoop => pass_ok root S None (c_st c)
      | MResume t => pass_ok root S (Some t) (c_st c) /\ running_deps_done (c_st c) t
      | MRun t _ => pass_ok root S (Some t) (c_st c) /\ running_deps_done (c_st c) t /\
                    (forall tk, get t (c_st c) = Some (mkFut None (KTask tk)) -> (1 <= tk_iter tk)%Z)
      | MContRet => exists t rest, tasks (c_st c) = t :: rest /\ pass_ok root S (Some t) (c_st c) /\ after_run S (c_st c) t
      | MAfterExec => stuck S (c_st c)
      | _ => True
      end
    end.

  Lemma DL_CInv spec S c : DL spec S c -> CInv root res spec c.
  Proof. intros ((H & _) & _). exact H. Qed.

  Lemma DL_stack spec S c : DL spec S c ->
    match c_mode c with MUnwind _ | MDone _ | MStuck => True | _ => stack_ok root c end.
  Proof. intros ((_ & H) & _). destruct (c_mode c); try exact I; apply H. Qed.

  Lemma root_alloc spec c m : c_mode c = m -> CInv root res spec c ->
    match m with MUnwind _ | MDone _ | MStuck => True | _ => get root (c_st c) <> None end.
  Proof.
    intros Hm (_ & H). rewrite Hm in H. destruct m; try exact I; destruct H as (_ & _ & (o1 & tk1 & Hg) & _); rewrite Hg; discriminate.
  Qed.

  Lemma dl_MValue spec S h fr s : DL spec S (mkC (MValue h) fr s) -> DL spec S (step P (mkC (MValue h) fr s)).
  Proof.
    intros (HFL & HD & _). split; [apply fl_MValue; auto|].
    destruct HFL as ((Hr & Hf & HS & Ht & ->) & _). cbn in *. subst fr. cbn [step c_mode c_frames c_st].
    destruct (computed root s); [cbn; auto|]. destruct Ht as (out & tk & Hg). rewrite Hg. cbn. auto.
  Qed.

  Lemma dl_MDeliver spec S o fr s : DL spec S (mkC (MDeliver o) fr s) -> DL spec S (step P (mkC (MDeliver o) fr s)).
  Proof.
    intros (HFL & HD & _). split; [apply fl_MDeliver; auto|].
    destruct HFL as ((Hr & Hf & _) & _). cbn in Hf. subst fr. cbn. exact I.
  Qed.

  (* a new pass starts with nothing settled *)
  Lemma dl_MWaitHead spec S fr s : DL spec S (mkC MWaitHead fr s) ->
    exists S', DL spec S' (step P (mkC MWaitHead fr s)) /\ (computed root s = false -> forall d, ~ S' d).
  Proof.
    intros (HFL & HD & _). pose proof (fl_MWaitHead P root res spec fr s HFL) as HFL'.
    destruct HFL as ((Hr & Hf & HS & Ht & _) & HF & HK). cbn in Hf, HS, Ht, HF, HK. subst fr.
    cbn [step c_mode c_frames c_st] in *. destruct (computed root s) eqn:Hc.
    - exists S. split; [|intros E; discriminate]. split; [exact HFL'|]. cbn.
      split; [exact (deps_ok_drop_sb root s HD)|exact I].
    - exists (fun _ => False). split; [|intros _ d []]. split; [exact HFL'|]. cbn. split.
      + apply (deps_ok_along root s _ HD), deps_step_view. reflexivity.
      + destruct Ht as (o & tk & Hg).
        assert (o = None) as -> by (unfold computed in Hc; rewrite Hg in Hc; cbn in Hc; destruct o; [discriminate|reflexivity]).
        unfold pass_ok. cbn [tasks with_tasks]. rewrite HK. constructor; cbn [app].
        * intros d [].
        * intros d [].
        * intros above x below tkx Hst Hgx Hds _ e He. exfalso.
          destruct above as [|a above']; cbn in Hst; inversion Hst; subst; [|destruct above'; discriminate].
          change (get x (with_tasks s [x])) with (get x s) in Hgx. destruct (HF x tkx Hgx) as [Hfl _].
          rewrite HK in Hfl. destruct (Hfl (or_introl Hds)).
        * intros u tku _ Hgu Hds _ _ e He Hce. split; [intros []|]. intros [<-|[]].
          change (get u (with_tasks s [root])) with (get u s) in Hgu. apply (dk_root root s HD u None tku Hgu He).
        * constructor; [intros []|constructor].
        * intros d [<-|[]]. change (get root (with_tasks s [root])) with (get root s). rewrite Hg. discriminate.
        * right. exists []. reflexivity.
        * discriminate.
  Qed.

  Lemma dl_MAfterExec spec S fr s : DL spec S (mkC MAfterExec fr s) -> DL spec S (step P (mkC MAfterExec fr s)).
  Proof.
    intros (HFL & HD & _). split; [apply fl_MAfterExec; auto|].
    destruct HFL as ((_ & Hf & HS & _) & _). cbn in Hf, HS. subst fr. cbn [step c_mode c_frames c_st].
    destruct (computed root s); [cbn; split; [exact (deps_ok_drop_sb root s HD)|exact I]|]. cbn. split; [|exact I].
    apply (deps_ok_along root s _ HD).
    exact (deps_step_item_steps _ _ (continue_with_batch_item_steps P s HP (proj1 (proj2 HS)))).
  Qed.

  Lemma dl_MExecLoop spec S fr s : DL spec S (mkC MExecLoop fr s) ->
    exists S', DL spec S' (step P (mkC MExecLoop fr s)) /\ (forall d, S' d -> S d \/ exists ts, tasks s = d :: ts).
  Proof.
    intros (HFL & HD & HPk). pose proof (fl_MExecLoop P root res spec fr s HFL) as HFL'.
    destruct HFL as ((_ & _ & HS & _) & HF & HK). cbn in HS, HF, HK. subst fr.
    cbn [c_mode c_frames c_st] in HD, HPk.
    assert (Hoth : forall x o, get x s = Some (mkFut o KOther) -> o <> None).
    { intros x o Hx. destruct (SInv_entry _ _ _ _ _ HS Hx) as (_ & o' & _ & _ & Hk). exact Hk. }
    assert (Hnr : forall x seg0, tasks s = x :: seg0 -> None <> Some x) by discriminate.
    pose proof (level_exec S_ok S_ok_mono S_ok_alloc S_ok_task S_ok_item P 0 [FWait root; FTop] root S _ (tasks s) [] s _
                  (step_MExecLoop P 0 _ s (fun t out tk => SInv_noraise _ _ _ t out tk HS)) (eq_sym (app_nil_r _)) eq_refl HPk HD
                  (fun y tky Hg Hd => proj1 (HF y tky Hg) (or_introl Hd)) Hoth Hnr) as HL.
    revert HFL' HL. destruct (step P (mkC MExecLoop [FExec 0; FWait root; FTop] s)) as [m' fr' s']. cbn [c_mode c_st].
    intros HFL' HL. destruct m'; try contradiction.
    - (* the pass has ended: the root is computed or settled *)
      destruct HL as (H & -> & _). exists S. split; [|auto]. split; [exact HFL'|]. cbn. split; [exact HD|].
      destruct (pk_end _ _ _ _ HPk H) as [Hc|HSr]; [left; exact Hc|right; split; [exact HSr|apply (pk_ok _ _ _ _ HPk)]].
    - destruct HL as (_ & S' & x & seg0 & seg' & Eseg & (Hd & _) & Ht' & HP' & HS'). rewrite app_nil_r in Ht'.
      exists S'. split; [|intros d Hd0; destruct (HS' d Hd0) as [H| ->]; [left; exact H|right; exists seg0; exact Eseg]].
      split; [exact HFL'|]. cbn. split; [exact (deps_ok_along root s s' HD Hd)|]. unfold pass_ok. rewrite Ht'. exact HP'.
    - destruct HL as (seg0 & _ & Eseg & (Hd & _) & Ht' & HP' & Hrd). rewrite app_nil_r in Ht'.
      exists S. split; [|auto]. split; [exact HFL'|]. cbn. split; [exact (deps_ok_along root s s' HD Hd)|]. split; [|exact Hrd].
      unfold pass_ok. rewrite Ht'. apply (passG_weaken S_ok _ _ _ _ _ _ _ _ _ HP'); [|auto].
      intros u [->|E]; [reflexivity|discriminate].
    - exists S. split; [|auto]. split; [exact HFL'|exact I].
  Qed.

  Lemma dl_MResume spec S t fr s : DL spec S (mkC (MResume t) fr s) -> DL spec S (step P (mkC (MResume t) fr s)).
  Proof.
    intros (HFL & HD & HPk & Hrd). split; [exact (fl_MResume P root res spec t fr s HFL)|].
    destruct HFL as ((_ & _ & HS & _ & (tk & Hg & _)) & _ & HK). cbn in HK, HS, Hg, HD, HPk, Hrd.
    destruct HK as ((old & ->) & (rest & Hts) & _).
    destruct (SInv_entry _ _ _ _ _ HS Hg) as (_ & ot & _ & _ & _ & Hk). destruct (Hk eq_refl ltac:(discriminate)) as (k & K1 & _).
    destruct (step_MResume P t [FCont t old; FExec 0; FWait root; FTop] s tk k Hg K1) as (s2 & -> & U & _).
    assert (Hdeps : (if p_keep P then tk_deps tk else []) = tk_deps tk \/ (if p_keep P then tk_deps tk else []) = [])
      by (destruct (p_keep P); auto).
    assert (Fr : frame_t t s s2) by (apply (frame_t_tupd t s s2 tk None _ Hg U); [exact Hdeps|cbn; lia]).
    cbn [c_mode c_st]. split; [exact (deps_ok_along root s s2 HD (proj1 (proj2 Fr)))|].
    split; [apply (pass_ok_frame root S t s); [exact HPk|rewrite Hts; left; reflexivity|exact Fr]|].
    split; intros tk2 Hg2; rewrite (tupd_get _ _ _ _ _ U) in Hg2; inversion Hg2; subst tk2; cbn [tk_deps tk_iter].
    - intros e He. rewrite (tupd_computed s s2 t tk _ Hg U). apply (Hrd tk Hg e). destruct Hdeps as [E|E]; rewrite E in He; [exact He|destruct He].
    - pose proof (dk_iter0 root s HD t None tk Hg). lia.
  Qed.

  Lemma dl_MRun spec S t p fr s : DL spec S (mkC (MRun t p) fr s) -> exists spec', DL spec' S (step P (mkC (MRun t p) fr s)).
  Proof.
    intros (HFL & HD & HPk & Hrd & Hit). destruct (fl_MRun P root res spec t p fr s HFL) as (spec' & HFL'). exists spec'. split; [exact HFL'|]. clear HFL'.
    pose proof (root_alloc spec _ _ eq_refl (proj1 HFL) : get root s <> None) as Hroot.
    destruct HFL as ((_ & _ & HS & _ & (Htree & _ & (tk & Hg))) & _ & HK). cbn in HK, HS, Hg, HD, HPk, Hrd, Hit.
    destruct HK as ((old & ->) & (rest & Hts) & _).
    pose proof HPk as HPk'. unfold pass_ok in HPk'. rewrite Hts in HPk'.
    destruct (level_run S_ok S_ok_alloc P t p [FCont t old; FExec 0; FWait root; FTop] root S _ _ rest [] s tk (tree_stree p Htree) Hg
                (SInv_above_free _ _ _ HS) HPk' (Hrd tk Hg) (Hit tk Hg)) as [(q & k & -> & _)|(m' & s2 & -> & Fw & HDK & Hm')]; [inversion Htree|].
    destruct (HDK root Hroot HD) as (_ & HD2).
    assert (HPk2 : pass_ok root S (Some t) s2) by (apply (pass_ok_frame_w root S t s s2 HPk); [rewrite Hts; left; reflexivity|exact Fw]).
    destruct m'; try contradiction; cbn [c_mode c_st]; (split; [exact HD2|]).
    - destruct Hm' as (-> & Hrd2). split; [exact HPk2|exact Hrd2].
    - destruct Hm' as (-> & _ & Hrd2 & Hit2). split; [exact HPk2|]. split; assumption.
    - exists t, rest. split; [rewrite (proj1 Fw); exact Hts|]. split; [exact HPk2|].
      rewrite app_nil_r, <- Hts, <- (proj1 Fw) in Hm'. exact Hm'.
  Qed.

  Lemma pass_ok_unrun S t rest s s2 :
    pass_ok root S (Some t) s -> tasks s = t :: rest -> after_run S s t ->
    tasks s2 = tasks s -> (forall h, h <> t -> get h s2 = get h s) -> (forall e, computed e s2 = computed e s) ->
    (get t s <> None -> get t s2 <> None) ->
    (forall tk', get t s2 = Some (mkFut None (KTask tk')) ->
       tk_ds tk' = false /\ exists tk, get t s = Some (mkFut None (KTask tk)) /\ tk_deps tk' = tk_deps tk) ->
    pass_ok root S None s2.
  Proof.
    unfold pass_ok. intros H Hts Har Ht2. rewrite Ht2. rewrite Hts in H |- *.
    apply (passG_unrun S_ok S_ok_mono root S _ (fun u => None = Some u) _ t rest [] s s2 H).
    - intros u E. right. inversion E. reflexivity.
    - rewrite app_nil_r, <- Hts. exact Har.
  Qed.

  Lemma dl_MContRet spec S fr s : DL spec S (mkC MContRet fr s) -> DL spec S (step P (mkC MContRet fr s)).
  Proof.
    intros (HFL & HD & (t0 & rest0 & Hts0 & HPk & Har)). split; [exact (fl_MContRet P root res spec fr s HFL)|].
    destruct HFL as (_ & _ & HK). cbn in HK, HD, HPk, Har, Hts0.
    destruct HK as (t & old & rest & -> & Hts & _). assert (t0 = t) as -> by congruence.
    destruct (step_MContRet_cases P t old [FExec 0; FWait root; FTop] s) as (s2 & -> & [(-> & Hnt)|(out & tk & Hg & U)]); cbn [c_mode c_st].
    - split; [apply (deps_ok_along root s _ HD), deps_step_view; reflexivity|].
      apply (pass_ok_unrun S t rest0 s _ HPk Hts0 Har); try reflexivity; auto.
      intros tk' Hg'. destruct (Hnt _ _ Hg').
    - pose proof (tupd_upd_entry _ _ _ _ _ U : upd_entry s s2 t _) as U'.
      split; [apply (deps_ok_along root s _ HD), (deps_step_upd s _ t out tk out _ Hg U'); [auto|left; reflexivity|cbn; lia]|].
      apply (pass_ok_unrun S t rest0 s _ HPk Hts0 Har).
      + exact (tupd_tasks _ _ _ _ _ U).
      + exact (tupd_other _ _ _ _ _ U).
      + exact (upd_entry_computed s s2 t out tk _ Hg U').
      + intros _. rewrite (tupd_get _ _ _ _ _ U). discriminate.
      + intros tk' Hg'. rewrite (tupd_get _ _ _ _ _ U) in Hg'. inversion Hg'; subst. split; [reflexivity|]. exists tk. split; [exact Hg|reflexivity].
  Qed.

  Theorem dl_step spec S c : is_unwind (c_mode c) = false -> DL spec S c -> exists spec' S', DL spec' S' (step P c).
  Proof.
    destruct c as [m fr s]. destruct m; cbn [c_mode is_unwind]; intros Hu HI; try discriminate.
    - exists spec, S. apply dl_MValue; exact HI.
    - destruct (dl_MWaitHead spec S fr s HI) as (S' & H & _). exists spec, S'. exact H.
    - exists spec, S. apply dl_MAfterExec; exact HI.
    - destruct (dl_MExecLoop spec S fr s HI) as (S' & H & _). exists spec, S'. exact H.
    - exists spec, S. apply dl_MResume; exact HI.
    - destruct (dl_MRun spec S _ _ fr s HI) as (spec' & H). exists spec', S. exact H.
    - exists spec, S. apply dl_MContRet; exact HI.
    - exists spec, S. apply dl_MDeliver; exact HI.
    - exists spec, S. exact HI.
    - exists spec, S. exact HI.
  Qed.

  Theorem dl_run n spec S c : DL spec S c -> no_unwind P n c -> exists spec' S', DL spec' S' (run P n c).
  Proof.
    intros HI Hn. apply (run_invariant P (fun c => exists spec S, DL spec S c)); [|eauto|intros k Hk; apply Hn; lia].
    intros c0 Hu (spec0 & S0 & H0). exact (dl_step spec0 S0 c0 Hu H0).
  Qed.

End C04.

(* d is reachable from x through the dependency lists of uncompleted tasks *)
Inductive reach (s : st) (x : fid) : fid -> Prop :=
| reach_refl : reach s x x
| reach_dep y tk z : reach s x y -> get y s = Some (mkFut None (KTask tk)) -> In z (tk_deps tk) -> reach s x z.

(* a set that holds r and, with an uncompleted task, each of its uncomputed dependencies holds what is reachable from r *)
Lemma reach_settled (S : Sset) s r : S r ->
  (forall y tk, S y -> get y s = Some (mkFut None (KTask tk)) -> forall e, In e (tk_deps tk) -> computed e s = true \/ S e) ->
  forall d, reach s r d -> computed d s = true \/ S d.
Proof.
  intros HSr Hcl d Hr. induction Hr as [|y tk z Hr IH Hg Hin]; [right; exact HSr|].
  destruct IH as [Hcy|HSy]; [rewrite (computed_get _ _ _ Hg) in Hcy; discriminate|exact (Hcl y tk HSy Hg z Hin)].
Qed.

Lemma deps_ok_fresh P p : deps_ok (fst (create [] (FTask p) (st0 P))) (snd (create [] (FTask p) (st0 P))).
Proof.
  assert (E : forall u, get u (st0 P) = None) by reflexivity.
  apply (deps_ok_along _ (st0 P)); [|apply deps_step_create, E].
  constructor; intros u; intros; rewrite E in *; discriminate.
Qed.

Section C04_theorems.
  Variable P : params.
  Hypothesis HP : pointwise P.
  Variable p : prog.
  Hypothesis Ht : tree p.

  Let h := fst (create [] (FTask p) (st0 P)).
  Let s1 := snd (create [] (FTask p) (st0 P)).

  Lemma dl_start : exists spec, DL h (eval p) spec (fun _ => False) (start h s1).
  Proof.
    destruct (fl_start P HP p Ht) as (spec & HFL). exists spec. split; [exact HFL|].
    cbn. split; [exact (deps_ok_fresh P p)|exact I].
  Qed.

  Lemma dl_reach n : no_unwind P n (start h s1) -> exists spec S, DL h (eval p) spec S (run P n (start h s1)).
  Proof. intros Hn. destruct dl_start as (spec & H). exact (dl_run P HP h (eval p) n _ _ _ H Hn). Qed.

  (* Whenever the scheduler is about to flush a batch (the _execute pass has ended and the awaited task
     is not computed), there is a set S of stuck futures containing the awaited task such that every
     task in S has started, waits for an uncomputed member of S, and has no dependency outside S that is
     not computed; the other members of S are uncomputed batch items. *)
  Theorem flush_only_when_stuck_tree n :
    no_unwind P n (start h s1) -> c_mode (run P n (start h s1)) = MAfterExec ->
    computed h (c_st (run P n (start h s1))) = false ->
    exists S : fid -> Prop, S h /\ forall d, S d -> S_ok S (c_st (run P n (start h s1))) d.
  Proof.
    intros Hn Hm Hc. destruct (dl_reach n Hn) as (spec & S & (_ & HDL)).
    destruct (run P n (start h s1)) as [m fr s]. cbn [c_mode c_st] in *. subst m.
    destruct HDL as (_ & [Hc'|HS]); [congruence|]. exists S. exact HS.
  Qed.

  (* consequence: everything reachable from the awaited task through uncompleted tasks is computed or stuck;
     in particular no reachable task is unstarted or runnable *)
  Theorem reachable_is_computed_or_stuck_tree n :
    no_unwind P n (start h s1) -> c_mode (run P n (start h s1)) = MAfterExec ->
    computed h (c_st (run P n (start h s1))) = false ->
    forall d, reach (c_st (run P n (start h s1))) h d ->
      computed d (c_st (run P n (start h s1))) = true \/
      (exists kind idx key a, get d (c_st (run P n (start h s1))) = Some (mkFut None (KItem kind idx key a))) \/
      (exists tk, get d (c_st (run P n (start h s1))) = Some (mkFut None (KTask tk)) /\ (1 <= tk_iter tk)%Z /\
                  is_blocked tk (c_st (run P n (start h s1))) = true).
  Proof.
    intros Hn Hm Hc. destruct (flush_only_when_stuck_tree n Hn Hm Hc) as (S & HSh & HS).
    set (s := c_st (run P n (start h s1))) in *.
    assert (Hcl : forall y tk, S y -> get y s = Some (mkFut None (KTask tk)) -> forall e, In e (tk_deps tk) -> computed e s = true \/ S e).
    { intros y tk HSy Hg. destruct (HS y HSy) as [(tk0 & Hg0 & _ & _ & Hall)|(kind & idx & key & a & Hg0)]; [|congruence].
      rewrite Hg in Hg0. inversion Hg0; subst tk0. exact Hall. }
    intros d Hr. destruct (reach_settled S s h HSh Hcl d Hr) as [Hcd|HSd]; [left; exact Hcd|right].
    destruct (HS d HSd) as [(tk & Hg & Hi & (e & He & HSe) & _)|Hitem]; [right|left; exact Hitem].
    exists tk. split; [exact Hg|]. split; [exact Hi|]. apply (blocked_intro tk s e He).
    destruct (HS e HSe) as [(tke & Hge & _)|(kind & idx & key & a & Hge)]; rewrite (computed_get _ _ _ Hge); reflexivity.
  Qed.
End C04_theorems.
