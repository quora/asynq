(* C05, WHICH outcome an item completion carries - for every program, every record of knobs (priorities,
   raising flush bodies, oracle), history and fuel.

   O1 (stable outcome)  [fixed]: no transition changes the outcome of a computed future, and a batch-item entry
      that has an outcome is never touched again ([pres] and [stab] are these two readings, one induction over
      MachineHelpers.hstep); [OutInv]: every EvItemDone h o
      in the trace is recorded in the heap: the entry of h is mkFut (Some o) (KItem ...) - in the state that emitted
      it and in every later state.
   O2 (which outcome)   [expected_outcome]: the flush body walks the items in order and raises (if scripted)
      before touching item number k; an item occurring before the raise position ([reached]) whose
      scripted action is ASet v / AErr e gets Ok v / Err e; every other item gets the flush error if the
      body raised ([flush_err]), else the "was not set" AssertionError outcome Err E_NOTSET.
      Function level: flush_batch_events / flush_batch_item_done; step level: step_item_done; run /
      history level: the invariant [OInv] (trace = blocks whose completions carry the expected outcome
      and are recorded in the heap), run_case_flush_outcomes. *)
From Asynq Require Import Machine proofs.ProgProofs proofs.MachineFrame proofs.MachineC05 proofs.MachineC08 proofs.MachineC05T.

Lemma fid_eqb_neq a b : fid_eqb a b = false -> a <> b.
Proof. intros E ->. rewrite fid_eqb_refl in E. discriminate. Qed.

Definition mem (h : fid) (l : list fid) : bool := existsb (fun x => fid_eqb x h) l.

Lemma mem_In h l : mem h l = true <-> In h l.
Proof.
  unfold mem. rewrite existsb_exists. split.
  - intros (x & Hx & E). apply fid_eqb_eq in E. subst x. exact Hx.
  - intros Hin. exists h. split; [exact Hin|apply fid_eqb_refl].
Qed.

Lemma complete_item_cases h o s :
  (complete_item h o s = s /\ (get h s = None \/ exists f, get h s = Some f /\ f_out f <> None)) \/
  (exists f, get h s = Some f /\ f_out f = None /\
             complete_item h o s = emit (EvItemDone h o) (put h (mkFut (Some o) (f_kind f)) s)).
Proof.
  unfold complete_item. destruct (get h s) as [f|] eqn:G.
  - destruct (f_out f) as [o'|] eqn:O.
    + left. split; [reflexivity|]. right. exists f. split; [reflexivity|congruence].
    + right. exists f. auto.
  - left. split; [reflexivity|left; reflexivity].
Qed.

(* a sequence of completions (handle, outcome), applied left to right *)
Definition cstep (s : st) (ho : fid * outcome) : st := complete_item (fst ho) (snd ho) s.

(* the outcome paired with the FIRST occurrence of h *)
Definition first_of (h : fid) (L : list (fid * outcome)) : option outcome :=
  match find (fun ho => fid_eqb (fst ho) h) L with Some ho => Some (snd ho) | None => None end.

Lemma first_of_cons h h0 o0 L :
  first_of h ((h0, o0) :: L) = if fid_eqb h0 h then Some o0 else first_of h L.
Proof. unfold first_of. cbn [find fst]. destruct (fid_eqb h0 h); reflexivity. Qed.

Lemma first_of_app h A B :
  first_of h (A ++ B) = match first_of h A with Some o => Some o | None => first_of h B end.
Proof.
  induction A as [|[h0 o0] A IH]; [reflexivity|]. cbn [app]. rewrite !first_of_cons.
  destruct (fid_eqb h0 h); [reflexivity|exact IH].
Qed.

(* what a sequence of completions does: entries with an outcome are never touched; every completion
   event emitted is that of the first pair for its handle, whose entry had no outcome before and has
   exactly this outcome (same kind) afterwards *)
Lemma cfold_spec L : forall s,
  exists evs, trace (fold_left cstep L s) = evs ++ trace s /\
    (forall h f, get h s = Some f -> f_out f <> None -> get h (fold_left cstep L s) = Some f) /\
    (forall e, In e evs -> exists h o, e = EvItemDone h o) /\
    (forall h o, In (EvItemDone h o) evs ->
       first_of h L = Some o /\
       exists f, get h s = Some f /\ f_out f = None /\
                 get h (fold_left cstep L s) = Some (mkFut (Some o) (f_kind f))).
Proof.
  induction L as [|[h0 o0] L IH]; intros s; cbn [fold_left].
  - exists []. split; [reflexivity|]. split; [auto|]. split; [intros e []|intros h o []].
  - change (cstep s (h0, o0)) with (complete_item h0 o0 s).
    destruct (complete_item_cases h0 o0 s) as [[E N]|(f0 & G0 & O0 & E)]; rewrite E.
    + destruct (IH s) as (evs & T & C & Sh & Ev). exists evs. split; [exact T|]. split; [exact C|]. split; [exact Sh|].
      intros h o Hin. destruct (Ev h o Hin) as (Fo & f & G & O & G'). split; [|exists f; auto].
      rewrite first_of_cons. destruct (fid_eqb_spec h0 h) as [->|_]; [|exact Fo].
      exfalso. destruct N as [N|(f1 & G1 & O1)]; congruence.
    + set (s1 := emit (EvItemDone h0 o0) (put h0 (mkFut (Some o0) (f_kind f0)) s)).
      assert (G1 : forall h, get h s1 = if fid_eqb h h0 then Some (mkFut (Some o0) (f_kind f0)) else get h s).
      { intros h. unfold s1. rewrite get_emit. apply get_put. }
      destruct (IH s1) as (evs & T & C & Sh & Ev). exists (evs ++ [EvItemDone h0 o0]).
      split; [rewrite T; unfold s1; cbn [trace emit]; rewrite <- app_assoc; reflexivity|]. split; [|split].
      * intros h f G O. apply C; [|exact O]. rewrite G1. destruct (fid_eqb_spec h h0) as [->|_]; [|exact G]. congruence.
      * intros e Hin. apply in_app_or in Hin as [Hin|[<-|[]]]; [exact (Sh e Hin)|]. exists h0, o0. reflexivity.
      * intros h o Hin. apply in_app_or in Hin as [Hin|[Hin|[]]].
        -- destruct (Ev h o Hin) as (Fo & f & G & O & G'). rewrite G1 in G. destruct (fid_eqb_spec h h0) as [_|N0].
           ++ inversion G; subst f. cbn in O. discriminate.
           ++ split; [|exists f; auto]. rewrite first_of_cons.
              destruct (fid_eqb_spec h0 h) as [E0|_]; [destruct (N0 (eq_sym E0))|exact Fo].
        -- inversion Hin; subst h o. split; [rewrite first_of_cons, fid_eqb_refl; reflexivity|].
           exists f0. split; [exact G0|]. split; [exact O0|]. apply C; [|cbn; discriminate].
           rewrite G1, fid_eqb_refl. reflexivity.
Qed.

(* what the scripted action of an item makes the body do *)
Definition act_out (a : iact) : option outcome :=
  match a with ASet v => Some (Ok v) | AErr e => Some (Err e) | ASkip => None end.

Definition act_of (h : fid) (s : st) : option outcome :=
  match get h s with Some (mkFut _ (KItem _ _ _ a)) => act_out a | _ => None end.

Lemma serve_act s h : serve s h = match act_of h s with Some o => complete_item h o s | None => s end.
Proof. unfold serve, act_of. destruct (get h s) as [[o [tk|kind idx key [v|e'|]|o'|]]|]; reflexivity. Qed.

(* the body, started at item number i of a batch, raises (before item number p of the remaining n items)
   iff the scripted position k lies in i .. i+n *)
Definition raises_in (i : Z) (ra : option (Z * exn)) (n : nat) : option (nat * exn) :=
  match ra with
  | Some (k, e) => if (i <=? k) && (k <=? i + Z.of_nat n) then Some (Z.to_nat (k - i), e) else None
  | None => None
  end.

Definition touched_from (i : Z) (ra : option (Z * exn)) (items : list fid) : list fid :=
  match raises_in i ra (length items) with Some (p, _) => firstn p items | None => items end.

Definition err_from (i : Z) (ra : option (Z * exn)) (n : nat) : option exn :=
  match raises_in i ra n with Some (_, e) => Some e | None => None end.

Lemma in_range_spec i k n : (i <=? k) && (k <=? i + Z.of_nat n) = true <-> i <= k <= i + Z.of_nat n.
Proof. rewrite andb_true_iff, !Z.leb_le. tauto. Qed.

Lemma raises_in_here k e n : raises_in k (Some (k, e)) n = Some (O, e).
Proof.
  unfold raises_in. assert ((k <=? k) && (k <=? k + Z.of_nat n) = true) as -> by (apply in_range_spec; lia).
  rewrite Z.sub_diag. reflexivity.
Qed.

Lemma raises_in_step i k e n : i <> k ->
  raises_in i (Some (k, e)) (S n) =
  match raises_in (i + 1) (Some (k, e)) n with Some (p, e') => Some (S p, e') | None => None end.
Proof.
  intros N. unfold raises_in.
  destruct ((i <=? k) && (k <=? i + Z.of_nat (S n))) eqn:A;
    destruct ((i + 1 <=? k) && (k <=? i + 1 + Z.of_nat n)) eqn:B; try reflexivity.
  - apply in_range_spec in A. f_equal. f_equal. lia.
  - apply in_range_spec in A. apply not_true_iff_false in B. rewrite in_range_spec in B. lia.
  - apply in_range_spec in B. apply not_true_iff_false in A. rewrite in_range_spec in A. lia.
Qed.

Lemma flush_body_touched items : forall i ra s,
  flush_body items i ra s = (fold_left serve (touched_from i ra items) s, err_from i ra (length items)).
Proof.
  induction items as [|h rest IH]; intros i ra s.
  - cbn [flush_body]. unfold touched_from, err_from. cbn [length]. destruct ra as [[k e]|]; [|reflexivity].
    destruct (Z.eqb i k) eqn:E.
    + apply Z.eqb_eq in E. subst k. rewrite raises_in_here. reflexivity.
    + apply Z.eqb_neq in E. unfold raises_in.
      destruct ((i <=? k) && (k <=? i + Z.of_nat 0)) eqn:A; [|reflexivity].
      apply in_range_spec in A. lia.
  - cbn [flush_body]. fold (serve s h). unfold touched_from, err_from. cbn [length]. destruct ra as [[k e]|].
    + destruct (Z.eqb i k) eqn:E.
      * apply Z.eqb_eq in E. subst k. rewrite raises_in_here. reflexivity.
      * apply Z.eqb_neq in E. rewrite IH, (raises_in_step i k e _ E). unfold touched_from, err_from.
        destruct (raises_in (i + 1) (Some (k, e)) (length rest)) as [[p e']|]; reflexivity.
    + rewrite IH. reflexivity.
Qed.

(* the completions the body performs on [l], read off the heap of s0 *)
Definition ops (s0 : st) (l : list fid) : list (fid * outcome) :=
  flat_map (fun h => match act_of h s0 with Some o => [(h, o)] | None => [] end) l.

Lemma act_of_complete_item h h' o s : act_of h (complete_item h' o s) = act_of h s.
Proof.
  destruct (complete_item_cases h' o s) as [[E _]|(f & G & O & E)]; rewrite E; [reflexivity|].
  unfold act_of. rewrite get_emit, get_put. destruct (fid_eqb_spec h h') as [->|_]; [|reflexivity].
  rewrite G. destruct f as [out kd]. reflexivity.
Qed.

Lemma act_of_serve h s h' : act_of h (serve s h') = act_of h s.
Proof. rewrite serve_act. destruct (act_of h' s); [apply act_of_complete_item|reflexivity]. Qed.

Lemma ops_ext s s' l : (forall h, act_of h s' = act_of h s) -> ops s' l = ops s l.
Proof. intros H. unfold ops. apply flat_map_ext. intros h. rewrite H. reflexivity. Qed.

Lemma body_fold_ops l : forall s, fold_left serve l s = fold_left cstep (ops s l) s.
Proof.
  induction l as [|h l IH]; intros s; [reflexivity|]. cbn [fold_left]. rewrite IH.
  rewrite (ops_ext s (serve s h) l) by (intros h'; apply act_of_serve).
  unfold ops at 2. cbn [flat_map]. fold (ops s l). rewrite fold_left_app, serve_act.
  destruct (act_of h s); reflexivity.
Qed.

Lemma fill_fold_ops o l : forall s,
  fold_left (fun s h => complete_item h o s) l s = fold_left cstep (map (fun h => (h, o)) l) s.
Proof. induction l as [|h l IH]; intros s; [reflexivity|]. cbn [fold_left map]. rewrite IH. reflexivity. Qed.

Lemma first_of_ops h s l : first_of h (ops s l) = if mem h l then act_of h s else None.
Proof.
  induction l as [|x l IH]; [reflexivity|]. unfold ops. cbn [flat_map]. fold (ops s l).
  rewrite first_of_app, IH. unfold mem. cbn [existsb]. fold (mem h l).
  destruct (fid_eqb x h) eqn:E.
  - apply fid_eqb_eq in E. subst x. cbn [orb]. destruct (act_of h s) as [o|].
    + rewrite first_of_cons, fid_eqb_refl. reflexivity.
    + cbn. destruct (mem h l); reflexivity.
  - cbn [orb]. destruct (act_of x s) as [o|]; [rewrite first_of_cons, E|]; reflexivity.
Qed.

Lemma first_of_fill h o l : first_of h (map (fun x => (x, o)) l) = if mem h l then Some o else None.
Proof.
  induction l as [|x l IH]; [reflexivity|]. cbn [map]. rewrite first_of_cons, IH. unfold mem. cbn [existsb].
  destruct (fid_eqb x h); reflexivity.
Qed.

Lemma touched_incl i ra items h : In h (touched_from i ra items) -> In h items.
Proof.
  unfold touched_from. destruct (raises_in i ra (length items)) as [[p e]|]; [|auto].
  intros H. rewrite <- (firstn_skipn p items). apply in_or_app. left. exact H.
Qed.

Definition fill_of (err : option exn) : outcome :=
  match err with Some e => Err e | None => Err E_NOTSET end.

(* where the body of a batch of n items raises: before item number p (p = n: after the last item) *)
Definition raise_pos (ra : option (Z * exn)) (n : nat) : option (nat * exn) := raises_in 0 ra n.

(* the error the flush body of these items raises, if any *)
Definition flush_err (ra : option (Z * exn)) (items : list fid) : option exn := err_from 0 ra (length items).

(* h occurs among the items the body reaches before it raises (all items when it does not raise) *)
Definition reached (ra : option (Z * exn)) (items : list fid) (h : fid) : bool := mem h (touched_from 0 ra items).

(* C05's clause: the value / error the body set for the item - or, when it set nothing (the action is ASkip,
   or the body raised before reaching the item), the flush error, or the "not set" AssertionError *)
Definition expected_outcome (a : iact) (rch : bool) (ferr : option exn) : outcome :=
  match a, rch with
  | ASet v, true => Ok v
  | AErr e, true => Err e
  | _, _ => fill_of ferr
  end.

Lemma raise_pos_spec k e n :
  raise_pos (Some (k, e)) n = if (0 <=? k) && (k <=? Z.of_nat n) then Some (Z.to_nat k, e) else None.
Proof. unfold raise_pos, raises_in. rewrite Z.add_0_l, Z.sub_0_r. reflexivity. Qed.

Lemma flush_err_spec ra items :
  flush_err ra items = match raise_pos ra (length items) with Some (_, e) => Some e | None => None end.
Proof. reflexivity. Qed.

Lemma reached_spec ra items h :
  reached ra items h = mem h (match raise_pos ra (length items) with Some (p, _) => firstn p items | None => items end).
Proof. reflexivity. Qed.

Lemma mem_firstn_nth h : forall p items,
  mem h (firstn p items) = true <-> exists j, (j < p)%nat /\ nth_error items j = Some h.
Proof.
  induction p as [|p IH]; intros items.
  - cbn. split; [discriminate|]. intros (j & Hj & _). lia.
  - destruct items as [|x items].
    + cbn. split; [discriminate|]. intros (j & _ & Hj). destruct j; discriminate.
    + cbn [firstn]. unfold mem. cbn [existsb]. fold (mem h (firstn p items)). rewrite orb_true_iff, IH. split.
      * intros [E|(j & Hj & Hn)].
        -- apply fid_eqb_eq in E. subst x. exists O. split; [lia|reflexivity].
        -- exists (S j). split; [lia|exact Hn].
      * intros ([|j] & Hj & Hn).
        -- cbn in Hn. inversion Hn; subst. left. apply fid_eqb_refl.
        -- right. exists j. split; [lia|exact Hn].
Qed.

(* the position form: when the body raises before item number p, the reached items are those at a position < p *)
Lemma reached_position ra items h p e :
  raise_pos ra (length items) = Some (p, e) ->
  (reached ra items h = true <-> exists j, (j < p)%nat /\ nth_error items j = Some h).
Proof. intros E. rewrite reached_spec, E. apply mem_firstn_nth. Qed.

Lemma reached_no_raise ra items h :
  raise_pos ra (length items) = None -> (reached ra items h = true <-> In h items).
Proof. intros E. rewrite reached_spec, E. apply mem_In. Qed.

Lemma expected_outcome_cases v e e' :
  (forall ferr, expected_outcome (ASet v) true ferr = Ok v) /\
  (forall ferr, expected_outcome (AErr e) true ferr = Err e) /\
  (forall ferr, expected_outcome ASkip true ferr = fill_of ferr) /\
  (forall a ferr, expected_outcome a false ferr = fill_of ferr) /\
  fill_of (Some e') = Err e' /\ fill_of None = Err E_NOTSET.
Proof. repeat split; try reflexivity. intros a ferr. destruct a; reflexivity. Qed.

Lemma expected_outcome_alt a rch ferr :
  expected_outcome a rch ferr = match (if rch then act_out a else None) with Some o => o | None => fill_of ferr end.
Proof. destruct a, rch; reflexivity. Qed.

(* one BatchBase.flush of a pending batch, on ANY state: the events are the EvFlush and then completions
   only; entries that had an outcome are untouched; every completion event emitted is for an item of
   the batch whose entry had no outcome, stores exactly the announced outcome (same kind), and the
   outcome is: what the item's scripted action sets if the body reaches the item, else the fill *)
Lemma flush_batch_form P k s : b_done (get_batch k s) = false ->
  let items := b_items (get_batch k s) in
  let ra := ks_raise (kspec_of P (fst k)) in
  exists dones, trace (flush_batch P k s) = (dones ++ [EvFlush (fst k) (snd k) items]) ++ trace s /\
    (forall h f, get h s = Some f -> f_out f <> None -> get h (flush_batch P k s) = Some f) /\
    (forall e, In e dones -> exists h o, e = EvItemDone h o) /\
    (forall h o, In (EvItemDone h o) dones ->
       In h items /\
       exists f, get h s = Some f /\ f_out f = None /\
                 get h (flush_batch P k s) = Some (mkFut (Some o) (f_kind f)) /\
                 o = match (if reached ra items h then act_of h s else None) with
                     | Some o' => o' | None => fill_of (flush_err ra items) end).
Proof.
  intros Hd items ra. unfold flush_batch. rewrite Hd. fold items. fold ra.
  set (s0 := if Z.eqb (cur_idx (fst k) s) (snd k) then with_cur s (upd Z.eqb (fst k) (snd k + 1) (cur s)) else s).
  assert (V0 : (forall h, get h s0 = get h s) /\ trace s0 = trace s).
  { unfold s0. destruct (Z.eqb _ _); split; reflexivity. }
  destruct V0 as [G0 T0].
  set (s1 := emit (EvFlush (fst k) (snd k) items) s0).
  assert (G1 : forall h, get h s1 = get h s) by (intros h; unfold s1; rewrite get_emit; apply G0).
  assert (A1 : forall h, act_of h s1 = act_of h s) by (intros h; unfold act_of; rewrite G1; reflexivity).
  rewrite flush_body_touched. fold (flush_err ra items).
  change (match flush_err ra items with Some e => Err e | None => Err E_NOTSET end) with (fill_of (flush_err ra items)).
  rewrite fill_fold_ops, body_fold_ops, <- fold_left_app.
  set (L := ops s1 (touched_from 0 ra items) ++ map (fun h => (h, fill_of (flush_err ra items))) items).
  destruct (cfold_spec L s1) as (dones & T & C & Sh & Ev).
  set (s3 := fold_left cstep L s1) in *.
  exists dones. split; [|split; [|split]].
  - change (trace (put_batch k (mkB (b_items (get_batch k s3)) true) s3)) with (trace s3).
    rewrite T. unfold s1. cbn [trace emit]. rewrite T0, <- app_assoc. reflexivity.
  - intros h f G O. change (get h (put_batch k (mkB (b_items (get_batch k s3)) true) s3)) with (get h s3).
    apply C; [rewrite G1; exact G|exact O].
  - exact Sh.
  - intros h o Hin. destruct (Ev h o Hin) as (Fo & f & G & O & G').
    change (get h (put_batch k (mkB (b_items (get_batch k s3)) true) s3)) with (get h s3).
    unfold L in Fo. rewrite first_of_app, first_of_ops, first_of_fill, A1 in Fo. fold (reached ra items h) in Fo.
    rewrite G1 in G.
    destruct (if reached ra items h then act_of h s else None) as [o'|] eqn:R.
    + inversion Fo; subst o'. split.
      * destruct (reached ra items h) eqn:R2; [|discriminate]. apply mem_In in R2. exact (touched_incl _ _ _ _ R2).
      * exists f. auto.
    + destruct (mem h items) eqn:M; [|discriminate]. inversion Fo; subst o. split; [apply mem_In; exact M|].
      exists f. auto.
Qed.

Theorem flush_batch_events P k s evs : b_done (get_batch k s) = false ->
  trace (flush_batch P k s) = evs ++ trace s ->
  let items := b_items (get_batch k s) in
  let ra := ks_raise (kspec_of P (fst k)) in
  In (EvFlush (fst k) (snd k) items) evs /\
  (forall h f, get h s = Some f -> f_out f <> None -> get h (flush_batch P k s) = Some f) /\
  (forall h o, In (EvItemDone h o) evs ->
     In h items /\
     exists f, get h s = Some f /\ f_out f = None /\
               get h (flush_batch P k s) = Some (mkFut (Some o) (f_kind f)) /\
               o = match (if reached ra items h then act_of h s else None) with
                   | Some o' => o' | None => fill_of (flush_err ra items) end).
Proof.
  intros Hd T items ra. destruct (flush_batch_form P k s Hd) as (dones & T' & C & Sh & Ev).
  fold items in T', Ev. fold ra in Ev.
  assert (E : evs = dones ++ [EvFlush (fst k) (snd k) items]).
  { apply (app_inv_tail (trace s)). rewrite <- T, <- T'. reflexivity. }
  subst evs. split; [apply in_or_app; right; left; reflexivity|]. split; [exact C|].
  intros h o Hin. apply in_app_or in Hin as [Hin|[Hin|[]]]; [exact (Ev h o Hin)|discriminate Hin].
Qed.

(* with the heap invariant BI (every member of a batch is an item entry recording that batch, without
   outcome while the batch is pending): the outcome is the expected one *)
Theorem flush_batch_item_done P k s evs h o : BI s -> b_done (get_batch k s) = false ->
  trace (flush_batch P k s) = evs ++ trace s -> In (EvItemDone h o) evs ->
  let items := b_items (get_batch k s) in
  let ra := ks_raise (kspec_of P (fst k)) in
  In h items /\
  exists key a, get h s = Some (mkFut None (KItem (fst k) (snd k) key a)) /\
                get h (flush_batch P k s) = Some (mkFut (Some o) (KItem (fst k) (snd k) key a)) /\
                o = expected_outcome a (reached ra items h) (flush_err ra items).
Proof.
  intros B Hd T Hin items ra. destruct (flush_batch_events P k s evs Hd T) as (_ & _ & Ev).
  destruct (Ev h o Hin) as (Hi & f & G & O & G' & Eo). split; [exact Hi|].
  destruct (B k h Hi) as (out & key & a & Gb & Hout). specialize (Hout Hd). subst out.
  rewrite G in Gb. inversion Gb; subst f. cbn [f_kind] in G'. exists key, a. split; [exact G|]. split; [exact G'|].
  rewrite expected_outcome_alt. unfold act_of in Eo. rewrite G in Eo. exact Eo.
Qed.

(* O1.  An entry that has an outcome keeps it for ever, and if it is a batch item the whole entry stays [fixed];
   [stab] (item entries) and [pres] (outcomes) are its two readings. *)
Definition fixed (s s' : st) : Prop :=
  forall h f, get h s = Some f -> f_out f <> None ->
    exists f', get h s' = Some f' /\ f_out f' = f_out f /\ (is_itemk f -> f' = f).

Definition stab (s s' : st) : Prop :=
  forall h f, get h s = Some f -> is_itemk f -> f_out f <> None -> get h s' = Some f.

Definition pres (s s' : st) : Prop :=
  forall h f, get h s = Some f -> f_out f <> None -> exists f', get h s' = Some f' /\ f_out f' = f_out f.

Lemma fixed_stab s s' : fixed s s' -> stab s s'.
Proof. intros H h f G I O. destruct (H h f G O) as (f' & G' & _ & E). rewrite G'. f_equal. exact (E I). Qed.

Lemma fixed_pres s s' : fixed s s' -> pres s s'.
Proof. intros H h f G O. destruct (H h f G O) as (f' & G' & O' & _). eauto. Qed.

Lemma fixed_refl s : fixed s s. Proof. intros h f G _. exists f. auto. Qed.

Lemma fixed_trans a b c : fixed a b -> fixed b c -> fixed a c.
Proof.
  intros A B h f G O. destruct (A h f G O) as (f1 & G1 & O1 & E1). destruct (B h f1 G1) as (f2 & G2 & O2 & E2); [congruence|].
  exists f2. split; [exact G2|]. split; [congruence|]. intros I. pose proof (E1 I) as ->. exact (E2 I).
Qed.

Lemma fixed_view s s' : heap s' = heap s -> fixed s s'.
Proof. intros E h f G _. exists f. unfold get in *. rewrite E. auto. Qed.

Lemma stab_view s s' : heap s' = heap s -> stab s s'.
Proof. intros E. apply fixed_stab, fixed_view, E. Qed.

(* writing h: its old entry, if it has an outcome, is no item and the new one has the same outcome *)
Lemma fixed_put h f' s :
  (forall f, get h s = Some f -> f_out f <> None -> f_out f' = f_out f /\ ~ is_itemk f) -> fixed s (put h f' s).
Proof.
  intros H h0 f G O. rewrite get_put. destruct (fid_eqb_spec h0 h) as [->|_]; [|exists f; auto].
  destruct (H f G O) as [Ho N]. exists f'. split; [reflexivity|]. split; [exact Ho|]. intros I. destruct (N I).
Qed.

Lemma fixed_put_uncomputed h f' s : computed h s = false -> fixed s (put h f' s).
Proof.
  intros C. apply fixed_put. intros f G O. exfalso. unfold computed in C. rewrite G in C. destruct (f_out f); [discriminate|congruence].
Qed.

Lemma fixed_set_task t tk0 tk s : get_task t s = Some tk0 -> fixed s (set_task t tk s).
Proof.
  intros Gt. unfold set_task. destruct (get t s) as [f0|] eqn:G; [|apply fixed_refl].
  apply fixed_put. intros f E _. rewrite G in E. inversion E; subst f0. split; [reflexivity|exact (get_task_kind t s tk0 Gt f G)].
Qed.

Lemma fixed_flush_batch P k s : fixed s (flush_batch P k s).
Proof.
  destruct (b_done (get_batch k s)) eqn:Hd; [rewrite (flush_done_is_noop P k s Hd); apply fixed_refl|].
  destruct (flush_batch_form P k s Hd) as (dones & _ & C & _). intros h f G O. exists f. rewrite (C h f G O). auto.
Qed.

Lemma fixed_continue_with_batch P s : fixed s (continue_with_batch P s).
Proof.
  pose proof (continue_with_batch_form P s) as F. pose proof (select_batches P s) as [_ Hs].
  destruct (select P s) as [[k|] s1]; cbn [snd] in Hs.
  - destruct F as (s3 & e1 & -> & Hh & _). eapply fixed_trans; [apply fixed_view; exact Hh|].
    eapply fixed_trans; [apply fixed_flush_batch|apply fixed_view; reflexivity].
  - destruct F as (-> & _). apply fixed_view. exact Hs.
Qed.

(* creating a future: the fresh id has no entry yet *)
Lemma fixed_create p f s : dom s -> fixed s (snd (create p f s)).
Proof.
  intros D h0 f0 G _. exists f0. split; [|auto]. unfold create, alloc. cbn zeta.
  assert (N : fid_eqb h0 [top_next s] = false).
  { destruct (fid_eqb_spec h0 [top_next s]) as [->|_]; [|reflexivity]. rewrite (fresh_none s D) in G. discriminate. }
  destruct f; cbn [snd]; try change (get h0 (put_batch ?k ?b ?s')) with (get h0 s'); rewrite get_put, N; exact G.
Qed.

(* no transition of the machine touches an entry that has an outcome *)
Lemma hstep_fixed P A s s' : hstep P A s s' -> dom s -> fixed s s'.
Proof.
  induction 1 as [s|a b c H1 IH1 _ IH2|s s' Hh _ _ _ _ _ _|v x s|k c s|e s He|t tk tk' s G Bk|t tk o s G C|x out o s G C
                  |p f s _|k s|k s F|s F|t tk o d s _ G _|t tk k y' F s _ G]; intros D.
  - apply fixed_refl.
  - eapply fixed_trans; [exact (IH1 D)|exact (IH2 (hstep_dom P A a b H1 D))].
  - apply fixed_view, Hh.
  - apply fixed_view; reflexivity.
  - apply fixed_view; reflexivity.
  - apply fixed_view; reflexivity.
  - apply (fixed_set_task t tk), G.
  - eapply fixed_trans; [apply fixed_put_uncomputed, C|apply fixed_view; reflexivity].
  - apply fixed_put_uncomputed, C.
  - apply fixed_create, D.
  - apply (rel_schedule_batch fixed); [exact fixed_refl|intros; apply fixed_view; reflexivity].
  - apply fixed_flush_batch.
  - apply fixed_continue_with_batch.
  - eapply fixed_trans; [apply (fixed_set_task t tk), G|apply fixed_view; reflexivity].
  - apply (fixed_set_task t tk), G.
Qed.

Lemma fixed_step P c : dom (c_st c) -> fixed (c_st c) (c_st (step P c)).
Proof. apply (hstep_fixed P _ _ _ (step_hstep P c)). Qed.

Lemma dom_step P c : dom (c_st c) -> dom (c_st (step P c)).
Proof. apply (hstep_dom P _ _ _ (step_hstep P c)). Qed.

Lemma fixed_run P n : forall c, dom (c_st c) -> fixed (c_st c) (c_st (run P n c)).
Proof.
  induction n as [|n IH]; intros c D; [apply fixed_refl|]. rewrite run_S.
  destruct (is_final (c_mode c)); [apply fixed_refl|].
  eapply fixed_trans; [apply fixed_step, D|apply IH, dom_step, D].
Qed.

Theorem stab_step P c : dom (c_st c) -> stab (c_st c) (c_st (step P c)).
Proof. intros D. apply fixed_stab, fixed_step, D. Qed.

Lemma stab_run P n c : dom (c_st c) -> stab (c_st c) (c_st (run P n c)).
Proof. intros D. apply fixed_stab, fixed_run, D. Qed.

Theorem pres_step P c : dom (c_st c) -> pres (c_st c) (c_st (step P c)).
Proof. intros D. apply fixed_pres, fixed_step, D. Qed.

(* the completion EvItemDone h o among the events [evs] that lead from s to s' is the work of ONE flush
   of a pending batch k of s that contains h: the flush body's event is in evs too, h was an item entry of
   that batch without outcome, its entry now holds exactly o, and o is the expected outcome *)
Definition item_done_by (P : params) (s s' : st) (evs : list event) (h : fid) (o : outcome) : Prop :=
  exists k key a,
    let items := b_items (get_batch k s) in
    let ra := ks_raise (kspec_of P (fst k)) in
    b_done (get_batch k s) = false /\ In h items /\
    In (EvFlush (fst k) (snd k) items) evs /\
    get h s = Some (mkFut None (KItem (fst k) (snd k) key a)) /\
    get h s' = Some (mkFut (Some o) (KItem (fst k) (snd k) key a)) /\
    o = expected_outcome a (reached ra items h) (flush_err ra items).

Ltac lnorm := repeat (cbn [app]; rewrite <- app_assoc); cbn [app].

Lemma fb_item_done P k s evs h o : BI s ->
  trace (flush_batch P k s) = evs ++ trace s -> In (EvItemDone h o) evs ->
  item_done_by P s (flush_batch P k s) evs h o.
Proof.
  intros B T Hin. destruct (b_done (get_batch k s)) eqn:Hd.
  - exfalso. rewrite (flush_done_is_noop P k s Hd) in T.
    assert (evs = []) by (apply (app_inv_tail (trace s)); rewrite <- T; reflexivity). subst evs. destruct Hin.
  - destruct (flush_batch_item_done P k s evs h o B Hd T Hin) as (Hi & key & a & G & G' & Eo).
    destruct (flush_batch_events P k s evs Hd T) as (HF & _).
    exists k, key, a. cbn zeta. split; [exact Hd|]. split; [exact Hi|]. split; [exact HF|]. auto.
Qed.

Lemma tame_not_done evs h o : Forall tame evs -> ~ In (EvItemDone h o) evs.
Proof. intros F Hin. rewrite Forall_forall in F. exact (F _ Hin). Qed.

Lemma cwb_item_done P s evs h o : BI s ->
  trace (continue_with_batch P s) = evs ++ trace s -> In (EvItemDone h o) evs ->
  item_done_by P s (continue_with_batch P s) evs h o.
Proof.
  intros B T Hin. pose proof (continue_with_batch_form P s) as F.
  destruct (select P s) as [[k|] s1].
  - destruct F as (s3 & e1 & E & Hh & Hb & T3 & F1 & _ & Hd & Hne).
    pose proof (fun k' => get_batch_view k' s s3 Hb) as GB.
    pose proof (get_view s s3 Hh) as GH.
    assert (B3 : BI s3) by (apply (BI_keep s); [exact B|apply keep_view; assumption]).
    destruct (flush_batch_form P k s3 Hd) as (dones & T4 & _).
    rewrite E in T |- *. cbn [trace emit] in T. rewrite T4, T3 in T.
    assert (Ev : evs = EvAfter (fst k) (snd k) :: (dones ++ [EvFlush (fst k) (snd k) (b_items (get_batch k s3))]) ++ EvBefore (fst k) (snd k) :: e1).
    { apply (app_inv_tail (trace s)). rewrite <- T. lnorm. reflexivity. }
    subst evs. destruct Hin as [Hin|Hin]; [discriminate Hin|]. apply in_app_or in Hin as [Hin|Hin].
    + destruct (flush_batch_item_done P k s3 _ h o B3 Hd T4 Hin) as (Hi & key & a & G & G' & Eo).
      exists k, key, a. cbn zeta. rewrite <- !GB, <- GH. split; [exact Hd|]. split; [exact Hi|].
      split; [right; apply in_or_app; left; apply in_or_app; right; left; reflexivity|].
      split; [exact G|]. split; [exact G'|exact Eo].
    + destruct Hin as [Hin|Hin]; [discriminate Hin|]. destruct (tame_not_done _ _ _ F1 Hin).
  - exfalso. destruct F as (E & _ & (e1 & T1 & F1 & _)). rewrite E in T.
    assert (evs = e1) by (apply (app_inv_tail (trace s)); rewrite <- T, <- T1; reflexivity). subst evs.
    exact (tame_not_done _ _ _ F1 Hin).
Qed.

(* every completion event gained by ONE transition of the machine, from ANY configuration whose heap
   satisfies BI *)
Theorem step_item_done P c evs h o : BI (c_st c) ->
  trace (c_st (step P c)) = evs ++ trace (c_st c) -> In (EvItemDone h o) evs ->
  item_done_by P (c_st c) (c_st (step P c)) evs h o.
Proof.
  intros B T Hin. destruct (step_cases P c) as [[_ E]|[[_ (k & E)]|[_ (evs' & T' & F & _)]]].
  - rewrite E in T |- *. exact (cwb_item_done P _ evs h o B T Hin).
  - rewrite E in T |- *. exact (fb_item_done P k _ evs h o B T Hin).
  - exfalso. assert (evs = evs') by (apply (app_inv_tail (trace (c_st c))); rewrite <- T, <- T'; reflexivity). subst evs'.
    exact (tame_not_done _ _ _ F Hin).
Qed.

Definition OutInv (s : st) : Prop :=
  forall h o, In (EvItemDone h o) (trace s) ->
    exists kind idx key a, get h s = Some (mkFut (Some o) (KItem kind idx key a)).

Theorem OutInv_step P c : dom (c_st c) -> BI (c_st c) -> OutInv (c_st c) -> OutInv (c_st (step P c)).
Proof.
  intros D B HO h o Hin. destruct (step_trace P c) as (evs & T). rewrite T in Hin. apply in_app_or in Hin as [Hin|Hin].
  - destruct (step_item_done P c evs h o B T Hin) as (k & key & a & _ & _ & _ & _ & G' & _).
    exists (fst k), (snd k), key, a. exact G'.
  - destruct (HO h o Hin) as (kind & idx & key & a & G). exists kind, idx, key, a.
    apply (stab_step P c D); [exact G|exact I|cbn; discriminate].
Qed.

(* blocks whose completions satisfy a predicate Q kind idx items dones; MachineC05T.blocksR / blocks are the instance
   for [served] *)
Section GBlocks.
  Variable Q : Z -> Z -> list fid -> list event -> Prop.

  (* newest first *)
  Inductive gblocksR : list event -> Prop :=
  | gblocksR_nil : gblocksR []
  | gblocksR_tame e tr : tame e -> gblocksR tr -> gblocksR (e :: tr)
  | gblocksR_sync kind idx items dones tr :
      Q kind idx items dones -> gblocksR tr -> gblocksR (dones ++ EvFlush kind idx items :: tr)
  | gblocksR_sched kind idx items dones tr :
      items <> [] -> Q kind idx items dones -> gblocksR tr ->
      gblocksR (EvAfter kind idx :: dones ++ EvFlush kind idx items :: EvBefore kind idx :: tr).

  (* chronological *)
  Inductive gblocks : list event -> Prop :=
  | gblocks_nil : gblocks []
  | gblocks_tame e tr : tame e -> gblocks tr -> gblocks (e :: tr)
  | gblocks_sync kind idx items dones tr :
      Q kind idx items dones -> gblocks tr -> gblocks (EvFlush kind idx items :: dones ++ tr)
  | gblocks_sched kind idx items dones tr :
      items <> [] -> Q kind idx items dones -> gblocks tr ->
      gblocks (EvBefore kind idx :: EvFlush kind idx items :: dones ++ EvAfter kind idx :: tr).

  Lemma gblocksR_app a b : gblocksR a -> gblocksR b -> gblocksR (a ++ b).
  Proof.
    intros Ha Hb. induction Ha as [|e tr He Ht IH|kind idx items dones tr Hd Ht IH|kind idx items dones tr Hi Hd Ht IH]; [exact Hb| | |].
    - cbn [app]. apply gblocksR_tame; assumption.
    - rewrite <- app_assoc. cbn [app]. apply gblocksR_sync; assumption.
    - cbn [app]. rewrite <- app_assoc. cbn [app]. apply gblocksR_sched; assumption.
  Qed.

  Lemma gblocks_app a b : gblocks a -> gblocks b -> gblocks (a ++ b).
  Proof.
    intros Ha Hb. induction Ha as [|e tr He Ht IH|kind idx items dones tr Hd Ht IH|kind idx items dones tr Hi Hd Ht IH]; [exact Hb| | |].
    - cbn [app]. apply gblocks_tame; assumption.
    - cbn [app]. rewrite <- app_assoc. apply gblocks_sync; assumption.
    - cbn [app]. rewrite <- app_assoc. cbn [app]. apply gblocks_sched; assumption.
  Qed.

  Lemma gblocksR_all_tame evs : Forall tame evs -> gblocksR evs.
  Proof. intros H. induction H as [|e evs He Hf IH]; [constructor|apply gblocksR_tame; assumption]. Qed.

  Hypothesis Q_rev : forall kind idx items dones, Q kind idx items dones -> Q kind idx items (rev dones).
  Hypothesis Q_done : forall kind idx items dones, Q kind idx items dones -> Forall (done_in items) dones.

  Lemma gblocksR_rev tr : gblocksR tr -> gblocks (rev tr).
  Proof.
    intros H. induction H as [|e tr He Ht IH|kind idx items dones tr Hd Ht IH|kind idx items dones tr Hi Hd Ht IH]; [constructor| | |].
    - cbn [rev]. apply gblocks_app; [exact IH|]. apply gblocks_tame; [exact He|constructor].
    - rewrite rev_app_distr. cbn [rev]. rewrite <- !app_assoc. cbn [app].
      apply gblocks_app; [exact IH|]. rewrite <- (app_nil_r (rev dones)).
      apply gblocks_sync; [apply Q_rev; exact Hd|constructor].
    - cbn [rev]. rewrite rev_app_distr. cbn [rev]. rewrite <- !app_assoc. cbn [app].
      apply gblocks_app; [exact IH|]. apply gblocks_sched; [exact Hi|apply Q_rev; exact Hd|constructor].
  Qed.

  (* every flush body (bracketed or not) is followed by completions satisfying Q *)
  Lemma gblocks_flush tr : gblocks tr -> forall l1 l2 kind idx items,
    tr = l1 ++ EvFlush kind idx items :: l2 ->
    exists dones l3, l2 = dones ++ l3 /\ Q kind idx items dones.
  Proof.
    intros H. induction H as [|e tr He Ht IH|k0 i0 items0 dones tr Hd Ht IH|k0 i0 items0 dones tr Hi Hd Ht IH];
      intros l1 l2 kind idx items E.
    - destruct l1; discriminate.
    - destruct l1 as [|x l1]; cbn [app] in E; injection E as Ex Et.
      + subst e. destruct He.
      + exact (IH l1 l2 kind idx items Et).
    - destruct l1 as [|x l1]; cbn [app] in E; injection E as Ex Et.
      + inversion Ex; subst. exists dones, tr. auto.
      + destruct (dones_split _ _ _ _ _ _ (Q_done _ _ _ _ Hd) Et (fun H => H)) as (c' & -> & Hc).
        exact (IH c' l2 kind idx items Hc).
    - destruct l1 as [|x l1]; cbn [app] in E; [discriminate E|]. injection E as Ex Et.
      destruct l1 as [|y l1]; cbn [app] in Et; injection Et as Ey Et.
      + inversion Ey; subst. exists dones, (EvAfter kind idx :: tr). auto.
      + destruct (dones_split _ _ _ _ _ _ (Q_done _ _ _ _ Hd) Et (fun H => H)) as (c' & -> & Hc).
        destruct c' as [|z c']; cbn [app] in Hc; [discriminate Hc|]. injection Hc as Ez Hc.
        exact (IH c' l2 kind idx items Hc).
  Qed.

  (* every item completion lies among the completions of a flush, which satisfy Q *)
  Lemma gblocks_item tr : gblocks tr -> forall l1 l2 h o,
    tr = l1 ++ EvItemDone h o :: l2 ->
    exists kind idx items l0 pre post, l1 = l0 ++ EvFlush kind idx items :: pre /\
                                       Q kind idx items (pre ++ EvItemDone h o :: post).
  Proof.
    intros H. induction H as [|e tr He Ht IH|k0 i0 items dones tr Hd Ht IH|k0 i0 items dones tr Hi Hd Ht IH];
      intros l1 l2 h o E.
    - destruct l1; discriminate.
    - destruct l1 as [|x l1]; cbn [app] in E; injection E as Ex Et.
      + subst e. destruct He.
      + destruct (IH l1 l2 h o Et) as (kind & idx & items & l0 & pre & post & -> & HQ).
        exists kind, idx, items, (x :: l0), pre, post. auto.
    - destruct l1 as [|x l1]; cbn [app] in E; [discriminate E|]. injection E as Ex Et. subst x.
      destruct (app_eq_split _ _ _ _ _ Et) as [(a2 & -> & _)|(c' & -> & Hc)].
      + exists k0, i0, items, [], l1, a2. split; [reflexivity|exact Hd].
      + destruct (IH c' l2 h o Hc) as (kind & idx & items' & l0 & pre & post & -> & HQ).
        exists kind, idx, items', (EvFlush k0 i0 items :: dones ++ l0), pre, post. split; [|exact HQ].
        cbn [app]. rewrite <- app_assoc. reflexivity.
    - destruct l1 as [|x l1]; cbn [app] in E; [discriminate E|]. injection E as Ex Et.
      destruct l1 as [|y l1]; cbn [app] in Et; [discriminate Et|]. injection Et as Ey Et. subst x y.
      destruct (app_eq_split _ _ _ _ _ Et) as [(a2 & -> & _)|(c' & -> & Hc)].
      + exists k0, i0, items, [EvBefore k0 i0], l1, a2. split; [reflexivity|exact Hd].
      + destruct c' as [|z c']; cbn [app] in Hc; injection Hc as Ez Hc; [discriminate Ez|]. subst z.
        destruct (IH c' l2 h o Hc) as (kind & idx & items' & l0 & pre & post & -> & HQ).
        exists kind, idx, items', (EvBefore k0 i0 :: EvFlush k0 i0 items :: dones ++ EvAfter k0 i0 :: l0), pre, post.
        split; [|exact HQ]. cbn [app]. rewrite <- app_assoc. reflexivity.
  Qed.
End GBlocks.

Lemma gblocksR_mono (Q1 Q2 : Z -> Z -> list fid -> list event -> Prop) tr :
  (forall kind idx items dones, Q1 kind idx items dones -> Q2 kind idx items dones) ->
  gblocksR Q1 tr -> gblocksR Q2 tr.
Proof.
  intros HQ H. induction H as [|e tr He Ht IH|kind idx items dones tr Hd Ht IH|kind idx items dones tr Hi Hd Ht IH].
  - constructor.
  - apply gblocksR_tame; assumption.
  - apply gblocksR_sync; [apply HQ; exact Hd|exact IH].
  - apply gblocksR_sched; [exact Hi|apply HQ; exact Hd|exact IH].
Qed.

(* [blocks] is the instance of [gblocks] for [served] *)
Lemma blocks_g tr : blocks tr <-> gblocks (fun _ _ => served) tr.
Proof. split; induction 1; constructor; assumption. Qed.

(* every flush body (bracketed or not) is followed by the completions of exactly its items *)
Lemma blocks_flush tr : blocks tr -> forall l1 l2 kind idx items,
  tr = l1 ++ EvFlush kind idx items :: l2 ->
  exists dones l3, l2 = dones ++ l3 /\ served items dones.
Proof. rewrite blocks_g. apply (gblocks_flush (fun _ _ => served)). intros _ _ items dones [F _]. exact F. Qed.

(* every item completion belongs to a flush of a batch that contains the item: it is preceded by that
   flush's EvFlush with only completions of items of the same batch in between *)
Lemma blocks_item tr : blocks tr -> forall l1 l2 h o,
  tr = l1 ++ EvItemDone h o :: l2 ->
  exists kind idx items l0 dones, l1 = l0 ++ EvFlush kind idx items :: dones /\
                                  In h items /\ Forall (done_in items) dones.
Proof.
  rewrite blocks_g. intros H l1 l2 h o E.
  destruct (gblocks_item _ tr H l1 l2 h o E) as (kind & idx & items & l0 & pre & post & -> & [F _]).
  destruct (done_in_mid _ _ _ _ F) as [Hx Hl]. exists kind, idx, items, l0, pre. auto.
Qed.

Theorem run_case_flush_serves_its_items P fuel ps l1 l2 kind idx items :
  snd (run_case P fuel ps) = l1 ++ EvFlush kind idx items :: l2 ->
  exists dones l3, l2 = dones ++ l3 /\ served items dones.
Proof. apply blocks_flush. apply run_case_blocks. Qed.

(* exactly once, by that flush: an item of a flushed batch has exactly one completion event in the
   whole trace, and it is among the completions of that flush *)
Theorem run_case_item_exactly_once P fuel ps l1 l2 kind idx items h :
  snd (run_case P fuel ps) = l1 ++ EvFlush kind idx items :: l2 -> In h items ->
  cnt h (snd (run_case P fuel ps)) = 1%nat /\
  exists dones l3 o, l2 = dones ++ l3 /\ served items dones /\ In (EvItemDone h o) dones.
Proof.
  intros E Hin. destruct (run_case_flush_serves_its_items P fuel ps l1 l2 kind idx items E) as (dones & l3 & -> & S).
  destruct (proj2 S h Hin) as (o & Ho). split.
  - pose proof (run_case_item_done_at_most_once P fuel ps h) as Hle.
    assert (Hge : (1 <= cnt h (snd (run_case P fuel ps)))%nat).
    { apply (cnt_pos h o). rewrite E. apply in_or_app. right. right. apply in_or_app. left. exact Ho. }
    lia.
  - exists dones, l3, o. auto.
Qed.

Theorem run_case_item_done_by_its_flush P fuel ps l1 l2 h o :
  snd (run_case P fuel ps) = l1 ++ EvItemDone h o :: l2 ->
  exists kind idx items l0 dones, l1 = l0 ++ EvFlush kind idx items :: dones /\
                                  In h items /\ Forall (done_in items) dones.
Proof. apply blocks_item. apply run_case_blocks. Qed.

(* the completions [dones] of the flush of batch (kind, idx) with item list [items], judged in state s:
   completions of members of items only, every member has one (served), and every completion
   EvItemDone h o is recorded in the heap entry of h - an item entry of THIS batch holding outcome o - and
   o is the expected outcome for the scripted action a of h *)
Definition oserved (P : params) (s : st) (kind idx : Z) (items : list fid) (dones : list event) : Prop :=
  served items dones /\
  forall h o, In (EvItemDone h o) dones ->
    exists key a, get h s = Some (mkFut (Some o) (KItem kind idx key a)) /\
      o = expected_outcome a (reached (ks_raise (kspec_of P kind)) items h)
                             (flush_err (ks_raise (kspec_of P kind)) items).

Lemma oserved_rev P s kind idx items dones :
  oserved P s kind idx items dones -> oserved P s kind idx items (rev dones).
Proof. intros [S H]. split; [apply served_rev; exact S|]. intros h o Hin. apply in_rev in Hin. exact (H h o Hin). Qed.

Lemma oserved_done P s kind idx items dones : oserved P s kind idx items dones -> Forall (done_in items) dones.
Proof. intros [[F _] _]. exact F. Qed.

Lemma oserved_mono P s s' kind idx items dones :
  stab s s' -> oserved P s kind idx items dones -> oserved P s' kind idx items dones.
Proof.
  intros S [Sv H]. split; [exact Sv|]. intros h o Hin. destruct (H h o Hin) as (key & a & G & Eo).
  exists key, a. split; [|exact Eo]. apply S; [exact G|exact I|cbn; discriminate].
Qed.

Lemma oblocksR_mono P s s' tr : stab s s' -> gblocksR (oserved P s) tr -> gblocksR (oserved P s') tr.
Proof. intros S. apply gblocksR_mono. intros kind idx items dones. apply oserved_mono. exact S. Qed.

(* one flush of a pending batch is one block whose completions carry the expected outcomes *)
Lemma oblock_flush P k s : b_done (get_batch k s) = false ->
  exists dones,
    trace (flush_batch P k s) = (dones ++ [EvFlush (fst k) (snd k) (b_items (get_batch k s))]) ++ trace s /\
    (BI s -> oserved P (flush_batch P k s) (fst k) (snd k) (b_items (get_batch k s)) dones).
Proof.
  intros Hd. destruct (flush_batch_form P k s Hd) as (dones & T & _ & Sh & Ev). exists dones. split; [exact T|]. intros B.
  assert (F : Forall (done_in (b_items (get_batch k s))) dones).
  { apply Forall_forall. intros e He. destruct (Sh e He) as (h & o & ->). cbn. exact (proj1 (Ev h o He)). }
  split; [exact (served_flush P k s dones B Hd T F)|].
  intros h o Hin.
  assert (Hin' : In (EvItemDone h o) (dones ++ [EvFlush (fst k) (snd k) (b_items (get_batch k s))])) by (apply in_or_app; left; exact Hin).
  destruct (flush_batch_item_done P k s _ h o B Hd T Hin') as (_ & key & a & _ & G' & Eo).
  exists key, a. split; [exact G'|exact Eo].
Qed.

(* one transition: whole blocks, judged in the state reached *)
Definition ook (P : params) (s s' : st) : Prop :=
  exists evs, trace s' = evs ++ trace s /\ (BI s -> gblocksR (oserved P s') evs).

Lemma ook_mild P s s' : mild s s' -> ook P s s'.
Proof. intros (evs & T & F & _). exists evs. split; [exact T|]. intros _. apply gblocksR_all_tame. exact F. Qed.

Lemma ook_flush_batch P k s : ook P s (flush_batch P k s).
Proof.
  destruct (b_done (get_batch k s)) eqn:Hd; [rewrite (flush_done_is_noop P k s Hd); apply ook_mild, mild_refl|].
  destruct (oblock_flush P k s Hd) as (dones & T & OS). exists (dones ++ [EvFlush (fst k) (snd k) (b_items (get_batch k s))]).
  split; [exact T|]. intros B. apply gblocksR_sync; [exact (OS B)|constructor].
Qed.

Lemma ook_continue_with_batch P s : ook P s (continue_with_batch P s).
Proof.
  pose proof (continue_with_batch_form P s) as F. destruct (select P s) as [[k|] s1].
  - destruct F as (s3 & e1 & E & Hh & Hb & T3 & F1 & _ & Hd & Hne). rewrite E.
    destruct (oblock_flush P k s3 Hd) as (dones & T4 & OS).
    exists (EvAfter (fst k) (snd k) :: dones ++ EvFlush (fst k) (snd k) (b_items (get_batch k s3)) :: EvBefore (fst k) (snd k) :: e1).
    split; [cbn [trace emit]; rewrite T4, T3; lnorm; reflexivity|]. intros B.
    apply gblocksR_sched; [exact Hne| |apply gblocksR_all_tame; exact F1].
    apply (oserved_mono P (flush_batch P k s3)); [apply stab_view; reflexivity|].
    apply OS, (BI_keep s); [exact B|apply keep_view; assumption].
  - destruct F as (-> & _ & M). apply ook_mild. exact M.
Qed.

Theorem ook_step P c : ook P (c_st c) (c_st (step P c)).
Proof.
  destruct (step_cases P c) as [[_ ->]|[[_ (k & ->)]|[_ M]]];
    [apply ook_continue_with_batch|apply ook_flush_batch|apply ook_mild, M].
Qed.

Definition OInv (P : params) (s : st) : Prop :=
  Inv s /\ OutInv s /\ gblocksR (oserved P s) (trace s).

Theorem OInv_step P c : OInv P (c_st c) -> OInv P (c_st (step P c)).
Proof.
  intros (HI & HO & HB). pose proof HI as (D & Bi & _). split; [apply Inv_step; exact HI|]. split.
  - apply OutInv_step; assumption.
  - destruct (ook_step P c) as (evs & T & Hb). rewrite T. apply gblocksR_app; [exact (Hb Bi)|].
    apply (oblocksR_mono P (c_st c)); [apply stab_step; exact D|exact HB].
Qed.

Lemma OInv_run P n c : OInv P (c_st c) -> OInv P (c_st (run P n c)).
Proof. apply inv_run, OInv_step. Qed.

Lemma OInv_st0 P : OInv P (st0 P).
Proof. split; [apply Inv_st0|]. split; [intros h o []|constructor]. Qed.

(* extension by tame events only, no item entry with an outcome touched *)
Lemma OInv_tame P s s' evs :
  OInv P s -> Inv s' -> stab s s' -> trace s' = evs ++ trace s -> Forall tame evs -> OInv P s'.
Proof.
  intros (HI & HO & HB) HI' S T F. split; [exact HI'|]. split.
  - intros h o Hin. rewrite T in Hin. apply in_app_or in Hin as [Hin|Hin]; [destruct (tame_not_done _ _ _ F Hin)|].
    destruct (HO h o Hin) as (kind & idx & key & a & G). exists kind, idx, key, a.
    apply S; [exact G|exact I|cbn; discriminate].
  - rewrite T. apply gblocksR_app; [apply gblocksR_all_tame; exact F|]. exact (oblocksR_mono P s s' _ S HB).
Qed.

Lemma OInv_create P p f s : OInv P s -> OInv P (snd (create p f s)).
Proof.
  intros HF. apply (OInv_tame P s _ [] HF); [apply Inv_create, HF|apply fixed_stab, fixed_create, HF|destruct f; reflexivity|constructor].
Qed.

Lemma OInv_emit P e s : tame e -> OInv P s -> OInv P (emit e s).
Proof.
  intros He HF. apply (OInv_tame P s _ [e] HF); [apply Inv_emit; [exact He|apply HF]|apply stab_view; reflexivity|reflexivity|].
  repeat constructor. exact He.
Qed.

(* the state in which a history of computations ends; run_case returns its trace, oldest event first *)
Definition final_state (P : params) (fuel : nat) (ps : list prog) : st := snd (run_history P fuel ps (st0 P)).

Lemma run_case_trace P fuel ps : snd (run_case P fuel ps) = rev (trace (final_state P fuel ps)).
Proof. unfold run_case, final_state. destruct (run_history P fuel ps (st0 P)) as [os s]. reflexivity. Qed.

Lemma OInv_final P fuel ps : OInv P (final_state P fuel ps).
Proof.
  unfold final_state. apply inv_run_history; [apply OInv_step|apply OInv_create|intros a b c s; apply OInv_emit; exact I|apply OInv_st0].
Qed.

(* the outcome announced by a completion event after n steps is the outcome the item has after n + m steps,
   for every m *)
Theorem run_outcome_stable P n m c h o :
  OInv P (c_st c) -> In (EvItemDone h o) (trace (c_st (run P n c))) ->
  (exists kind idx key a, get h (c_st (run P (n + m) c)) = Some (mkFut (Some o) (KItem kind idx key a))) /\
  computed h (c_st (run P (n + m) c)) = true /\ outcome_of h (c_st (run P (n + m) c)) = o.
Proof.
  intros HF Hin. destruct (OInv_run P n c HF) as (HI & HO & _). destruct (HO h o Hin) as (kind & idx & key & a & G).
  assert (G' : get h (c_st (run P (n + m) c)) = Some (mkFut (Some o) (KItem kind idx key a))).
  { rewrite run_add. apply (stab_run P m (run P n c) (proj1 HI)); [exact G|exact I|cbn; discriminate]. }
  split; [exists kind, idx, key, a; exact G'|]. unfold computed, outcome_of. rewrite G'. cbn. auto.
Qed.

(* at the end of run_case, every completion event agrees with the heap *)
Theorem run_case_outcome_stored P fuel ps h o :
  In (EvItemDone h o) (snd (run_case P fuel ps)) ->
  (exists kind idx key a, get h (final_state P fuel ps) = Some (mkFut (Some o) (KItem kind idx key a))) /\
  computed h (final_state P fuel ps) = true /\ outcome_of h (final_state P fuel ps) = o.
Proof.
  rewrite run_case_trace. intros Hin. apply in_rev in Hin. destruct (OInv_final P fuel ps) as (_ & HO & _).
  destruct (HO h o Hin) as (kind & idx & key & a & G). split; [exists kind, idx, key, a; exact G|].
  unfold computed, outcome_of. rewrite G. cbn. auto.
Qed.

(* every completion event gained along a run was emitted by a step k < n whose flush explains it *)
Theorem run_item_done_origin P n : forall c0 h o,
  OInv P (c_st c0) -> In (EvItemDone h o) (trace (c_st (run P n c0))) ->
  In (EvItemDone h o) (trace (c_st c0)) \/
  exists k evs, (k < n)%nat /\
    trace (c_st (run P (S k) c0)) = evs ++ trace (c_st (run P k c0)) /\ In (EvItemDone h o) evs /\
    item_done_by P (c_st (run P k c0)) (c_st (run P (S k) c0)) evs h o.
Proof.
  intros c0 h o HF H. destruct (run_event_origin P n c0 _ H) as [H0|(k & evs & Hk & T & Hi)]; [left; exact H0|].
  right. exists k, evs. rewrite run_step. split; [exact Hk|]. split; [exact T|]. split; [exact Hi|].
  destruct (OInv_run P k c0 HF) as ((_ & Bi & _) & _). exact (step_item_done P _ evs h o Bi T Hi).
Qed.

Lemma oblocks_final P fuel ps : gblocks (oserved P (final_state P fuel ps)) (snd (run_case P fuel ps)).
Proof.
  rewrite run_case_trace. destruct (OInv_final P fuel ps) as (_ & _ & HB).
  apply gblocksR_rev; [intros kind idx items dones; apply oserved_rev|exact HB].
Qed.

(* in the chronological trace of any history: every flush body is followed by the completions of exactly
   its items, each recorded in the final heap as an item of that batch and carrying the expected outcome *)
Theorem run_case_flush_outcomes P fuel ps l1 l2 kind idx items :
  snd (run_case P fuel ps) = l1 ++ EvFlush kind idx items :: l2 ->
  exists dones l3, l2 = dones ++ l3 /\ oserved P (final_state P fuel ps) kind idx items dones.
Proof.
  apply (gblocks_flush (oserved P (final_state P fuel ps))); [intros k0 i0 it0 d0; apply oserved_done|apply oblocks_final].
Qed.

(* the same for one run of the machine from any configuration satisfying the invariant, judged in the
   state reached after n transitions *)
Theorem run_flush_outcomes P n c l1 l2 kind idx items :
  OInv P (c_st c) ->
  rev (trace (c_st (run P n c))) = l1 ++ EvFlush kind idx items :: l2 ->
  exists dones l3, l2 = dones ++ l3 /\ oserved P (c_st (run P n c)) kind idx items dones.
Proof.
  intros HF. destruct (OInv_run P n c HF) as (_ & _ & HB).
  apply (gblocks_flush (oserved P (c_st (run P n c)))); [intros k0 i0 it0 d0; apply oserved_done|].
  apply gblocksR_rev; [intros k0 i0 it0 d0; apply oserved_rev|exact HB].
Qed.

(* C05's clause, item by item: an item of a flushed batch has exactly one completion event in the whole
   trace, among the completions of that flush, and it carries the expected outcome, which is also the
   outcome the item has in the final heap *)
Theorem run_case_item_outcome P fuel ps l1 l2 kind idx items h :
  snd (run_case P fuel ps) = l1 ++ EvFlush kind idx items :: l2 -> In h items ->
  exists key a,
    let ra := ks_raise (kspec_of P kind) in
    let o := expected_outcome a (reached ra items h) (flush_err ra items) in
    get h (final_state P fuel ps) = Some (mkFut (Some o) (KItem kind idx key a)) /\
    cnt h (snd (run_case P fuel ps)) = 1%nat /\
    exists dones l3, l2 = dones ++ l3 /\ served items dones /\ In (EvItemDone h o) dones.
Proof.
  intros E Hin. destruct (run_case_flush_outcomes P fuel ps l1 l2 kind idx items E) as (dones & l3 & -> & (Sv & Ho)).
  destruct (proj2 Sv h Hin) as (o & Hd). destruct (Ho h o Hd) as (key & a & G & Eo).
  exists key, a. cbn zeta. rewrite <- Eo. split; [exact G|].
  split; [exact (proj1 (run_case_item_exactly_once P fuel ps l1 _ kind idx items h E Hin))|].
  exists dones, l3. auto.
Qed.

(* the same, read from the completion event: every EvItemDone h o of the trace lies in the block of a flush
   EvFlush kind idx items with h among items (only completions of items of that batch in between), the
   final heap records h as an item of that very batch with outcome o, and o is the expected outcome *)
Theorem run_case_item_done_expected P fuel ps l1 l2 h o :
  snd (run_case P fuel ps) = l1 ++ EvItemDone h o :: l2 ->
  exists kind idx items l0 pre key a,
    l1 = l0 ++ EvFlush kind idx items :: pre /\ In h items /\ Forall (done_in items) pre /\
    get h (final_state P fuel ps) = Some (mkFut (Some o) (KItem kind idx key a)) /\
    o = expected_outcome a (reached (ks_raise (kspec_of P kind)) items h)
                           (flush_err (ks_raise (kspec_of P kind)) items).
Proof.
  intros E.
  destruct (gblocks_item (oserved P (final_state P fuel ps)) _ (oblocks_final P fuel ps) l1 l2 h o E)
    as (kind & idx & items & l0 & pre & post & -> & (Sv & Ho)).
  destruct (done_in_mid _ _ _ _ (proj1 Sv)) as [Hx Hl].
  destruct (Ho h o) as (key & a & G & Eo); [apply in_or_app; right; left; reflexivity|].
  exists kind, idx, items, l0, pre, key, a. auto.
Qed.

(* in outcome_of / computed form *)
Theorem run_outcome_never_changes P n c h :
  dom (c_st c) -> computed h (c_st c) = true ->
  computed h (c_st (run P n c)) = true /\ outcome_of h (c_st (run P n c)) = outcome_of h (c_st c).
Proof.
  intros D C. unfold computed, outcome_of in *. destruct (get h (c_st c)) as [f|] eqn:G; [|discriminate].
  destruct (f_out f) as [o|] eqn:O; [|discriminate].
  destruct (fixed_run P n c D h f G) as (f' & G' & O' & _); [congruence|]. rewrite G', O', O. auto.
Qed.

(* one task yields three items of one batch: the body sets a value for the first, an error for the
   second and nothing for the third *)
Definition c05o_demo3 : prog :=
  Yield (YTuple [YLeaf (LNew (FItem 0 1 (ASet (VInt 5)))); YLeaf (LNew (FItem 0 2 (AErr 9)));
                 YLeaf (LNew (FItem 0 3 ASkip))]) c05_ret.

(* item.value() outside the scheduler: an unbracketed flush *)
Definition c05o_demo_sync : prog := Let (FItem 0 1 ASkip) (fun h => Sync h c05_ret).

Definition c05o_P (ra : option (Z * exn)) : params := mkP [(0, mkK PDefault ra)] 1000 false [].

(* the body does not raise: own value, own error, "not set" AssertionError (E_NOTSET = -2) *)
Example c05o_demo_no_raise :
  snd (run_case (c05o_P None) 100%nat [c05o_demo3]) =
  [EvStep [0] 0 (Ok VNone); EvBefore 0 0; EvFlush 0 0 [[1]; [2]; [3]];
   EvItemDone [1] (Ok (VInt 5)); EvItemDone [2] (Err 9); EvItemDone [3] (Err E_NOTSET); EvAfter 0 0;
   EvStep [0] 1 (Err 9); EvDone [0] (Err 9); EvSched 0 0 None].
Proof. vm_compute. reflexivity. Qed.

(* the body raises 77 before item number 1: the first item keeps its value, the others get the flush error -
   also the second one, whose scripted action would have set the error 9 *)
Example c05o_demo_raise_at_1 :
  snd (run_case (c05o_P (Some (1, 77))) 100%nat [c05o_demo3]) =
  [EvStep [0] 0 (Ok VNone); EvBefore 0 0; EvFlush 0 0 [[1]; [2]; [3]];
   EvItemDone [1] (Ok (VInt 5)); EvItemDone [2] (Err 77); EvItemDone [3] (Err 77); EvAfter 0 0;
   EvStep [0] 1 (Err 77); EvDone [0] (Err 77); EvSched 0 0 None].
Proof. vm_compute. reflexivity. Qed.

(* the body raises after the last item: what it set stays, the unset item gets the flush error *)
Example c05o_demo_raise_at_end :
  snd (run_case (c05o_P (Some (3, 77))) 100%nat [c05o_demo3]) =
  [EvStep [0] 0 (Ok VNone); EvBefore 0 0; EvFlush 0 0 [[1]; [2]; [3]];
   EvItemDone [1] (Ok (VInt 5)); EvItemDone [2] (Err 9); EvItemDone [3] (Err 77); EvAfter 0 0;
   EvStep [0] 1 (Err 9); EvDone [0] (Err 9); EvSched 0 0 None].
Proof. vm_compute. reflexivity. Qed.

(* a flush forced by item.value(): no bracket events, the unset item gets the "not set" outcome *)
Example c05o_demo_sync_flush :
  snd (run_case (c05o_P None) 100%nat [c05o_demo_sync]) =
  [EvStep [0] 0 (Ok VNone); EvFlush 0 0 [[1]]; EvItemDone [1] (Err E_NOTSET); EvGot [0] (Err E_NOTSET);
   EvDone [0] (Err E_NOTSET); EvSched 0 0 None].
Proof. vm_compute. reflexivity. Qed.

(* the vocabulary computes: positions, flush error, expected outcomes of the three items when the body raises
   before item number 1 *)
Example c05o_demo_expected :
  let ra := Some (1, 77) in let items := [[1]; [2]; [3]] in
  raise_pos ra (length items) = Some (1%nat, 77) /\ flush_err ra items = Some 77 /\
  reached ra items [1] = true /\ reached ra items [2] = false /\ reached ra items [3] = false /\
  expected_outcome (ASet (VInt 5)) (reached ra items [1]) (flush_err ra items) = Ok (VInt 5) /\
  expected_outcome (AErr 9) (reached ra items [2]) (flush_err ra items) = Err 77 /\
  expected_outcome ASkip (reached ra items [3]) (flush_err ra items) = Err 77 /\
  expected_outcome ASkip (reached None items [3]) (flush_err None items) = Err E_NOTSET /\
  (* a scripted position outside 0 .. length never raises *)
  raise_pos (Some (4, 77)) (length items) = None /\ raise_pos (Some (-1, 77)) (length items) = None.
Proof. vm_compute. repeat split; reflexivity. Qed.

(* the hypotheses of run_case_item_outcome are satisfiable and its conclusion is the computed heap entry *)
Example c05o_demo_instance :
  let P := c05o_P (Some (1, 77)) in
  snd (run_case P 100%nat [c05o_demo3]) =
    [EvStep [0] 0 (Ok VNone); EvBefore 0 0] ++ EvFlush 0 0 [[1]; [2]; [3]] ::
    [EvItemDone [1] (Ok (VInt 5)); EvItemDone [2] (Err 77); EvItemDone [3] (Err 77); EvAfter 0 0;
     EvStep [0] 1 (Err 77); EvDone [0] (Err 77); EvSched 0 0 None] /\
  In [2] [[1]; [2]; [3]] /\
  get [2] (final_state P 100%nat [c05o_demo3]) = Some (mkFut (Some (Err 77)) (KItem 0 0 2 (AErr 9))).
Proof. vm_compute. split; [reflexivity|]. split; [right; left; reflexivity|reflexivity]. Qed.

(* REFUTED shortcut: "an item completes with what its scripted action sets" - the outcome cannot be read
   off the action alone, the raise position matters *)
Definition action_alone_statement : Prop :=
  forall P fuel ps h o kind idx key v,
    In (EvItemDone h o) (snd (run_case P fuel ps)) ->
    get h (final_state P fuel ps) = Some (mkFut (Some o) (KItem kind idx key (ASet v))) -> o = Ok v.

Definition c05o_demo1 : prog := Yield (YLeaf (LNew (FItem 0 1 (ASet (VInt 5))))) c05_ret.

Lemma action_alone_is_false : ~ action_alone_statement.
Proof.
  intros H.
  specialize (H (c05o_P (Some (0, 77))) 100%nat [c05o_demo1] [1] (Err 77) 0 0 1 (VInt 5)).
  assert (E : Err 77 = Ok (VInt 5)); [|discriminate E].
  apply H; [vm_compute; tauto|vm_compute; reflexivity].
Qed.
