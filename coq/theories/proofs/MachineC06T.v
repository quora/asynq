(* C06, the alternation clause as a trace property (tree programs whose with-blocks are well nested).

   In the model an AsyncContext with id cid opened by task t logs [EvResume t cid] when it is resumed
   (enter_ctx on entry, resume1 inside _resume_contexts) and [EvPause t cid] when it is paused (pause_plain
   inside exit_ctx, pause1 inside _pause_contexts).  For every key (t, cid) the events of that key, in
   chronological order, strictly alternate and start with a resume; the newest one is a resume exactly when
   t is an uncompleted task whose contexts are active and which has an AsyncContext cid open.

   Route: a state invariant [TO] over the projection [cev] of the trace on resume/pause events, stated with
   the heap only: [opens s t] lists the ids of the AsyncContexts of t that are active in s.  Every machine
   step either leaves both sides alone, or resumes a set of distinct ids of ONE task that were not active,
   or pauses a set of distinct ids of one task that were active (TO_chg).  This file holds the events, the
   invariant and how to read it; MachineC06S.v carries it along the runs of tree programs with synchronous
   calls, of which the yield-only tree programs are the special case. *)
From Asynq Require Import Machine proofs.ProgProofs proofs.MachineC05 proofs.MachineC08 proofs.MachineC01
  proofs.MachineC07 proofs.MachineHelpers proofs.MachineCases.

Definition is_res (t : fid) (cid : Z) (e : event) : bool :=
  match e with EvResume t' c' => fid_eqb t' t && Z.eqb c' cid | _ => false end.
Definition is_pau (t : fid) (cid : Z) (e : event) : bool :=
  match e with EvPause t' c' => fid_eqb t' t && Z.eqb c' cid | _ => false end.
Definition evk (t : fid) (cid : Z) (e : event) : bool := is_res t cid e || is_pau t cid e.
Definition isctx (e : event) : bool := match e with EvResume _ _ | EvPause _ _ => true | _ => false end.

(* the resume/pause events of context (t, cid), oldest first ([tr] is newest first, as [trace s]) *)
Definition ctx_events (t : fid) (cid : Z) (tr : list event) : list event := filter (evk t cid) (rev tr).

(* strict alternation: resume, pause, resume, ... ([want_resume] says what the first element must be) *)
Fixpoint alternates (t : fid) (cid : Z) (want_resume : bool) (l : list event) : Prop :=
  match l with
  | [] => True
  | e :: l' => e = (if want_resume then EvResume t cid else EvPause t cid) /\ alternates t cid (negb want_resume) l'
  end.

Definition cev_of (b : bool) (x : fid) (cid : Z) : event := if b then EvResume x cid else EvPause x cid.

Lemma fid_cid_eqb_true (x t : fid) (c cid : Z) : fid_eqb x t && Z.eqb c cid = true <-> x = t /\ c = cid.
Proof. rewrite andb_true_iff, fid_eqb_eq, Z.eqb_eq. reflexivity. Qed.

Lemma is_res_true t cid e : is_res t cid e = true <-> e = EvResume t cid.
Proof.
  destruct e; cbn; try (split; intros H; discriminate). rewrite fid_cid_eqb_true.
  split; [intros [-> ->]; reflexivity|intros H; inversion H; auto].
Qed.

Lemma is_pau_true t cid e : is_pau t cid e = true <-> e = EvPause t cid.
Proof.
  destruct e; cbn; try (split; intros H; discriminate). rewrite fid_cid_eqb_true.
  split; [intros [-> ->]; reflexivity|intros H; inversion H; auto].
Qed.

Lemma evk_isctx t cid e : evk t cid e = true -> isctx e = true.
Proof. destruct e; cbn; intros H; try discriminate; reflexivity. Qed.

(* on a newest-first list: is the newest event of the key a resume? *)
Fixpoint act (t : fid) (cid : Z) (tr : list event) : bool :=
  match tr with
  | [] => false
  | e :: tr' => if is_res t cid e then true else if is_pau t cid e then false else act t cid tr'
  end.

(* on a newest-first list: every resume of the key comes when it is paused (or new), every pause when it is resumed *)
Fixpoint okk (t : fid) (cid : Z) (tr : list event) : Prop :=
  match tr with
  | [] => True
  | e :: tr' => okk t cid tr' /\ (is_res t cid e = true -> act t cid tr' = false) /\ (is_pau t cid e = true -> act t cid tr' = true)
  end.

Fixpoint nxt (b : bool) (l : list event) : bool := match l with [] => b | _ :: l' => nxt (negb b) l' end.

Lemma nxt_snoc l : forall b e, nxt b (l ++ [e]) = negb (nxt b l).
Proof. induction l as [|a l IH]; intros b e; cbn; [reflexivity|apply IH]. Qed.

Lemma alternates_snoc t cid l : forall b e, alternates t cid b l -> e = cev_of (nxt b l) t cid -> alternates t cid b (l ++ [e]).
Proof.
  induction l as [|a l IH]; intros b e Ha He; cbn in *.
  - split; [destruct b; exact He|exact I].
  - destruct Ha as [Ea Ha]. split; [exact Ea|]. apply IH; assumption.
Qed.

Lemma ctx_events_cons t cid e tr : ctx_events t cid (e :: tr) = ctx_events t cid tr ++ (if evk t cid e then [e] else []).
Proof. unfold ctx_events. cbn [rev]. rewrite filter_app. cbn [filter]. destruct (evk t cid e); reflexivity. Qed.

Lemma okk_alternates t cid tr : okk t cid tr ->
  alternates t cid true (ctx_events t cid tr) /\ nxt true (ctx_events t cid tr) = negb (act t cid tr).
Proof.
  induction tr as [|e tr IH]; intros H; [split; [exact I|reflexivity]|].
  cbn [okk] in H. destruct H as (H0 & Hr & Hp). destruct (IH H0) as [IA IN]. rewrite ctx_events_cons. unfold evk. cbn [act].
  destruct (is_res t cid e) eqn:Er.
  - cbn [orb]. split; [|rewrite nxt_snoc, IN, (Hr eq_refl); reflexivity].
    apply alternates_snoc; [exact IA|]. rewrite IN, (Hr eq_refl). apply is_res_true. exact Er.
  - cbn [orb]. destruct (is_pau t cid e) eqn:Ep.
    + split; [|rewrite nxt_snoc, IN, (Hp eq_refl); reflexivity].
      apply alternates_snoc; [exact IA|]. rewrite IN, (Hp eq_refl). apply is_pau_true. exact Ep.
    + rewrite app_nil_r. split; assumption.
Qed.

Lemma act_false_hd t cid tr : act t cid tr = false ->
  match filter (evk t cid) tr with [] => True | e :: _ => e = EvPause t cid end.
Proof.
  induction tr as [|e tr IH]; intros H; [exact I|]. cbn [act] in H. cbn [filter]. unfold evk.
  destruct (is_res t cid e) eqn:Er; [discriminate|]. cbn [orb]. destruct (is_pau t cid e) eqn:Ep.
  - apply is_pau_true. exact Ep.
  - apply IH. exact H.
Qed.

Lemma act_filter t cid tr : act t cid (filter isctx tr) = act t cid tr.
Proof.
  induction tr as [|e tr IH]; [reflexivity|]. cbn [filter]. destruct (isctx e) eqn:E; cbn [act]; [rewrite IH; reflexivity|].
  destruct e; cbn in E; try discriminate; cbn; exact IH.
Qed.

Lemma okk_filter t cid tr : okk t cid (filter isctx tr) -> okk t cid tr.
Proof.
  induction tr as [|e tr IH]; intros H; [exact I|]. cbn [filter] in H. destruct (isctx e) eqn:E.
  - cbn [okk] in *. rewrite act_filter in H. destruct H as (H0 & H1 & H2). split; [apply IH; exact H0|split; assumption].
  - cbn [okk]. split; [apply IH; exact H|]. destruct e; cbn in E; try discriminate; cbn; split; intros; discriminate.
Qed.

Lemma filter_evk_isctx t cid tr : filter (evk t cid) (filter isctx tr) = filter (evk t cid) tr.
Proof.
  induction tr as [|e tr IH]; [reflexivity|]. cbn [filter]. destruct (isctx e) eqn:E.
  - cbn [filter]. rewrite IH. reflexivity.
  - destruct (evk t cid e) eqn:E2; [apply evk_isctx in E2; congruence|exact IH].
Qed.

Lemma act_cons_ev b x c t cid tr :
  act t cid (cev_of b x c :: tr) = if fid_eqb x t && Z.eqb c cid then b else act t cid tr.
Proof. destruct b; cbn; destruct (fid_eqb x t && Z.eqb c cid); reflexivity. Qed.

Lemma okk_cons_ev b x c t cid tr :
  okk t cid tr -> (x = t -> c = cid -> act t cid tr = negb b) -> okk t cid (cev_of b x c :: tr).
Proof.
  intros H0 H1. cbn [okk]. split; [exact H0|].
  destruct b; cbn; (split; intros E; [|]); try discriminate; apply fid_cid_eqb_true in E as [E1 E2]; apply H1; assumption.
Qed.

(* adding the events of a set of distinct ids of one task, all in the opposite state before *)
Lemma push_evs b x cids : NoDup cids -> forall tr, (forall cid, In cid cids -> act x cid tr = negb b) ->
  let tr' := rev (map (cev_of b x) cids) ++ tr in
  (forall t cid, okk t cid tr -> okk t cid tr') /\
  (forall cid, In cid cids -> act x cid tr' = b) /\
  (forall t cid, ~ (t = x /\ In cid cids) -> act t cid tr' = act t cid tr).
Proof.
  induction 1 as [|c cids Hnin Hnd IH]; intros tr Hpre; cbn zeta.
  - cbn. split; [auto|]. split; [intros cid []|auto].
  - cbn [map rev]. rewrite <- app_assoc. cbn [app].
    assert (Hpre1 : forall cid, In cid cids -> act x cid (cev_of b x c :: tr) = negb b).
    { intros cid Hin. rewrite act_cons_ev.
      destruct (fid_eqb x x && Z.eqb c cid) eqn:E; [apply fid_cid_eqb_true in E as [_ E]; subst; contradiction|].
      apply Hpre. right. exact Hin. }
    destruct (IH (cev_of b x c :: tr) Hpre1) as (I1 & I2 & I3). cbn zeta in *. split; [|split].
    + intros t cid Hok. apply I1. apply okk_cons_ev; [exact Hok|]. intros -> ->. apply Hpre. left. reflexivity.
    + intros cid [<-|Hin]; [|apply I2; exact Hin].
      rewrite I3 by (intros [_ Hc]; contradiction). rewrite act_cons_ev.
      rewrite (proj2 (fid_cid_eqb_true x x c c) (conj eq_refl eq_refl)). reflexivity.
    + intros t cid Hn. rewrite I3 by (intros [Ht Hc]; apply Hn; split; [exact Ht|right; exact Hc]).
      rewrite act_cons_ev. destruct (fid_eqb x t && Z.eqb c cid) eqn:E; [|reflexivity].
      apply fid_cid_eqb_true in E as [-> ->]. exfalso. apply Hn. split; [reflexivity|left; reflexivity].
Qed.

Definition acids (cs : list ctxk) : list Z :=
  flat_map (fun c => match c with CAsync cid _ => [cid] | _ => [] end) cs.

Lemma acids_app a b : acids (a ++ b) = acids a ++ acids b.
Proof. unfold acids. apply flat_map_app. Qed.

Lemma acids_in cid cs : In cid (acids cs) <-> exists f, In (CAsync cid f) cs.
Proof.
  unfold acids. rewrite in_flat_map. split.
  - intros (c & Hc & Hin). destruct c as [cid' f|cid'|cid' var v]; cbn in Hin; try (now destruct Hin).
    destruct Hin as [<-|[]]. exists f. exact Hc.
  - intros (f & Hc). exists (CAsync cid f). split; [exact Hc|left; reflexivity].
Qed.

Lemma acids_sub cid cs : In cid (acids cs) -> In cid (map cid_of cs).
Proof. intros H. apply acids_in in H as (f & Hf). apply in_map_iff. exists (CAsync cid f). split; [reflexivity|exact Hf]. Qed.

Lemma acids_nodup cs : NoDup (map cid_of cs) -> NoDup (acids cs).
Proof.
  induction cs as [|c cs IH]; intros H; [constructor|]. cbn [map] in H. inversion H as [|a l Hnin Hnd]; subst.
  destruct c as [cid f|cid|cid var v]; cbn; try (apply IH; exact Hnd).
  constructor; [|apply IH; exact Hnd]. intros Hin. apply Hnin. cbn. apply acids_sub. exact Hin.
Qed.

Lemma acids_rev_in cid cs : In cid (acids (rev cs)) <-> In cid (acids cs).
Proof. rewrite !acids_in. split; intros (f & Hf); exists f; [apply in_rev; exact Hf|apply in_rev in Hf; exact Hf]. Qed.

Lemma acids_rev_nodup cs : NoDup (map cid_of cs) -> NoDup (acids (rev cs)).
Proof. intros H. apply acids_nodup. rewrite map_rev. apply NoDup_rev. exact H. Qed.

Definition cev (s : st) : list event := filter isctx (trace s).

Lemma cev_view s s' : trace s' = trace s -> cev s' = cev s.
Proof. unfold cev. intros ->. reflexivity. Qed.

Lemma cev_set_task t tk s : cev (set_task t tk s) = cev s.
Proof. unfold set_task. destruct (get t s); reflexivity. Qed.

Lemma cev_flush_batch P k s : cev (flush_batch P k s) = cev s.
Proof. apply (rel_flush_batch (fun a b => cev b = cev a)); intros; try reflexivity; congruence. Qed.

Lemma cev_continue_with_batch P s : cev (continue_with_batch P s) = cev s.
Proof. apply (rel_continue_with_batch (fun a b => cev b = cev a)); intros; try reflexivity; congruence. Qed.

Lemma cev_schedule_batch k s : cev (schedule_batch k s) = cev s.
Proof. destruct (schedule_batch_cases k s) as [E|E]; rewrite E; reflexivity. Qed.

Lemma cev_resume1 x c s : plain_ctx c = true ->
  cev (fst (resume1 x c s)) = rev (map (cev_of true x) (acids [c])) ++ cev s.
Proof. destruct c as [cid [| |]|cid|cid var v]; intros H; try discriminate; reflexivity. Qed.

Lemma cev_pause1 x c s : plain_ctx c = true ->
  cev (fst (pause1 x c s)) = rev (map (cev_of false x) (acids [c])) ++ cev s.
Proof. destruct c as [cid [| |]|cid|cid var v]; intros H; try discriminate; reflexivity. Qed.

Lemma cev_fold_toggle b x (step1 : fid -> ctxk -> st -> st * option exn) :
  (forall c s, plain_ctx c = true -> cev (fst (step1 x c s)) = rev (map (cev_of b x) (acids [c])) ++ cev s) ->
  forall cs s, forallb plain_ctx cs = true ->
  cev (fold_left (fun s c => fst (step1 x c s)) cs s) = rev (map (cev_of b x) (acids cs)) ++ cev s.
Proof.
  intros H1. induction cs as [|c cs IH]; intros s Hp; [reflexivity|]. cbn [forallb] in Hp. apply andb_true_iff in Hp as [Hc Hl].
  cbn [fold_left]. rewrite (IH _ Hl), (H1 c s Hc). change (c :: cs) with ([c] ++ cs). rewrite (acids_app [c] cs).
  rewrite map_app, rev_app_distr, <- app_assoc. reflexivity.
Qed.

Definition cev_fold_resume x := cev_fold_toggle true x resume1 (cev_resume1 x).
Definition cev_fold_pause x := cev_fold_toggle false x pause1 (cev_pause1 x).

(* _resume_contexts (b = true) / _pause_contexts (b = false) of a task x whose contexts cannot fail: the flag becomes b
   and, unless it was b already, every AsyncContext of x logs one event, in the order the helper walks the contexts *)
Definition toggle (b : bool) : fid -> st -> st := if b then resume_contexts else pause_contexts.

Lemma toggle_entry b x s out tk : forallb plain_ctx (tk_ctxs tk) = true -> get x s = Some (mkFut out (KTask tk)) ->
  upd_entry s (toggle b x s) x (mkFut out (KTask (tk_with_ctxs tk (tk_ctxs tk) b))).
Proof.
  intros Hp Hg. apply tupd_upd_entry. destruct b; [apply resume_tupd|apply pause_tupd]; auto using plain_noraise.
Qed.

Lemma cev_toggle b x s out tk : forallb plain_ctx (tk_ctxs tk) = true -> get x s = Some (mkFut out (KTask tk)) ->
  cev (toggle b x s) =
  rev (map (cev_of b x) (if Bool.eqb (tk_cact tk) b then [] else acids (if b then tk_ctxs tk else rev (tk_ctxs tk)))) ++ cev s.
Proof.
  intros Hp Hg. destruct b, (tk_cact tk) eqn:Hc; cbn [Bool.eqb toggle].
  - unfold resume_contexts, get_task. rewrite Hg, Hc. reflexivity.
  - rewrite (resume_contexts_eq x s out tk Hg Hp Hc), (cev_fold_resume x _ _ Hp), cev_set_task. reflexivity.
  - rewrite (pause_contexts_eq x s out tk Hg Hp Hc), (cev_fold_pause x); [|rewrite forallb_rev; exact Hp].
    rewrite cev_set_task. reflexivity.
  - unfold pause_contexts, get_task. rewrite Hg, Hc. reflexivity.
Qed.

(* the ids of the AsyncContexts of a heap entry that are active: an uncompleted task whose _contexts_active is set *)
Definition fopens (f : option fut) : list Z :=
  match f with
  | Some (mkFut None (KTask tk)) => if tk_cact tk then acids (tk_ctxs tk) else []
  | _ => []
  end.
Definition opens (s : st) (t : fid) : list Z := fopens (get t s).

Definition TO (s : st) : Prop :=
  forall t cid, okk t cid (cev s) /\ (act t cid (cev s) = true <-> In cid (opens s t)).

Lemma TO_eq s s' : cev s' = cev s -> (forall t, opens s' t = opens s t) -> TO s -> TO s'.
Proof. intros Hc Ho H t cid. rewrite Hc, Ho. apply H. Qed.

Lemma opens_get s s' t : get t s' = get t s -> opens s' t = opens s t.
Proof. unfold opens. intros ->. reflexivity. Qed.

Lemma opens_others s s' x : (forall h, h <> x -> get h s' = get h s) -> opens s' x = opens s x -> forall t, opens s' t = opens s t.
Proof.
  intros Ho Hx t. destruct (fid_eqb_spec t x) as [->|N]; [exact Hx|]. apply opens_get, Ho, N.
Qed.

(* a set [cids] of distinct ids of task x changes state, resumed (b = true) or paused (b = false): the open ids of x
   in the state where they are resumed are those of the other state and cids *)
Lemma TO_chg b s s' x cids :
  TO s -> cev s' = rev (map (cev_of b x) cids) ++ cev s -> NoDup cids ->
  (forall h, h <> x -> get h s' = get h s) ->
  (forall cid, In cid (opens (if b then s' else s) x) <-> In cid (opens (if b then s else s') x) \/ In cid cids) ->
  (forall cid, In cid cids -> ~ In cid (opens (if b then s else s') x)) ->
  TO s'.
Proof.
  intros H Hc Hnd Ho Hbig Hdis.
  assert (H1 : forall cid, In cid cids -> (In cid (opens s x) <-> b = false) /\ (In cid (opens s' x) <-> b = true))
    by (intros cid Hi; specialize (Hbig cid); specialize (Hdis cid Hi); destruct b; intuition congruence).
  assert (H2 : forall cid, ~ In cid cids -> (In cid (opens s' x) <-> In cid (opens s x)))
    by (intros cid Hn; specialize (Hbig cid); destruct b; tauto).
  assert (Hpre : forall cid, In cid cids -> act x cid (cev s) = negb b).
  { intros cid Hin. destruct (H x cid) as [_ Ha]. destruct (H1 cid Hin) as [Hb _]. destruct b; cbn.
    - destruct (act x cid (cev s)); [|reflexivity]. pose proof (proj1 Hb (proj1 Ha eq_refl)) as F. discriminate.
    - apply Ha, Hb. reflexivity. }
  destruct (push_evs b x cids Hnd (cev s) Hpre) as (P1 & P2 & P3). cbn zeta in *. rewrite <- Hc in *.
  intros t cid. split; [apply P1, H|].
  destruct (fid_eqb_spec t x) as [->|N].
  - destruct (in_dec Z.eq_dec cid cids) as [Hin|Hnin].
    + rewrite (P2 cid Hin). destruct (H1 cid Hin) as [_ Hb]. split; [intros Hb1; apply Hb; exact Hb1|intros Hi; apply Hb; exact Hi].
    + rewrite (P3 x cid) by (intros [_ Hi]; contradiction). rewrite (H2 cid Hnin). apply H.
  - rewrite (P3 t cid) by (intros [Ht _]; contradiction). rewrite (opens_get s s' t (Ho t N)). apply H.
Qed.

Lemma opens_task s x tk : get x s = Some (mkFut None (KTask tk)) -> opens s x = if tk_cact tk then acids (tk_ctxs tk) else [].
Proof. unfold opens. intros ->. reflexivity. Qed.

Lemma TO_set_same s s' x out tk tk' :
  get x s = Some (mkFut out (KTask tk)) -> upd_entry s s' x (mkFut out (KTask tk')) ->
  tk_ctxs tk' = tk_ctxs tk -> tk_cact tk' = tk_cact tk -> cev s' = cev s -> TO s -> TO s'.
Proof.
  intros Hg (A & B & _) E1 E2 Hc. apply TO_eq; [exact Hc|]. apply (opens_others s s' x B).
  unfold opens. rewrite A, Hg. cbn [fopens]. rewrite E1, E2. reflexivity.
Qed.

Lemma TO_toggle b s x tk : forallb plain_ctx (tk_ctxs tk) = true -> get x s = Some (mkFut None (KTask tk)) ->
  NoDup (map cid_of (tk_ctxs tk)) -> TO s -> TO (toggle b x s).
Proof.
  intros Hp Hg Hnd H. pose proof (cev_toggle b x s None tk Hp Hg) as Hc. pose proof (toggle_entry b x s None tk Hp Hg) as U.
  destruct (Bool.eqb (tk_cact tk) b) eqn:Eb.
  { apply eqb_prop in Eb. exact (TO_set_same s _ x None tk _ Hg U eq_refl (eq_sym Eb) Hc H). }
  (* the flag flips and every AsyncContext of x logs an event *)
  apply (TO_chg b s _ x _ H Hc); [destruct b; [apply acids_nodup|apply acids_rev_nodup]; exact Hnd|apply U| |];
    intros cid; destruct b, (tk_cact tk) eqn:Ec; try discriminate Eb; cbv iota;
    rewrite ?(opens_task _ _ _ (proj1 U)), ?(opens_task _ _ _ Hg), ?Ec, ?acids_rev_in; cbn; tauto.
Qed.

Lemma cev_enter_eff t c s : plain_ctx c = true -> cev (enter_eff t c s) = rev (map (cev_of true t) (acids [c])) ++ cev s.
Proof. destruct c as [cid [| |]|cid|cid var v]; intros H; try discriminate; reflexivity. Qed.

Lemma cev_pause_plain t c s : plain_ctx c = true -> cev (pause_plain t c s) = rev (map (cev_of false t) (acids [c])) ++ cev s.
Proof. destruct c as [cid [| |]|cid|cid var v]; intros H; try discriminate; reflexivity. Qed.

Lemma cev_enter_ctx t c s out tk : get t s = Some (mkFut out (KTask tk)) -> plain_ctx c = true ->
  cev (enter_ctx t c s) = rev (map (cev_of true t) (acids [c])) ++ cev s.
Proof. intros Hg Hc. rewrite (enter_ctx_eff t c s out tk Hg), (cev_enter_eff t c _ Hc), cev_set_task. reflexivity. Qed.

(* __exit__ pauses the context unless the task's contexts are already paused *)
Lemma cev_exit_ctx t c s out tk : get t s = Some (mkFut out (KTask tk)) -> plain_ctx c = true ->
  cev (exit_ctx t c s) = rev (map (cev_of false t) (if tk_cact tk then acids [c] else [])) ++ cev s.
Proof.
  intros Hg Hc. unfold exit_ctx, get_task. rewrite Hg.
  destruct (tk_cact tk); [rewrite (cev_pause_plain t c _ Hc)|]; rewrite cev_set_task; reflexivity.
Qed.

(* entering (b = true) or leaving (b = false) the with-block of c in the running task t, whose contexts are active:
   the context list goes from [tk_ctxs tk] to [cs'], and an AsyncContext logs its resume / pause.  Stated with
   [acids [c]], the ids [c] contributes, so that the kinds of context need not be told apart. *)
Lemma TO_one b s s' t tk cs' c :
  TO s -> get t s = Some (mkFut None (KTask tk)) -> tk_cact tk = true ->
  upd_entry s s' t (mkFut None (KTask (tk_with_ctxs tk cs' (tk_cact tk)))) ->
  cev s' = rev (map (cev_of b t) (acids [c])) ++ cev s ->
  (if b then cs' = tk_ctxs tk ++ [c] /\ ~ In (cid_of c) (map cid_of (tk_ctxs tk))
   else tk_ctxs tk = cs' ++ [c] /\ ~ In (cid_of c) (map cid_of cs')) ->
  TO s'.
Proof.
  intros HT Hg Hc (Hg' & Ho & _) Hcev Hb.
  assert (Hsub : forall cid cs, In cid (acids [c]) -> In cid (acids cs) -> In (cid_of c) (map cid_of cs)).
  { intros cid cs Hi Hj. destruct c as [cid0 f| |]; cbn in Hi; try (now destruct Hi). destruct Hi as [<-|[]]. apply acids_sub. exact Hj. }
  apply (TO_chg b s s' t (acids [c]) HT Hcev); [destruct c; cbn; repeat constructor; intros []|exact Ho| |];
    intros cid; destruct b; cbv iota; destruct Hb as [E Hf]; rewrite ?(opens_task _ _ _ Hg), ?(opens_task _ _ _ Hg');
    cbn [tk_cact tk_ctxs tk_with_ctxs]; rewrite Hc, ?E, ?acids_app, ?in_app_iff; try tauto; intros Hi Hj; exact (Hf (Hsub _ _ Hi Hj)).
Qed.

Lemma TO_enter s t tk c : TO s -> get t s = Some (mkFut None (KTask tk)) -> tk_cact tk = true -> plain_ctx c = true ->
  ~ In (cid_of c) (map cid_of (tk_ctxs tk)) -> TO (enter_ctx t c s).
Proof.
  intros HT Hg Hca Hc Hf.
  exact (TO_one true s _ t tk _ c HT Hg Hca (tupd_upd_entry _ _ _ _ _ (enter_tupd t s tk Hg c)) (cev_enter_ctx t c s None tk Hg Hc)
           (conj eq_refl Hf)).
Qed.

(* leaving the innermost with-block *)
Lemma exit_entry t c s tk op : get t s = Some (mkFut None (KTask tk)) -> tk_ctxs tk = op ++ [c] ->
  NoDup (map cid_of (tk_ctxs tk)) -> upd_entry s (exit_ctx t c s) t (mkFut None (KTask (tk_with_ctxs tk op (tk_cact tk)))).
Proof.
  intros Hg Eop Hnd. pose proof (tupd_upd_entry _ _ _ _ _ (exit_tupd t s tk Hg c)) as U.
  rewrite Eop in Hnd, U at 1. rewrite (remove_ctx_last op c Hnd) in U. exact U.
Qed.

Lemma TO_exit s t tk c op : TO s -> get t s = Some (mkFut None (KTask tk)) -> tk_cact tk = true -> plain_ctx c = true ->
  tk_ctxs tk = op ++ [c] -> NoDup (map cid_of (tk_ctxs tk)) -> TO (exit_ctx t c s).
Proof.
  intros HT Hg Hca Hc Eop Hnd. pose proof (cev_exit_ctx t c s None tk Hg Hc) as Hcev. rewrite Hca in Hcev.
  apply (TO_one false s _ t tk op c HT Hg Hca (exit_entry t c s tk op Hg Eop Hnd) Hcev). split; [exact Eop|].
  rewrite Eop, map_app in Hnd. exact (proj2 (NoDup_snoc _ _ Hnd)).
Qed.

(* the body of t ends with no with-block open: its entry becomes computed, no context event *)
Lemma TO_finish s s' t tk o tk' :
  get t s = Some (mkFut None (KTask tk)) -> tk_ctxs tk = [] -> cev s' = cev s ->
  upd_entry s s' t (mkFut (Some o) (KTask tk')) -> TO s -> TO s'.
Proof.
  intros Hg Hc0 Hc (A & B & _). apply TO_eq; [exact Hc|]. apply (opens_others s s' t B).
  unfold opens. rewrite A, Hg. cbn [fopens]. rewrite Hc0. destruct (tk_cact tk); reflexivity.
Qed.

Lemma opens_inactive s t : (forall tk, get t s = Some (mkFut None (KTask tk)) -> tk_cact tk = false) -> opens s t = [].
Proof.
  intros H. unfold opens, fopens. destruct (get t s) as [[[o|] [tk| | |]]|]; try reflexivity. rewrite (H tk eq_refl). reflexivity.
Qed.

Lemma TO_init s : trace s = [] -> (forall t, opens s t = []) -> TO s.
Proof. intros Ht Ho t cid. unfold cev. rewrite Ht, Ho. cbn. split; [exact I|]. split; [discriminate|intros []]. Qed.

Lemma act_filter_hd t cid tr :
  act t cid tr = match filter (evk t cid) tr with e :: _ => is_res t cid e | [] => false end.
Proof.
  induction tr as [|e tr IH]; [reflexivity|]. cbn [act filter]. unfold evk.
  destruct (is_res t cid e) eqn:Er; [cbn [orb]; rewrite Er; reflexivity|]. cbn [orb].
  destruct (is_pau t cid e) eqn:Ep; [rewrite Er; reflexivity|exact IH].
Qed.

Lemma act_true_iff t cid tr : act t cid tr = true <-> exists rest, filter (evk t cid) tr = EvResume t cid :: rest.
Proof.
  rewrite act_filter_hd. split; [|intros (rest & ->); apply is_res_true; reflexivity].
  destruct (filter (evk t cid) tr) as [|e rest]; [discriminate|]. intros E. apply is_res_true in E. subst e. eexists. reflexivity.
Qed.

Lemma opens_in s t cid :
  In cid (opens s t) <->
  exists tk f, get t s = Some (mkFut None (KTask tk)) /\ tk_cact tk = true /\ In (CAsync cid f) (tk_ctxs tk).
Proof.
  unfold opens, fopens. split.
  - destruct (get t s) as [[[o|] [tk| | |]]|]; try (intros []). destruct (tk_cact tk) eqn:Hc; [|intros []].
    intros Hi. apply acids_in in Hi as (f & Hf). exists tk, f. auto.
  - intros (tk & f & -> & -> & Hf). apply acids_in. exists f. exact Hf.
Qed.

Lemma TO_alternates s t cid : TO s -> alternates t cid true (ctx_events t cid (trace s)).
Proof. intros H. destruct (H t cid) as [Hok _]. apply okk_filter in Hok. apply (okk_alternates t cid (trace s) Hok). Qed.

Lemma TO_newest s t cid : TO s ->
  ((exists rest, filter (evk t cid) (trace s) = EvResume t cid :: rest) <->
   exists tk f, get t s = Some (mkFut None (KTask tk)) /\ tk_cact tk = true /\ In (CAsync cid f) (tk_ctxs tk)).
Proof.
  intros H. destruct (H t cid) as [_ Ha]. unfold cev in Ha. rewrite act_filter in Ha.
  rewrite <- act_true_iff, <- opens_in. exact Ha.
Qed.

Lemma TO_paused s t cid : TO s -> opens s t = [] ->
  match filter (evk t cid) (trace s) with [] => True | e :: _ => e = EvPause t cid end.
Proof.
  intros H Ho. destruct (H t cid) as [_ Ha]. unfold cev in Ha. rewrite act_filter, Ho in Ha. apply act_false_hd.
  destruct (act t cid (trace s)); [destruct (proj1 Ha eq_refl)|reflexivity].
Qed.

(* The statement below (every program whose with-blocks are well nested: dropping [tree],
   i.e. allowing NonAsyncContext and contexts whose pause()/resume() raise) is FALSE on the model of the unrepaired code: a task that
   opens AsyncContext 1, inside it a NonAsyncContext 2, and awaits a batch item gets the events resume, pause, pause
   for context 1 - _pause_contexts paused it, the NonAsyncContext's assertion then completed the task, _computed
   closed the suspended generator and the with-block's __exit__ paused context 1 a second time (async_task.py
   _pause_contexts -> _accept_error -> _computed -> generator.close() -> contexts.py __exit__).  The witness
   reproduced on the implementation (it was the known finding C06:alternation / double-pause) and was repaired in
   /repo (fix: AsyncContext.__exit__ does not call pause() again when the task's contexts are already paused); the
   model follows the repaired code (Machine.exit_ctx).  On the repaired model these witnesses alternate
   (c06_former_witnesses_alternate below, by vm_compute).  The general statement is neither proved nor refuted:
   it stays a Definition. *)
Definition alternation_all_contexts_statement : Prop :=
  forall P, pointwise P -> forall p, wn [] p -> forall n t cid,
    no_unwind P n (start (fst (create [] (FTask p) (st0 P))) (snd (create [] (FTask p) (st0 P)))) ->
    alternates t cid true
      (ctx_events t cid (trace (c_st (run P n (start (fst (create [] (FTask p) (st0 P))) (snd (create [] (FTask p) (st0 P)))))))).

Definition c06_cx : prog :=
  Enter (CAsync 1 NoFault) (Enter (CNonAsync 2)
    (Yield (YLeaf (LNew (FItem 0 1 (ASet (VInt 5)))))
       (fun o => Exit (CNonAsync 2) (Exit (CAsync 1 NoFault) (match o with Ok v => Ret v | Err e => Raise e end))))).

Lemma c06_cx_wn : wn [] c06_cx.
Proof.
  unfold c06_cx. apply wn_enter; [intros []|]. cbn [app]. apply wn_enter; [cbn; intros [E|[]]; discriminate|]. cbn [app].
  apply wn_yield; [intros q [E|[]]; discriminate|].
  intros o. apply (wn_exit [CAsync 1 NoFault] (CNonAsync 2)). apply (wn_exit [] (CAsync 1 NoFault)). destruct o; constructor.
Qed.

Definition c06_cx_one (c : ctxk) : prog :=
  Enter c (Yield (YLeaf (LNew (FItem 0 1 (ASet (VInt 5)))))
             (fun o => Exit c (match o with Ok v => Ret v | Err e => Raise e end))).

Lemma c06_former_witnesses_alternate :
  let P := mkP [] 1000 false [] in
  let ev p := let h := fst (create [] (FTask p) (st0 P)) in
              let s1 := snd (create [] (FTask p) (st0 P)) in
              (no_unwind_b P 100 (start h s1), c_mode (run P 100 (start h s1)),
               ctx_events [0] 1 (trace (c_st (run P 100 (start h s1))))) in
  wn [] c06_cx /\
  ev c06_cx = (true, MDone (Err E_NONASYNC), [EvResume [0] 1; EvPause [0] 1]) /\
  ev (c06_cx_one (CAsync 1 (PauseRaises 1 77))) = (true, MDone (Err 77), [EvResume [0] 1; EvPause [0] 1]) /\
  ev (c06_cx_one (CAsync 1 (ResumeRaises 1 77))) =
    (true, MDone (Err 77), [EvResume [0] 1; EvPause [0] 1; EvResume [0] 1; EvPause [0] 1]).
Proof. split; [exact c06_cx_wn|]. cbv zeta. rewrite !no_unwind_b_traj. vm_compute. repeat split. Qed.

(* non-vacuity: a parent opens AsyncContext 1, awaits a child (which opens its own context 1 and blocks on a batch
   item), leaves the block, opens a context with the SAME id 1 again and awaits a second batch item.  The parent's
   context is resumed and paused four times, the child's twice. *)
Definition c06_fin (o : outcome) : prog := match o with Ok v => Ret v | Err e => Raise e end.
Definition c06_child : prog :=
  Enter (CAsync 1 NoFault)
    (Yield (YLeaf (LNew (FItem 0 1 (ASet (VInt 5))))) (fun o => Exit (CAsync 1 NoFault) (c06_fin o))).
Definition c06_demo : prog :=
  Enter (CAsync 1 NoFault)
    (Yield (YLeaf (LNew (FTask c06_child)))
       (fun _ => Exit (CAsync 1 NoFault)
          (Enter (CAsync 1 NoFault)
             (Yield (YLeaf (LNew (FItem 0 2 (ASet (VInt 6))))) (fun o => Exit (CAsync 1 NoFault) (c06_fin o)))))).

(* a with-block around one yield of a new future, left before the task goes on with k *)
Lemma block_ok c f (k : outcome -> prog) :
  plain_ctx c = true -> tree_leaf (LNew f) -> (forall q, f = FTask q -> wn [] q) -> (forall o, tree (k o) /\ wn [] (k o)) ->
  let p := Enter c (Yield (YLeaf (LNew f)) (fun o => Exit c (k o))) in tree p /\ wn [] p.
Proof.
  intros Hc Hf Hq Hk. cbn zeta. split.
  - apply tree_enter; [exact Hc|]. apply tree_yield; [intros l [<-|[]]; exact Hf|].
    intros o. apply tree_exit; [exact Hc|apply Hk].
  - apply wn_enter; [intros []|]. cbn [app]. apply wn_yield; [intros q [E|[]]; inversion E; apply Hq; assumption|].
    intros o. apply (wn_exit [] c). apply Hk.
Qed.

Lemma c06_fin_ok o : tree (c06_fin o) /\ wn [] (c06_fin o).
Proof. destruct o; split; constructor. Qed.

Lemma c06_child_ok : tree c06_child /\ wn [] c06_child.
Proof. apply block_ok; [reflexivity|apply tl_new, tf_item|discriminate|exact c06_fin_ok]. Qed.

Lemma c06_demo_ok : tree c06_demo /\ wn [] c06_demo.
Proof.
  apply block_ok; [reflexivity|apply tl_new, tf_task, c06_child_ok|intros q E; inversion E; apply c06_child_ok|].
  intros _. apply block_ok; [reflexivity|apply tl_new, tf_item|discriminate|exact c06_fin_ok].
Qed.

Lemma c06_demo_runs :
  let P := mkP [] 1000 false [] in
  let h := fst (create [] (FTask c06_demo) (st0 P)) in
  let s1 := snd (create [] (FTask c06_demo) (st0 P)) in
  let tr_at k := trace (c_st (run P k (start h s1))) in
  let R t := EvResume t 1 in let Z t := EvPause t 1 in
  tree c06_demo /\ wn [] c06_demo /\ no_unwind_b P 200 (start h s1) = true /\
  c_mode (run P 200 (start h s1)) = MDone (Ok (VInt 6)) /\
  ctx_events [0] 1 (tr_at 200%nat) = [R [0]; Z [0]; R [0]; Z [0]; R [0]; Z [0]; R [0]; Z [0]] /\
  ctx_events [1] 1 (tr_at 200%nat) = [R [1]; Z [1]; R [1]; Z [1]].
Proof.
  split; [apply c06_demo_ok|]. split; [apply c06_demo_ok|]. cbv zeta. rewrite no_unwind_b_traj. vm_compute.
  repeat match goal with |- _ /\ _ => split end; reflexivity.
Qed.

Lemma run_case_single P n p :
  exists e, snd (run_case P n [p]) =
    rev (trace (c_st (run P n (start (fst (create [] (FTask p) (st0 P))) (snd (create [] (FTask p) (st0 P))))))) ++ [e] /\
    isctx e = false.
Proof.
  unfold run_case, run_history, run_root, start. destruct (create [] (FTask p) (st0 P)) as [h s1]. cbn [fst snd].
  match goal with |- context [emit ?e _] => exists e end.
  destruct (c_mode (run P n (mkC (MValue h) [FTop] s1))); cbn [snd trace emit rev]; split; reflexivity.
Qed.

