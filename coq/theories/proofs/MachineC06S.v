(* C06, the alternation clause as a trace property for tree programs WITH SYNCHRONOUS CALLS (MachineC01S.stree)
   whose with-blocks are well nested; yield-only tree programs (MachineC01.tree) are the special case, at the end.

   For every key (t, cid) the EvResume/EvPause events strictly alternate, starting with a resume, and the newest one
   is a resume exactly when t is an uncompleted task whose _contexts_active flag is set and which has an AsyncContext
   cid open: the state invariant TO of MachineC06T.v.  It is carried over the invariant FLS of MachineDFSS.v
   (MachineC01S.CI + the flag/stack invariant stackC), i.e. through nested scheduler loops entered by
   fn(args) = Let (FTask q) (fun h => Sync h k).

   The well-nestedness predicate [MachineC07.wn] has no case for a synchronous call (so  stree p /\ wn [] p  would
   say nothing new); [wns] below is wn plus that case:  wns op (Let (FTask q) (fun h => Sync h k))  when the callee
   body q is well nested on its own and every continuation k o is well nested with the same open list op.  wn op p
   implies wns op p.

   Route.  On top of FLS three facts are carried per configuration (invariant WI):
     TO s        the trace invariant;
     HIS R s     every uncompleted task that is not executing (R = the task of MRun and the callers suspended in
                 FValue frames) has distinct context ids and a suspended continuation that is well nested with the
                 task's open list;
     fv_ok s fr  for every frame FValue t k: t is an uncompleted task with distinct context ids and every k o is
                 well nested with t's open list (the nested loops never touch t's entry: t is older than everything
                 they work on - MachineC01S.wt_ok_fvals);
     rok s t p   for MRun t p: the same for the running body.
   The transitions that emit resume/pause events go through MachineC06T.TO_toggle (_resume_contexts/_pause_contexts)
   and TO_enter/TO_exit; the others (Let (FTask q), Sync, MValue/MWaitHead below a caller, MDeliver into
   FValue t k, ...) emit none and do not change any task's flag or context list.  The facts "the running task's
   contexts are active" and "at the end nobody is active" come from MachineDFSS.stackS (own / fl). *)
From Asynq Require Import Machine proofs.ProgProofs proofs.MachineFrame proofs.MachineC08 proofs.MachineC01
  proofs.MachineC01S proofs.MachineDFS proofs.MachineC07 proofs.MachineC06T proofs.MachineDFSS proofs.MachineHelpers
  proofs.MachineCases.

Inductive wns : list ctxk -> prog -> Prop :=
| wns_ret v : wns [] (Ret v)
| wns_result v : wns [] (Result v)
| wns_raise e : wns [] (Raise e)
| wns_yield op s k : (forall p, In (LNew (FTask p)) (leaves s) -> wns [] p) -> (forall o, wns op (k o)) -> wns op (Yield s k)
| wns_enter op c k : ~ In (cid_of c) (map cid_of op) -> wns (op ++ [c]) k -> wns op (Enter c k)
| wns_exit op c k : wns op k -> wns (op ++ [c]) (Exit c k)
| wns_call op q k : wns [] q -> (forall o, wns op (k o)) -> wns op (Let (FTask q) (fun h => Sync h k)).

Lemma wn_wns op p : wn op p -> wns op p.
Proof. intros H. induction H; constructor; assumption. Qed.

Lemma wns_call_inv op q k : wns op (Let (FTask q) (fun h => Sync h k)) -> wns [] q /\ forall o, wns op (k o).
Proof.
  intros H. inversion H as [| | | | | |op' q' k' Hq Hk E1 E2]. subst.
  assert (Ek : k' = k).
  { match goal with E : (fun h => Sync h k') = _ |- _ => apply (f_equal (fun f => f [])) in E; cbn in E; inversion E; reflexivity end. }
  subst k'. split; assumption.
Qed.

Lemma wns_done_inv op p : wns op p -> (exists v, p = Ret v) \/ (exists v, p = Result v) \/ (exists e, p = Raise e) -> op = [].
Proof. intros H [(v & ->)|[(v & ->)|(e & ->)]]; inversion H; reflexivity. Qed.

Lemma wns_yield_inv op y k : wns op (Yield y k) ->
  (forall q, In (LNew (FTask q)) (leaves y) -> wns [] q) /\ forall o, wns op (k o).
Proof. intros H. inversion H; subst. split; assumption. Qed.

Lemma wns_enter_inv op c k : wns op (Enter c k) -> ~ In (cid_of c) (map cid_of op) /\ wns (op ++ [c]) k.
Proof. intros H. inversion H; subst. split; assumption. Qed.

Lemma wns_exit_inv op c k : wns op (Exit c k) -> exists op', op = op' ++ [c] /\ wns op' k.
Proof. intros H. inversion H; subst. eexists. split; [reflexivity|assumption]. Qed.

Lemma wns_sync_inv op h k : ~ wns op (Sync h k).
Proof. intros H. inversion H. Qed.

Definition ctxs_okS (tk : task) : Prop :=
  NoDup (map cid_of (tk_ctxs tk)) /\ forall k, tk_gen tk = Some k -> forall o, wns (tk_ctxs tk) (k o).

Definition HIS (R : list fid) (s : st) : Prop :=
  forall u tk, get u s = Some (mkFut None (KTask tk)) -> ~ In u R -> ctxs_okS tk.

(* a caller suspended in value() with continuation k *)
Definition kok (s : st) (t : fid) (k : outcome -> prog) : Prop :=
  exists tk, get t s = Some (mkFut None (KTask tk)) /\ NoDup (map cid_of (tk_ctxs tk)) /\ forall o, wns (tk_ctxs tk) (k o).

Fixpoint fv_ok (s : st) (fr : list frame) : Prop :=
  match fr with
  | [] => True
  | FValue t k :: fr' => kok s t k /\ fv_ok s fr'
  | _ :: fr' => fv_ok s fr'
  end.

Definition rok (s : st) (t : fid) (p : prog) : Prop :=
  exists tk, get t s = Some (mkFut None (KTask tk)) /\ NoDup (map cid_of (tk_ctxs tk)) /\
    (wns (tk_ctxs tk) p \/ exists h k, p = Sync h k /\ forall o, wns (tk_ctxs tk) (k o)).

Lemma fv_ok_fwd s s' fr :
  (forall u tk, In u (fvals fr) -> get u s = Some (mkFut None (KTask tk)) -> get u s' = Some (mkFut None (KTask tk))) ->
  fv_ok s fr -> fv_ok s' fr.
Proof.
  induction fr as [|f fr IH]; intros Hf H; [exact I|].
  destruct f as [ |t k|r|i|t old]; cbn [fv_ok fvals] in *; try (apply IH; assumption).
  destruct H as [(tk & Hg & Hn & Hw) H]. split.
  - exists tk. split; [apply Hf; [left; reflexivity|exact Hg]|]. split; assumption.
  - apply IH; [|exact H]. intros u tku Hu. apply Hf. right. exact Hu.
Qed.

(* every task entry afterwards is an entry from before or a fresh task whose body is well nested *)
Definition tback (s s' : st) : Prop :=
  forall u o tk, get u s' = Some (mkFut o (KTask tk)) ->
    get u s = Some (mkFut o (KTask tk)) \/ (o = None /\ exists q, tk = fresh_task q /\ wns [] q).

Lemma tback_refl s : tback s s.
Proof. intros u o tk H. left. exact H. Qed.

Lemma tback_trans a b c : tback a b -> tback b c -> tback a c.
Proof. intros H1 H2 u o tk Hg. destruct (H2 u o tk Hg) as [Hb|Hn]; [apply (H1 u o tk Hb)|right; exact Hn]. Qed.

Definition oklS (l : leaf) : Prop := forall q, l = LNew (FTask q) -> wns [] q.

Lemma tback_create parent s f : oklS (LNew f) -> tback s (snd (create parent f s)).
Proof.
  intros Hw u o tk Hg. destruct (create_spec parent f s) as (_ & _ & Hoth & Hnew & _).
  destruct (fid_eqb_spec u [top_next s]) as [->|N]; [|left; rewrite <- (Hoth u N); exact Hg].
  right. rewrite Hnew in Hg. destruct f as [q| | | |]; inversion Hg.
  split; [reflexivity|]. exists q. split; [reflexivity|apply Hw; reflexivity].
Qed.

Lemma tback_inst parent y s : (forall q, In (LNew (FTask q)) (leaves y) -> wns [] q) -> tback s (snd (inst parent y s)).
Proof.
  rewrite inst_snd. generalize (leaves y). intros l. revert s.
  induction l as [|a l IH]; intros s Hl; [apply tback_refl|]. cbn [fold_left].
  eapply tback_trans; [|apply IH; intros q Hq; apply Hl; right; exact Hq].
  destruct a as [f| |]; try apply tback_refl. apply tback_create. intros q E. apply Hl. left. exact E.
Qed.

Lemma HIS_new R s s' : HIS R s -> tback s s' -> HIS R s'.
Proof.
  intros H N u tk Hg Hr. destruct (N u None tk Hg) as [Hold|(_ & q & -> & Hq)]; [apply (H u tk Hold Hr)|].
  split; cbn; [constructor|]. intros k E o. inversion E. exact Hq.
Qed.

(* uncompleted tasks keep their entries and what is new is a fresh task or no uncompleted task: opens is unchanged *)
Lemma opens_tback s s' :
  (forall u tk, get u s = Some (mkFut None (KTask tk)) -> get u s' = Some (mkFut None (KTask tk))) -> tback s s' ->
  forall u, opens s' u = opens s u.
Proof.
  intros N1 N2 u. unfold opens. destruct (get u s) as [[[o|] [tk| | |]]|] eqn:Hg; try (rewrite (N1 u tk Hg); reflexivity);
    cbn [fopens]; destruct (get u s') as [[[o'|] [tk'| | |]]|] eqn:Hg'; try reflexivity;
    destruct (N2 u None tk' Hg') as [Hold|(_ & q & -> & _)]; try reflexivity; congruence.
Qed.

Lemma old_tasks s s' : (forall x, get x s <> None -> get x s' = get x s) ->
  forall u tk, get u s = Some (mkFut None (KTask tk)) -> get u s' = Some (mkFut None (KTask tk)).
Proof. intros Old u tk Hg. rewrite Old; [exact Hg|rewrite Hg; discriminate]. Qed.

Lemma NoDup_snoc_intro {A} (l : list A) a : NoDup l -> ~ In a l -> NoDup (l ++ [a]).
Proof.
  intros Hn Hi. rewrite <- (rev_involutive (l ++ [a])), rev_app_distr. apply NoDup_rev. cbn.
  constructor; [rewrite <- in_rev; exact Hi|apply NoDup_rev; exact Hn].
Qed.

Lemma HIS_upd R R' s s' x f' :
  HIS R s -> upd_entry s s' x f' -> (forall u, u <> x -> ~ In u R' -> ~ In u R) ->
  (forall tk', f' = mkFut None (KTask tk') -> ~ In x R' -> ctxs_okS tk') -> HIS R' s'.
Proof.
  intros H (A & B & _) Hr Hx u tk Hg Hn. destruct (fid_eqb_spec u x) as [->|N].
  - rewrite A in Hg. inversion Hg. apply Hx; [assumption|exact Hn].
  - rewrite B in Hg by exact N. apply (H u tk Hg). apply Hr; auto.
Qed.

Lemma fv_ok_upd s s' x f' fr : upd_entry s s' x f' -> ~ In x (fvals fr) -> fv_ok s fr -> fv_ok s' fr.
Proof. intros (_ & B & _) Hn. apply fv_ok_fwd. intros u tk Hu Hg. rewrite B; [exact Hg|]. intros ->. contradiction. Qed.

Definition WIp (R : list fid) (fr : list frame) (s : st) : Prop := TO s /\ HIS R s /\ fv_ok s fr.

(* no resume/pause event, the uncompleted tasks keep their entries, what is new is a fresh task or no task *)
Lemma WIp_new R fr s s' :
  (forall u tk, get u s = Some (mkFut None (KTask tk)) -> get u s' = Some (mkFut None (KTask tk))) -> tback s s' ->
  cev s' = cev s -> WIp R fr s -> WIp R fr s'.
Proof.
  intros Old TB Hc (HT & HH & HF). split; [exact (TO_eq s s' Hc (opens_tback s s' Old TB) HT)|].
  split; [exact (HIS_new R s s' HH TB)|]. apply (fv_ok_fwd s); [|exact HF]. intros u tk _. apply Old.
Qed.

Lemma WIp_view R fr s s' : (forall u, get u s' = get u s) -> cev s' = cev s -> WIp R fr s -> WIp R fr s'.
Proof. intros G. apply WIp_new; [intros u tk Hg; rewrite G; exact Hg|intros u o tk Hg; left; rewrite <- G; exact Hg]. Qed.

(* the entry of x is replaced; R' exempts what R does, x aside *)
Lemma WIp_upd R R' fr s s' x f' :
  WIp R fr s -> upd_entry s s' x f' -> ~ In x (fvals fr) -> TO s' -> (forall u, u <> x -> ~ In u R' -> ~ In u R) ->
  (forall tk', f' = mkFut None (KTask tk') -> ~ In x R' -> ctxs_okS tk') -> WIp R' fr s'.
Proof.
  intros (_ & HH & HF) U Hx HT Hr Hok.
  split; [exact HT|]. split; [exact (HIS_upd R R' s s' x f' HH U Hr Hok)|exact (fv_ok_upd s s' x f' fr U Hx HF)].
Qed.

(* ... by one with the same contexts, flag and generator *)
Lemma WIp_same R fr s s' x out tk tk' :
  get x s = Some (mkFut out (KTask tk)) -> upd_entry s s' x (mkFut out (KTask tk')) ->
  tk_ctxs tk' = tk_ctxs tk -> tk_cact tk' = tk_cact tk -> tk_gen tk' = tk_gen tk -> cev s' = cev s ->
  ~ In x (fvals fr) -> WIp R fr s -> WIp R fr s'.
Proof.
  intros Hg U E1 E2 E3 Hc Hx HA. apply (WIp_upd R R fr s s' x _ HA U Hx (TO_set_same s s' x out tk tk' Hg U E1 E2 Hc (proj1 HA))); [auto|].
  intros tk2 E Hn. inversion E; subst. unfold ctxs_okS. rewrite E1, E3. exact (proj1 (proj2 HA) x tk Hg Hn).
Qed.

(* _resume_contexts / _pause_contexts of a suspended task x *)
Lemma WIp_toggle b R fr s x tk :
  forallb plain_ctx (tk_ctxs tk) = true -> get x s = Some (mkFut None (KTask tk)) -> ~ In x R -> ~ In x (fvals fr) ->
  WIp R fr s -> WIp R fr (toggle b x s).
Proof.
  intros Hp Hg HxR Hx HA. destruct (proj1 (proj2 HA) x tk Hg HxR) as (Hnd & Hwn).
  apply (WIp_upd R R fr s _ x _ HA (toggle_entry b x s None tk Hp Hg) Hx (TO_toggle b s x tk Hp Hg Hnd (proj1 HA))); [auto|].
  intros tk2 E _. inversion E; subst tk2. exact (conj Hnd Hwn).
Qed.

Section C06S.
  Variable P : params.
  Hypothesis HP : pointwise P.
  Variable res : outcome.

  Definition WI (c : cfg) : Prop :=
    match c_mode c with
    | MUnwind _ => True
    | MStuck => False                     (* never reached *)
    | MDone _ => TO (c_st c)
    | m => WIp (R_of m (c_frames c)) (c_frames c) (c_st c) /\
           match m with MRun t p => rok (c_st c) t p | _ => True end
    end.

  Lemma WI_plain m fr s : plainmode m -> WIp (fvals fr) fr s -> WI (mkC m fr s).
  Proof. destruct m; intros Hm H; try destruct Hm; unfold WI; cbn [c_mode c_frames c_st R_of]; (split; [exact H|exact I]). Qed.

  Lemma WI_plain_inv m fr s : plainmode m -> WI (mkC m fr s) -> WIp (fvals fr) fr s.
  Proof. destruct m; intros Hm H; try destruct Hm; unfold WI in H; cbn [c_mode c_frames c_st R_of] in H; apply H. Qed.

  Lemma wi_MValue spec h fr s : FLS res spec (mkC (MValue h) fr s) -> WI (mkC (MValue h) fr s) ->
    WI (step P (mkC (MValue h) fr s)).
  Proof.
    intros ((_ & _ & Ht) & _) HA. cbn [c_mode c_frames c_st mode_ok] in Ht. apply WI_plain_inv in HA; [|exact I].
    cbn [step c_mode c_frames c_st].
    destruct (computed h s); [apply WI_plain; [exact I|exact HA]|]. destruct Ht as (out & tk & Hg). rewrite Hg.
    apply WI_plain; [exact I|exact HA].
  Qed.

  Lemma wi_MWaitHead spec fr s : FLS res spec (mkC MWaitHead fr s) -> WI (mkC MWaitHead fr s) ->
    WI (step P (mkC MWaitHead fr s)).
  Proof.
    intros (_ & HK) HA. change (stackS MWaitHead fr s) in HK. destruct HK as (r & vs & -> & _).
    apply WI_plain_inv in HA; [|exact I]. cbn [step c_mode c_frames c_st].
    destruct (computed r s); apply WI_plain; try exact I.
    - apply (WIp_view _ _ s); [intros u; apply get_drop_sb|apply cev_view, trace_drop_sb|exact HA].
    - apply (WIp_view _ _ s); [reflexivity|reflexivity|exact HA].
  Qed.

  Lemma wi_MAfterExec spec fr s : FLS res spec (mkC MAfterExec fr s) -> WI (mkC MAfterExec fr s) ->
    WI (step P (mkC MAfterExec fr s)).
  Proof.
    intros ((_ & HS & _) & HK) HA. cbn [c_mode c_frames c_st] in HS.
    change (stackS MAfterExec fr s) in HK. destruct HK as (r & vs & -> & _).
    apply WI_plain_inv in HA; [|exact I]. cbn [step c_mode c_frames c_st].
    destruct (computed r s); apply WI_plain; try exact I.
    - apply (WIp_view _ _ s); [intros u; apply get_drop_sb|apply cev_view, trace_drop_sb|exact HA].
    - destruct (SI_continue_with_batch spec _ P s HP HS) as (_ & _ & C).
      apply (WIp_new _ _ s); [intros u tk; apply C| |apply cev_continue_with_batch|exact HA].
      intros u o tk Hg. left. exact (item_steps_task_back _ _ (continue_with_batch_item_steps P s HP (SI_items _ _ _ HS)) u o tk Hg).
  Qed.

  Lemma wi_MExecLoop spec fr s : FLS res spec (mkC MExecLoop fr s) -> WI (mkC MExecLoop fr s) ->
    WI (step P (mkC MExecLoop fr s)).
  Proof.
    intros ((Hf & HS & _) & _) HA. cbn [c_mode c_frames c_st] in *. destruct Hf as (init & r & vs & -> & Hlv).
    cbn [R_of fvals] in HS. apply WI_plain_inv in HA; [|exact I]. change (WIp (fvals vs) vs s) in HA.
    assert (Hpop : forall s2, WIp (fvals vs) vs s2 -> WI (mkC MExecLoop (FExec init :: FWait r :: vs) (pop_task s2))).
    { intros s2 H2. apply WI_plain; [exact I|]. apply (WIp_view _ _ s2); [reflexivity|reflexivity|exact H2]. }
    (* _dependencies_scheduled is set or cleared first: contexts, flag and generator are kept *)
    assert (Hds : forall x tk b, get x s = Some (mkFut None (KTask tk)) -> ~ In x (fvals vs) ->
              let s' := set_task x (tk_set_ds tk b) s in
              get x s' = Some (mkFut None (KTask (tk_set_ds tk b))) /\ WIp (fvals vs) vs s').
    { intros x tk b Hg Hx. pose proof (set_task_upd s x None tk (tk_set_ds tk b) Hg) as U1. split; [apply U1|].
      apply (WIp_same _ _ s _ x None tk _ Hg U1); try reflexivity; [apply cev_set_task|exact Hx|exact HA]. }
    destruct (step_MExecLoop P init (FWait r :: vs) s (fun t out tk => SI_noraise _ _ _ t out tk HS))
      as [Hle| |x ts Hts Hlt Hx|x ts kind idx key a Hts Hlt Hg|x ts o Hts Hlt Hg|x ts tk s2 Hts Hlt Hg Hb Eds U Es2
         |x ts tk s2 Hts Hlt Hg Hb Eds U Es2|x ts tk s2 Hts Hlt Hg Hb U Es2];
      try (assert (Hx' : ~ In x (fvals vs)) by (rewrite Hts in Hlv, Hlt; exact (top_younger _ _ _ _ _ _ _ Hlv Hlt)));
      try pose proof (SI_plain _ _ _ _ _ _ HS Hg) as Hp; try subst s2.
    - apply WI_plain; [exact I|exact HA].
    - exact I.
    - apply Hpop. exact HA.
    - apply Hpop. apply (WIp_view _ _ s); [apply schedule_batch_view|apply cev_schedule_batch|exact HA].
    - apply Hpop. pose proof (upd_entry_put s x (mkFut (Some o) (KLazy o))) as U.
      apply (WIp_upd _ _ vs s _ x _ HA U Hx'); [|auto|intros tk2 E; discriminate E].
      apply (TO_eq s); [reflexivity| |exact (proj1 HA)]. apply (opens_others s _ x (proj1 (proj2 U))).
      unfold opens. rewrite (proj1 U), Hg. reflexivity.
    - destruct (Hds x tk false Hg Hx') as (G1 & H1). apply Hpop. exact (WIp_toggle false _ _ _ x (tk_set_ds tk false) Hp G1 Hx' Hx' H1).
    - destruct (Hds x tk true Hg Hx') as (G1 & H1). apply WI_plain; [exact I|].
      apply (WIp_view _ _ (toggle true x (set_task x (tk_set_ds tk true) s))); [reflexivity|reflexivity|].
      exact (WIp_toggle true _ _ _ x (tk_set_ds tk true) Hp G1 Hx' Hx' H1).
    - apply WI_plain; [exact I|].
      apply (WIp_view _ _ (toggle true x s)); [reflexivity|reflexivity|]. exact (WIp_toggle true _ _ _ x tk Hp Hg Hx' Hx' HA).
  Qed.

  Lemma wi_MResume spec t fr s : FLS res spec (mkC (MResume t) fr s) -> WI (mkC (MResume t) fr s) ->
    WI (step P (mkC (MResume t) fr s)).
  Proof.
    intros ((Hf & HS & (tk & Hg & Hcomp)) & _) HA. cbn [c_mode c_frames c_st] in *.
    destruct Hf as (old & i & r & vs & -> & Hrt & Hlv). cbn [R_of fvals] in HS.
    pose proof (caller_older _ _ _ _ _ _ _ Hlv Hrt) as HtR.
    apply WI_plain_inv in HA; [|exact I]. cbn [fvals fv_ok] in HA.
    destruct (SI_gen _ _ _ _ _ HS Hg HtR) as (k & K1). destruct (proj1 (proj2 HA) t tk Hg HtR) as (Hnd & Hwn).
    destruct (step_MResume P t (FCont t old :: FExec i :: FWait r :: vs) s tk k Hg K1) as (s2 & -> & U & Htr).
    apply tupd_upd_entry in U.
    destruct (WIp_same (fvals vs) vs s s2 t None tk _ Hg U eq_refl eq_refl (eq_sym K1)) as (HT & HH & HF);
      [unfold cev; rewrite Htr; reflexivity|exact HtR|exact HA|].
    split; [split; [exact HT|split; [|exact HF]]|].
    - intros u tku Hgu Hu. apply (HH u tku Hgu). intros Hin. apply Hu. right. exact Hin.
    - eexists. split; [apply U|]. split; [exact Hnd|]. left. apply (Hwn k K1).
  Qed.

  Lemma wi_MContRet spec fr s : FLS res spec (mkC MContRet fr s) -> WI (mkC MContRet fr s) ->
    WI (step P (mkC MContRet fr s)).
  Proof.
    intros ((Hf & HS & _) & _) HA. cbn [c_mode c_frames c_st] in *.
    destruct Hf as (t & old & i & r & vs & -> & Hrt & Hlv).
    apply WI_plain_inv in HA; [|exact I]. cbn [fvals] in HA.
    cbn [step c_mode c_frames c_st].
    set (s1 := with_active s old). unfold get_task. change (get t s1) with (get t s).
    assert (H1 : WIp (fvals vs) vs s1) by (apply (WIp_view _ _ s); [reflexivity|reflexivity|exact HA]).
    destruct (get t s) as [[out [tk| | |]]|] eqn:Hg; try (apply WI_plain; [exact I|exact H1]).
    pose proof (set_task_upd s1 t out tk (tk_set_ds tk false) Hg) as U.
    apply WI_plain; [exact I|].
    apply (WIp_same _ _ s1 _ t out tk _ Hg U); try reflexivity; [apply cev_set_task|exact (caller_older _ _ _ _ _ _ _ Hlv Hrt)|exact H1].
  Qed.

  Lemma wi_MDeliver spec o fr s : FLS res spec (mkC (MDeliver o) fr s) -> WI (mkC (MDeliver o) fr s) ->
    WI (step P (mkC (MDeliver o) fr s)).
  Proof.
    intros ((Hf & _ & _) & _) HA. cbn [c_mode c_frames c_st] in *. destruct Hf as (b & Hv).
    apply WI_plain_inv in HA; [|exact I]. destruct HA as (HT & HH & HF).
    inversion Hv as [b' Eo Eb Ef|oh b' t k old i r orr vs Hk Ht Hb Hrt Hh Hr Hvs Eo Eb Ef]; subst; cbn [step c_mode c_frames c_st].
    - exact HT.
    - cbn [fvals fv_ok] in HH, HF. destruct HF as ((tk & Hg & Hnd & Hw) & HF). split.
      + apply (WIp_view _ _ s); [reflexivity|reflexivity|]. split; [exact HT|split; assumption].
      + exists tk. split; [exact Hg|]. split; [exact Hnd|]. left. apply Hw.
  Qed.

  Lemma wi_MRun spec t p fr s : FLS res spec (mkC (MRun t p) fr s) -> WI (mkC (MRun t p) fr s) ->
    WI (step P (mkC (MRun t p) fr s)).
  Proof.
    intros ((Hf & HS & Hm) & HK) (HA & tk & Hg & Hnd & Hw). cbn [c_mode c_frames c_st] in *.
    destruct Hf as (old & i & r & vs & -> & Hrt & Hlv). cbn [R_of fvals fv_ok] in *.
    pose proof (caller_older _ _ _ _ _ _ _ Hlv Hrt) as HtR. pose proof (SI_above_free _ _ _ HS) as Hfree.
    assert (Hcact : tk_cact tk = true).
    { destruct (stackS_running t p _ s HK) as (tk' & Hg' & Hc). rewrite Hg in Hg'. inversion Hg'. exact Hc. }
    set (fr := FCont t old :: FExec i :: FWait r :: vs).
    destruct Hm as [(Htree & _)|(h & k & oh & -> & _)].
    2:{ (* the synchronous call proper: the caller becomes the owner of a new FValue frame *)
      destruct Hw as [Hw|(h' & k' & E & Hw)]; [destruct (wns_sync_inv _ _ _ Hw)|]. inversion E; subst h' k'.
      apply WI_plain; [exact I|]. destruct HA as (HT & HH & HF). split; [exact HT|]. split; [exact HH|].
      split; [exists tk; auto|exact HF]. }
    destruct Hw as [Hw|(h' & k' & -> & _)]; [|inversion Htree].
    (* the entry of t is replaced and t keeps executing q *)
    assert (Hrun : forall s' tk' q, upd_entry s s' t (mkFut None (KTask tk')) -> TO s' -> NoDup (map cid_of (tk_ctxs tk')) ->
              wns (tk_ctxs tk') q -> WI (mkC (MRun t q) fr s')).
    { intros s' tk' q U HT' Hn' Hq. split; [|exists tk'; split; [apply U|split; [exact Hn'|left; exact Hq]]].
      apply (WIp_upd _ _ fr s s' t _ HA U HtR HT'); [auto|]. intros tk2 _ Hn. destruct Hn. left. reflexivity. }
    (* the body finishes: the entry becomes computed *)
    assert (Hfin : forall q o, finishes q o -> wns (tk_ctxs tk) q -> WI (step P (mkC (MRun t q) fr s))).
    { intros q o Hq Hwq. assert (Hc0 : tk_ctxs tk = []) by (destruct Hq; inversion Hwq; reflexivity).
      destruct (step_run_finish P t fr s tk Hg q o Hq) as (s2 & -> & U & Htr). apply tupd_upd_entry in U.
      apply WI_plain; [exact I|].
      apply (WIp_upd _ _ fr s s2 t _ HA U HtR); [|intros u N Hu; apply not_in_cons; auto|intros tk2 E; discriminate E].
      apply (TO_finish s s2 t tk o (closed_task tk) Hg Hc0); [unfold cev; rewrite Htr; reflexivity|exact U|exact (proj1 HA)]. }
    inversion Htree as [v Ev|v Ev|e Ev|y k Hl Hk Ev|c k Hc Hk Ev|c k Hc Hk Ev|q k Hq Hk Ev]; subst p;
      [exact (Hfin _ _ (fin_ret v) Hw)|exact (Hfin _ _ (fin_result v) Hw)|exact (Hfin _ _ (fin_raise e) Hw)|..].
    - (* Yield: fresh futures, then t is suspended with the continuation k *)
      destruct (wns_yield_inv _ _ _ Hw) as (Hwl & Hwk). pose proof (old_tasks _ _ (proj2 (inst_old t y s Hfree))) as Old.
      destruct (step_run_yield_at P t fr s tk y k (Old t tk Hg)) as (s2 & -> & U & ->). apply tupd_upd_entry in U.
      assert (A1 : WIp (t :: fvals vs) fr (snd (inst t y s)))
        by (apply (WIp_new _ _ s); [exact Old|exact (tback_inst t y s Hwl)|apply cev_view, trace_inst|exact HA]).
      assert (A2 : WIp (fvals vs) fr (set_task t (mkTask (Some k) (fst (inst t y s)) (tk_deps tk ++ futs (extract (fst (inst t y s))))
                                                          (tk_ctxs tk) (tk_cact tk) (tk_ds tk) (tk_iter tk) (tk_next tk)) (snd (inst t y s)))).
      { apply (WIp_upd _ _ fr _ _ t _ A1 U HtR); [|intros u N Hu; apply not_in_cons; auto|].
        - exact (TO_set_same _ _ t None tk _ (Old t tk Hg) U eq_refl eq_refl (cev_set_task _ _ _) (proj1 A1)).
        - intros tk3 E _. inversion E; subst tk3. split; [exact Hnd|]. intros k0 E0 o. inversion E0; subst k0. apply Hwk. }
      destruct (futs (extract _)); apply WI_plain; try exact I; exact A2.
    - destruct (wns_enter_inv _ _ _ Hw) as (Hfc & Hwk).
      apply (Hrun _ _ k (tupd_upd_entry _ _ _ _ _ (enter_tupd t s tk Hg c)) (TO_enter s t tk c (proj1 HA) Hg Hcact Hc Hfc)); [|exact Hwk].
      cbn. rewrite map_app. apply NoDup_snoc_intro; assumption.
    - destruct (wns_exit_inv _ _ _ Hw) as (op & Eop & Hwk).
      apply (Hrun _ _ k (exit_entry t c s tk op Hg Eop Hnd) (TO_exit s t tk c op (proj1 HA) Hg Hcact Hc Eop Hnd)); [|exact Hwk].
      rewrite Eop, map_app in Hnd. exact (proj1 (NoDup_snoc _ _ Hnd)).
    - (* a synchronous call: the callee task is created; it is a fresh task whose body is well nested *)
      destruct (wns_call_inv _ _ _ Hw) as (Hwq & Hwk). rewrite step_run_let.
      pose proof (old_tasks _ _ (proj2 (create_old t (FTask q) s Hfree))) as Old. split.
      + apply (WIp_new _ _ s); [exact Old| |apply cev_view, trace_create|exact HA].
        apply tback_create. intros q' E. inversion E; subst q'. exact Hwq.
      + exists tk. split; [exact (Old t tk Hg)|]. split; [exact Hnd|]. right. eexists _, k. split; [reflexivity|exact Hwk].
  Qed.

  Theorem wi_step spec c : is_unwind (c_mode c) = false -> FLS res spec c -> WI c -> WI (step P c).
  Proof.
    destruct c as [m fr s]. destruct m; cbn [c_mode is_unwind]; intros Hu HI HA; try discriminate;
      eauto using wi_MValue, wi_MWaitHead, wi_MAfterExec, wi_MExecLoop, wi_MResume, wi_MRun, wi_MContRet, wi_MDeliver.
  Qed.

  Theorem wi_run n : forall spec c, FLS res spec c -> WI c -> no_unwind P n c ->
    exists spec', FLS res spec' (run P n c) /\ WI (run P n c).
  Proof.
    intros spec c HV HA Hn. apply (run_invariant P (fun c => exists spec, FLS res spec c /\ WI c)); [|eauto|intros k Hk; apply Hn; lia].
    intros c0 Hu (sp & H1 & H2). destruct (fls_step P HP res sp c0 Hu H1) as (sp' & H1'). exists sp'.
    split; [exact H1'|exact (wi_step sp c0 Hu H1 H2)].
  Qed.
End C06S.

Section C06S_theorems.
  Variable P : params.
  Hypothesis HP : pointwise P.
  Variable p : prog.
  Hypothesis Hp : stree p.
  Hypothesis Hw : wns [] p.

  Let h := fst (create [] (FTask p) (st0 P)).
  Let s1 := snd (create [] (FTask p) (st0 P)).

  Lemma wi_reach n : no_unwind P n (start h s1) ->
    exists spec, FLS (evals p) spec (run P n (start h s1)) /\ WI (run P n (start h s1)).
  Proof.
    intros Hn. destruct (fls_start P p Hp) as (spec & HV). apply (wi_run P HP (evals p) n spec _ HV); [|exact Hn].
    apply WI_plain; [exact I|]. apply (WIp_new _ _ (st0 P)); [discriminate| |apply cev_view, trace_create|].
    - apply tback_create. intros q E. inversion E; subst q. exact Hw.
    - split; [apply TO_init; reflexivity|]. split; [intros u tk Hg; discriminate Hg|exact I].
  Qed.

  Lemma to_reach n : no_unwind P n (start h s1) -> TO (c_st (run P n (start h s1))).
  Proof.
    intros Hn. destruct (wi_reach n Hn) as (spec & _ & HT). pose proof (Hn n (le_n n)) as Hu. unfold WI in HT.
    destruct (c_mode (run P n (start h s1))); try exact HT; try discriminate; try apply HT. destruct HT.
  Qed.

  (* for every context key (t, cid) the resume/pause events, oldest first, strictly alternate, starting with a resume *)
  Theorem resume_pause_alternate_stree n t cid :
    no_unwind P n (start h s1) ->
    alternates t cid true (ctx_events t cid (trace (c_st (run P n (start h s1))))).
  Proof. intros Hn. apply TO_alternates, (to_reach n Hn). Qed.

  (* the invariant: the newest event of (t, cid) is a resume exactly when t is an uncompleted task whose contexts are
     active and which has an AsyncContext with id cid open *)
  Theorem newest_is_resume_iff_active_stree n t cid :
    no_unwind P n (start h s1) ->
    let s := c_st (run P n (start h s1)) in
    (exists rest, filter (evk t cid) (trace s) = EvResume t cid :: rest) <->
    (exists tk f, get t s = Some (mkFut None (KTask tk)) /\ tk_cact tk = true /\ In (CAsync cid f) (tk_ctxs tk)).
  Proof. intros Hn. apply TO_newest, (to_reach n Hn). Qed.

  (* At the end: when the outermost call has returned (value or error) every context that was ever resumed has been
     paused since *)
  Theorem all_paused_at_end_stree_events n t cid o :
    no_unwind P n (start h s1) -> c_mode (run P n (start h s1)) = MDone o ->
    match filter (evk t cid) (trace (c_st (run P n (start h s1)))) with [] => True | e :: _ => e = EvPause t cid end.
  Proof.
    intros Hn Hm. apply TO_paused; [exact (to_reach n Hn)|]. apply opens_inactive. intros tk Hg.
    exact (proj1 (proj2 (end_stree P HP p Hp n o Hn Hm) t tk Hg)).
  Qed.

  (* At a flush (end of an _execute pass, of the outermost loop or of a loop nested in synchronous calls): a context
     whose newest event is a resume belongs to a task that is on the scheduler's stack and is either a caller inside
     value() or has scheduled its dependencies (it awaits, directly or through the callers, what the loop is running);
     every context of any other task is paused *)
  Theorem resumed_at_flush_stree n t cid :
    no_unwind P n (start h s1) -> c_mode (run P n (start h s1)) = MAfterExec ->
    let c := run P n (start h s1) in
    (exists rest, filter (evk t cid) (trace (c_st c)) = EvResume t cid :: rest) ->
    In t (tasks (c_st c)) /\
    exists tk, get t (c_st c) = Some (mkFut None (KTask tk)) /\ (In t (fvals (c_frames c)) \/ tk_ds tk = true).
  Proof.
    intros Hn Hm. cbn zeta. intros Hr.
    apply (newest_is_resume_iff_active_stree n t cid Hn) in Hr as (tk & f & Hg & Hc & _).
    destruct (flush_stree P HP p Hp n Hn Hm) as (r & vs & Efr & _ & _ & Hall). fold h s1 in Efr, Hall. cbn zeta in Efr, Hall.
    destruct (Hall t tk Hg (or_introl Hc)) as (Hin & _ & Hd). split; [exact Hin|]. exists tk. split; [exact Hg|].
    rewrite Efr. cbn [fvals]. exact Hd.
  Qed.

  (* ... in particular at a flush issued by the outermost loop every context is paused (the tree statement) *)
  Theorem all_paused_at_outer_flush_stree n t cid :
    no_unwind P n (start h s1) -> c_mode (run P n (start h s1)) = MAfterExec ->
    fvals (c_frames (run P n (start h s1))) = [] ->
    match filter (evk t cid) (trace (c_st (run P n (start h s1)))) with [] => True | e :: _ => e = EvPause t cid end.
  Proof.
    intros Hn Hm Hfv. apply TO_paused; [exact (to_reach n Hn)|]. apply opens_inactive. intros tk Hg.
    exact (proj1 (proj2 (outer_flush_stree P HP p Hp n Hn Hm Hfv) t tk Hg)).
  Qed.

  (* while the body of t runs, every AsyncContext that t has open is resumed - and so is every AsyncContext of every
     caller suspended in a synchronous call that led to t's code ("including synchronous calls it makes") *)
  Theorem resumed_while_code_runs_stree n t q x :
    no_unwind P n (start h s1) -> c_mode (run P n (start h s1)) = MRun t q ->
    let c := run P n (start h s1) in
    x = t \/ In x (fvals (c_frames c)) ->
    forall tk, get x (c_st c) = Some (mkFut None (KTask tk)) -> forall cid f, In (CAsync cid f) (tk_ctxs tk) ->
      exists rest, filter (evk x cid) (trace (c_st c)) = EvResume x cid :: rest.
  Proof.
    intros Hn Hm. cbn zeta. intros Hx tk Hg cid f Hin.
    apply (newest_is_resume_iff_active_stree n x cid Hn). exists tk, f. split; [exact Hg|]. split; [|exact Hin].
    destruct (running_stree P HP p Hp n t q Hn Hm) as (_ & Hact & _). fold h s1 in Hact. cbn zeta in Hact.
    destruct (Hact x Hx) as (tk' & Hg' & Hc'). rewrite Hg in Hg'. inversion Hg'; subst tk'. exact Hc'.
  Qed.

  (* at EVERY non-final configuration - in particular while the nested loops of a synchronous call run other tasks and
     flush batches - every AsyncContext of every caller inside value() is resumed *)
  Theorem caller_contexts_resumed_stree n x :
    no_unwind P n (start h s1) -> is_final (c_mode (run P n (start h s1))) = false ->
    let c := run P n (start h s1) in
    In x (fvals (c_frames c)) ->
    exists tk, get x (c_st c) = Some (mkFut None (KTask tk)) /\
      forall cid f, In (CAsync cid f) (tk_ctxs tk) -> exists rest, filter (evk x cid) (trace (c_st c)) = EvResume x cid :: rest.
  Proof.
    intros Hn Hf. cbn zeta. intros Hx.
    destruct (callers_stay_resumed P HP p Hp n x Hn Hf Hx) as (tk & Hg & Hc). fold h s1 in Hg. exists tk. split; [exact Hg|].
    intros cid f Hin. apply (newest_is_resume_iff_active_stree n x cid Hn). exists tk, f. auto.
  Qed.

  (* a context whose newest event is a resume while the body of t runs belongs to t, to a caller inside value(), or to a
     task on the stack that has scheduled its dependencies: nobody else is left resumed *)
  Theorem resumed_only_on_stack_stree n t q u cid :
    no_unwind P n (start h s1) -> c_mode (run P n (start h s1)) = MRun t q ->
    let c := run P n (start h s1) in
    (exists rest, filter (evk u cid) (trace (c_st c)) = EvResume u cid :: rest) ->
    In u (tasks (c_st c)) /\
    (u = t \/ In u (fvals (c_frames c)) \/ exists tk, get u (c_st c) = Some (mkFut None (KTask tk)) /\ tk_ds tk = true).
  Proof.
    intros Hn Hm. cbn zeta. intros Hr.
    apply (newest_is_resume_iff_active_stree n u cid Hn) in Hr as (tk & f & Hg & Hc & _).
    destruct (running_stree P HP p Hp n t q Hn Hm) as (_ & _ & Hall). fold h s1 in Hall. cbn zeta in Hall.
    destruct (Hall u tk Hg Hc) as (Hin & Hd). split; [exact Hin|].
    destruct Hd as [Hd|[Hd|Hd]]; [left; exact Hd|right; left; exact Hd|right; right; exists tk; auto].
  Qed.
End C06S_theorems.

(* the same on the chronological trace of run_case *)
Theorem run_case_resume_pause_alternate_stree P p n t cid :
  pointwise P -> stree p -> wns [] p ->
  no_unwind P n (start (fst (create [] (FTask p) (st0 P))) (snd (create [] (FTask p) (st0 P)))) ->
  alternates t cid true (filter (evk t cid) (snd (run_case P n [p]))).
Proof.
  intros HP Ht Hw Hn. destruct (run_case_single P n p) as (e & -> & He). rewrite filter_app. cbn [filter].
  destruct (evk t cid e) eqn:E; [apply evk_isctx in E; congruence|]. rewrite app_nil_r.
  apply (resume_pause_alternate_stree P HP p Ht Hw n t cid Hn).
Qed.

(* tree p is stree p and wn is wns, and a yield-only tree program never enters value(): its flushes are outermost ones *)
Section C06T_theorems.
  Variable P : params.
  Hypothesis HP : pointwise P.
  Variable p : prog.
  Hypothesis Ht : tree p.
  Hypothesis Hw : wn [] p.

  Let h := fst (create [] (FTask p) (st0 P)).
  Let s1 := snd (create [] (FTask p) (st0 P)).
  Let Hs := tree_stree p Ht.
  Let Hws := wn_wns _ _ Hw.

  Theorem resume_pause_alternate_tree n t cid :
    no_unwind P n (start h s1) ->
    alternates t cid true (ctx_events t cid (trace (c_st (run P n (start h s1))))).
  Proof. exact (resume_pause_alternate_stree P HP p Hs Hws n t cid). Qed.

  Theorem newest_is_resume_iff_active_tree n t cid :
    no_unwind P n (start h s1) ->
    let s := c_st (run P n (start h s1)) in
    (exists rest, filter (evk t cid) (trace s) = EvResume t cid :: rest) <->
    (exists tk f, get t s = Some (mkFut None (KTask tk)) /\ tk_cact tk = true /\ In (CAsync cid f) (tk_ctxs tk)).
  Proof. exact (newest_is_resume_iff_active_stree P HP p Hs Hws n t cid). Qed.

  (* at every flush point and when the outermost call has returned (value or error) every context that was ever
     resumed has been paused since *)
  Theorem all_paused_at_flush_and_end_tree n t cid :
    no_unwind P n (start h s1) ->
    (c_mode (run P n (start h s1)) = MAfterExec \/ exists o, c_mode (run P n (start h s1)) = MDone o) ->
    match filter (evk t cid) (trace (c_st (run P n (start h s1)))) with [] => True | e :: _ => e = EvPause t cid end.
  Proof.
    intros Hn [Hm|(o & Hm)]; [|exact (all_paused_at_end_stree_events P HP p Hs Hws n t cid o Hn Hm)].
    apply (all_paused_at_outer_flush_stree P HP p Hs Hws n t cid Hn Hm). fold h s1.
    destruct (fl_reach P HP p Ht n Hn) as (spec & (HC & _)). fold h s1 in HC.
    destruct (run P n (start h s1)) as [m fr s]. cbn [c_mode c_frames c_st] in *. subst m.
    destruct HC as (_ & Hfr & _). cbn in Hfr. subst fr. reflexivity.
  Qed.

  Theorem resumed_while_own_code_runs_tree n t q :
    no_unwind P n (start h s1) -> c_mode (run P n (start h s1)) = MRun t q ->
    let s := c_st (run P n (start h s1)) in
    forall tk, get t s = Some (mkFut None (KTask tk)) -> forall cid f, In (CAsync cid f) (tk_ctxs tk) ->
      exists rest, filter (evk t cid) (trace s) = EvResume t cid :: rest.
  Proof. intros Hn Hm. exact (resumed_while_code_runs_stree P HP p Hs Hws n t q t Hn Hm (or_introl eq_refl)). Qed.
End C06T_theorems.

Theorem run_case_resume_pause_alternate P p n t cid :
  pointwise P -> tree p -> wn [] p ->
  no_unwind P n (start (fst (create [] (FTask p) (st0 P))) (snd (create [] (FTask p) (st0 P)))) ->
  alternates t cid true (filter (evk t cid) (snd (run_case P n [p]))).
Proof. intros HP Ht Hw. exact (run_case_resume_pause_alternate_stree P p n t cid HP (tree_stree p Ht) (wn_wns _ _ Hw)). Qed.

(* MachineC07.wn has no case for a synchronous call: a program that is wn and stree is a yield-only tree program, so
   "stree p /\ wn [] p" is not a larger class than the one of MachineC06T; the literal port is the corollary below *)
Lemma wn_stree_tree op p : wn op p -> stree p -> tree p.
Proof.
  intros H. induction H as [v|v|e|op s k Hl IHl Hk IHk|op c k Hc Hk IHk|op c k Hk IHk]; intros Hs.
  - constructor.
  - constructor.
  - constructor.
  - inversion Hs as [| | |s' k' Hsl Hsk| | |]; subst. apply tree_yield.
    + intros l Hin. specialize (Hsl l Hin). inversion Hsl as [f Hf|]; subst; [|constructor].
      constructor. inversion Hf as [q Hq| | | |]; subst; constructor. apply IHl; [exact Hin|exact Hq].
    + intros o. apply IHk. apply Hsk.
  - inversion Hs; subst. apply tree_enter; [assumption|]. apply IHk. assumption.
  - inversion Hs; subst. apply tree_exit; [assumption|]. apply IHk. assumption.
Qed.

Theorem resume_pause_alternate_stree_wn P p n t cid :
  pointwise P -> stree p -> wn [] p ->
  no_unwind P n (start (fst (create [] (FTask p) (st0 P))) (snd (create [] (FTask p) (st0 P)))) ->
  alternates t cid true (ctx_events t cid (trace (c_st (run P n (start (fst (create [] (FTask p) (st0 P))) (snd (create [] (FTask p) (st0 P)))))))).
Proof. intros HP Hs Hw Hn. apply (resume_pause_alternate_stree P HP p Hs (wn_wns _ _ Hw) n t cid Hn). Qed.

(* root [0]:    with ctx0:  a, b = yield sib.asynq(), caller.asynq()
   sib [1]:     with ctx2:  v = yield item(kind 0); return v                      - blocks on the batch: paused
   caller [2]:  with ctx5:  v = mid(); return v                                   - synchronous call, depth 1
   mid [4]:     with ctx1: leaf(2)  ;  with ctx1 (the id is re-used): v = leaf(3); return v   - two calls, depth 2
   leaf [5],[7]: with ctx7:  v = yield item(kind 0); return v                     - blocks: a loop nested two levels deep flushes
   At the nested flushes the callers [4] (ctx 1) and [2] (ctx 5) are inside value() and stay resumed, the root [0]
   (ctx 0) stays resumed too (it is suspended at its yield, awaiting [2]); the callees' ctx 7 is paused and resumed
   around their own flush. *)
Definition c06n_rr : outcome -> prog := ret_or_raise (fun v => v).
Definition c06n_leaf (key v : Z) : prog :=
  Enter (c06s_ctx 7) (Yield (YLeaf (LNew (FItem 0 key (ASet (VInt v))))) (fun o => Exit (c06s_ctx 7) (c06n_rr o))).
Definition c06n_mid : prog :=
  Enter (c06s_ctx 1)
    (Let (FTask (c06n_leaf 2 20)) (fun h => Sync h (fun _ =>
       Exit (c06s_ctx 1) (Enter (c06s_ctx 1)
         (Let (FTask (c06n_leaf 3 30)) (fun h => Sync h (fun o => Exit (c06s_ctx 1) (c06n_rr o)))))))).
Definition c06n_caller : prog :=
  Enter (c06s_ctx 5) (Let (FTask c06n_mid) (fun h => Sync h (fun o => Exit (c06s_ctx 5) (c06n_rr o)))).
Definition c06n_sib : prog :=
  Enter (c06s_ctx 2) (Yield (YLeaf (LNew (FItem 0 1 (ASet (VInt 10))))) (fun o => Exit (c06s_ctx 2) (c06n_rr o))).
Definition c06n_demo : prog :=
  Enter (c06s_ctx 0) (Yield (YTuple [YLeaf (LNew (FTask c06n_sib)); YLeaf (LNew (FTask c06n_caller))])
                            (fun o => Exit (c06s_ctx 0) (c06n_rr o))).

Lemma c06n_rr_wns o : wns [] (c06n_rr o).
Proof. destruct o; constructor. Qed.

Lemma c06n_rr_ok o : stree (c06n_rr o) /\ wns [] (c06n_rr o).
Proof. split; [apply ret_or_raise_stree|apply c06n_rr_wns]. Qed.

Lemma c06n_block_ok c key v :
  plain_ctx c = true ->
  let q := Enter c (Yield (YLeaf (LNew (FItem 0 key (ASet (VInt v))))) (fun o => Exit c (c06n_rr o))) in
  stree q /\ wns [] q.
Proof.
  intros Hc. cbn zeta. split.
  - apply st_enter; [exact Hc|]. apply st_yield; [intros l [<-|[]]; repeat constructor|].
    intros o. apply st_exit; [exact Hc|apply ret_or_raise_stree].
  - apply wns_enter; [intros []|]. cbn [app]. apply wns_yield; [intros q [E|[]]; discriminate|].
    intros o. apply (wns_exit [] c). apply c06n_rr_wns.
Qed.

(* a with-block around one synchronous call of q, left before the caller goes on with k *)
Lemma call_block_ok c q (k : outcome -> prog) :
  plain_ctx c = true -> stree q /\ wns [] q -> (forall o, stree (k o) /\ wns [] (k o)) ->
  let p := Enter c (Let (FTask q) (fun h => Sync h (fun o => Exit c (k o)))) in stree p /\ wns [] p.
Proof.
  intros Hc Hq Hk. cbn zeta. split.
  - apply st_enter; [exact Hc|]. apply st_call; [apply Hq|]. intros o. apply st_exit; [exact Hc|apply Hk].
  - apply wns_enter; [intros []|]. cbn [app]. apply wns_call; [apply Hq|]. intros o. apply (wns_exit [] c). apply Hk.
Qed.

Lemma c06n_mid_ok : stree c06n_mid /\ wns [] c06n_mid.
Proof.
  apply call_block_ok; [reflexivity|apply (c06n_block_ok (c06s_ctx 7) 2 20 eq_refl)|]. intros _.
  apply call_block_ok; [reflexivity|apply (c06n_block_ok (c06s_ctx 7) 3 30 eq_refl)|exact c06n_rr_ok].
Qed.

Lemma c06n_caller_ok : stree c06n_caller /\ wns [] c06n_caller.
Proof. apply call_block_ok; [reflexivity|exact c06n_mid_ok|exact c06n_rr_ok]. Qed.

Lemma c06n_demo_ok : stree c06n_demo /\ wns [] c06n_demo.
Proof.
  unfold c06n_demo. split.
  - apply st_enter; [reflexivity|]. apply st_yield.
    + intros l Hl. cbn in Hl. destruct Hl as [<-|[<-|[]]]; constructor; constructor.
      * apply (c06n_block_ok (c06s_ctx 2) 1 10 eq_refl).
      * apply c06n_caller_ok.
    + intros o. apply st_exit; [reflexivity|apply ret_or_raise_stree].
  - apply wns_enter; [intros []|]. cbn [app]. apply wns_yield.
    + intros q Hq. cbn in Hq. destruct Hq as [E|[E|[]]]; inversion E; subst q.
      * apply (c06n_block_ok (c06s_ctx 2) 1 10 eq_refl).
      * apply c06n_caller_ok.
    + intros o. apply (wns_exit [] (c06s_ctx 0)). apply c06n_rr_wns.
Qed.

(* a synchronous call is not wn: stree with wns is strictly larger than tree with wn *)
Lemma c06n_demo_not_tree : ~ tree c06n_demo /\ ~ wn [] c06n_demo.
Proof.
  assert (N : ~ tree c06n_demo).
  { unfold c06n_demo. intros Ht. inversion Ht as [| | | |c k Hc Hk|]; subst. inversion Hk as [| | |s k' Hl Hk'| |]; subst.
    specialize (Hl (LNew (FTask c06n_caller)) ltac:(cbn; right; left; reflexivity)).
    inversion Hl as [f Hf|]; subst. inversion Hf as [q Hq| | | |]; subst.
    unfold c06n_caller in Hq. inversion Hq as [| | | |c k Hc2 Hk2|]; subst. inversion Hk2. }
  split; [exact N|]. intros H. exact (N (wn_stree_tree _ _ H (proj1 c06n_demo_ok))).
Qed.

Example c06n_demo_runs :
  let P := c06s_P in
  let h := fst (create [] (FTask c06n_demo) (st0 P)) in
  let s1 := snd (create [] (FTask c06n_demo) (st0 P)) in
  let c k := run P k (start h s1) in
  let R t i := EvResume t i in let Z t i := EvPause t i in
  stree c06n_demo /\ wns [] c06n_demo /\ pointwise P /\ no_unwind_b P 300 (start h s1) = true /\
  c_mode (c 300%nat) = MDone (Ok (VTuple [VInt 10; VInt 30])) /\
  (* all resume/pause events of the run, in chronological order *)
  filter isctx (rev (trace (c_st (c 300%nat)))) =
    [R [0] 0; R [1] 2; Z [1] 2; R [2] 5; R [4] 1; R [5] 7; Z [5] 7; R [5] 7; Z [5] 7; Z [4] 1; R [4] 1;
     R [7] 7; Z [7] 7; R [7] 7; Z [7] 7; Z [4] 1; Z [2] 5; Z [0] 0; R [0] 0; R [1] 2; Z [1] 2; Z [0] 0] /\
  (* per key: the root's ctx 0 and the re-used id 1 of mid [4] give two periods each *)
  ctx_events [0] 0 (trace (c_st (c 300%nat))) = [R [0] 0; Z [0] 0; R [0] 0; Z [0] 0] /\
  ctx_events [4] 1 (trace (c_st (c 300%nat))) = [R [4] 1; Z [4] 1; R [4] 1; Z [4] 1] /\
  ctx_events [5] 7 (trace (c_st (c 300%nat))) = [R [5] 7; Z [5] 7; R [5] 7; Z [5] 7] /\
  ctx_events [2] 5 (trace (c_st (c 300%nat))) = [R [2] 5; Z [2] 5] /\
  (* the flush points: (step, callers inside value(), task stack); the first four are issued by a loop nested two
     calls deep, the fifth by the loop of the outer call, the last two by the outermost loop *)
  map (fun k => (k, fvals (c_frames (c k)), tasks (c_st (c k))))
      (filter (fun k => match c_mode (c k) with MAfterExec => true | _ => false end) (seq 0 300)) =
    [(39%nat, [[4]; [2]], [[4]; [2]; [0]]); (48%nat, [[4]; [2]], [[4]; [2]; [0]]); (65%nat, [[4]; [2]], [[4]; [2]; [0]]);
     (74%nat, [[4]; [2]], [[4]; [2]; [0]]); (81%nat, [[2]], [[2]; [0]]); (89%nat, [], []); (105%nat, [], [])]%Z /\
  (* at the first nested flush (step 39): resumed are the callers' ctx 1 and ctx 5 and the root's ctx 0 *)
  filter isctx (rev (trace (c_st (c 39%nat)))) = [R [0] 0; R [1] 2; Z [1] 2; R [2] 5; R [4] 1; R [5] 7; Z [5] 7].
Proof.
  split; [apply c06n_demo_ok|]. split; [apply c06n_demo_ok|]. split; [exact c06s_P_pointwise|].
  (* the run is inspected at every k of two [seq]s: evaluate it in one pass (the configuration is given to
     filter_map_run explicitly: left to unification it is evaluated there) *)
  cbv zeta. set (c0 := start _ _). rewrite no_unwind_b_traj.
  rewrite (filter_map_run c06s_P (fun c => match c_mode c with MAfterExec => true | _ => false end)
             (fun k c => (k, fvals (c_frames c), tasks (c_st c))) 300 c0).
  vm_compute. repeat match goal with |- _ /\ _ => split end; reflexivity.
Qed.

(* The tree theorem all_paused_at_flush_and_end_tree ("at every flush point the newest event of every key is a pause"), even with the contexts of the
   callers that are inside value() excepted, does not survive synchronous calls: at a flush issued by a nested loop
   the tasks that are grey on the stack below the caller are still resumed (this is the trace form of
   MachineDFSS.contexts_paused_at_every_flush_stree_is_false).  The true statements are resumed_at_flush_stree and
   all_paused_at_outer_flush_stree above. *)
Definition all_paused_at_every_flush_stree_statement : Prop :=
  forall P, pointwise P -> forall p, stree p -> wns [] p -> forall n t cid,
  let h := fst (create [] (FTask p) (st0 P)) in
  let s1 := snd (create [] (FTask p) (st0 P)) in
  no_unwind P n (start h s1) -> c_mode (run P n (start h s1)) = MAfterExec ->
  ~ In t (fvals (c_frames (run P n (start h s1)))) ->
  match filter (evk t cid) (trace (c_st (run P n (start h s1)))) with [] => True | e :: _ => e = EvPause t cid end.

Theorem all_paused_at_every_flush_stree_is_false : ~ all_paused_at_every_flush_stree_statement.
Proof.
  intros H.
  specialize (H c06s_P c06s_P_pointwise c06n_demo (proj1 c06n_demo_ok) (proj2 c06n_demo_ok) 39%nat [0%Z] 0%Z). cbn zeta in H.
  destruct c06n_demo_runs as (_ & _ & _ & Hb & _). apply no_unwind_b_sound in Hb.
  assert (Hn : no_unwind c06s_P 39 (start (fst (create [] (FTask c06n_demo) (st0 c06s_P))) (snd (create [] (FTask c06n_demo) (st0 c06s_P)))))
    by (intros k Hk; apply Hb; lia).
  specialize (H Hn ltac:(vm_compute; reflexivity)).
  assert (Hnin : ~ In [0%Z] (fvals (c_frames (run c06s_P 39 (start (fst (create [] (FTask c06n_demo) (st0 c06s_P))) (snd (create [] (FTask c06n_demo) (st0 c06s_P)))))))).
  { vm_compute. intros [E|[E|[]]]; discriminate E. }
  specialize (H Hnin). vm_compute in H. discriminate H.
Qed.
