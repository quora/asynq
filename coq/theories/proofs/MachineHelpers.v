(* Relations and invariants on the state [st], for every program.  Every transition rewrites the state through
   the same few helpers of Machine.v, and these through a dozen primitive writes.  Section Closure: a preorder on
   states that contains the primitive writes contains the helpers.  [hstep]: the writes and helper calls one
   transition is made of, tagged where a relation may want to exclude them; [step_hstep]: every transition is
   such a composition, so a property of all transitions is proved by induction on [hstep].  Section Lift: from one
   transition to runs, root computations and histories.
   Not here: which configuration follows which (modes, frames).  Invariants of configurations along the pass of a
   tree program are proved from the case descriptions of MachineCases.v. *)
From Asynq Require Import Machine proofs.ProgProofs proofs.MachineFrame proofs.MachineC05 proofs.MachineC08.
(* from MachineC05: get_put_same, get_put_other; from MachineC08: run_step; fold_left_pres is MachineFrame's *)

Lemma get_put h h' f s : get h (put h' f s) = if fid_eqb h h' then Some f else get h s.
Proof.
  destruct (fid_eqb_spec h h') as [->|N]; [apply get_put_same|apply get_put_other; exact N].
Qed.

Lemma computed_put h h' f s :
  computed h (put h' f s) = if fid_eqb h h' then match f_out f with Some _ => true | None => false end
                            else computed h s.
Proof. unfold computed. rewrite get_put. destruct (fid_eqb h h'); reflexivity. Qed.

Lemma computed_set_task h t tk s : computed h (set_task t tk s) = computed h s.
Proof.
  unfold set_task. destruct (get t s) as [f|] eqn:G; [|reflexivity]. rewrite computed_put.
  destruct (fid_eqb_spec h t) as [->|_]; [|reflexivity]. unfold computed. rewrite G. reflexivity.
Qed.

Lemma computed_exit_ctx h t c s : computed h (exit_ctx t c s) = computed h s.
Proof.
  assert (Hp : forall s0, computed h (pause_plain t c s0) = computed h s0) by (intros s0; destruct c; reflexivity).
  unfold exit_ctx. destruct (get_task t s) as [tk|]; [|apply Hp].
  destruct (tk_cact tk); rewrite ?Hp; apply computed_set_task.
Qed.

(* events of the context protocol / of a task's own code *)
Definition ctx_event (e : event) : Prop := match e with EvResume _ _ | EvPause _ _ => True | _ => False end.
Definition local_event (e : event) : Prop :=
  match e with EvResume _ _ | EvPause _ _ | EvGot _ _ | EvRead _ _ _ | EvProbe _ _ => True | _ => False end.

(* what complete_task stores *)
Definition closed_task (tk : task) : task :=
  mkTask None YNone [] (tk_ctxs tk) (tk_cact tk) (tk_ds tk) (tk_iter tk) (tk_next tk).

(* A lemma of this section depends on the hypotheses its proof uses, no others.  After the section, besides R_refl
   and R_trans,
     rel_schedule_batch      needs R_with_sb (and no R_trans);
     rel_select              needs R_with_sb, R_with_oracle, R_emit_illegal (and no R_refl);
     rel_flush_batch         needs R_item, R_with_cur, R_emit_flush, R_batch_done;
     rel_continue_with_batch needs those of rel_select and rel_flush_batch, R_emit_before, R_emit_after;
     rel_complete_task, rel_accept_error need R_emit_ctx, R_var_set, R_ctxs, R_done;
     rel_resume_contexts, rel_pause_contexts need these and R_ci_put,
   in the order in which the hypotheses are declared below. *)
Section Closure.
  Variable R : st -> st -> Prop.
  Hypothesis R_refl : forall s, R s s.
  Hypothesis R_trans : forall a b c, R a b -> R b c -> R a c.

  Lemma rel_fold {X} (f : st -> X -> st) l : (forall s x, R s (f s x)) -> forall s, R s (fold_left f l s).
  Proof. intros H. induction l as [|x l IH]; intros s; cbn; [apply R_refl|]. eapply R_trans; [apply H|apply IH]. Qed.

  Lemma rel_fold_pair {X E} (f : st * E -> X -> st * E) l :
    (forall a x, R (fst a) (fst (f a x))) -> forall a, R (fst a) (fst (fold_left f l a)).
  Proof. intros H. induction l as [|x l IH]; intros a; cbn; [apply R_refl|]. eapply R_trans; [apply H|apply IH]. Qed.

  (* contexts *)
  Hypothesis R_emit_ctx : forall e s, ctx_event e -> R s (emit e s).
  Hypothesis R_var_set : forall v x s, R s (var_set v x s).
  Hypothesis R_ci_put : forall k c s, R s (ci_put k c s).
  Hypothesis R_ctxs : forall t tk cs a s, get_task t s = Some tk -> R s (set_task t (tk_with_ctxs tk cs a) s).

  Lemma rel_pause_plain t c s : R s (pause_plain t c s).
  Proof. destruct c; cbn [pause_plain]; [apply R_emit_ctx; exact I|apply R_refl|apply R_var_set]. Qed.

  Lemma rel_enter_ctx t c s : R s (enter_ctx t c s).
  Proof.
    unfold enter_ctx.
    assert (H : R s (match get_task t s with
                     | Some tk => set_task t (tk_with_ctxs tk (tk_ctxs tk ++ [c]) (tk_cact tk)) s
                     | None => s end)) by (destruct (get_task t s) eqn:G; [apply R_ctxs; exact G|apply R_refl]).
    eapply R_trans; [exact H|]. destruct c; [apply R_emit_ctx; exact I|apply R_refl|].
    eapply R_trans; [apply R_ci_put|apply R_var_set].
  Qed.

  Lemma rel_exit_ctx t c s : R s (exit_ctx t c s).
  Proof.
    unfold exit_ctx. destruct (get_task t s) as [tk|] eqn:G; [|apply rel_pause_plain].
    destruct (tk_cact tk); [eapply R_trans; [|apply rel_pause_plain]|]; apply R_ctxs; exact G.
  Qed.

  Lemma rel_resume1 t c s : R s (fst (resume1 t c s)).
  Proof.
    assert (H : forall x, R s (emit (EvResume t (cid_of c)) (ci_put (t, cid_of c) x s)))
      by (intros x; eapply R_trans; [apply R_ci_put|apply R_emit_ctx; exact I]).
    unfold resume1. destruct c as [cid f|cid|cid var v]; [destruct f| |]; cbn [fst cid_of] in *;
      try (destruct (Nat.eqb _ _); cbn [fst]); try apply H; try apply R_refl.
    eapply R_trans; [apply R_ci_put|apply R_var_set].
  Qed.

  Lemma rel_pause1 t c s : R s (fst (pause1 t c s)).
  Proof.
    assert (H : forall x, R s (emit (EvPause t (cid_of c)) (ci_put (t, cid_of c) x s)))
      by (intros x; eapply R_trans; [apply R_ci_put|apply R_emit_ctx; exact I]).
    unfold pause1. destruct c as [cid f|cid|cid var v]; [destruct f| |]; cbn [fst cid_of] in *;
      try (destruct (Nat.eqb _ _); cbn [fst]); try apply H; try apply R_refl.
    apply R_var_set.
  Qed.

  (* completion: set_value / set_error on a task that has no outcome yet *)
  Hypothesis R_done : forall t tk o s, get_task t s = Some tk -> computed t s = false ->
    R s (emit (EvDone t o) (put t (mkFut (Some o) (KTask (closed_task tk))) s)).

  Lemma rel_complete_task t o s : computed t s = false -> R s (complete_task t o s).
  Proof.
    intros C. unfold complete_task. destruct (get_task t s) as [tk|]; [|apply R_refl].
    set (s1 := match tk_gen tk with
               | Some _ => fold_left (fun s c => exit_ctx t c s) (rev (tk_ctxs tk)) s
               | None => s end).
    assert (H : R s s1) by (unfold s1; destruct (tk_gen tk); [apply rel_fold; intros; apply rel_exit_ctx|apply R_refl]).
    assert (C1 : computed t s1 = false).
    { unfold s1. destruct (tk_gen tk); [|exact C].
      rewrite (fold_left_pres (fun s c => exit_ctx t c s) (computed t)); [exact C|]. intros. apply computed_exit_ctx. }
    destruct (get_task t s1) as [tk1|] eqn:G1; [|exact H].
    eapply R_trans; [exact H|apply (R_done t tk1); assumption].
  Qed.

  Lemma rel_accept_error t e s : R s (accept_error t e s).
  Proof. unfold accept_error. destruct (computed t s) eqn:C; [apply R_refl|apply rel_complete_task; exact C]. Qed.

  (* the common shape of _resume_contexts and _pause_contexts: flag the task, run one call per context,
     fail the task with the error chosen by [g] *)
  Lemma rel_sweep t tk a (step1 : fid -> ctxk -> st -> st * option exn)
        (g : option exn -> option exn -> option exn) l s :
    get_task t s = Some tk -> (forall c s, R s (fst (step1 t c s))) ->
    R s (let '(s1, err) := fold_left (fun acc c => let '(s, err) := acc in let '(s', e) := step1 t c s in (s', g err e)) l
                                     (set_task t (tk_with_ctxs tk (tk_ctxs tk) a) s, None) in
         match err with Some e => accept_error t e s1 | None => s1 end).
  Proof.
    intros G H1.
    match goal with |- context [fold_left ?f l ?a0] => assert (H2 : R s (fst (fold_left f l a0))) end.
    { apply (R_trans _ (set_task t (tk_with_ctxs tk (tk_ctxs tk) a) s)); [apply R_ctxs; exact G|].
      match goal with |- R ?s0 (fst (fold_left ?f l (?s0, ?e))) => apply (rel_fold_pair f l) with (a := (s0, e)) end.
      intros [s0 e0] c. cbn [fst]. specialize (H1 c s0). destruct (step1 t c s0). exact H1. }
    match goal with |- context [fold_left ?f l ?a0] => destruct (fold_left f l a0) as [s1 [e|]] end;
      cbn [fst] in H2; [eapply R_trans; [exact H2|apply rel_accept_error]|exact H2].
  Qed.

  Lemma rel_resume_contexts t s : R s (resume_contexts t s).
  Proof.
    unfold resume_contexts. destruct (get_task t s) as [tk|] eqn:G; [|apply R_refl].
    destruct (tk_cact tk); [apply R_refl|].
    exact (rel_sweep t tk true resume1 (fun err e => match err with Some _ => err | None => e end) _ s G (rel_resume1 t)).
  Qed.

  Lemma rel_pause_contexts t s : R s (pause_contexts t s).
  Proof.
    unfold pause_contexts. destruct (get_task t s) as [tk|] eqn:G; [|apply R_refl].
    destruct (negb (tk_cact tk)); [apply R_refl|].
    exact (rel_sweep t tk false pause1 (fun err e => match e with Some _ => e | None => err end) _ s G (rel_pause1 t)).
  Qed.

  (* batches *)
  Hypothesis R_item : forall h f o s, get h s = Some f -> f_out f = None ->
    R s (emit (EvItemDone h o) (put h (mkFut (Some o) (f_kind f)) s)).

  Lemma rel_complete_item h o s : R s (complete_item h o s).
  Proof.
    unfold complete_item. destruct (get h s) as [f|] eqn:G; [|apply R_refl].
    destruct (f_out f) eqn:O; [apply R_refl|apply R_item; assumption].
  Qed.

  (* an item with a scripted answer is completed, any other entry is left alone; then the rest of the list (H) *)
  Lemma rel_flush_body items : forall i ra s, R s (fst (flush_body items i ra s)).
  Proof.
    induction items as [|h rest IH]; intros i ra s; cbn [flush_body].
    - destruct ra as [[k e]|]; apply R_refl.
    - assert (H : forall s1, R s s1 -> R s (fst (flush_body rest (i + 1) ra s1)))
        by (intros s1 H1; eapply R_trans; [exact H1|apply IH]).
      destruct ra as [[k e]|]; [destruct (Z.eqb i k); [apply R_refl|]|];
        apply H; destruct (get h s) as [[o [ | kind idx key [v|e'|] | | ]]|];
        first [apply rel_complete_item | apply R_refl].
  Qed.

  Hypothesis R_with_cur : forall s c, R s (with_cur s c).
  Hypothesis R_emit_flush : forall kind idx items s, R s (emit (EvFlush kind idx items) s).
  Hypothesis R_batch_done : forall k s, R s (put_batch k (mkB (b_items (get_batch k s)) true) s).

  Lemma rel_flush_batch P k s : R s (flush_batch P k s).
  Proof.
    unfold flush_batch. destruct (b_done (get_batch k s)); [apply R_refl|].
    match goal with |- context [flush_body ?a ?b ?c ?d] =>
      assert (H : R s (fst (flush_body a b c d))); [|destruct (flush_body a b c d) as [s2 err]] end.
    { eapply R_trans; [|apply rel_flush_body]. eapply R_trans; [|apply R_emit_flush].
      destruct (Z.eqb _ _); [apply R_with_cur|apply R_refl]. }
    cbn [fst] in H. eapply R_trans; [|apply R_batch_done].
    eapply R_trans; [exact H|]. apply rel_fold. intros. apply rel_complete_item.
  Qed.

  Hypothesis R_with_sb : forall s l, R s (with_sb s l).
  Hypothesis R_with_oracle : forall s l, R s (with_oracle s l).
  Hypothesis R_emit_illegal : forall a b s, R s (emit (EvIllegal a b) s).

  Lemma rel_select P s : R s (snd (select P s)).
  Proof.
    unfold select. destruct (filter _ (sb s)) as [|k0 el]; [apply R_with_sb|].
    assert (H : R s (with_sb s (k0 :: el))) by apply R_with_sb.
    destruct (oracle _) as [|c rest]; [exact H|]. destruct (existsb _ _ && _); cbn [snd].
    - eapply R_trans; [exact H|apply R_with_oracle].
    - eapply R_trans; [exact H|]. eapply R_trans; [apply R_with_oracle|apply R_emit_illegal].
  Qed.

  Lemma rel_schedule_batch k s : R s (schedule_batch k s).
  Proof. unfold schedule_batch. destruct (b_done _); [apply R_refl|]. destruct (existsb _ _); [apply R_refl|apply R_with_sb]. Qed.

  Hypothesis R_emit_before : forall kind idx s, R s (emit (EvBefore kind idx) s).
  Hypothesis R_emit_after : forall kind idx s, R s (emit (EvAfter kind idx) s).

  Lemma rel_continue_with_batch P s : R s (continue_with_batch P s).
  Proof.
    unfold continue_with_batch. pose proof (rel_select P s) as H. destruct (select P s) as [[k|] s1]; cbn [snd] in H; [|exact H].
    eapply R_trans; [exact H|]. eapply R_trans; [|apply R_emit_after]. eapply R_trans; [|apply rel_flush_batch].
    eapply R_trans; [apply R_with_sb|apply R_emit_before].
  Qed.
End Closure.

(* evaluating a yield expression creates the futures of its LNew leaves, left to right *)
Definition new_leaf (p : fid) (s : st) (l : leaf) : st :=
  match l with LNew f => snd (create p f s) | _ => s end.

Lemma inst_snd p y : forall s, snd (inst p y s) = fold_left (new_leaf p) (leaves y) s.
Proof.
  induction y as [| a | l IH | l IH | l IH] using ystruct_ind2; intros s.
  - reflexivity.
  - destruct a as [f|h|]; cbn [inst leaves fold_left new_leaf]; try reflexivity. destruct (create p f s); reflexivity.
  - rewrite leaves_tuple. cbn [inst]. match goal with |- context [(?g l s)] => set (go := g) end.
    enough (H : forall s, snd (go l s) = fold_left (new_leaf p) (flat_map leaves l) s)
      by (rewrite <- H; destruct (go l s); reflexivity).
    clear s. induction IH as [|x l Hx _ IHl]; intros s; [reflexivity|]. cbn [go flat_map].
    rewrite fold_left_app, <- Hx, <- IHl. destruct (inst p x s) as [x' s1]. cbn [snd]. destruct (go l s1); reflexivity.
  - rewrite leaves_ylist. cbn [inst]. match goal with |- context [(?g l s)] => set (go := g) end.
    enough (H : forall s, snd (go l s) = fold_left (new_leaf p) (flat_map leaves l) s)
      by (rewrite <- H; destruct (go l s); reflexivity).
    clear s. induction IH as [|x l Hx _ IHl]; intros s; [reflexivity|]. cbn [go flat_map].
    rewrite fold_left_app, <- Hx, <- IHl. destruct (inst p x s) as [x' s1]. cbn [snd]. destruct (go l s1); reflexivity.
  - rewrite leaves_ydict. cbn [inst]. match goal with |- context [(?g l s)] => set (go := g) end.
    enough (H : forall s, snd (go l s) = fold_left (new_leaf p) (flat_map (fun kv => leaves (snd kv)) l) s)
      by (rewrite <- H; destruct (go l s); reflexivity).
    clear s. induction IH as [|[k x] l Hx _ IHl]; intros s; [reflexivity|]. cbn [go flat_map snd]. cbn [snd] in Hx.
    rewrite fold_left_app, <- Hx, <- IHl. destruct (inst p x s) as [x' s1]. cbn [snd]. destruct (go l s1); reflexivity.
Qed.

Lemma inst_pres (I : st -> Prop) :
  (forall p f s, I s -> I (snd (create p f s))) -> forall p y s, I s -> I (snd (inst p y s)).
Proof.
  intros Hc p y s. rewrite inst_snd. generalize (leaves y). intros l. revert s.
  induction l as [|a l IH]; intros s Hs; [exact Hs|]. cbn [fold_left]. apply IH. destruct a; cbn [new_leaf]; auto.
Qed.

Lemma inst_rel (R : st -> st -> Prop) :
  (forall s, R s s) -> (forall a b c, R a b -> R b c -> R a c) ->
  (forall p f s, R s (snd (create p f s))) -> forall p y s, R s (snd (inst p y s)).
Proof.
  intros Rr Rt Rc p y s. apply (inst_pres (fun s' => R s s')); [|apply Rr].
  intros p0 f s0 H. eapply Rt; [exact H|apply Rc].
Qed.

(* which tagged constructors of [hstep] a transition may use (unrelated to MachineC08.ftag, the shape of the frames) *)
Inductive tag := TFlush | TStep | TYield (t : fid) | TNew.

(* a write of the scheduler's own fields of a task (contexts, their flag, _dependencies_scheduled): what the task
   awaits and how far it has run stay; its generator stays or is closed (close() before complete_task) *)
Definition bookkeeping (tk tk' : task) : Prop :=
  tk_last tk' = tk_last tk /\ tk_deps tk' = tk_deps tk /\ tk_iter tk' = tk_iter tk /\ tk_next tk' = tk_next tk /\
  (tk_gen tk' = tk_gen tk \/ tk_gen tk' = None).

(* The context and completion helpers are decomposed into their primitive writes; flush_batch, continue_with_batch
   and schedule_batch stay whole: a client handles these cases with rel_flush_batch, rel_continue_with_batch,
   rel_schedule_batch, or with what it knows about a flush. *)
Inductive hstep (P : params) (A : tag -> Prop) : st -> st -> Prop :=
| hs_refl s : hstep P A s s
| hs_trans a b c : hstep P A a b -> hstep P A b c -> hstep P A a c
| hs_regs s s' :        (* only tasks, active (MachineFrame.regs), sb and oracle differ *)
    heap s' = heap s -> batches s' = batches s -> cur s' = cur s -> vars s' = vars s -> cis s' = cis s ->
    top_next s' = top_next s -> trace s' = trace s -> hstep P A s s'
| hs_var_set v x s : hstep P A s (var_set v x s)
| hs_ci_put k c s : hstep P A s (ci_put k c s)
| hs_emit e s : local_event e -> hstep P A s (emit e s)
| hs_task t tk tk' s : get_task t s = Some tk -> bookkeeping tk tk' -> hstep P A s (set_task t tk' s)
| hs_done t tk o s : get_task t s = Some tk -> computed t s = false ->
    hstep P A s (emit (EvDone t o) (put t (mkFut (Some o) (KTask (closed_task tk))) s))
| hs_lazy x out o s : get x s = Some (mkFut out (KLazy o)) -> computed x s = false ->
    hstep P A s (put x (mkFut (Some o) (KLazy o)) s)
| hs_create p f s : A TNew -> hstep P A s (snd (create p f s))
| hs_sched k s : hstep P A s (schedule_batch k s)
| hs_flush k s : A TFlush -> hstep P A s (flush_batch P k s)
| hs_cwb s : A TFlush -> hstep P A s (continue_with_batch P s)
| hs_resume t tk o d s : A TStep -> get_task t s = Some tk -> d = tk_deps tk \/ d = [] ->   (* p_keep P or not *)
    hstep P A s (emit (EvStep t (tk_iter tk) o)
                   (set_task t (mkTask (tk_gen tk) YNone d (tk_ctxs tk) (tk_cact tk) (tk_ds tk) (tk_iter tk + 1)
                                       (tk_next tk)) s))
| hs_yield t tk k y' F s : A (TYield t) -> get_task t s = Some tk ->
    hstep P A s (set_task t (mkTask (Some k) y' (tk_deps tk ++ F) (tk_ctxs tk) (tk_cact tk) (tk_ds tk) (tk_iter tk)
                                    (tk_next tk)) s).

Section HstepHelpers.
  Variables (P : params) (A : tag -> Prop).
  Notation H := (hstep P A).

  Lemma hs_ctxs t tk cs a s : get_task t s = Some tk -> H s (set_task t (tk_with_ctxs tk cs a) s).
  Proof. intros G. apply (hs_task P A t tk); [exact G|]. repeat split; auto. Qed.

  Lemma hs_emit_ctx e s : ctx_event e -> H s (emit e s).
  Proof. intros He. apply hs_emit. destruct e; try exact I; destruct He. Qed.

  (* each of type [forall <arguments of the helper> s, H s (helper .. s)]; hs_complete_task also asks
     [computed t s = false]; used through hpeel *)
  Definition hs_enter_ctx := rel_enter_ctx H (hs_refl P A) (hs_trans P A) hs_emit_ctx (hs_var_set P A) (hs_ci_put P A) hs_ctxs.
  Definition hs_exit_ctx := rel_exit_ctx H (hs_refl P A) (hs_trans P A) hs_emit_ctx (hs_var_set P A) hs_ctxs.
  Definition hs_complete_task :=
    rel_complete_task H (hs_refl P A) (hs_trans P A) hs_emit_ctx (hs_var_set P A) hs_ctxs (hs_done P A).
  Definition hs_accept_error :=
    rel_accept_error H (hs_refl P A) (hs_trans P A) hs_emit_ctx (hs_var_set P A) hs_ctxs (hs_done P A).
  Definition hs_resume_contexts :=
    rel_resume_contexts H (hs_refl P A) (hs_trans P A) hs_emit_ctx (hs_var_set P A) (hs_ci_put P A) hs_ctxs (hs_done P A).
  Definition hs_pause_contexts :=
    rel_pause_contexts H (hs_refl P A) (hs_trans P A) hs_emit_ctx (hs_var_set P A) (hs_ci_put P A) hs_ctxs (hs_done P A).
  Definition hs_inst (N : A TNew) := inst_rel H (hs_refl P A) (hs_trans P A) (fun p f s => hs_create P A p f s N).
End HstepHelpers.

(* which tagged constructors the transition from c may use: the two transitions that flush
   (scheduler.py wait_for 63-74 with the task not computed; batching.py 222-228 value() of a pending item),
   the resume of a generator, a yield of task t, the two transitions that create futures *)
Definition tag_of_cfg (c : cfg) (g : tag) : Prop :=
  match g with
  | TFlush =>
    (exists root fr, c_mode c = MAfterExec /\ c_frames c = FWait root :: fr /\ computed root (c_st c) = false) \/
    (exists h out kind idx key a, c_mode c = MValue h /\ computed h (c_st c) = false /\
                                  get h (c_st c) = Some (mkFut out (KItem kind idx key a)))
  | TStep => exists t tk k, c_mode c = MResume t /\ get_task t (c_st c) = Some tk /\ tk_gen tk = Some k
  | TYield t => exists y k, c_mode c = MRun t (Yield y k)
  | TNew => exists t, (exists y k, c_mode c = MRun t (Yield y k)) \/ (exists f k, c_mode c = MRun t (Let f k))
  end.

(* splits the goal along every [match] and [if] of one branch of [step], naming the equations *)
Ltac destr_eq :=
  repeat match goal with
  | |- context [match ?x with _ => _ end] => destruct x eqn:?
  | |- context [if ?x then _ else _] => destruct x eqn:?
  end; cbn [c_st].

(* For a goal [hstep P A s X] where X is a nest of helper calls around s, as in one branch of [step]: peels the
   calls, outermost first.  Facts [get_task t _ = Some _], [get _ _ = Some _], [computed _ _ = false] about the
   intermediate states are taken from the context; flushes are left to the caller, who owes [A TFlush]. *)
Ltac hpeel :=
  repeat match goal with
  | |- hstep _ _ ?s ?s => apply hs_refl
  | |- hstep _ _ _ _ => eassumption
  | |- hstep ?P ?A ?a (emit _ ?X) => apply (hs_trans P A a X); [|apply hs_emit; exact I]
  | |- hstep ?P ?A ?a (set_task ?t _ ?X) =>
      apply (hs_trans P A a X);
      [|eapply hs_task; [first [eassumption | unfold get_task; match goal with Hg : get t X = _ |- _ => rewrite Hg; reflexivity end]
                        |repeat split; auto]]
  | |- hstep ?P ?A ?a (put _ (mkFut (Some ?o) (KLazy ?o)) ?X) => apply (hs_trans P A a X); [|eapply hs_lazy; eassumption]
  | |- hstep ?P ?A ?a (pop_task ?X) => apply (hs_trans P A a X); [|apply hs_regs; reflexivity]
  | |- hstep ?P ?A ?a (with_tasks ?X _) => apply (hs_trans P A a X); [|apply hs_regs; reflexivity]
  | |- hstep ?P ?A ?a (with_active ?X _) => apply (hs_trans P A a X); [|apply hs_regs; reflexivity]
  | |- hstep ?P ?A ?a (reset_sched ?X) => apply (hs_trans P A a X); [|apply hs_regs; reflexivity]
  | |- hstep ?P ?A ?a (drop_sb ?X) =>
      apply (hs_trans P A a X); [|unfold drop_sb; destruct (tasks X); [apply hs_regs; reflexivity|apply hs_refl]]
  | |- hstep ?P ?A ?a (resume_contexts _ ?X) => apply (hs_trans P A a X); [|apply hs_resume_contexts]
  | |- hstep ?P ?A ?a (pause_contexts _ ?X) => apply (hs_trans P A a X); [|apply hs_pause_contexts]
  | |- hstep ?P ?A ?a (complete_task _ _ ?X) => apply (hs_trans P A a X); [|apply hs_complete_task; eassumption]
  | |- hstep ?P ?A ?a (accept_error _ _ ?X) => apply (hs_trans P A a X); [|apply hs_accept_error]
  | |- hstep ?P ?A ?a (enter_ctx _ _ ?X) => apply (hs_trans P A a X); [|apply hs_enter_ctx]
  | |- hstep ?P ?A ?a (exit_ctx _ _ ?X) => apply (hs_trans P A a X); [|apply hs_exit_ctx]
  | |- hstep ?P ?A ?a (schedule_batch _ ?X) => apply (hs_trans P A a X); [|apply hs_sched]
  end.

Theorem step_hstep P c : hstep P (tag_of_cfg c) (c_st c) (c_st (step P c)).
Proof.
  destruct c as [m fr s]. set (A := tag_of_cfg (mkC m fr s)).
  destruct m as [h| | | |t|t p| |o|e|o|]; cbn [step c_mode c_frames c_st].
  - (* MValue *)
    destruct (computed h s) eqn:C; cbn [c_st]; [apply hs_refl|].
    destruct (get h s) as [[out [tk|kind idx key a|o|]]|] eqn:G; cbn [c_st]; [hpeel| |hpeel|hpeel|hpeel].
    apply hs_flush. right. exists h, out, kind, idx, key, a. auto.
  - (* MWaitHead: hs_regs *) destr_eq; hpeel.
  - (* MAfterExec *)
    destruct fr as [|[| |root| |] fr']; cbn [c_st]; try apply hs_refl.
    destruct (computed root s) eqn:C; cbn [c_st]; [hpeel|]. apply hs_cwb. left. exists root, fr'. auto.
  - (* MExecLoop: hs_regs, hs_sched, hs_lazy, hs_task, resume_contexts / pause_contexts *) destr_eq; hpeel.
  - (* MResume *)
    destruct (get_task t s) as [tk|] eqn:G; cbn [c_st]; [|apply hs_refl].
    destruct (tk_gen tk) eqn:Gk; [|destr_eq; hpeel].
    cbn [c_st]. rewrite <- Gk. apply hs_resume; [exists t, tk, p; auto|exact G|destruct (p_keep P); auto].
  - (* MRun *)
    destruct p as [v|v|e|y k|f k|h k|cx k|cx k|var k|k]; cbn [c_st];
      [destr_eq; hpeel|destr_eq; hpeel|destr_eq; hpeel| | |destr_eq; hpeel|destr_eq; hpeel|destr_eq; hpeel|destr_eq; hpeel
      |destr_eq; hpeel].
    + assert (N : A TNew) by (exists t; left; exists y, k; reflexivity).
      pose proof (hs_inst P A N t y s) as Qi. destruct (inst t y s) as [y' s1]. cbn [snd] in Qi.
      destruct (get_task t s1) as [tk|] eqn:G; cbn [c_st]; [|exact Qi].
      assert (Y : hstep P A s1 (set_task t (mkTask (Some k) y' (tk_deps tk ++ futs (extract y')) (tk_ctxs tk) (tk_cact tk)
                                                   (tk_ds tk) (tk_iter tk) (tk_next tk)) s1))
        by (apply hs_yield; [exists y, k; reflexivity|exact G]).
      destruct (futs (extract y')); cbn [c_st]; eapply hs_trans; eassumption.
    + assert (N : A TNew) by (exists t; right; exists f, k; reflexivity).
      pose proof (hs_create P A t f s N) as Qi. destruct (create t f s) as [h s1]. exact Qi.
  - (* MContRet: hs_regs, hs_task *) destr_eq; hpeel.
  - (* MDeliver: hs_emit *) destr_eq; hpeel.
  - (* MUnwind: hs_emit *) destr_eq; hpeel.
  - (* MDone *) apply hs_refl.
  - (* MStuck *) apply hs_refl.
Qed.

Section Lift.
  Variable P : params.

  Variable I : st -> Prop.
  Hypothesis I_step : forall c, I (c_st c) -> I (c_st (step P c)).

  Lemma inv_run n c : I (c_st c) -> I (c_st (run P n c)).
  Proof. intros H. induction n as [|n IH]; [exact H|]. rewrite run_step. apply I_step, IH. Qed.

  Hypothesis I_create : forall p f s, I s -> I (snd (create p f s)).
  Hypothesis I_sched : forall a b c s, I s -> I (emit (EvSched a b c) s).

  Lemma inv_run_root fuel p s : I s -> I (snd (run_root P fuel p s)).
  Proof.
    intros H. unfold run_root. pose proof (I_create [] (FTask p) s H) as H1.
    destruct (create [] (FTask p) s) as [h s1]. cbn [snd] in H1.
    pose proof (inv_run fuel (mkC (MValue h) [FTop] s1) H1) as H2.
    destruct (c_mode _); apply I_sched, H2.
  Qed.

  Lemma inv_run_history fuel ps : forall s, I s -> I (snd (run_history P fuel ps s)).
  Proof.
    induction ps as [|p ps IH]; intros s H; [exact H|]. cbn [run_history].
    pose proof (inv_run_root fuel p s H) as H1. destruct (run_root P fuel p s) as [o s1].
    specialize (IH s1 H1). destruct (run_history P fuel ps s1). exact IH.
  Qed.

  (* run_case returns the trace oldest event first, the state keeps it newest first *)
  Lemma inv_run_case fuel ps : I (st0 P) -> exists s, snd (run_case P fuel ps) = rev (trace s) /\ I s.
  Proof.
    intros H0. unfold run_case. pose proof (inv_run_history fuel ps _ H0) as H.
    destruct (run_history P fuel ps (st0 P)) as [os s]. exists s. auto.
  Qed.
End Lift.
