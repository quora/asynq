(* Discharging the hypothesis [no_unwind] of the tree-program theorems (MachineC01/C02/C04/C06/C07/C03T).

   An exception unwinds through asynq's frames from two places only (MachineC08U.unwind_sources): the
   MAX_TASK_STACK_SIZE guard at the head of the _execute loop (RuntimeError, E_RUNTIME) and _queue_exit
   (FutureIsAlreadyComputed, E_ALREADY).  For tree and stree programs under a pointwise service:

   1. _queue_exit never raises: it needs a computed task ([already_needs_computed]), and the invariants CInv of
      MachineC01.v and CI of MachineC01S.v say that the task being resumed or run is not computed.  Hence the
      FIRST unwinding of a run, if any, is the guard's RuntimeError, and the configuration before it is the head
      of the _execute loop with more than MAX_TASK_STACK_SIZE tasks on the stack; [no_unwind] follows from "the
      guard stays silent", where [guard_fires] is the boolean test of Machine.step, and the C01 theorem holds
      with the alternative "or the guard fired".  With synchronous calls the RuntimeError can be caught by the
      caller of the call; the invariant says nothing after the first unwinding, so "the guard fired at some
      earlier step" is the alternative.  The tree theorems are the stree ones at [tree_stree].
   2. for tree programs the task stack has no duplicates and holds allocated futures only (pass_ok of
      MachineC04.v; the other modes have an empty stack, stack_ok of MachineDFS.v), futures are numbered
      0 .. top_next-1, so the stack is never longer than the number of futures created so far.  Hence the guard
      cannot fire while at most MAX_TASK_STACK_SIZE futures exist: for such runs [no_unwind] is a theorem, not a
      hypothesis.  No stack bound is proved for stree programs (a nested scheduler loop pushes its root on the
      same stack; the stack-shape invariant of MachineDFSS.v is not used here). *)
From Asynq Require Import Machine Seq proofs.MachineC05 proofs.MachineC08 proofs.MachineC08U proofs.MachineC01
  proofs.MachineC04 proofs.MachineC01S.

(* the condition, and the order of the tests, of the MExecLoop case of Machine.step *)
Definition guard_fires (P : params) (c : cfg) : bool :=
  match c_mode c, c_frames c with
  | MExecLoop, FExec init :: _ =>
    negb (Nat.leb (length (tasks (c_st c))) init) &&
    Z.ltb (p_maxstack P) (Z.of_nat (length (tasks (c_st c))))
  | _, _ => false
  end.

Lemma guard_fires_step P c : guard_fires P c = true -> c_mode (step P c) = MUnwind E_RUNTIME.
Proof.
  destruct c as [m fr s]. unfold guard_fires. cbn [c_mode c_frames c_st].
  destruct m; try (intros Hd; discriminate Hd).
  destruct fr as [|[|t k|r|i|t old] fr']; try (intros Hd; discriminate Hd).
  intros Hg. apply andb_true_iff in Hg as [H1 H2]. apply negb_true_iff in H1.
  cbn [step c_mode c_frames c_st]. rewrite H1, H2. reflexivity.
Qed.

Lemma guard_fires_inv P c : guard_fires P c = true ->
  c_mode c = MExecLoop /\ (p_maxstack P < Z.of_nat (length (tasks (c_st c))))%Z.
Proof.
  destruct c as [m fr s]. unfold guard_fires. cbn [c_mode c_frames c_st].
  destruct m; try (intros Hd; discriminate Hd).
  destruct fr as [|[|t k|r|i|t old] fr']; try (intros Hd; discriminate Hd).
  intros Hg. apply andb_true_iff in Hg as [_ H2]. apply Z.ltb_lt in H2. split; [reflexivity|exact H2].
Qed.

(* the RuntimeError starts to unwind only where the guard fires *)
Lemma step_runtime_guard P c :
  is_unwind (c_mode c) = false -> c_mode (step P c) = MUnwind E_RUNTIME -> guard_fires P c = true.
Proof.
  destruct c as [m fr s]. cbn [c_mode]. intros Hu Hm.
  destruct (unwind_sources P (mkC m fr s) _ Hu Hm) as [(_ & Hmode)|(E & _)];
    [|exfalso; apply E_ALREADY_not_RUNTIME; symmetry; exact E].
  cbn [c_mode] in Hmode. subst m. unfold guard_fires. cbn [c_mode c_frames c_st].
  revert Hm. cbn [step c_mode c_frames c_st].
  destruct fr as [|[|t k|r|i|t old] fr']; try (intros Hm; discriminate Hm).
  destruct (Nat.leb (length (tasks s)) i); [intros Hm; discriminate Hm|].
  destruct (Z.ltb (p_maxstack P) (Z.of_nat (length (tasks s)))); [reflexivity|].
  destruct (tasks s) as [|x ts]; [intros Hm; discriminate Hm|].
  destruct (computed x s); [intros Hm; discriminate Hm|].
  destruct (get x s) as [[o [tk|kind idx key a|o'|]]|]; try (intros Hm; discriminate Hm).
  destruct (is_blocked tk s); [destruct (tk_ds tk); intros Hm; discriminate Hm|].
  destruct (computed x (resume_contexts x s)); intros Hm; discriminate Hm.
Qed.

(* FutureIsAlreadyComputed starts to unwind only where the task being resumed or run is computed *)
Lemma already_needs_computed P c :
  is_unwind (c_mode c) = false -> c_mode (step P c) = MUnwind E_ALREADY ->
  exists t, (c_mode c = MResume t \/ exists p, c_mode c = MRun t p) /\ computed t (c_st c) = true.
Proof.
  intros Hu Hm. destruct (unwind_sources P c _ Hu Hm) as [(E & _)|(_ & t & Hmode)]; [destruct (E_ALREADY_not_RUNTIME E)|].
  exists t. split; [exact Hmode|]. destruct c as [m fr s]. cbn [c_mode c_st] in *.
  destruct Hmode as [->|(p & ->)]; cbn [step c_mode c_frames c_st] in Hm.
  - destruct (get_task t s) as [tk|]; [|discriminate Hm]. destruct (tk_gen tk); [discriminate Hm|].
    destruct (unwrap (look s) (tk_last tk)); [|discriminate Hm]. destruct (computed t s); [reflexivity|discriminate Hm].
  - (* Ret / Result: the generator is cleared first, which does not touch the outcome *)
    assert (Hcl : forall tk', computed t (match get_task t s with Some tk => set_task t (tk' tk) s | None => s end) = computed t s).
    { intros tk'. unfold get_task, set_task, computed. destruct (get t s) as [[out [tk| | |]]|] eqn:Hg; rewrite ?Hg; try reflexivity.
      rewrite get_put_same. reflexivity. }
    destruct p as [v|v|e0|y k|f k|h k|cx k|cx k|var k|k]; try discriminate Hm;
      try (rewrite Hcl in Hm; destruct (computed t s); [reflexivity|discriminate Hm]).
    + destruct (inst t y s) as [y' s1]. destruct (get_task t s1); [|discriminate Hm]. destruct (futs (extract y')); discriminate Hm.
    + destruct (create t f s). discriminate Hm.
Qed.

(* no configuration before the n-th unwinds (MachineTrace.quiet is an unrelated relation on states) *)
Definition quiet (P : params) (n : nat) (c : cfg) : Prop :=
  forall k, (k < n)%nat -> is_unwind (c_mode (run P k c)) = false.

Lemma quiet_no_unwind P n c : quiet P (S n) c <-> no_unwind P n c.
Proof.
  split; intros H k Hk; apply H; lia.
Qed.

(* The easy direction, for every program: a run without unwinding never sees the guard fire.
   Off-by-one: [no_unwind P n c] speaks about the configurations 0 .. n (inclusive), guard silence about the
   configurations 0 .. n-1: the guard firing at configuration k makes configuration k+1 unwind.  The theorems
   that assume [no_unwind P n c] need it for the step n they speak about, so guard silence strictly before n is
   what their [_guard] forms ask. *)
Lemma no_unwind_guard_silent P n c :
  no_unwind P n c -> forall k, (k < n)%nat -> guard_fires P (run P k c) = false.
Proof.
  intros Hn k Hk. destruct (guard_fires P (run P k c)) eqn:G; [|reflexivity]. exfalso.
  apply guard_fires_step in G. rewrite <- run_step in G.
  specialize (Hn (S k) ltac:(lia)). rewrite G in Hn. discriminate Hn.
Qed.

Lemma bounded_search (f : nat -> bool) n :
  (exists k, (k < n)%nat /\ f k = true) \/ (forall k, (k < n)%nat -> f k = false).
Proof.
  induction n as [|n [(k & Hk & Hf)|IH]].
  - right. intros k Hk. lia.
  - left. exists k. split; [lia|exact Hf].
  - destruct (f n) eqn:Hn.
    + left. exists n. split; [lia|exact Hn].
    + right. intros k Hk. destruct (Nat.eq_dec k n) as [->|Ne]; [exact Hn|apply IH; lia].
Qed.

(* Under an invariant that non-unwinding steps preserve and that excludes FutureIsAlreadyComputed, the first
   unwinding of a run is the guard's. *)
Lemma first_unwind_is_guard P (I : cfg -> Prop) :
  (forall c, is_unwind (c_mode c) = false -> I c -> I (step P c)) ->
  (forall c, I c -> is_unwind (c_mode c) = false -> c_mode (step P c) <> MUnwind E_ALREADY) ->
  forall c0 n e, I c0 -> is_unwind (c_mode c0) = false -> quiet P n c0 -> c_mode (run P n c0) = MUnwind e ->
  e = E_RUNTIME /\ exists m, n = S m /\ guard_fires P (run P m c0) = true.
Proof.
  intros Hstep Hna c0 n e HI Hu0 Hq Hm. destruct n as [|m]; [cbn [run] in Hm; rewrite Hm in Hu0; discriminate Hu0|].
  assert (H1 : I (run P m c0)) by (apply (run_invariant P I Hstep); [exact HI|intros k Hk; apply Hq; lia]).
  assert (Hum : is_unwind (c_mode (run P m c0)) = false) by (apply Hq; lia).
  rewrite run_step in Hm.
  destruct (unwind_sources P _ e Hum Hm) as [(-> & _)|(-> & _)].
  - split; [reflexivity|]. exists m. split; [reflexivity|]. apply step_runtime_guard; assumption.
  - exfalso. exact (Hna _ H1 Hum Hm).
Qed.

(* If the first unwinding of the run from c0 can only be the guard's, then to exclude unwinding it suffices to
   exclude the guard at the configurations reached without unwinding. *)
Lemma guard_silent_no_unwind P c0 :
  (forall n e, quiet P n c0 -> c_mode (run P n c0) = MUnwind e -> exists m, n = S m /\ guard_fires P (run P m c0) = true) ->
  forall n, (forall m, (m < n)%nat -> quiet P (S m) c0 -> guard_fires P (run P m c0) = false) -> no_unwind P n c0.
Proof.
  intros Hfirst n Hg. apply quiet_no_unwind.
  assert (H : forall m, (m <= S n)%nat -> quiet P m c0).
  { induction m as [|m IH]; intros Hm k Hk; [lia|].
    assert (Hqm : quiet P m c0) by (apply IH; lia).
    destruct (Nat.eq_dec k m) as [->|Ne]; [|apply Hqm; lia].
    destruct (c_mode (run P m c0)) eqn:Em; try reflexivity. exfalso.
    destruct (Hfirst m e Hqm Em) as (m' & -> & G).
    rewrite Hg in G; [discriminate G|lia|exact Hqm]. }
  apply H. lia.
Qed.

Lemma nodup_ids_length (l : list fid) (N : Z) :
  (0 <= N)%Z -> NoDup l -> (forall h, In h l -> exists n, h = [n] /\ (0 <= n < N)%Z) ->
  (Z.of_nat (length l) <= N)%Z.
Proof.
  intros HN Hnd Hin.
  set (dom := map (fun k => [Z.of_nat k]) (seq 0 (Z.to_nat N))).
  assert (Hincl : incl l dom).
  { intros h Hh. destruct (Hin h Hh) as (n & -> & Hn). unfold dom. apply in_map_iff.
    exists (Z.to_nat n). split; [rewrite Z2Nat.id by lia; reflexivity|]. apply in_seq. lia. }
  pose proof (NoDup_incl_length Hnd Hincl) as Hle. unfold dom in Hle. rewrite map_length, seq_length in Hle. lia.
Qed.

Section Step.
  Variable P : params.
  Hypothesis HP : pointwise P.
  Variable root : fid.
  Variable res : outcome.

  (* _queue_exit never raises FutureIsAlreadyComputed *)
  Lemma tree_step_not_already spec c :
    CInv root res spec c -> is_unwind (c_mode c) = false -> c_mode (step P c) <> MUnwind E_ALREADY.
  Proof.
    intros HI Hu Hm. destruct (already_needs_computed P c Hu Hm) as (t & Hmode & Hc).
    destruct c as [m fr s]. cbn [c_mode c_st] in *. unfold computed in Hc.
    destruct Hmode as [->|(p & ->)]; destruct HI as (_ & _ & _ & _ & HM); cbn [c_st] in HM.
    - destruct HM as (tk & Hg & _). rewrite Hg in Hc. discriminate Hc.
    - destruct HM as (_ & _ & tk & Hg). rewrite Hg in Hc. discriminate Hc.
  Qed.

  Lemma cinv_unwind_is_guard spec c0 n e :
    CInv root res spec c0 -> is_unwind (c_mode c0) = false -> quiet P n c0 ->
    c_mode (run P n c0) = MUnwind e ->
    e = E_RUNTIME /\ exists m, n = S m /\ guard_fires P (run P m c0) = true.
  Proof.
    intros HC. apply (first_unwind_is_guard P (fun c => exists spec, CInv root res spec c)); [| |exists spec; exact HC].
    - intros c Hu (sp & H). exact (c01_step P HP root res sp c Hu H).
    - intros c (sp & H). exact (tree_step_not_already sp c H).
  Qed.

  (* the task stack has no duplicates and is no longer than the number of futures created *)
  Lemma tree_stack_bound spec S c :
    DL root res spec S c -> is_final (c_mode c) = false -> is_unwind (c_mode c) = false ->
    NoDup (tasks (c_st c)) /\ (Z.of_nat (length (tasks (c_st c))) <= top_next (c_st c))%Z.
  Proof.
    intros HD Hfin Hu. destruct c as [m fr s]. cbn [c_mode c_st] in *.
    assert (Hemp : forall spec' r, SInv spec' r s -> tasks s = [] ->
              NoDup (tasks s) /\ (Z.of_nat (length (tasks s)) <= top_next s)%Z).
    { intros spec' r (_ & _ & HN) E. rewrite E. split; [constructor|cbn; exact HN]. }
    assert (Hpass : forall spec' r r' S', SInv spec' r s -> pass_ok root S' r' s ->
              NoDup (tasks s) /\ (Z.of_nat (length (tasks s)) <= top_next s)%Z).
    { intros spec' r r' S' HS Hp. split; [exact (pk_nodup _ _ _ _ Hp)|].
      pose proof HS as (_ & _ & HN).
      apply nodup_ids_length; [exact HN|exact (pk_nodup _ _ _ _ Hp)|].
      intros h Hin. pose proof (pk_alloc _ _ _ _ Hp h Hin) as Ha.
      destruct (get h s) as [f|] eqn:Hg; [|exfalso; apply Ha; reflexivity].
      destruct (SInv_entry _ _ _ _ _ HS Hg) as (Hid & _). exact Hid. }
    (* outside the _execute loop the stack is empty (stack_ok), inside it pass_ok holds *)
    destruct m; try discriminate Hfin; try discriminate Hu;
      destruct (DL_CInv _ _ _ _ _ HD) as (_ & _ & HS & _); pose proof (DL_stack _ _ _ _ _ HD) as HK;
      destruct HD as (_ & _ & HD); cbn in HS, HK, HD;
      try exact (Hemp _ _ HS HK).
    - exact (Hpass _ _ _ _ HS HD).
    - exact (Hpass _ _ _ _ HS (proj1 HD)).
    - exact (Hpass _ _ _ _ HS (proj1 HD)).
    - destruct HD as (t & rest & _ & Hp & _). exact (Hpass _ _ _ _ HS Hp).
  Qed.
End Step.

Section StepS.
  Variable P : params.
  Hypothesis HP : pointwise P.
  Variable res : outcome.

  Lemma stree_step_not_already spec c :
    CI res spec c -> is_unwind (c_mode c) = false -> c_mode (step P c) <> MUnwind E_ALREADY.
  Proof.
    intros HI Hu Hm. destruct (already_needs_computed P c Hu Hm) as (t & Hmode & Hc).
    destruct c as [m fr s]. cbn [c_mode c_st] in *. unfold computed in Hc.
    destruct Hmode as [->|(p & ->)]; destruct HI as (_ & HS & HM); cbn [c_mode c_frames c_st] in *.
    - destruct HM as (tk & Hg & _). rewrite Hg in Hc. discriminate Hc.
    - destruct (SI_utask _ _ _ t HS (or_introl eq_refl)) as (tk & Hg). rewrite Hg in Hc. discriminate Hc.
  Qed.

  Lemma ci_unwind_is_guard spec c0 n e :
    CI res spec c0 -> is_unwind (c_mode c0) = false -> quiet P n c0 ->
    c_mode (run P n c0) = MUnwind e ->
    e = E_RUNTIME /\ exists m, n = S m /\ guard_fires P (run P m c0) = true.
  Proof.
    intros HC. apply (first_unwind_is_guard P (fun c => exists spec, CI res spec c)); [| |exists spec; exact HC].
    - intros c Hu (sp & H). exact (s01_step P HP res sp c Hu H).
    - intros c (sp & H). exact (stree_step_not_already sp c H).
  Qed.
End StepS.

Section STree.
  Variable P : params.
  Hypothesis HP : pointwise P.
  Variable p : prog.
  Hypothesis Ht : stree p.

  Let h := fst (create [] (FTask p) (st0 P)).
  Let s1 := snd (create [] (FTask p) (st0 P)).

  (* the first exception that unwinds through asynq's frames is the RuntimeError of the MAX_TASK_STACK_SIZE guard -
     never FutureIsAlreadyComputed - and the configuration before it is the head of the _execute loop with a task
     stack longer than MAX_TASK_STACK_SIZE *)
  Theorem stree_unwind_is_guard n e :
    (forall k, (k < n)%nat -> is_unwind (c_mode (run P k (start h s1))) = false) ->
    c_mode (run P n (start h s1)) = MUnwind e ->
    e = E_RUNTIME /\
    exists m, n = S m /\ c_mode (run P m (start h s1)) = MExecLoop /\
              (p_maxstack P < Z.of_nat (length (tasks (c_st (run P m (start h s1))))))%Z /\
              guard_fires P (run P m (start h s1)) = true.
  Proof.
    intros Hq Hm. pose proof (CI_start _ (st0 P) p Ht (SI_empty P)) as HC. cbn zeta in HC.
    destruct (ci_unwind_is_guard P HP (evals p) _ (start h s1) n e HC eq_refl Hq Hm) as (-> & m & -> & G).
    split; [reflexivity|]. exists m. split; [reflexivity|].
    destruct (guard_fires_inv P _ G) as (A & B). split; [exact A|]. split; [exact B|exact G].
  Qed.

  Lemma stree_first_unwind n e :
    quiet P n (start h s1) -> c_mode (run P n (start h s1)) = MUnwind e ->
    exists m, n = S m /\ guard_fires P (run P m (start h s1)) = true.
  Proof.
    intros Hq Hm. destruct (stree_unwind_is_guard n e Hq Hm) as (_ & m & E & _ & _ & G). exists m. split; assumption.
  Qed.

  Corollary stree_no_unwind_iff_guard_silent n :
    (forall k, (k < n)%nat -> guard_fires P (run P k (start h s1)) = false) -> no_unwind P n (start h s1).
  Proof.
    intros Hg. apply (guard_silent_no_unwind P (start h s1) stree_first_unwind). intros m Hm _. apply Hg. exact Hm.
  Qed.

  (* C01 without the hypothesis no_unwind *)
  Theorem async_eq_seq_stree_unless_guard n o :
    c_mode (run P n (start h s1)) = MDone o ->
    o = evals p \/ exists k, (k < n)%nat /\ guard_fires P (run P k (start h s1)) = true.
  Proof.
    intros Hm. destruct (bounded_search (fun k => guard_fires P (run P k (start h s1))) n) as [Hex|Hall].
    - right. exact Hex.
    - left. apply (async_eq_seq_stree P p n o HP Ht); [|exact Hm].
      apply stree_no_unwind_iff_guard_silent. exact Hall.
  Qed.
End STree.

Section Tree.
  Variable P : params.
  Hypothesis HP : pointwise P.
  Variable p : prog.
  Hypothesis Ht : tree p.

  Let h := fst (create [] (FTask p) (st0 P)).
  Let s1 := snd (create [] (FTask p) (st0 P)).

  Theorem tree_unwind_is_guard n e :
    (forall k, (k < n)%nat -> is_unwind (c_mode (run P k (start h s1))) = false) ->
    c_mode (run P n (start h s1)) = MUnwind e ->
    e = E_RUNTIME /\
    exists m, n = S m /\ c_mode (run P m (start h s1)) = MExecLoop /\
              (p_maxstack P < Z.of_nat (length (tasks (c_st (run P m (start h s1))))))%Z /\
              guard_fires P (run P m (start h s1)) = true.
  Proof. exact (stree_unwind_is_guard P HP p (tree_stree p Ht) n e). Qed.

  (* for tree programs no_unwind says exactly that the guard stays silent (converse: no_unwind_guard_silent) *)
  Corollary tree_no_unwind_iff_guard_silent n :
    (forall k, (k < n)%nat -> guard_fires P (run P k (start h s1)) = false) -> no_unwind P n (start h s1).
  Proof. exact (stree_no_unwind_iff_guard_silent P HP p (tree_stree p Ht) n). Qed.

  Theorem async_eq_seq_tree_unless_guard n o :
    c_mode (run P n (start h s1)) = MDone o ->
    o = eval p \/ exists k, (k < n)%nat /\ guard_fires P (run P k (start h s1)) = true.
  Proof. rewrite <- (evals_eval_tree p Ht). exact (async_eq_seq_stree_unless_guard P HP p (tree_stree p Ht) n o). Qed.

  (* in every configuration reached before any unwinding the task stack holds pairwise distinct futures, so it is
     no longer than the number of futures created so far *)
  Theorem tree_stack_bound_run n :
    no_unwind P n (start h s1) -> is_final (c_mode (run P n (start h s1))) = false ->
    NoDup (tasks (c_st (run P n (start h s1)))) /\
    (Z.of_nat (length (tasks (c_st (run P n (start h s1))))) <= top_next (c_st (run P n (start h s1))))%Z.
  Proof.
    intros Hn Hf. destruct (dl_reach P HP p Ht n Hn) as (spec & S & HD).
    apply (tree_stack_bound h (eval p) spec S); [exact HD|exact Hf|apply Hn; lia].
  Qed.

  (* ... hence the guard is silent, and nothing unwinds, as long as no more than MAX_TASK_STACK_SIZE
     futures have been created *)
  Theorem tree_guard_silent_while_few_futures n :
    (forall k, (k <= n)%nat -> (top_next (c_st (run P k (start h s1))) <= p_maxstack P)%Z) ->
    no_unwind P n (start h s1).
  Proof.
    intros Hfew. apply (guard_silent_no_unwind P (start h s1) (stree_first_unwind P HP p (tree_stree p Ht))). intros m Hm Hq.
    destruct (guard_fires P (run P m (start h s1))) eqn:G; [|reflexivity]. exfalso.
    destruct (guard_fires_inv P _ G) as (Emode & Hlt).
    destruct (tree_stack_bound_run m) as (_ & Hle); [apply quiet_no_unwind; exact Hq|rewrite Emode; reflexivity|].
    specialize (Hfew m ltac:(lia)). lia.
  Qed.

  (* C01 for runs with few futures: no hypothesis about unwinding at all *)
  Corollary async_eq_seq_tree_few_futures n o :
    (forall k, (k <= n)%nat -> (top_next (c_st (run P k (start h s1))) <= p_maxstack P)%Z) ->
    c_mode (run P n (start h s1)) = MDone o -> o = eval p.
  Proof.
    intros Hfew Hm. apply (async_eq_seq_tree P p n o HP Ht); [|exact Hm].
    apply tree_guard_silent_while_few_futures. exact Hfew.
  Qed.
End Tree.

Definition guard_silent_b (P : params) (n : nat) (c : cfg) : bool :=
  forallb (fun k => negb (guard_fires P (run P k c))) (seq 0 n).

Definition few_futures_b (P : params) (n : nat) (c : cfg) : bool :=
  forallb (fun k => Z.leb (top_next (c_st (run P k c))) (p_maxstack P)) (seq 0 (S n)).

(* both tests over the configurations of the run computed in one pass *)
Lemma guard_silent_b_traj P n c : guard_silent_b P n c = forallb (fun c => negb (guard_fires P c)) (traj P n c).
Proof. apply (forallb_run P (fun c => negb (guard_fires P c))). Qed.

Lemma few_futures_b_traj P n c :
  few_futures_b P n c = forallb (fun c => Z.leb (top_next (c_st c)) (p_maxstack P)) (traj P (S n) c).
Proof. apply (forallb_run P (fun c => Z.leb (top_next (c_st c)) (p_maxstack P))). Qed.

(* the demo of MachineC01.v with the default MAX_TASK_STACK_SIZE: the guard is silent for 300 steps, at most
   1000 futures exist, the run ends; with MAX_TASK_STACK_SIZE = 1 the same program trips the guard (the stack
   holds the root and its child task), the first unwinding is E_RUNTIME and the outcome is not eval's *)
Example nounwind_demo :
  let P := mkP [] 1000 false [] in
  let h := fst (create [] (FTask c01_demo) (st0 P)) in
  let s1 := snd (create [] (FTask c01_demo) (st0 P)) in
  guard_silent_b P 300 (start h s1) = true /\ few_futures_b P 300 (start h s1) = true /\
  c_mode (run P 300 (start h s1)) = MDone (Ok (VTuple [VInt 5; VList [VTuple [VInt 7; VInt 1]; VNone]; VInt 9])).
Proof. cbv zeta. rewrite guard_silent_b_traj, few_futures_b_traj. vm_compute. repeat split. Qed.

Example nounwind_demo_guard :
  let P := mkP [] 1 false [] in
  let h := fst (create [] (FTask c01_demo) (st0 P)) in
  let s1 := snd (create [] (FTask c01_demo) (st0 P)) in
  guard_silent_b P 300 (start h s1) = false /\
  c_mode (run P 300 (start h s1)) = MDone (Err E_RUNTIME).
Proof. cbv zeta. rewrite guard_silent_b_traj. vm_compute. repeat split. Qed.

(* the demo of MachineC01S.v (nested synchronous calls): the guard is silent *)
Example nounwind_demo_stree :
  let P := mkP [] 1000 false [] in
  let h := fst (create [] (FTask c01s_demo) (st0 P)) in
  let s1 := snd (create [] (FTask c01s_demo) (st0 P)) in
  guard_silent_b P 60 (start h s1) = true /\
  c_mode (run P 60 (start h s1)) = MDone (Ok (VTuple [VTuple [VTuple [VInt 7; VInt 3]; VInt 1]; VInt 5])).
Proof. cbv zeta. rewrite guard_silent_b_traj. vm_compute. repeat split. Qed.
