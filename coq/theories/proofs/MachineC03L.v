(* C03, liveness of tree programs: flushes (on the stuck-set theorems of MachineC04/C04B, the creation-number
   invariant of MachineC01S and the batch-item invariant of MachineC05T).  Dependencies are younger than the task
   that awaits them; a flush at the end of an _execute pass makes progress (the stuck set contains a batch item, the
   scheduler finds a batch, the step computes a future that was not computed); the number of flushes is bounded by
   the ids in use; item-free programs never need a flush; termination from "every pass ends" and "the ids are
   bounded". *)
From Asynq Require Import Machine Seq proofs.ProgProofs proofs.MachineFrame proofs.MachineC05 proofs.MachineC08
  proofs.MachineC01 proofs.MachineDFS proofs.MachineC04 proofs.MachineC04B proofs.MachineC01S
  proofs.MachineDFSS proofs.MachineC04S proofs.MachineC05T proofs.MachineC03T.

(* a stuck set contains an item: from any member, descent on top_next - id along the dependencies *)
Lemma stuck_has_item (s : st) (S : Sset) :
  deps_younger s -> (forall d f, get d s = Some f -> (fnum d < top_next s)%Z) ->
  (forall d, S d -> S_ok S s d) ->
  forall d, S d -> exists e kind idx key a, S e /\ get e s = Some (mkFut None (KItem kind idx key a)).
Proof.
  intros Hy Hb Hok.
  assert (G : forall m d, (Z.to_nat (top_next s - fnum d) < m)%nat -> S d ->
                exists e kind idx key a, S e /\ get e s = Some (mkFut None (KItem kind idx key a))).
  { induction m as [|m IH]; intros d Hm HSd; [lia|].
    destruct (Hok d HSd) as [(tk & Hg & _ & (e & He & HSe) & _)|(kind & idx & key & a & Hg)].
    - apply (IH e); [|exact HSe]. pose proof (Hy d None tk Hg e He) as Hlt.
      assert (Hbe : (fnum e < top_next s)%Z).
      { destruct (Hok e HSe) as [(tke & Hge & _)|(k1 & i1 & k2 & a1 & Hge)]; apply (Hb e _ Hge). }
      lia.
    - exists d, kind, idx, key, a. split; [exact HSd|exact Hg]. }
  intros d HSd. apply (G (Datatypes.S (Z.to_nat (top_next s - fnum d))) d); [lia|exact HSd].
Qed.

(* number of computed futures among the ids [0], ..., [N-1] *)
Definition cN (N : nat) (s : st) : nat := length (filter (fun k => computed [Z.of_nat k] s) (seq 0 N)).

Lemma filter_len_le {A} (f g : A -> bool) l :
  (forall x, In x l -> f x = true -> g x = true) -> (length (filter f l) <= length (filter g l))%nat.
Proof.
  induction l as [|a l IH]; intros H; cbn; [lia|].
  assert (IH' : (length (filter f l) <= length (filter g l))%nat) by (apply IH; intros x Hx; apply H; right; exact Hx).
  destruct (f a) eqn:Fa; [rewrite (H a (or_introl eq_refl) Fa); cbn; lia|]. destruct (g a); cbn; lia.
Qed.

Lemma filter_len_lt {A} (f g : A -> bool) l a :
  (forall x, In x l -> f x = true -> g x = true) -> In a l -> f a = false -> g a = true ->
  (length (filter f l) < length (filter g l))%nat.
Proof.
  induction l as [|b l IH]; intros H Hin Fa Ga; [destruct Hin|]. cbn.
  assert (Hl : forall x, In x l -> f x = true -> g x = true) by (intros x Hx; apply H; right; exact Hx).
  destruct Hin as [->|Hin].
  - rewrite Fa, Ga. cbn. pose proof (filter_len_le f g l Hl). lia.
  - specialize (IH Hl Hin Fa Ga). destruct (f b) eqn:Fb; [rewrite (H b (or_introl eq_refl) Fb); cbn; lia|]. destruct (g b); cbn; lia.
Qed.

Lemma filter_len_all {A} (f : A -> bool) l : (length (filter f l) <= length l)%nat.
Proof. induction l as [|a l IH]; cbn; [lia|]. destruct (f a); cbn; lia. Qed.

Lemma cN_le N s : (cN N s <= N)%nat.
Proof. unfold cN. pose proof (filter_len_all (fun k => computed [Z.of_nat k] s) (seq 0 N)) as H. rewrite seq_length in H. exact H. Qed.

Lemma cN_mono N s s' : (forall x, computed x s = true -> computed x s' = true) -> (cN N s <= cN N s')%nat.
Proof. intros H. unfold cN. apply filter_len_le. intros x _. apply H. Qed.

Lemma cN_strict N s s' k : (forall x, computed x s = true -> computed x s' = true) -> (k < N)%nat ->
  computed [Z.of_nat k] s = false -> computed [Z.of_nat k] s' = true -> (cN N s < cN N s')%nat.
Proof.
  intros H Hk A B. unfold cN. apply (filter_len_lt _ _ _ k); [intros x _; apply H| |exact A|exact B].
  apply in_seq. lia.
Qed.


Section Live.
  Variable P : params.
  Hypothesis HP : pointwise P.
  Variable p0 : prog.
  Hypothesis Ht0 : tree p0.

  Let h := fst (create [] (FTask p0) (st0 P)).
  Let s1 := snd (create [] (FTask p0) (st0 P)).
  Let c0 := start h s1.

  (* the creation-number invariant of MachineC01S at every configuration of a clean run *)
  Lemma reach_SI n : no_unwind P n c0 -> c_mode (run P n c0) <> MStuck ->
    exists spec R, SI spec R (c_st (run P n c0)).
  Proof.
    intros Hn Hns. pose proof (Hn n (Nat.le_refl n)) as Hu.
    destruct (fls_reach P HP p0 (tree_stree p0 Ht0) n Hn) as (spec & (HCI & _)).
    fold h s1 c0 in HCI. unfold CI in HCI.
    destruct (run P n c0) as [m fr s]. cbn [c_mode c_frames c_st] in *.
    destruct m; try discriminate; try (destruct HCI as (_ & HS & _); eexists _, _; exact HS).
    - destruct HCI as (_ & HS). eexists _, _; exact HS.
    - exfalso. apply Hns. reflexivity.
  Qed.

  (* a task [a] awaits only futures created after it *)
  Theorem deps_are_younger n : no_unwind P n c0 -> c_mode (run P n c0) <> MStuck ->
    forall t o tk, get t (c_st (run P n c0)) = Some (mkFut o (KTask tk)) ->
    exists a, t = [a] /\ (0 <= a < top_next (c_st (run P n c0)))%Z /\
      forall d, In d (tk_deps tk) -> (a < fnum d)%Z /\
        forall f, get d (c_st (run P n c0)) = Some f -> exists b, d = [b] /\ (a < b)%Z.
  Proof.
    intros Hn Hns t o tk Hg. destruct (reach_SI n Hn Hns) as (spec & R & HS).
    destruct (SI_entry _ _ _ _ _ HS Hg) as ((a & Ea & Ha) & _). exists a. split; [exact Ea|]. split; [exact Ha|].
    intros d Hd. pose proof (SI_deps _ _ _ _ _ _ HS Hg d Hd) as Hlt. rewrite Ea in Hlt. cbn [fnum hd] in Hlt.
    split; [exact Hlt|]. intros f Hf. destruct (SI_entry _ _ _ _ _ HS Hf) as ((b & Eb & Hb) & _).
    exists b. split; [exact Eb|]. rewrite Eb in Hlt. cbn [fnum hd] in Hlt. exact Hlt.
  Qed.

  Lemma Inv_s1 : MachineC05T.Inv s1.
  Proof.
    pose proof (MachineC05T.Inv_st0 P) as H0.
    apply (Inv_mild (st0 P)); [exact H0|apply mild_create|].
    destruct H0 as (D & Bi & _). exact (BI_create [] (FTask p0) (st0 P) D Bi).
  Qed.

  (* at a flush point the stuck set contains an uncomputed batch item of a scheduled pending batch *)
  Theorem flush_point_has_item n :
    no_unwind P n c0 -> c_mode (run P n c0) = MAfterExec -> computed h (c_st (run P n c0)) = false ->
    exists e kind idx key a, get e (c_st (run P n c0)) = Some (mkFut None (KItem kind idx key a)) /\
      In (kind, idx) (sb (c_st (run P n c0))) /\
      In e (b_items (get_batch (kind, idx) (c_st (run P n c0)))) /\
      b_done (get_batch (kind, idx) (c_st (run P n c0))) = false.
  Proof.
    intros Hn Hm Hc.
    destruct (flush_only_when_stuck_pending_tree P HP p0 Ht0 n Hn Hm Hc) as (S & HSh & HSok & HSb).
    fold h s1 c0 in HSh, HSok, HSb.
    assert (Hns : c_mode (run P n c0) <> MStuck) by (rewrite Hm; discriminate).
    destruct (reach_SI n Hn Hns) as (spec & R & HS).
    destruct (stuck_has_item (c_st (run P n c0)) S) with (d := h) as (e & kind & idx & key & a & HSe & Hge).
    - apply (SI_deps_younger _ _ _ HS).
    - intros d f Hf. apply (SI_fnum_lt _ _ _ _ _ HS Hf).
    - exact HSok.
    - exact HSh.
    - exists e, kind, idx, key, a. split; [exact Hge|]. apply (HSb e kind idx key a HSe Hge).
  Qed.

  (* the flush makes progress: the scheduler finds a batch, and the step from MAfterExec computes a
     batch item that was not computed; nothing computed is lost *)
  Theorem flush_makes_progress n :
    no_unwind P n c0 -> c_mode (run P n c0) = MAfterExec -> computed h (c_st (run P n c0)) = false ->
    c_mode (run P (S n) c0) = MWaitHead /\
    (exists d, computed d (c_st (run P n c0)) = false /\ computed d (c_st (run P (S n) c0)) = true /\
       exists kind idx key a, get d (c_st (run P n c0)) = Some (mkFut None (KItem kind idx key a))) /\
    (forall x, computed x (c_st (run P n c0)) = true -> computed x (c_st (run P (S n) c0)) = true).
  Proof.
    intros Hn Hm Hc.
    destruct (flush_point_has_item n Hn Hm Hc) as (e & kind & idx & key & a & Hge & Hsb & Hin & Hnd).
    destruct (tree_run_CInv P p0 n HP Ht0 Hn) as (spec & HC). fold h s1 c0 in HC.
    pose proof (MachineC05T.Inv_run P n c0 Inv_s1) as (_ & HBI & _).
    rewrite run_step.
    destruct (run P n c0) as [m fr s] eqn:Er. cbn [c_mode c_st] in *. subst m.
    destruct HC as (_ & Hf & HS & _). cbn [c_mode c_frames c_st frames_ok running_of] in Hf, HS. subst fr.
    pose proof (continue_with_batch_spec P s) as Hcw.
    destruct (SInv_continue_with_batch spec None P s HP HS) as (_ & Hmono & _).
    destruct (select P s) as [[k|] s2] eqn:Sel.
    2: { exfalso. pose proof (select_none P s s2 Sel (kind, idx) Hsb) as El. unfold eligible in El. rewrite Hnd in El.
         destruct (b_items (get_batch (kind, idx) s)); [destruct Hin|discriminate]. }
    destruct (select_spec P s k s2 Sel) as (_ & Hel & _).
    cbn zeta in Hcw. destruct Hcw as (_ & _ & _ & Hall).
    unfold eligible in Hel. apply andb_true_iff in Hel as [Hd He]. apply negb_true_iff in Hd.
    destruct (b_items (get_batch k s)) as [|d0 rest] eqn:Eit; [discriminate|].
    destruct (HBI k d0) as (out & key0 & a0 & Hg0 & Hout); [rewrite Eit; left; reflexivity|].
    specialize (Hout Hd). subst out.
    cbn [step c_mode c_frames c_st]. rewrite Hc. cbn [c_mode c_st]. split; [reflexivity|]. split.
    - exists d0. split; [rewrite (computed_get _ _ _ Hg0); reflexivity|]. split.
      + apply Hall; [left; reflexivity|rewrite Hg0; discriminate].
      + eexists _, _, _, _. exact Hg0.
    - exact Hmono.
  Qed.

  Hypothesis Hnu : forall n, no_unwind P n c0.


  Lemma comp_mono_S n x : computed x (c_st (run P n c0)) = true -> computed x (c_st (run P (S n) c0)) = true.
  Proof.
    intros Hc. rewrite run_step.
    pose proof (MachineC05T.Inv_run P n c0 Inv_s1) as (D & _).
    destruct (step_ok P (run P n c0)) as (evs & _ & _ & G). destruct (G D) as (_ & C).
    specialize (C x). rewrite Hc in C. destruct (computed x (c_st (step P (run P n c0)))); [reflexivity|cbn in C; lia].
  Qed.

  Lemma comp_mono_add n m x : computed x (c_st (run P n c0)) = true -> computed x (c_st (run P (n + m) c0)) = true.
  Proof.
    intros Hc. induction m as [|m IH]; [rewrite Nat.add_0_r; exact Hc|].
    replace (n + S m)%nat with (S (n + m)) by lia. apply comp_mono_S. exact IH.
  Qed.

  (* a flush point: a pass has ended and the awaited task is not computed *)
  Definition fpb (n : nat) : bool :=
    match c_mode (run P n c0) with MAfterExec => negb (computed h (c_st (run P n c0))) | _ => false end.

  Definition flushes (n : nat) : nat := length (filter fpb (seq 0 n)).

  Lemma flush_counts N n : (top_next (c_st (run P n c0)) <= Z.of_nat N)%Z -> fpb n = true ->
    (cN N (c_st (run P n c0)) < cN N (c_st (run P (S n) c0)))%nat.
  Proof.
    intros HN Hf. assert (c_mode (run P n c0) = MAfterExec /\ computed h (c_st (run P n c0)) = false) as (Hm & Hc)
      by (unfold fpb in Hf; destruct (c_mode (run P n c0)); try discriminate; apply negb_true_iff in Hf; auto).
    destruct (flush_makes_progress n (Hnu n) Hm Hc) as (_ & (d & Hd0 & Hd1 & (kind & idx & key & a & Hg)) & Hmono).
    destruct (tree_run_CInv P p0 n HP Ht0 (Hnu n)) as (spec & HC). fold h s1 c0 in HC.
    unfold CInv in HC. rewrite Hm in HC. destruct HC as (_ & _ & HS & _).
    destruct (SInv_entry _ _ _ _ _ HS Hg) as ((k & Ek & Hk) & _). subst d.
    apply (cN_strict N _ _ (Z.to_nat k)); [exact Hmono|lia| |]; rewrite Z2Nat.id by lia; assumption.
  Qed.

  (* relative bound on the number of flushes: as long as the ids stay below N, at most N flushes happen
     (each flush computes a future that was not computed, and computed futures stay computed) *)
  Theorem flushes_bounded N n :
    (forall k, (k <= n)%nat -> (top_next (c_st (run P k c0)) <= Z.of_nat N)%Z) ->
    (flushes n <= cN N (c_st (run P n c0)))%nat /\ (flushes n <= N)%nat.
  Proof.
    intros HN. assert (G : (flushes n <= cN N (c_st (run P n c0)))%nat).
    { induction n as [|n IH]; [cbn; lia|].
      assert (IH' : (flushes n <= cN N (c_st (run P n c0)))%nat) by (apply IH; intros k Hk; apply HN; lia).
      unfold flushes in *. rewrite seq_S, filter_app, app_length. cbn [Nat.add filter].
      destruct (fpb n) eqn:Hf; cbn [length].
      - pose proof (flush_counts N n (HN n ltac:(lia)) Hf). lia.
      - pose proof (cN_mono N _ _ (comp_mono_S n)). lia. }
    split; [exact G|]. pose proof (cN_le N (c_st (run P n c0))). lia.
  Qed.

  (* after a flush that leaves the awaited task uncomputed the next pass starts: one step later the machine is at
     the head of the _execute loop with the awaited task alone on the stack *)
  Theorem next_pass_starts n :
    c_mode (run P n c0) = MWaitHead -> computed h (c_st (run P n c0)) = false ->
    run P (n + 1) c0 = mkC MExecLoop [FExec 0; FWait h; FTop] (with_tasks (c_st (run P n c0)) [h]).
  Proof.
    intros Hm Hc. destruct (bl_reach P HP p0 Ht0 n (Hnu n)) as (spec & S & HDL & _).
    pose proof (DL_CInv _ _ _ _ _ HDL) as HC. pose proof (DL_stack _ _ _ _ _ HDL) as HK.
    fold h s1 c0 in HC, HK. rewrite Hm in HK. unfold stack_ok in HK. unfold CInv in HC. rewrite Hm in HC, HK.
    destruct HC as (_ & Hf & _). rewrite Nat.add_1_r, run_step.
    destruct (run P n c0) as [m fr s]. cbn [c_mode c_frames c_st frames_ok] in *. subst m fr.
    cbn [step c_mode c_frames c_st]. rewrite Hc, HK. reflexivity.
  Qed.

  (* MachineC03T.popped_nfv along the run: in any pass the top entry is popped, every other existing heap entry
     untouched, unless this is the first visit of a blocked task *)
  Theorem top_entry_popped_unless_first_visit n s x ts :
    run P n c0 = mkC MExecLoop [FExec 0; FWait h; FTop] s -> tasks s = x :: ts ->
    (forall tk, get x s = Some (mkFut None (KTask tk)) -> is_blocked tk s = true -> tk_ds tk = true) ->
    exists m s', run P (n + m) c0 = mkC MExecLoop [FExec 0; FWait h; FTop] s' /\ tasks s' = ts /\
      forall d, d <> x -> get d s <> None -> get d s' = get d s.
  Proof.
    intros Er Hts Hfv.
    assert (HR : Rc P p0 (mkC MExecLoop (fr0 P p0) s)) by (exists n; symmetry; exact Er).
    destruct (popped_nfv P HP p0 Ht0 Hnu s x ts HR Hts Hfv) as (m & s' & R & T & K). exists m, s'. rewrite run_add, Er. split; [exact R|]. split; [exact T|].
    intros d Nd A. apply K; [|exact A]. intros [E|[]]. apply Nd. symmetry. exact E.
  Qed.

  (* if every _execute pass that starts with the awaited task uncomputed ends (Hpass) and the ids of the futures
     created stay below N (Halloc), the computation is done at some fuel, with the sequential outcome: each flush
     computes a future below the bound, so the measure N - cN falls *)
  Hypothesis Hpass : forall n, c_mode (run P n c0) = MWaitHead -> computed h (c_st (run P n c0)) = false ->
    exists m, c_mode (run P (n + m) c0) = MAfterExec.
  Variable N : nat.
  Hypothesis Halloc : forall n, (top_next (c_st (run P n c0)) <= Z.of_nat N)%Z.

  (* from the head of wait_for or from the end of a pass, with the awaited task computed: done in two steps *)
  Lemma done_in_two n : c_mode (run P n c0) = MWaitHead \/ c_mode (run P n c0) = MAfterExec ->
    computed h (c_st (run P n c0)) = true -> exists o, c_mode (run P (n + 2) c0) = MDone o.
  Proof.
    intros Hm Hc. assert (Hf : c_frames (run P n c0) = [FWait h; FTop]).
    { destruct (tree_run_CInv P p0 n HP Ht0 (Hnu n)) as (spec & HC). fold h s1 c0 in HC.
      unfold CInv in HC. destruct Hm as [Hm|Hm]; rewrite Hm in HC; destruct HC as (_ & Hf & _); exact Hf. }
    rewrite run_add, !run_step. cbn [run].
    destruct (run P n c0) as [m fr s]. cbn [c_mode c_frames c_st] in *. subst fr.
    destruct Hm as [-> | ->]; cbn [step c_mode c_frames c_st]; rewrite Hc;
      cbn [step c_mode c_frames c_st]; eexists; reflexivity.
  Qed.

  (* induction on N - cN: a pass either ends with the awaited task computed, or is followed by a flush, which raises cN *)
  Lemma reduce_measure : forall j n, c_mode (run P n c0) = MWaitHead ->
    (N - cN N (c_st (run P n c0)) < j)%nat -> exists n' o, c_mode (run P n' c0) = MDone o.
  Proof.
    induction j as [|j IH]; intros n Hm Hj; [lia|].
    destruct (computed h (c_st (run P n c0))) eqn:Hc; [destruct (done_in_two n (or_introl Hm) Hc) as (o & Ho); eauto|].
    destruct (Hpass n Hm Hc) as (m & Hm2).
    destruct (computed h (c_st (run P (n + m) c0))) eqn:Hc2; [destruct (done_in_two (n + m) (or_intror Hm2) Hc2) as (o & Ho); eauto|].
    assert (Hf : fpb (n + m) = true) by (unfold fpb; rewrite Hm2, Hc2; reflexivity).
    pose proof (flush_counts N (n + m) (Halloc (n + m)) Hf) as Hlt.
    pose proof (cN_mono N _ _ (fun x => comp_mono_add n m x)) as Hle.
    pose proof (cN_le N (c_st (run P (S (n + m)) c0))).
    destruct (flush_makes_progress (n + m) (Hnu (n + m)) Hm2 Hc2) as (Hw & _).
    apply (IH (S (n + m)) Hw). lia.
  Qed.

  Theorem terminates_if_passes_end_and_allocation_bounded : exists n, c_mode (run P n c0) = MDone (eval p0).
  Proof.
    assert (Hg : get h s1 = Some (mkFut None (KTask (fresh_task p0)))) by (unfold h, s1, create, alloc; cbn; reflexivity).
    assert (E1 : c_mode (run P 1 c0) = MWaitHead).
    { rewrite run_step. cbn [run]. unfold c0, start. cbn [step c_mode c_frames c_st]. rewrite (computed_get _ _ _ Hg). reflexivity. }
    destruct (reduce_measure (S N) 1 E1 ltac:(lia)) as (n & o & Ho).
    exists n. rewrite Ho. f_equal. exact (async_eq_seq_tree P p0 n o HP Ht0 (Hnu n) Ho).
  Qed.
End Live.

(* tree programs without any batch item, whatever outcomes are passed to the continuations *)
Inductive noitem : prog -> Prop :=
| ni_ret v : noitem (Ret v)
| ni_result v : noitem (Result v)
| ni_raise e : noitem (Raise e)
| ni_yield s k : (forall l, In l (leaves s) -> noitem_leaf l) -> (forall o, noitem (k o)) -> noitem (Yield s k)
| ni_enter c k : plain_ctx c = true -> noitem k -> noitem (Enter c k)
| ni_exit c k : plain_ctx c = true -> noitem k -> noitem (Exit c k)
with noitem_leaf : leaf -> Prop :=
| nl_new f : noitem_fexpr f -> noitem_leaf (LNew f)
| nl_bad : noitem_leaf LBad
with noitem_fexpr : fexpr -> Prop :=
| nf_task p : noitem p -> noitem_fexpr (FTask p)
| nf_const v : noitem_fexpr (FConst v)
| nf_error e : noitem_fexpr (FError e)
| nf_lazy o : noitem_fexpr (FLazy o).

Scheme noitem_mut := Minimality for noitem Sort Prop
with noitem_leaf_mut := Minimality for noitem_leaf Sort Prop
with noitem_fexpr_mut := Minimality for noitem_fexpr Sort Prop.

Lemma noitem_tree p : noitem p -> tree p.
Proof. apply (noitem_mut tree tree_leaf tree_fexpr); intros; constructor; auto. Qed.

(* the heap of an item-free computation: no batch item, and every suspended generator is item-free *)
Definition gen_ok (tk : task) : Prop := forall k, tk_gen tk = Some k -> forall o, noitem (k o).

Definition fut_ok (f : fut) : Prop :=
  match f_kind f with
  | KItem _ _ _ _ => False
  | KTask tk => gen_ok tk
  | _ => True
  end.

Definition NIh (s : st) : Prop := forall u f, get u s = Some f -> fut_ok f.

Lemma NIh_view s s' : heap s' = heap s -> NIh s -> NIh s'.
Proof. intros Hh Hs u f Hg. apply (Hs u f). unfold get in *. rewrite <- Hh. exact Hg. Qed.

Lemma NIh_put u f s : fut_ok f -> NIh s -> NIh (put u f s).
Proof.
  intros Hf Hs u0 f0 Hg. destruct (fid_eqb_spec u0 u) as [->|N].
  - rewrite get_put_same in Hg. inversion Hg; subst f0. exact Hf.
  - rewrite get_put_other in Hg by exact N. apply (Hs u0 f0 Hg).
Qed.

Lemma NIh_set_task t tk s : gen_ok tk -> NIh s -> NIh (set_task t tk s).
Proof. intros Hk Hs. unfold set_task. destruct (get t s); [apply NIh_put; [exact Hk|exact Hs]|exact Hs]. Qed.

Lemma NIh_gen s x o tk : NIh s -> get x s = Some (mkFut o (KTask tk)) -> gen_ok tk.
Proof. intros Hs Hg. exact (Hs x _ Hg). Qed.

Lemma NIh_gen_task s x tk : NIh s -> get_task x s = Some tk -> gen_ok tk.
Proof. intros Hs Hg. apply get_task_some in Hg as (o & Hg). exact (NIh_gen s x o tk Hs Hg). Qed.

Lemma gen_ok_none a b c d e f g : gen_ok (mkTask None a b c d e f g).
Proof. intros k Hk. discriminate. Qed.

(* NIh is kept by the primitive writes of the helpers that create nothing - rewriting the contexts of a task
   (NIr_ctxs), completing a task (NIr_done) or an item (NIr_item), and writes outside the heap (NIh_view) - hence
   (MachineHelpers, Section Closure) by the helpers *)
Definition NIr (s s' : st) : Prop := NIh s -> NIh s'.

Lemma NIr_ctxs t tk cs a s : get_task t s = Some tk -> NIr s (set_task t (tk_with_ctxs tk cs a) s).
Proof. intros G Hs. apply NIh_set_task; [exact (NIh_gen_task s t tk Hs G)|exact Hs]. Qed.

Lemma NIr_done t tk o s : NIr s (emit (EvDone t o) (put t (mkFut (Some o) (KTask (closed_task tk))) s)).
Proof. intros Hs. eapply NIh_view; [reflexivity|]. apply NIh_put; [exact (gen_ok_none _ _ _ _ _ _ _)|exact Hs]. Qed.

Lemma NIr_item h f o s : get h s = Some f -> NIr s (emit (EvItemDone h o) (put h (mkFut (Some o) (f_kind f)) s)).
Proof. intros G Hs. eapply NIh_view; [reflexivity|]. apply NIh_put; [exact (Hs h f G)|exact Hs]. Qed.

(* closes the hypotheses of a rel_* lemma for NIr with the four facts above *)
Ltac ni_prim :=
  intros; first [eapply NIr_ctxs; eassumption | apply NIr_done | apply NIr_item; assumption
                | unfold NIr in *; first [auto; fail | apply NIh_view; reflexivity]].

Lemma NIh_flush_batch P k s : NIh s -> NIh (flush_batch P k s). Proof. apply (rel_flush_batch NIr); ni_prim. Qed.
Lemma NIh_cwb P s : NIh s -> NIh (continue_with_batch P s). Proof. apply (rel_continue_with_batch NIr); ni_prim. Qed.
Lemma NIh_schedule_batch k s : NIh s -> NIh (schedule_batch k s). Proof. apply (rel_schedule_batch NIr); ni_prim. Qed.

Lemma NIh_create parent f s : noitem_fexpr f -> NIh s -> NIh (snd (create parent f s)).
Proof.
  intros Hf Hs. unfold create, alloc. cbn zeta.
  assert (H1 : NIh (with_top_next s (top_next s + 1))) by (apply (NIh_view s); [reflexivity|exact Hs]).
  destruct Hf as [q Hq|v|e|o]; cbn [snd]; apply NIh_put; try exact H1; try exact I.
  intros k E o. cbn in E. inversion E; subst k. exact Hq.
Qed.

Lemma NIh_inst parent y s : (forall l, In l (leaves y) -> noitem_leaf l) -> NIh s -> NIh (snd (inst parent y s)).
Proof.
  rewrite inst_snd. generalize (leaves y). intros l. revert s.
  induction l as [|a l IH]; intros s Hl Hs; [exact Hs|]. cbn [fold_left]. apply IH; [intros z Hz; apply Hl; right; exact Hz|].
  pose proof (Hl a (or_introl eq_refl)) as Ha. destruct Ha as [f Hf|]; [apply NIh_create; assumption|exact Hs].
Qed.

(* no frame of a synchronous call *)
Definition nofv (fr : list frame) : bool := forallb (fun f => match f with FValue _ _ => false | _ => true end) fr.

Definition NIc (c : cfg) : Prop :=
  NIh (c_st c) /\ nofv (c_frames c) = true /\ match c_mode c with MRun _ p => noitem p | _ => True end.

(* every transition that creates nothing and is not a yield keeps NIh *)
Lemma NIh_hstep P A s s' : ~ A TNew -> (forall t, ~ A (TYield t)) -> hstep P A s s' -> NIh s -> NIh s'.
Proof.
  intros NN NY H.
  induction H as [s|a b c _ IH1 _ IH2|s s' Hh _ _ _ _ _ _|v x s|k c s|e s _|t tk tk' s G B|t tk o s _ _|x out o s _ _
                 |p f s N|k s|k s _|s _|t tk o d s _ G _|t tk k y' F s N _]; intros Hs.
  - exact Hs.
  - exact (IH2 (IH1 Hs)).
  - exact (NIh_view s s' Hh Hs).
  - exact (NIh_view s _ eq_refl Hs).
  - exact (NIh_view s _ eq_refl Hs).
  - exact (NIh_view s _ eq_refl Hs).
  - apply NIh_set_task; [|exact Hs]. destruct B as (_ & _ & _ & _ & [E|E]); intros k Ek; rewrite E in Ek; [|discriminate].
    exact (NIh_gen_task s t tk Hs G k Ek).
  - exact (NIr_done t tk o s Hs).
  - apply NIh_put; [exact I|exact Hs].
  - destruct (NN N).
  - exact (NIh_schedule_batch k s Hs).
  - exact (NIh_flush_batch P k s Hs).
  - exact (NIh_cwb P s Hs).
  - eapply NIh_view; [reflexivity|]. apply NIh_set_task; [exact (NIh_gen_task s t tk Hs G)|exact Hs].
  - destruct (NY t N).
Qed.

(* splits the transition on what it inspects, down to its resulting configuration *)
Ltac step_cases :=
  repeat (cbn [c_mode c_frames];
          match goal with |- context [c_mode (match ?x with _ => _ end)] => destruct x eqn:? end);
  cbn [c_mode c_frames].

(* the control part of NIc: no frame of a synchronous call appears, and a body that starts or goes on is item-free *)
Lemma ni_ctl P m fr s : NIh s -> nofv fr = true -> match m with MRun _ p => noitem p | _ => True end ->
  nofv (c_frames (step P (mkC m fr s))) = true /\
  match c_mode (step P (mkC m fr s)) with MRun _ p => noitem p | _ => True end.
Proof.
  intros Hh Hfr Hm.
  destruct m as [h| | | |t|t p| |o|e|o|]; cbn [step c_mode c_frames c_st];
    try (step_cases; split; first [exact Hfr|exact I]; fail).
  - destruct (get_task t s) as [tk|] eqn:G; [|split; [exact Hfr|exact I]].
    destruct (tk_gen tk) as [k|] eqn:Ek; [|step_cases; split; first [exact Hfr|exact I]].
    split; [exact Hfr|exact (NIh_gen_task s t tk Hh G k Ek _)].
  - destruct Hm as [v|v|e|y k Hl Hk|c k Hc Hk|c k Hc Hk]; cbn [step c_mode c_frames c_st];
      try (split; [exact Hfr|exact Hk]); step_cases; split; first [exact Hfr|exact I].
  - step_cases; try (cbn in Hfr; discriminate Hfr); split; first [exact Hfr|reflexivity|exact I].
  - step_cases; try (cbn in Hfr; discriminate Hfr); split; first [exact Hfr|reflexivity|exact I].
Qed.

Lemma ni_step P c : NIc c -> NIc (step P c).
Proof.
  destruct c as [m fr s]. intros (Hh & Hfr & Hm). cbn [c_mode c_frames c_st] in Hh, Hfr, Hm.
  split; [|exact (ni_ctl P m fr s Hh Hfr Hm)].
  assert (Q : (forall t y k, m <> MRun t (Yield y k)) -> NIh (c_st (step P (mkC m fr s)))).
  { intros N. apply (NIh_hstep P (tag_of_cfg (mkC m fr s)) s); [| |apply step_hstep|exact Hh].
    - intros (t & [(y & k & E)|(f & k & E)]); cbn in E; [exact (N _ _ _ E)|]. subst m. inversion Hm.
    - intros t (y & k & E). exact (N _ _ _ E). }
  destruct m as [h| | | |t|t p| |o|e|o|]; try (apply Q; intros; discriminate).
  destruct Hm as [v|v|e|y k Hl Hk|c k Hc Hk|c k Hc Hk]; try (apply Q; intros; discriminate).
  (* a yield: the futures of its leaves are not items, and what the generator continues with is item-free *)
  cbn [step c_mode c_frames c_st].
  pose proof (NIh_inst t y s Hl Hh) as Hi. destruct (inst t y s) as [y' si]. cbn [snd] in Hi.
  destruct (get_task t si) as [tk|] eqn:G; [|exact Hi].
  assert (H2 : NIh (set_task t (mkTask (Some k) y' (tk_deps tk ++ futs (extract y')) (tk_ctxs tk) (tk_cact tk) (tk_ds tk) (tk_iter tk) (tk_next tk)) si)).
  { apply NIh_set_task; [|exact Hi]. intros k0 E0 o0. cbn in E0. inversion E0; subst k0. exact (Hk o0). }
  destruct (futs (extract y')); exact H2.
Qed.

Lemma ni_run P n c : NIc c -> NIc (run P n c).
Proof. intros Hc. induction n as [|n IH]; [exact Hc|]. rewrite run_step. apply ni_step, IH. Qed.

Lemma NIh_st0 P : NIh (st0 P).
Proof. intros u f Hg. cbn in Hg. discriminate. Qed.

Lemma NIc_start P p : noitem p ->
  NIc (start (fst (create [] (FTask p) (st0 P))) (snd (create [] (FTask p) (st0 P)))).
Proof.
  intros Hp. split; [|split; [reflexivity|exact I]]. cbn [start c_st].
  apply NIh_create; [apply nf_task; exact Hp|apply NIh_st0].
Qed.

(* the heap of an item-free computation never holds a batch item *)
Theorem noitem_heap_has_no_item P p n :
  noitem p ->
  let h := fst (create [] (FTask p) (st0 P)) in
  let s1 := snd (create [] (FTask p) (st0 P)) in
  forall u o kind idx key a, get u (c_st (run P n (start h s1))) <> Some (mkFut o (KItem kind idx key a)).
Proof.
  intros Hp. cbn zeta. intros u o kind idx key a Hg.
  destruct (ni_run P n _ (NIc_start P p Hp)) as (Hh & _). exact (Hh u _ Hg).
Qed.

(* no _execute pass of an item-free computation ends with the awaited task uncomputed: no flush is ever needed *)
Theorem noitem_never_flushes P p :
  pointwise P -> noitem p ->
  let h := fst (create [] (FTask p) (st0 P)) in
  let s1 := snd (create [] (FTask p) (st0 P)) in
  forall n, no_unwind P n (start h s1) -> c_mode (run P n (start h s1)) = MAfterExec ->
    computed h (c_st (run P n (start h s1))) = true.
Proof.
  intros HP Hp. cbn zeta. intros n Hn Hm.
  destruct (computed _ (c_st (run P n _))) eqn:Hc; [reflexivity|exfalso].
  destruct (flush_point_has_item P HP p (noitem_tree p Hp) n Hn Hm Hc) as (e & kind & idx & key & a & Hge & _).
  exact (noitem_heap_has_no_item P p n Hp e None kind idx key a Hge).
Qed.

(* what holds of every configuration up to a fuel at which the run is final holds at every fuel *)
Lemma traj_final_all P (g : cfg -> bool) c N :
  forallb g (traj P (S N) c) = true -> is_final (c_mode (run P N c)) = true -> forall n, g (run P n c) = true.
Proof.
  rewrite <- forallb_run, forallb_forall. intros Hb Hf n. destruct (Nat.le_gt_cases n N) as [L|L].
  - apply Hb, in_seq. lia.
  - replace n with (N + (n - N))%nat by lia. rewrite run_add, (run_final P (n - N) _ Hf). apply Hb, in_seq. lia.
Qed.

(* non-vacuity: nested tasks, a lazy future, a constant, an exception caught through the continuation
   (try/except around a yield), contexts *)
Definition c03l_demo : prog :=
  Yield (YTuple [YLeaf (LNew (FTask (Yield (YLeaf (LNew (FLazy (Ok (VInt 7)))))
                                           (fun o => match o with Ok v => Ret (VTuple [v; VInt 1]) | Err e => Raise e end))));
                 YLeaf (LNew (FConst (VInt 9)));
                 YLeaf (LNew (FTask (Enter (CAsync 1 NoFault)
                                      (Yield (YLeaf (LNew (FTask (Yield YNone (fun _ => Raise 42)))))
                                             (fun o => Exit (CAsync 1 NoFault)
                                                         match o with Ok v => Ret v | Err e => Ret (VInt e) end)))))])
        (fun o => match o with Ok v => Ret v | Err e => Raise e end).

Lemma c03l_demo_noitem : noitem c03l_demo.
Proof.
  unfold c03l_demo. apply ni_yield.
  - intros l Hl. cbn in Hl. destruct Hl as [<-|[<-|[<-|[]]]]; apply nl_new.
    + apply nf_task. apply ni_yield; [intros l [<-|[]]; apply nl_new, nf_lazy|]. intros [v|e]; constructor.
    + apply nf_const.
    + apply nf_task. apply ni_enter; [reflexivity|]. apply ni_yield.
      * intros l [<-|[]]. apply nl_new, nf_task. apply ni_yield; [intros l []|]. intros o. apply ni_raise.
      * intros [v|e]; (apply ni_exit; [reflexivity|apply ni_ret]).
  - intros [v|e]; constructor.
Qed.

Example c03l_demo_runs :
  let P := mkP [] 1000 false [] in
  let h := fst (create [] (FTask c03l_demo) (st0 P)) in
  let s1 := snd (create [] (FTask c03l_demo) (st0 P)) in
  no_unwind_b P 80 (start h s1) = true /\
  c_mode (run P 80 (start h s1)) = MDone (Ok (VTuple [VTuple [VInt 7; VInt 1]; VInt 9; VInt 42])) /\
  eval c03l_demo = Ok (VTuple [VTuple [VInt 7; VInt 1]; VInt 9; VInt 42]).
Proof. cbn zeta. rewrite no_unwind_b_traj. vm_compute. repeat split. Qed.

Example c03l_demo_terminates :
  let P := mkP [] 1000 false [] in
  let h := fst (create [] (FTask c03l_demo) (st0 P)) in
  let s1 := snd (create [] (FTask c03l_demo) (st0 P)) in
  pointwise P /\ noitem c03l_demo /\ (forall n, no_unwind P n (start h s1)) /\
  exists n, c_mode (run P n (start h s1)) = MDone (Ok (VTuple [VTuple [VInt 7; VInt 1]; VInt 9; VInt 42])).
Proof.
  cbn zeta. destruct c03l_demo_runs as (Hb & Hd & He). cbn zeta in Hb, Hd, He.
  assert (HP : pointwise (mkP [] 1000 false [])) by (intros kind; reflexivity).
  assert (Hnu : forall n, no_unwind (mkP [] 1000 false []) n
                  (start (fst (create [] (FTask c03l_demo) (st0 (mkP [] 1000 false []))))
                         (snd (create [] (FTask c03l_demo) (st0 (mkP [] 1000 false [])))))).
  { intros n k _. apply negb_true_iff.
    apply (traj_final_all _ (fun c => negb (is_unwind (c_mode c))) _ 80); [rewrite <- no_unwind_b_traj; exact Hb|].
    rewrite Hd. reflexivity. }
  split; [exact HP|]. split; [exact c03l_demo_noitem|]. split; [exact Hnu|]. exists 80%nat. exact Hd.
Qed.

