(* C03, liveness of tree programs: the number of futures created.  nf p = number of futures the sequential
   evaluation of p creates (defined along Seq.eval: the continuation of a yield is followed on the specified
   outcome); the potential and the invariant alloc_inv that bounds the id counter by 1 + nf p (preserved by the
   machine: MachineC03A), and termination for runs along which it holds. *)
From Asynq Require Import Machine Seq proofs.ProgProofs proofs.MachineC08 proofs.MachineC01 proofs.MachineC03T
  proofs.MachineC03L proofs.MachineC03P proofs.MachineNoUnwind.

Section YSum.
  Context {A : Type} (w : A -> nat).
  Fixpoint ysum (s : ystruct A) : nat :=
    let fix go (l : list (ystruct A)) : nat := match l with [] => O | x :: l' => (ysum x + go l')%nat end in
    let fix god (l : list (Z * ystruct A)) : nat := match l with [] => O | (_, x) :: l' => (ysum x + god l')%nat end in
    match s with
    | YNone => O
    | YLeaf a => w a
    | YTuple l | YList l => go l
    | YDict l => god l
    end.

  Lemma ysum_leaves s : ysum s = list_sum (map w (leaves s)).
  Proof.
    induction s as [| a | l IH | l IH | l IH] using ystruct_ind2.
    - reflexivity.
    - cbn. lia.
    - rewrite leaves_tuple. cbn [ysum]. induction IH as [|x l Hx Hl IHl]; [reflexivity|].
      cbn [flat_map]. rewrite map_app, list_sum_app, <- Hx, <- IHl. reflexivity.
    - rewrite leaves_ylist. cbn [ysum]. induction IH as [|x l Hx Hl IHl]; [reflexivity|].
      cbn [flat_map]. rewrite map_app, list_sum_app, <- Hx, <- IHl. reflexivity.
    - rewrite leaves_ydict. cbn [ysum]. induction IH as [|[k x] l Hx Hl IHl]; [reflexivity|].
      cbn [flat_map snd]. cbn [snd] in Hx. rewrite map_app, list_sum_app, <- Hx, <- IHl. reflexivity.
  Qed.
End YSum.

(* futures created by the sequential evaluation *)
Fixpoint nf (p : prog) : nat :=
  match p with
  | Ret _ | Result _ | Raise _ => O
  | Yield s k => (ysum nfl s + nf (k (unwrap leaf_out s)))%nat
  | Enter _ k | Exit _ k => nf k
  | Let _ _ | Sync _ _ | ReadVar _ _ | Probe _ => O
  end
with nff (f : fexpr) : nat :=
  match f with
  | FTask p => S (nf p)
  | _ => 1%nat
  end
with nfl (l : leaf) : nat :=
  match l with
  | LNew f => nff f
  | _ => O
  end.

Lemma nf_yield s k : nf (Yield s k) = (list_sum (map nfl (leaves s)) + nf (k (unwrap leaf_out s)))%nat.
Proof. cbn [nf]. rewrite ysum_leaves. reflexivity. Qed.
Lemma nf_enter c k : nf (Enter c k) = nf k. Proof. reflexivity. Qed.
Lemma nf_exit c k : nf (Exit c k) = nf k. Proof. reflexivity. Qed.
Lemma nff_task p : nff (FTask p) = S (nf p). Proof. reflexivity. Qed.

(* the continuation of a yield costs no more than the yield *)
Lemma nf_cont_le s k : (nf (k (unwrap leaf_out s)) <= nf (Yield s k))%nat.
Proof. cbn [nf]. lia. Qed.
Lemma nf_leaf_le s k f : In (LNew f) (leaves s) -> (nff f <= nf (Yield s k))%nat.
Proof.
  intros Hin. rewrite nf_yield. assert (H : (nfl (LNew f) <= list_sum (map nfl (leaves s)))%nat).
  { revert Hin. generalize (leaves s). intros l. induction l as [|a l IH]; intros Hin; [destruct Hin|]. simpl.
    destruct Hin as [->|Hin]; [simpl; lia|]. specialize (IH Hin). simpl in IH. lia. }
  cbn [nfl] in H. lia.
Qed.

(* remaining allocation of the future [k]: for an uncomputed task, nf of its remaining program - the program in MRun
   for the running task, otherwise the generator applied to the specified outcome of what it last yielded *)
Definition rem (spec : specmap) (rn : option (fid * prog)) (s : st) (k : nat) : nat :=
  let u := [Z.of_nat k] in
  match get u s with
  | Some (mkFut None (KTask tk)) =>
    match rn with
    | Some (t, p) => if fid_eqb t u then nf p else
                       match tk_gen tk with Some g => nf (g (unwrap (look_spec spec) (tk_last tk))) | None => O end
    | None => match tk_gen tk with Some g => nf (g (unwrap (look_spec spec) (tk_last tk))) | None => O end
    end
  | _ => O
  end.

Definition pot (spec : specmap) (rn : option (fid * prog)) (s : st) : nat :=
  list_sum (map (rem spec rn s) (seq 0 (Z.to_nat (top_next s)))).

Definition rn_of (m : mode) : option (fid * prog) := match m with MRun t p => Some (t, p) | _ => None end.

(* the invariant: futures created so far + futures still to be created <= 1 + nf p *)
Definition alloc_inv (p : prog) (spec : specmap) (c : cfg) : Prop :=
  (Z.to_nat (top_next (c_st c)) + pot spec (rn_of (c_mode c)) (c_st c) <= 1 + nf p)%nat.

Lemma alloc_inv_bound p spec c : (0 <= top_next (c_st c))%Z -> alloc_inv p spec c -> (top_next (c_st c) <= Z.of_nat (1 + nf p))%Z.
Proof.
  unfold alloc_inv. intros H0 H. set (q := pot spec (rn_of (c_mode c)) (c_st c)) in *. set (t := top_next (c_st c)) in *.
  set (m := nf p) in *. clearbody q t m. lia.
Qed.

(* it holds initially, with equality, for every spec *)
Lemma alloc_inv_start P p spec :
  alloc_inv p spec (start (fst (create [] (FTask p) (st0 P))) (snd (create [] (FTask p) (st0 P)))).
Proof.
  unfold alloc_inv, pot, start. cbn [c_st c_mode rn_of]. unfold create, alloc. cbn [snd fst top_next with_top_next put with_heap st0].
  change (Z.to_nat (0 + 1)) with 1%nat. cbn [seq map list_sum fold_right]. unfold rem. cbn. lia.
Qed.

(* preservation, the generic part: a transition that keeps the id counter and does not increase the remaining
   allocation of any future keeps the invariant; in particular every transition that only reads the heap *)
Lemma list_sum_le (f g : nat -> nat) l : (forall k, In k l -> (f k <= g k)%nat) -> (list_sum (map f l) <= list_sum (map g l))%nat.
Proof.
  induction l as [|a l IH]; intros H; simpl; [lia|].
  pose proof (H a (or_introl eq_refl)). assert ((list_sum (map f l) <= list_sum (map g l))%nat) by (apply IH; intros k Hk; apply H; right; exact Hk). lia.
Qed.

Lemma alloc_inv_pres p spec spec' m fr s m' fr' s' :
  top_next s' = top_next s ->
  (forall k, (rem spec' (rn_of m') s' k <= rem spec (rn_of m) s k)%nat) ->
  alloc_inv p spec (mkC m fr s) -> alloc_inv p spec' (mkC m' fr' s').
Proof.
  unfold alloc_inv, pot. cbn [c_st c_mode]. intros Et Hr H. rewrite Et.
  pose proof (list_sum_le (rem spec' (rn_of m') s') (rem spec (rn_of m) s) (seq 0 (Z.to_nat (top_next s))) (fun k _ => Hr k)). lia.
Qed.

Lemma rem_view spec rn s s' k : heap s' = heap s -> rem spec rn s' k = rem spec rn s k.
Proof. intros Hh. unfold rem, get. rewrite Hh. reflexivity. Qed.

(* the remaining allocation of a suspended task does not depend on how the ghost spec is extended to new futures *)
Lemma rem_ext spec spec' s k :
  (forall u tk g, get u s = Some (mkFut None (KTask tk)) -> tk_gen tk = Some g ->
     unwrap (look_spec spec') (tk_last tk) = unwrap (look_spec spec) (tk_last tk)) ->
  rem spec' None s k = rem spec None s k.
Proof.
  intros H. unfold rem. destruct (get [Z.of_nat k] s) as [[[o|] [tk| | |]]|] eqn:Hg; try reflexivity.
  destruct (tk_gen tk) as [g|] eqn:Eg; [|reflexivity]. rewrite (H _ tk g Hg Eg). reflexivity.
Qed.

(* termination without ANY hypothesis about the run's modes: few futures *)
Theorem terminates_if_few_futures_tree P p N :
  pointwise P -> tree p ->
  let h := fst (create [] (FTask p) (st0 P)) in
  let s1 := snd (create [] (FTask p) (st0 P)) in
  (forall n, (top_next (c_st (run P n (start h s1))) <= Z.of_nat N)%Z) -> (Z.of_nat N <= p_maxstack P)%Z ->
  exists n, c_mode (run P n (start h s1)) = MDone (eval p).
Proof.
  intros HP Ht. cbn zeta. intros Hal Hmax. apply (terminates_if_allocation_bounded_tree P p N HP Ht); [|exact Hal].
  intros n. apply (tree_guard_silent_while_few_futures P HP p Ht n). intros k _. specialize (Hal k). lia.
Qed.

(* if the invariant holds along the run (for some ghost spec at each fuel), the run creates at most 1 + nf p futures;
   then it terminates under the guard hypothesis, and with no run hypothesis at all when 1 + nf p <= MAX_TASK_STACK_SIZE *)
Theorem terminates_tree_if_alloc_inv P p :
  pointwise P -> tree p ->
  let h := fst (create [] (FTask p) (st0 P)) in
  let s1 := snd (create [] (FTask p) (st0 P)) in
  (forall n, (0 <= top_next (c_st (run P n (start h s1))))%Z /\ exists spec, alloc_inv p spec (run P n (start h s1))) ->
  ((forall n, no_unwind P n (start h s1)) \/ (Z.of_nat (1 + nf p) <= p_maxstack P)%Z) ->
  exists n, c_mode (run P n (start h s1)) = MDone (eval p).
Proof.
  intros HP Ht. cbn zeta. intros HI Hg.
  assert (Hal : forall n, (top_next (c_st (run P n (start (fst (create [] (FTask p) (st0 P))) (snd (create [] (FTask p) (st0 P)))))) <= Z.of_nat (1 + nf p))%Z).
  { intros n. destruct (HI n) as (H0 & spec & H). exact (alloc_inv_bound p spec _ H0 H). }
  destruct Hg as [Hnu|Hsmall].
  - exact (terminates_if_allocation_bounded_tree P p (1 + nf p) HP Ht Hnu Hal).
  - exact (terminates_if_few_futures_tree P p (1 + nf p) HP Ht Hal Hsmall).
Qed.

(* sanity of the bound on the demo programs: the finished runs created exactly 1 + nf p futures *)
Example nf_demos :
  let P := mkP [] 1000 false [] in
  (nf c01_demo = 4%nat /\ nf c03l_demo = 5%nat /\ nf c03t_demo = 4%nat) /\
  (top_next (c_st (run P 41 (start (fst (create [] (FTask c01_demo) (st0 P))) (snd (create [] (FTask c01_demo) (st0 P)))))) = Z.of_nat (1 + nf c01_demo)) /\
  (top_next (c_st (run P 80 (start (fst (create [] (FTask c03l_demo) (st0 P))) (snd (create [] (FTask c03l_demo) (st0 P)))))) = Z.of_nat (1 + nf c03l_demo)) /\
  (top_next (c_st (run P 36 (start (fst (create [] (FTask c03t_demo) (st0 P))) (snd (create [] (FTask c03t_demo) (st0 P)))))) = Z.of_nat (1 + nf c03t_demo)).
Proof. vm_compute. repeat split. Qed.
