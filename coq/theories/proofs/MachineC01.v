(* C01 on the scheduler machine, for yield-only "tree" programs: whatever the flush order (oracle),
   priorities and fuel, the value() of the root computation is exactly the sequential evaluation
   [Seq.eval] of the program, provided the service is pointwise (no flush body raises half way,
   which would make an item's answer depend on its position in the batch) and no exception unwound
   through asynq's frames (the MAX_TASK_STACK_SIZE guard).

   Route: a ghost specification map assigns every future, at creation, the outcome sequential
   evaluation gives it; the invariant says computed futures carry their specified outcome and every
   suspended task's continuation, fed with the specified outcomes of what it yielded, evaluates to
   the task's specified outcome.  The part of the invariant that speaks about the state is stated once,
   for any class of task bodies with its sequential reference and any set of tasks that are mid-step
   ([GI]); [SInv] is its instance for tree programs, MachineC01S.SI the one for synchronous calls. *)
From Asynq Require Import Machine Seq proofs.ProgProofs proofs.MachineFrame proofs.MachineC05 proofs.MachineC08
  proofs.MachineHelpers proofs.MachineCases.

Definition plain_ctx (c : ctxk) : bool :=
  match c with CAsync _ NoFault => true | COverride _ _ _ => true | _ => false end.

Inductive tree : prog -> Prop :=
| tree_ret v : tree (Ret v)
| tree_result v : tree (Result v)
| tree_raise e : tree (Raise e)
| tree_yield s k : (forall l, In l (leaves s) -> tree_leaf l) -> (forall o, tree (k o)) -> tree (Yield s k)
| tree_enter c k : plain_ctx c = true -> tree k -> tree (Enter c k)
| tree_exit c k : plain_ctx c = true -> tree k -> tree (Exit c k)
with tree_leaf : leaf -> Prop :=
| tl_new f : tree_fexpr f -> tree_leaf (LNew f)
| tl_bad : tree_leaf LBad
with tree_fexpr : fexpr -> Prop :=
| tf_task p : tree p -> tree_fexpr (FTask p)
| tf_item kind key a : tree_fexpr (FItem kind key a)
| tf_const v : tree_fexpr (FConst v)
| tf_error e : tree_fexpr (FError e)
| tf_lazy o : tree_fexpr (FLazy o).

Scheme tree_mut := Minimality for tree Sort Prop
  with tree_leaf_mut := Minimality for tree_leaf Sort Prop
  with tree_fexpr_mut := Minimality for tree_fexpr Sort Prop.

Definition pointwise (P : params) : Prop := forall kind, ks_raise (kspec_of P kind) = None.

Definition specmap := fid -> option outcome.

Definition look_spec (spec : specmap) (r : rleaf) : outcome :=
  match r with
  | RFut h => match spec h with Some o => o | None => Err E_NOTIMPL end
  | RBad => Err E_TYPEERROR
  end.

Definition items_ok (s : st) : Prop :=
  forall k h, In h (b_items (get_batch k s)) ->
    exists out kind idx key a, get h s = Some (mkFut out (KItem kind idx key a)).

(* s' is s with the entry of t replaced by f' (everything the invariant looks at is otherwise equal) *)
Definition upd_entry (s s' : st) (t : fid) (f' : fut) : Prop :=
  get t s' = Some f' /\ (forall h, h <> t -> get h s' = get h s) /\
  batches s' = batches s /\ top_next s' = top_next s.

Lemma upd_entry_put s t f' : upd_entry s (put t f' s) t f'.
Proof.
  split; [apply get_put_same|]. split; [intros h N; apply get_put_other; exact N|]. split; reflexivity.
Qed.

Lemma upd_entry_dom s s' t f f' : get t s = Some f -> upd_entry s s' t f' ->
  forall x, get x s' <> None <-> get x s <> None.
Proof.
  intros Hg (A & B & _) x. destruct (fid_eqb_spec x t) as [->|N].
  - rewrite A, Hg. split; intros _; discriminate.
  - rewrite (B x N). reflexivity.
Qed.

Lemma set_task_upd s t out tk tk' :
  get t s = Some (mkFut out (KTask tk)) -> upd_entry s (set_task t tk' s) t (mkFut out (KTask tk')).
Proof. intros Hg. unfold set_task. rewrite Hg. cbn. apply upd_entry_put. Qed.

Lemma tupd_upd_entry s s' x o tk : tupd s s' x o tk -> upd_entry s s' x (mkFut o (KTask tk)).
Proof. intros (A & B & C). destruct (sched_parts _ _ C) as (_ & _ & _ & _ & Hb & Hn & _). repeat split; assumption. Qed.

Lemma upd_entry_computed s s' t out tk tk' :
  get t s = Some (mkFut out (KTask tk)) -> upd_entry s s' t (mkFut out (KTask tk')) ->
  forall h, computed h s' = computed h s.
Proof.
  intros Hg (A & B & _) h. unfold computed. destruct (fid_eqb_spec h t) as [->|N].
  - rewrite A, Hg. reflexivity.
  - rewrite (B h N). reflexivity.
Qed.

Lemma tasks_of_regs s s' : regs s' = regs s -> tasks s' = tasks s.
Proof. unfold regs. congruence. Qed.

(* _schedule_batch only touches the set of scheduled batches *)
Lemma schedule_batch_cases k s : schedule_batch k s = s \/ schedule_batch k s = with_sb s (sb s ++ [k]).
Proof. unfold schedule_batch. destruct (b_done _); [auto|]. destruct (existsb _ _); auto. Qed.
Lemma heap_schedule_batch k s : heap (schedule_batch k s) = heap s.
Proof. destruct (schedule_batch_cases k s) as [E|E]; rewrite E; reflexivity. Qed.
Lemma batches_schedule_batch k s : batches (schedule_batch k s) = batches s.
Proof. destruct (schedule_batch_cases k s) as [E|E]; rewrite E; reflexivity. Qed.
Lemma top_next_schedule_batch k s : top_next (schedule_batch k s) = top_next s.
Proof. destruct (schedule_batch_cases k s) as [E|E]; rewrite E; reflexivity. Qed.

Lemma resume1_plain t c s : plain_ctx c = true -> snd (resume1 t c s) = None.
Proof. destruct c as [cid [| |]|cid|cid var v]; cbn; intros H; try discriminate; reflexivity. Qed.

Lemma pause1_plain t c s : plain_ctx c = true -> snd (pause1 t c s) = None.
Proof. destruct c as [cid [| |]|cid|cid var v]; cbn; intros H; try discriminate; reflexivity. Qed.

Lemma plain_noraise cs : forallb plain_ctx cs = true -> noraise cs.
Proof.
  intros H c Hc t s. rewrite forallb_forall in H.
  split; [apply resume1_plain|apply pause1_plain]; apply H; exact Hc.
Qed.

Lemma forallb_rev {A} (f : A -> bool) l : forallb f (rev l) = forallb f l.
Proof.
  induction l as [|x l IH]; [reflexivity|]. cbn. rewrite forallb_app, IH. cbn. rewrite andb_true_r. apply andb_comm.
Qed.

(* Under a pointwise service a flush does one thing to the heap, the batches' item lists and the id counter:
   uncomputed batch items receive their own outcome. *)
Definition item_steps (s s' : st) : Prop :=
  top_next s' = top_next s /\ (forall k, b_items (get_batch k s') = b_items (get_batch k s)) /\
  forall h, get h s' = get h s \/
    exists kind idx key a, get h s = Some (mkFut None (KItem kind idx key a)) /\
                           get h s' = Some (mkFut (Some (item_out a)) (KItem kind idx key a)).

Lemma item_steps_view s s' : heap s' = heap s -> batches s' = batches s -> top_next s' = top_next s -> item_steps s s'.
Proof.
  intros Hh Hb Hn. split; [exact Hn|]. split; [intros k; unfold get_batch; rewrite Hb; reflexivity|].
  intros h. left. exact (get_view s s' Hh h).
Qed.

Lemma item_steps_trans sa sb sc : item_steps sa sb -> item_steps sb sc -> item_steps sa sc.
Proof.
  intros (N1 & B1 & H1) (N2 & B2 & H2). split; [congruence|]. split; [intros k; rewrite B2; apply B1|].
  intros h. destruct (H2 h) as [E2|(kd & ix & ky & a & G2 & G2')].
  - rewrite E2. apply H1.
  - destruct (H1 h) as [E1|(kd1 & ix1 & ky1 & a1 & G1 & G1')].
    + right. exists kd, ix, ky, a. rewrite <- E1. auto.
    + rewrite G1' in G2. discriminate.
Qed.

Lemma item_steps_computed s s' h : item_steps s s' -> computed h s = true -> computed h s' = true.
Proof.
  intros (_ & _ & H) Hc. unfold computed in *.
  destruct (H h) as [E|(? & ? & ? & ? & G & G')]; [rewrite E; exact Hc|rewrite G'; reflexivity].
Qed.

Lemma item_steps_task s s' t out tk :
  item_steps s s' -> get t s = Some (mkFut out (KTask tk)) -> get t s' = Some (mkFut out (KTask tk)).
Proof. intros (_ & _ & H) Hg. destruct (H t) as [E|(? & ? & ? & ? & G & G')]; [congruence|rewrite Hg in G; discriminate]. Qed.

Definition is_item (s : st) (h : fid) : Prop :=
  exists out kind idx key a, get h s = Some (mkFut out (KItem kind idx key a)).

Lemma item_steps_is_item s s' h : item_steps s s' -> is_item s h -> is_item s' h.
Proof.
  intros (_ & _ & H) (out & kd & ix & ky & a & Hg). destruct (H h) as [E|(kd1 & ix1 & ky1 & a1 & G & G')].
  - exists out, kd, ix, ky, a. congruence.
  - rewrite Hg in G. inversion G; subst. do 5 eexists. exact G'.
Qed.

(* an entry that is uncomputed afterwards was the same before *)
Lemma item_steps_uncomputed s s' h k :
  item_steps s s' -> get h s' = Some (mkFut None k) -> get h s = Some (mkFut None k).
Proof. intros (_ & _ & H) Hg. destruct (H h) as [E|(? & ? & ? & ? & _ & G')]; [congruence|rewrite G' in Hg; discriminate]. Qed.

Lemma complete_item_done h o s : computed h s = true -> complete_item h o s = s.
Proof.
  unfold complete_item, computed. destruct (get h s) as [f|]; [|reflexivity].
  destruct (f_out f); [reflexivity|discriminate].
Qed.

Lemma item_steps_complete_item h s out kind idx key a o :
  get h s = Some (mkFut out (KItem kind idx key a)) -> (out = None -> o = item_out a) ->
  item_steps s (complete_item h o s).
Proof.
  intros Hg Ho. destruct out as [o'|].
  { rewrite complete_item_done; [apply item_steps_view; reflexivity|]. unfold computed. rewrite Hg. reflexivity. }
  rewrite (Ho eq_refl). unfold complete_item. rewrite Hg. cbn [f_out f_kind].
  split; [reflexivity|]. split; [reflexivity|]. intros x. rewrite get_emit.
  destruct (fid_eqb_spec x h) as [->|N].
  - right. exists kind, idx, key, a. rewrite get_put_same. auto.
  - left. apply get_put_other. exact N.
Qed.

(* the flush body without a scripted exception: every item that sets something is completed with its outcome,
   so that afterwards only items that set nothing are uncomputed *)
Lemma flush_body_item_steps items : forall i s, (forall h, In h items -> is_item s h) ->
  let r := flush_body items i None s in
  snd r = None /\ item_steps s (fst r) /\
  forall h kind idx key a, In h items -> get h (fst r) = Some (mkFut None (KItem kind idx key a)) -> a = ASkip.
Proof.
  induction items as [|h rest IH]; intros i s HI; cbn zeta.
  - cbn. split; [reflexivity|]. split; [apply item_steps_view; reflexivity|]. intros ? ? ? ? ? [].
  - cbn [flush_body]. destruct (HI h (or_introl eq_refl)) as (out & kd & ix & ky & a & Hg). rewrite Hg.
    set (s1 := match a with ASet v => complete_item h (Ok v) s | AErr e' => complete_item h (Err e') s | ASkip => s end).
    assert (S1 : item_steps s s1).
    { unfold s1. destruct a as [v|e|]; [| |apply item_steps_view; reflexivity];
        apply (item_steps_complete_item h s out kd ix ky _ _ Hg); reflexivity. }
    assert (C1 : a = ASkip \/ computed h s1 = true).
    { assert (Hn : get h s <> None) by (rewrite Hg; discriminate). unfold s1.
      destruct a as [v|e|]; [right; exact (complete_item_computed h (Ok v) s Hn)
                            |right; exact (complete_item_computed h (Err e) s Hn)|left; reflexivity]. }
    destruct (IH (i + 1) s1) as (E & S2 & C2).
    { intros x Hx. apply (item_steps_is_item s); [exact S1|]. apply HI. right. exact Hx. }
    split; [exact E|]. split; [eapply item_steps_trans; eassumption|].
    intros x kd' ix' ky' a' [<-|Hin] Hx; [|exact (C2 x kd' ix' ky' a' Hin Hx)].
    pose proof (item_steps_uncomputed _ _ _ _ S2 Hx) as Hx1. pose proof (item_steps_uncomputed _ _ _ _ S1 Hx1) as Hx0.
    rewrite Hg in Hx0. inversion Hx0; subst. destruct C1 as [C1|C1]; [exact C1|].
    unfold computed in C1. rewrite Hx1 in C1. discriminate.
Qed.

(* the "not set" pass *)
Lemma fold_fill_item_steps items : forall s,
  (forall h, In h items -> is_item s h /\
     forall kind idx key a, get h s = Some (mkFut None (KItem kind idx key a)) -> a = ASkip) ->
  item_steps s (fold_left (fun s h => complete_item h (Err E_NOTSET) s) items s).
Proof.
  induction items as [|h rest IH]; intros s HI; cbn [fold_left]; [apply item_steps_view; reflexivity|].
  destruct (HI h (or_introl eq_refl)) as ((out & kd & ix & ky & a & Hg) & Hs).
  assert (S1 : item_steps s (complete_item h (Err E_NOTSET) s)).
  { apply (item_steps_complete_item h s out kd ix ky a _ Hg). intros ->. rewrite (Hs _ _ _ _ Hg). reflexivity. }
  eapply item_steps_trans; [exact S1|]. apply IH. intros x Hx. destruct (HI x (or_intror Hx)) as (It & Sk).
  split; [apply (item_steps_is_item s); assumption|].
  intros kd' ix' ky' a' Hx'. exact (Sk kd' ix' ky' a' (item_steps_uncomputed _ _ _ _ S1 Hx')).
Qed.

Lemma flush_batch_item_steps P k s : pointwise P -> items_ok s -> item_steps s (flush_batch P k s).
Proof.
  intros HP HI. unfold flush_batch. destruct (b_done (get_batch k s)); [apply item_steps_view; reflexivity|].
  rewrite HP.
  set (s1 := emit _ (if Z.eqb _ _ then _ else s)).
  assert (S1 : item_steps s s1) by (apply item_steps_view; unfold s1; destruct (Z.eqb _ _); reflexivity).
  assert (I1 : forall h, In h (b_items (get_batch k s)) -> is_item s1 h).
  { intros h Hin. apply (item_steps_is_item s); [exact S1|exact (HI k h Hin)]. }
  destruct (flush_body_item_steps (b_items (get_batch k s)) 0 s1 I1) as (E & S2 & C2).
  destruct (flush_body (b_items (get_batch k s)) 0 None s1) as [s2 err]. cbn [fst snd] in *. subst err.
  set (s3 := fold_left _ _ s2).
  assert (S3 : item_steps s2 s3).
  { apply fold_fill_item_steps. intros h Hin. split; [apply (item_steps_is_item s1); auto|].
    intros kd ix ky a. exact (C2 h kd ix ky a Hin). }
  assert (S03 : item_steps s s3) by (eapply item_steps_trans; [exact S1|eapply item_steps_trans; eassumption]).
  destruct S03 as (N & B & H). split; [exact N|]. split; [|exact H].
  intros k'. destruct (key_eqb_spec k' k) as [->|Nk].
  - rewrite get_batch_put_same. cbn. apply B.
  - rewrite get_batch_put_other by exact Nk. apply B.
Qed.

Lemma continue_with_batch_item_steps P s : pointwise P -> items_ok s -> item_steps s (continue_with_batch P s).
Proof.
  intros HP HI. unfold continue_with_batch. pose proof (select_batches P s) as [Hb Hh].
  assert (Hn : top_next (snd (select P s)) = top_next s)
    by (destruct (select_st P s) as (o & [->|(a & b & ->)]); reflexivity).
  destruct (select P s) as [[k|] s1]; cbn [snd] in *; [|apply item_steps_view; assumption].
  set (s2 := emit _ (with_sb s1 _)).
  assert (S2 : item_steps s s2) by (apply item_steps_view; assumption).
  eapply item_steps_trans; [exact S2|]. eapply item_steps_trans; [|apply item_steps_view; reflexivity].
  apply flush_batch_item_steps; [exact HP|].
  intros k' h Hin. destruct S2 as (_ & B2 & _). rewrite B2 in Hin. apply (item_steps_is_item s); [apply item_steps_view; assumption|exact (HI k' h Hin)].
Qed.

Definition spec_add (spec : specmap) (h : fid) (o : outcome) : specmap :=
  fun x => if fid_eqb x h then Some o else spec x.

Lemma spec_add_same spec h o : spec_add spec h o h = Some o.
Proof. unfold spec_add. rewrite fid_eqb_refl. reflexivity. Qed.

Lemma spec_add_other spec h o x : x <> h -> spec_add spec h o x = spec x.
Proof. intros N. unfold spec_add. destruct (fid_eqb_spec x h); [contradiction|reflexivity]. Qed.

Definition ext_spec (s : st) (spec spec' : specmap) : Prop := forall x, get x s <> None -> spec' x = spec x.

Lemma ext_spec_add spec s h o : get h s = None -> ext_spec s spec (spec_add spec h o).
Proof. intros Hn x Hx. apply spec_add_other. intros ->. exact (Hx Hn). Qed.

Lemma unwrap_look_ext spec spec' s (y : ystruct rleaf) :
  ext_spec s spec spec' -> (forall h, In (RFut h) (leaves y) -> get h s <> None) ->
  unwrap (look_spec spec') y = unwrap (look_spec spec) y.
Proof.
  intros E Ha. apply unwrap_ext. intros [h|] Hin; [|reflexivity]. cbn. rewrite E; auto.
Qed.

Definition new_entry (f : fexpr) (s : st) : fut :=
  match f with
  | FTask p => mkFut None (KTask (fresh_task p))
  | FItem kind key a => mkFut None (KItem kind (cur_idx kind s) key a)
  | FConst v => mkFut (Some (Ok v)) KOther
  | FError e => mkFut (Some (Err e)) KOther
  | FLazy o => mkFut None (KLazy o)
  end.

Lemma create_spec parent f s :
  let h := [top_next s] in
  let s1 := snd (create parent f s) in
  fst (create parent f s) = h /\ top_next s1 = (top_next s + 1)%Z /\
  (forall x, x <> h -> get x s1 = get x s) /\ get h s1 = Some (new_entry f s) /\
  forall k x, In x (b_items (get_batch k s1)) -> In x (b_items (get_batch k s)) \/ x = h /\ is_item s1 h.
Proof.
  unfold create, alloc. cbn zeta. set (h := [top_next s]). set (s0 := with_top_next s (top_next s + 1)).
  assert (G : forall ent x, x <> h -> get x (put h ent s0) = get x s) by (intros ent x N; exact (get_put_other h x ent s0 N)).
  destruct f as [p|kind key a|v|e|o]; cbn [fst snd new_entry];
    (split; [reflexivity|]; split; [reflexivity|]; split; [apply G|]; split; [apply get_put_same|]); auto.
  intros k x Hin. destruct (key_eqb_spec k (kind, cur_idx kind s0)) as [->|N].
  - rewrite get_batch_put_same in Hin. cbn in Hin.
    apply in_app_or in Hin as [Hin|[<-|[]]]; [left; exact Hin|right]. split; [reflexivity|].
    do 5 eexists. apply get_put_same.
  - left. rewrite get_batch_put_other in Hin by exact N. exact Hin.
Qed.

(* The state invariant, for a class [cls] of task bodies with sequential reference [ev] and a set [R] of exempt
   tasks: those whose generator is executing, so that their heap entries hold stale continuations.  Computed
   futures carry their specified outcome; the continuation of every other suspended task, fed with the specified
   outcomes of what it yielded, evaluates to the task's specified outcome.  The last two clauses of [gtask_ok]
   serve the proofs: that what was yielded is allocated lets the ghost map grow on new ids without changing what
   the continuation is fed (unwrap_look_ext); that it is among the dependencies makes an unblocked task's yielded
   futures computed (GI_unblocked).  [SInv] below is the instance for yield-only trees with at most one exempt task. *)
Section Gen.
  Variables (cls : prog -> Prop) (ev : prog -> outcome).

  Definition gtask_ok (spec : specmap) (s : st) (tk : task) (o : outcome) : Prop :=
    exists k, tk_gen tk = Some k /\ (forall x, cls (k x)) /\
      ev (k (unwrap (look_spec spec) (tk_last tk))) = o /\
      (forall h, In (RFut h) (leaves (tk_last tk)) -> get h s <> None) /\
      (forall h, In (RFut h) (leaves (tk_last tk)) -> In h (tk_deps tk)).

  Definition gentry_ok (spec : specmap) (R : fid -> Prop) (s : st) (h : fid) (f : fut) : Prop :=
    (exists n, h = [n] /\ (0 <= n < top_next s)%Z) /\
    exists o, spec h = Some o /\ (forall o', f_out f = Some o' -> o' = o) /\
    match f_kind f with
    | KTask tk => forallb plain_ctx (tk_ctxs tk) = true /\
                  (f_out f = None -> ~ R h -> gtask_ok spec s tk o)
    | KItem _ _ _ a => item_out a = o
    | KLazy o' => o' = o
    | KOther => f_out f <> None
    end.

  Definition GI (spec : specmap) (R : fid -> Prop) (s : st) : Prop :=
    (forall h f, get h s = Some f -> gentry_ok spec R s h f) /\ items_ok s /\ (0 <= top_next s)%Z.

  Lemma gentry_ok_mono spec (R R' : fid -> Prop) s s' h f :
    (top_next s <= top_next s')%Z -> (forall x, get x s <> None -> get x s' <> None) -> (R h -> R' h) ->
    gentry_ok spec R s h f -> gentry_ok spec R' s' h f.
  Proof.
    intros Hn Dom HR ((n & -> & Hn') & o & Hs & Ho & Hk). split; [exists n; split; [reflexivity|lia]|].
    exists o. split; [exact Hs|]. split; [exact Ho|]. destruct (f_kind f); auto. destruct Hk as [Hp Hk]. split; [exact Hp|].
    intros H1 H2. destruct (Hk H1) as (k & K1 & K2 & K3 & K4 & K5); [intros Hr; apply H2, HR, Hr|].
    exists k. repeat split; auto.
  Qed.

  Lemma GI_view spec R s s' :
    heap s' = heap s -> batches s' = batches s -> top_next s' = top_next s -> GI spec R s -> GI spec R s'.
  Proof.
    intros Hh Hb Hn (HE & HI & HN).
    pose proof (get_view s s' Hh) as G.
    split; [|split; [|rewrite Hn; exact HN]].
    - intros h f Hg. rewrite G in Hg. apply (gentry_ok_mono spec R R s); auto; [lia|intros x; rewrite G; auto].
    - intros k h Hin. unfold get_batch in Hin. rewrite Hb in Hin. rewrite G. exact (HI k h Hin).
  Qed.

  Lemma GI_mono spec (R R' : fid -> Prop) s : (forall x, R x -> R' x) -> GI spec R s -> GI spec R' s.
  Proof.
    intros HRR (HE & HI & HN). split; [|split; assumption].
    intros h f Hg. apply (gentry_ok_mono spec R R' s); auto. lia.
  Qed.

  (* One entry replaced.  The caller shows gentry_ok for the new entry only, and may use that the domain is unchanged;
     an item stays an item with the same batch coordinates (items_ok).  GI_upd_task, GI_lazy, GI_finish and GI_suspend
     are instances. *)
  Lemma GI_upd spec (R R' : fid -> Prop) s s' h f f' :
    get h s = Some f -> GI spec R s -> upd_entry s s' h f' ->
    (forall x, x <> h -> R x -> R' x) ->
    ((forall x, get x s' <> None <-> get x s <> None) -> gentry_ok spec R' s' h f') ->
    (forall out kind idx key a, f = mkFut out (KItem kind idx key a) -> exists out', f' = mkFut out' (KItem kind idx key a)) ->
    GI spec R' s'.
  Proof.
    intros Hg (HE & HI & HN) U HRR Hok Hitem.
    pose proof (upd_entry_dom _ _ _ _ _ Hg U) as Dom. destruct U as (A & B & C & D).
    split; [|split]; [| |rewrite D; exact HN].
    - intros x fx Hx. destruct (fid_eqb_spec x h) as [->|Hne].
      + rewrite A in Hx. inversion Hx; subst fx. apply Hok. exact Dom.
      + rewrite (B x Hne) in Hx.
        apply (gentry_ok_mono spec R R' s); auto; [lia|intros y; apply Dom].
    - intros k x Hin. unfold get_batch in Hin. rewrite C in Hin.
      destruct (HI k x Hin) as (out & kind & idx & key & a & E).
      destruct (fid_eqb_spec x h) as [->|Hne].
      + rewrite Hg in E. inversion E; subst f.
        destruct (Hitem _ _ _ _ _ eq_refl) as (out' & ->). exists out', kind, idx, key, a. exact A.
      + exists out, kind, idx, key, a. rewrite (B x Hne). exact E.
  Qed.

  Lemma GI_entry spec R s h f : GI spec R s -> get h s = Some f -> gentry_ok spec R s h f.
  Proof. intros (HE & _) Hg. apply HE. exact Hg. Qed.

  Lemma GI_items spec R s : GI spec R s -> items_ok s.
  Proof. intros (_ & HI & _). exact HI. Qed.

  Lemma GI_plain spec R s t out tk : GI spec R s -> get t s = Some (mkFut out (KTask tk)) ->
    forallb plain_ctx (tk_ctxs tk) = true.
  Proof. intros HS Hg. destruct (GI_entry _ _ _ _ _ HS Hg) as (_ & o & _ & _ & Hp & _). exact Hp. Qed.

  Lemma GI_computed_spec spec R s h : GI spec R s -> computed h s = true -> spec h = Some (outcome_of h s).
  Proof.
    intros HS Hc. unfold computed, outcome_of in *. destruct (get h s) as [f|] eqn:Hg; [|discriminate].
    destruct (f_out f) as [o|] eqn:Ho; [|discriminate].
    destruct (GI_entry _ _ _ _ _ HS Hg) as (_ & o' & Hs & Hx & _). rewrite (Hx o Ho). exact Hs.
  Qed.

  Lemma GI_fresh_id spec R s : GI spec R s -> get [top_next s] s = None.
  Proof.
    intros HS. destruct (get [top_next s] s) as [f|] eqn:Hg; [|reflexivity].
    destruct (GI_entry _ _ _ _ _ HS Hg) as ((n & E & Hn) & _). inversion E. lia.
  Qed.

  Lemma GI_upd_task spec R s s' t out tk tk' :
    get t s = Some (mkFut out (KTask tk)) -> GI spec R s ->
    upd_entry s s' t (mkFut out (KTask tk')) ->
    forallb plain_ctx (tk_ctxs tk') = true ->
    (out = None -> ~ R t -> forall o, spec t = Some o -> gtask_ok spec s tk' o) ->
    GI spec R s'.
  Proof.
    intros Hg HS U Hp Hk. destruct (GI_entry _ _ _ _ _ HS Hg) as ((n & -> & Hn) & o & Hs & Ho & _).
    apply (GI_upd spec R R s s' [n] _ _ Hg HS U); [auto| |intros; discriminate].
    intros Dom. destruct U as (_ & _ & _ & D). split; [exists n; rewrite D; auto|].
    exists o. split; [exact Hs|]. split; [exact Ho|]. cbn. split; [exact Hp|].
    intros H1 H2. destruct (Hk H1 H2 o Hs) as (k & K1 & K2 & K3 & K4 & K5).
    exists k. repeat split; auto. intros h' Hin. apply Dom. apply K4. exact Hin.
  Qed.

  Lemma GI_item_steps spec R s s' : item_steps s s' -> GI spec R s -> GI spec R s'.
  Proof.
    intros (N & B & H) (HE & HI & HN).
    assert (Dom : forall x, get x s <> None -> get x s' <> None).
    { intros x Hx. destruct (H x) as [E|(? & ? & ? & ? & G & G')]; [rewrite E; exact Hx|rewrite G'; discriminate]. }
    split; [|split; [|rewrite N; exact HN]].
    - intros h f Hg. destruct (H h) as [E|(kd & ix & ky & a & G & G')].
      + rewrite E in Hg. apply (gentry_ok_mono spec R R s); auto. lia.
      + rewrite G' in Hg. inversion Hg; subst f. destruct (HE h _ G) as ((n & -> & Hn) & o & Hs & _ & Hk).
        split; [exists n; rewrite N; auto|]. exists o. split; [exact Hs|]. cbn in *.
        split; [intros o' E; inversion E; congruence|exact Hk].
    - intros k h Hin. rewrite B in Hin. destruct (HI k h Hin) as (o & kd & ix & ky & a & E).
      destruct (H h) as [E2|(? & ? & ? & ? & G & G')]; [do 5 eexists; rewrite E2; exact E|do 5 eexists; exact G'].
  Qed.

  Lemma GI_noraise spec R s t out tk : GI spec R s -> get t s = Some (mkFut out (KTask tk)) -> noraise (tk_ctxs tk).
  Proof. intros HS Hg. exact (plain_noraise _ (GI_plain _ _ _ _ _ _ HS Hg)). Qed.

  Lemma GI_flags spec R s s2 x out tk ds act :
    get x s = Some (mkFut out (KTask tk)) -> GI spec R s -> tupd s s2 x out (tk_flags tk ds act) -> GI spec R s2.
  Proof.
    intros Hg HS U.
    apply (GI_upd_task spec R s s2 x out tk _ Hg HS (tupd_upd_entry _ _ _ _ _ U) (GI_plain _ _ _ _ _ _ HS Hg)).
    intros Eo Nr o Hs. destruct (GI_entry _ _ _ _ _ HS Hg) as (_ & o' & Hs' & _ & _ & Hk).
    rewrite Hs in Hs'. inversion Hs'; subst o'. exact (Hk Eo Nr).
  Qed.

  Lemma GI_lazy spec R s x out o : GI spec R s -> get x s = Some (mkFut out (KLazy o)) ->
    GI spec R (put x (mkFut (Some o) (KLazy o)) s).
  Proof.
    intros HS Hg. apply (GI_upd spec R R s _ x _ _ Hg HS (upd_entry_put _ _ _)); [auto| |intros; discriminate].
    intros _. destruct (GI_entry _ _ _ _ _ HS Hg) as (A & o1 & Hs & _ & Hk). cbn in Hk. subst o1.
    split; [exact A|]. exists o. split; [exact Hs|]. split; [intros o2 E; inversion E; reflexivity|reflexivity].
  Qed.

  Lemma GI_unblocked spec (R : fid -> Prop) s x tk :
    GI spec R s -> get x s = Some (mkFut None (KTask tk)) -> ~ R x -> is_blocked tk s = false ->
    forall h, In (RFut h) (leaves (tk_last tk)) -> computed h s = true.
  Proof.
    intros HS Hg Nr Hb h Hin. destruct (GI_entry _ _ _ _ _ HS Hg) as (_ & o & _ & _ & _ & Hk).
    destruct (Hk eq_refl Nr) as (k0 & _ & _ & _ & _ & K5). destruct (computed h s) eqn:Hch; [reflexivity|].
    unfold is_blocked in Hb. rewrite <- Hb. apply existsb_exists. exists h.
    rewrite Hch. split; [exact (K5 h Hin)|reflexivity].
  Qed.

  Lemma GI_above_free spec R s : GI spec R s -> above_free s.
  Proof.
    intros HS n Hn. destruct (get [n] s) as [f|] eqn:Hg; [|reflexivity].
    destruct (GI_entry _ _ _ _ _ HS Hg) as ((n' & E & Hn') & _). inversion E. lia.
  Qed.

  Lemma GI_exempt spec (R : fid -> Prop) s s2 t tk tk1 :
    get t s = Some (mkFut None (KTask tk)) -> GI spec R s -> R t -> tupd s s2 t None tk1 ->
    forallb plain_ctx (tk_ctxs tk1) = true -> GI spec R s2.
  Proof.
    intros Hg HS Hr U Hp. apply (GI_upd_task spec R s s2 t None tk tk1 Hg HS (tupd_upd_entry _ _ _ _ _ U) Hp).
    intros _ N. destruct (N Hr).
  Qed.

  Lemma GI_finish spec (R R' : fid -> Prop) s s2 t tk o :
    get t s = Some (mkFut None (KTask tk)) -> GI spec R s -> spec t = Some o ->
    tupd s s2 t (Some o) (closed_task tk) -> (forall x, x <> t -> R x -> R' x) -> GI spec R' s2.
  Proof.
    intros Hg HS Hs U HRR. pose proof (tupd_upd_entry _ _ _ _ _ U) as U'.
    apply (GI_upd spec R R' s s2 t _ _ Hg HS U' HRR); [|intros; discriminate].
    intros _. destruct (GI_entry _ _ _ _ _ HS Hg) as ((n & -> & Hn) & _ & _ & _ & Hp & _). destruct U' as (_ & _ & _ & D).
    split; [exists n; rewrite D; auto|]. exists o. split; [exact Hs|].
    split; [intros o2 E; inversion E; reflexivity|]. cbn. split; [exact Hp|]. intros E; discriminate.
  Qed.

  Lemma GI_suspend spec (R R' : fid -> Prop) s s2 t tk k y' o :
    get t s = Some (mkFut None (KTask tk)) -> GI spec R s -> spec t = Some o ->
    tupd s s2 t None (mkTask (Some k) y' (tk_deps tk ++ futs (extract y')) (tk_ctxs tk) (tk_cact tk) (tk_ds tk)
                             (tk_iter tk) (tk_next tk)) ->
    (forall x, cls (k x)) -> ev (k (unwrap (look_spec spec) y')) = o ->
    (forall h, In (RFut h) (leaves y') -> get h s <> None) ->
    (forall x, x <> t -> R x -> R' x) -> GI spec R' s2.
  Proof.
    intros Hg HS Hs U Hk He Ha HRR. pose proof (tupd_upd_entry _ _ _ _ _ U) as U'.
    apply (GI_upd spec R R' s s2 t _ _ Hg HS U' HRR); [|intros; discriminate].
    intros Dom. destruct (GI_entry _ _ _ _ _ HS Hg) as ((n & -> & Hn) & _ & _ & _ & Hp & _). destruct U' as (_ & _ & _ & D).
    split; [exists n; rewrite D; auto|]. exists o. split; [exact Hs|]. split; [intros o2 E; discriminate|].
    cbn. split; [exact Hp|]. intros _ _. exists k. split; [reflexivity|]. split; [exact Hk|]. split; [exact He|]. split.
    - intros h Hin. apply Dom. apply Ha. exact Hin.
    - intros h Hin. apply in_or_app. right. unfold futs. apply in_flat_map. exists (RFut h).
      split; [apply extract_same_elements; exact Hin|left; reflexivity].
  Qed.

  Definition cls_fexpr (f : fexpr) : Prop := match f with FTask p => cls p | _ => True end.
  Definition cls_leaf (l : leaf) : Prop := match l with LNew f => cls_fexpr f | LOld _ => False | LBad => True end.
  Definition ev_fexpr (f : fexpr) : outcome :=
    match f with FTask p => ev p | FItem _ _ a => item_out a | FConst v => Ok v | FError e => Err e | FLazy o => o end.
  Definition ev_leaf (l : leaf) : outcome :=
    match l with LNew f => ev_fexpr f | LOld _ => Err E_NOTIMPL | LBad => Err E_TYPEERROR end.

  Lemma GI_add spec R s s1 ent o :
    GI spec R s -> let h := [top_next s] in
    top_next s1 = (top_next s + 1)%Z ->
    (forall x, x <> h -> get x s1 = get x s) -> get h s1 = Some ent ->
    (forall o', f_out ent = Some o' -> o' = o) ->
    match f_kind ent with
    | KTask tk => forallb plain_ctx (tk_ctxs tk) = true /\ tk_last tk = YNone /\
                  exists p, tk_gen tk = Some (fun _ => p) /\ cls p /\ ev p = o
    | KItem _ _ _ a => item_out a = o
    | KLazy o' => o' = o
    | KOther => f_out ent <> None
    end ->
    items_ok s1 ->
    GI (spec_add spec h o) R s1.
  Proof.
    intros HS h Hn1 Hoth Hnew Hout Hkind HI1. pose proof (GI_fresh_id _ _ _ HS) as Hfresh. fold h in Hfresh.
    destruct HS as (HE & HI & HN).
    split; [|split]; [|exact HI1|rewrite Hn1; lia].
    intros x fx Hx. destruct (fid_eqb_spec x h) as [->|Nx].
    - rewrite Hnew in Hx. inversion Hx; subst fx.
      split; [exists (top_next s); split; [reflexivity|lia]|]. exists o.
      split; [apply spec_add_same|]. split; [exact Hout|].
      destruct (f_kind ent) as [tk| | |]; auto.
      destruct Hkind as (Hp & Hl & p & Hgen & Hst & Hev). split; [exact Hp|].
      intros _ _. exists (fun _ => p). rewrite Hl. split; [exact Hgen|]. split; [intros _; exact Hst|].
      split; [exact Hev|]. split; intros h' [].
    - rewrite (Hoth x Nx) in Hx. destruct (HE x fx Hx) as ((n & E & Hn) & ox & Hs & Ho & Hk).
      split; [exists n; rewrite Hn1; split; [exact E|lia]|]. exists ox.
      split; [rewrite (spec_add_other _ _ _ _ Nx); exact Hs|]. split; [exact Ho|].
      destruct (f_kind fx); auto. destruct Hk as (Hp & Hk). split; [exact Hp|].
      intros H1 H2. destruct (Hk H1 H2) as (k0 & K1 & K2 & K3 & K4 & K5). exists k0. split; [exact K1|]. split; [exact K2|].
      split; [rewrite (unwrap_look_ext spec _ s _ (ext_spec_add spec s h o Hfresh) K4); exact K3|]. split; [|exact K5].
      intros h' Hin. destruct (fid_eqb_spec h' h) as [->|N']; [rewrite Hnew; discriminate|].
      rewrite (Hoth h' N'). apply K4. exact Hin.
  Qed.

  Lemma GI_create spec R parent f s :
    GI spec R s -> cls_fexpr f ->
    let h := fst (create parent f s) in
    let s1 := snd (create parent f s) in
    get h s = None /\ GI (spec_add spec h (ev_fexpr f)) R s1 /\ get h s1 = Some (new_entry f s) /\
    (forall x, x <> h -> get x s1 = get x s) /\ h = [top_next s] /\ top_next s1 = (top_next s + 1)%Z.
  Proof.
    intros HS Hf. pose proof (GI_fresh_id _ _ _ HS) as Hfresh.
    destruct (create_spec parent f s) as (Eh & Hn1 & Hoth & Hnew & Hit). cbn zeta. rewrite Eh.
    split; [exact Hfresh|]. split; [|auto].
    apply (GI_add spec R s _ (new_entry f s) (ev_fexpr f) HS Hn1 Hoth Hnew).
    - destruct f; cbn; intros o' E; inversion E; reflexivity.
    - destruct f as [p|kind key a|v|e|o]; cbn; try reflexivity; try discriminate.
      split; [reflexivity|]. split; [reflexivity|]. exists p. auto.
    - intros k x Hin. destruct (Hit k x Hin) as [Hold|(-> & It)]; [|exact It].
      destruct (GI_items _ _ _ HS k x Hold) as (out & kd & idx & ky & a & E). exists out, kd, idx, ky, a.
      rewrite Hoth; [exact E|]. intros ->. rewrite Hfresh in E. discriminate.
  Qed.

  (* Evaluating a yield expression, for an exempt set R and any further property X of ghost map and state
     that creating a future preserves *)
  Section Inst.
  Variables (R : fid -> Prop) (parent : fid) (X : specmap -> st -> Prop).
  Hypothesis X_create : forall spec s f, GI spec R s -> X spec s ->
    X (spec_add spec [top_next s] (ev_fexpr f)) (snd (create parent f s)).

  Let GX (spec : specmap) (s : st) : Prop := GI spec R s /\ X spec s.

  Definition ginst_post (spec : specmap) (s : st) (spec' : specmap) (s1 : st) : Prop :=
    ext_spec s spec spec' /\ GX spec' s1 /\ (forall x, get x s <> None -> get x s1 = get x s) /\
    (top_next s <= top_next s1)%Z.

  Lemma ginst_post_refl spec s : GX spec s -> ginst_post spec s spec s.
  Proof. intros HS. split; [intros x _; reflexivity|]. split; [exact HS|]. split; [auto|lia]. Qed.

  Lemma ginst_post_trans spec s spec1 s1 spec2 s2 :
    ginst_post spec s spec1 s1 -> ginst_post spec1 s1 spec2 s2 -> ginst_post spec s spec2 s2.
  Proof.
    intros (E1 & S1 & O1 & T1) (E2 & S2 & O2 & T2). split; [|split; [exact S2|split; [|lia]]].
    - intros x Hx. rewrite E2, E1; auto. rewrite O1; auto.
    - intros x Hx. rewrite O2, O1; auto. rewrite O1; auto.
  Qed.

  (* the futures of the result are new: allocated afterwards, numbered from the old counter on *)
  Definition new_futs (s s1 : st) (l : list rleaf) : Prop :=
    forall h, In (RFut h) l -> get h s1 <> None /\ (top_next s <= hd 0%Z h)%Z.

  Definition inst_ok (y : ystruct leaf) : Prop := forall spec s,
    GX spec s -> (forall l, In l (leaves y) -> cls_leaf l) ->
    exists spec', ginst_post spec s spec' (snd (inst parent y s)) /\
      unwrap (look_spec spec') (fst (inst parent y s)) = unwrap ev_leaf y /\
      new_futs s (snd (inst parent y s)) (leaves (fst (inst parent y s))).

  (* the list recursion inside [inst], for tuples and lists *)
  Lemma inst_ok_list (go : list (ystruct leaf) -> st -> list (ystruct rleaf) * st) :
    (forall s, go [] s = ([], s)) ->
    (forall x l s, go (x :: l) s = let '(x', s1) := inst parent x s in let '(l'', s2) := go l s1 in (x' :: l'', s2)) ->
    forall l, Forall inst_ok l -> forall spec s,
    GX spec s -> (forall x, In x (flat_map leaves l) -> cls_leaf x) ->
    exists spec', ginst_post spec s spec' (snd (go l s)) /\
      unwrap_list (look_spec spec') (fst (go l s)) = unwrap_list ev_leaf l /\
      new_futs s (snd (go l s)) (flat_map leaves (fst (go l s))).
  Proof.
    intros G0 G1 l IH. induction IH as [|x l Hx Hl IHl]; intros spec s HS Ht.
    - rewrite G0. exists spec. split; [apply ginst_post_refl; exact HS|]. split; [reflexivity|intros h []].
    - rewrite G1. cbn [flat_map] in Ht.
      destruct (Hx spec s HS) as (spec1 & P1 & U1 & A1); [intros y Hy; apply Ht, in_or_app; auto|].
      destruct (inst parent x s) as [x' s1]. cbn [fst snd] in *.
      destruct (IHl spec1 s1 (proj1 (proj2 P1))) as (spec2 & P2 & U2 & A2); [intros y Hy; apply Ht, in_or_app; auto|].
      destruct (go l s1) as [l'' s2]. cbn [fst snd] in *.
      exists spec2. split; [eapply ginst_post_trans; eauto|]. split.
      + cbn [unwrap_list]. rewrite (unwrap_look_ext spec1 spec2 s1 x' (proj1 P2)), U1, U2; [reflexivity|].
        intros h Hin. apply A1. exact Hin.
      + intros h Hin. cbn [flat_map] in Hin. apply in_app_or in Hin as [Hin|Hin].
        * destruct (A1 h Hin) as [B1 B2]. split; [|exact B2]. destruct P2 as (_ & _ & O2 & _). rewrite O2; exact B1.
        * destruct (A2 h Hin) as [B1 B2]. split; [exact B1|]. destruct P1 as (_ & _ & _ & T1). lia.
  Qed.

  Lemma inst_ok_dict (go : list (Z * ystruct leaf) -> st -> list (Z * ystruct rleaf) * st) :
    (forall s, go [] s = ([], s)) ->
    (forall k x l s, go ((k, x) :: l) s =
                     let '(x', s1) := inst parent x s in let '(l'', s2) := go l s1 in ((k, x') :: l'', s2)) ->
    forall l, Forall (fun kv => inst_ok (snd kv)) l -> forall spec s,
    GX spec s -> (forall x, In x (flat_map (fun kv => leaves (snd kv)) l) -> cls_leaf x) ->
    exists spec', ginst_post spec s spec' (snd (go l s)) /\
      unwrap_dict (look_spec spec') (fst (go l s)) = unwrap_dict ev_leaf l /\
      new_futs s (snd (go l s)) (flat_map (fun kv => leaves (snd kv)) (fst (go l s))).
  Proof.
    intros G0 G1 l IH. induction IH as [|[k x] l Hx Hl IHl]; intros spec s HS Ht.
    - rewrite G0. exists spec. split; [apply ginst_post_refl; exact HS|]. split; [reflexivity|intros h []].
    - rewrite G1. cbn [flat_map snd] in Ht. cbn [snd] in Hx.
      destruct (Hx spec s HS) as (spec1 & P1 & U1 & A1); [intros y Hy; apply Ht, in_or_app; auto|].
      destruct (inst parent x s) as [x' s1]. cbn [fst snd] in *.
      destruct (IHl spec1 s1 (proj1 (proj2 P1))) as (spec2 & P2 & U2 & A2); [intros y Hy; apply Ht, in_or_app; auto|].
      destruct (go l s1) as [l'' s2]. cbn [fst snd] in *.
      exists spec2. split; [eapply ginst_post_trans; eauto|]. split.
      + cbn [unwrap_dict]. rewrite (unwrap_look_ext spec1 spec2 s1 x' (proj1 P2)), U1, U2; [reflexivity|].
        intros h Hin. apply A1. exact Hin.
      + intros h Hin. cbn [flat_map snd] in Hin. apply in_app_or in Hin as [Hin|Hin].
        * destruct (A1 h Hin) as [B1 B2]. split; [|exact B2]. destruct P2 as (_ & _ & O2 & _). rewrite O2; exact B1.
        * destruct (A2 h Hin) as [B1 B2]. split; [exact B1|]. destruct P1 as (_ & _ & _ & T1). lia.
  Qed.

  Lemma GI_inst (y : ystruct leaf) : inst_ok y.
  Proof.
    induction y as [| a | l IH | l IH | l IH] using ystruct_ind2; intros spec s HS Ht.
    - exists spec. split; [apply ginst_post_refl; exact HS|]. split; [reflexivity|intros h []].
    - destruct a as [f|h|]; [|destruct (Ht (LOld h) (or_introl eq_refl))|].
      + destruct HS as [HG HX]. pose proof (Ht (LNew f) (or_introl eq_refl)) as Hf.
        pose proof (GI_create spec R parent f s HG Hf) as HC. pose proof (X_create spec s f HG HX) as HX1.
        cbn zeta in HC. cbn [inst]. destruct (create parent f s) as [h s1]. cbn [fst snd] in *.
        destruct HC as (Hfresh & HS1 & Hnew & Hoth & Hh & Hn1). rewrite <- Hh in HX1.
        exists (spec_add spec h (ev_fexpr f)). split; [|split].
        * split; [|split; [exact (conj HS1 HX1)|split; [|lia]]].
          -- exact (ext_spec_add spec s h _ Hfresh).
          -- intros x Hx. apply Hoth. intros ->. congruence.
        * cbn. rewrite spec_add_same. reflexivity.
        * intros h' [E|[]]. inversion E; subst h'. rewrite Hnew. split; [discriminate|]. rewrite Hh. cbn. lia.
      + exists spec. split; [apply ginst_post_refl; exact HS|]. split; [reflexivity|]. intros h [E|[]]. discriminate.
    - cbn [inst]. match goal with |- context [(?g l s)] => set (go := g) end.
      destruct (inst_ok_list go ltac:(reflexivity) ltac:(reflexivity) l IH spec s HS) as (spec' & P' & U' & A');
        [rewrite <- leaves_tuple; exact Ht|].
      destruct (go l s) as [l' s1]. cbn [fst snd] in *.
      exists spec'. split; [exact P'|]. rewrite !unwrap_tuple, U', leaves_tuple. auto.
    - cbn [inst]. match goal with |- context [(?g l s)] => set (go := g) end.
      destruct (inst_ok_list go ltac:(reflexivity) ltac:(reflexivity) l IH spec s HS) as (spec' & P' & U' & A');
        [rewrite <- leaves_ylist; exact Ht|].
      destruct (go l s) as [l' s1]. cbn [fst snd] in *.
      exists spec'. split; [exact P'|]. rewrite !unwrap_ylist, U', leaves_ylist. auto.
    - cbn [inst]. match goal with |- context [(?g l s)] => set (go := g) end.
      destruct (inst_ok_dict go ltac:(reflexivity) ltac:(reflexivity) l IH spec s HS) as (spec' & P' & U' & A');
        [rewrite <- leaves_ydict; exact Ht|].
      destruct (go l s) as [l' s1]. cbn [fst snd] in *.
      exists spec'. split; [exact P'|]. rewrite !unwrap_ydict, U', leaves_ydict. auto.
  Qed.
  End Inst.
End Gen.

(* a suspended task: its continuation, fed with the specified outcomes of what it yielded, evaluates
   to the task's own specified outcome *)
Definition task_ok (spec : specmap) (s : st) (tk : task) (o : outcome) : Prop :=
  exists k, tk_gen tk = Some k /\ (forall x, tree (k x)) /\
    eval (k (unwrap (look_spec spec) (tk_last tk))) = o /\
    (forall h, In (RFut h) (leaves (tk_last tk)) -> get h s <> None) /\
    (forall h, In (RFut h) (leaves (tk_last tk)) -> In h (tk_deps tk)).

Definition entry_ok (spec : specmap) (running : option fid) (s : st) (h : fid) (f : fut) : Prop :=
  (exists n, h = [n] /\ (0 <= n < top_next s)%Z) /\
  exists o, spec h = Some o /\ (forall o', f_out f = Some o' -> o' = o) /\
  match f_kind f with
  | KTask tk => forallb plain_ctx (tk_ctxs tk) = true /\
                (f_out f = None -> running <> Some h -> task_ok spec s tk o)
  | KItem _ _ _ a => item_out a = o
  | KLazy o' => o' = o
  | KOther => f_out f <> None
  end.

Definition SInv (spec : specmap) (running : option fid) (s : st) : Prop :=
  (forall h f, get h s = Some f -> entry_ok spec running s h f) /\ items_ok s /\ (0 <= top_next s)%Z.

(* [SInv spec r] is [GI tree eval spec (fun h => r = Some h)], by computation *)
Lemma SInv_view spec r s s' :
  heap s' = heap s -> batches s' = batches s -> top_next s' = top_next s -> SInv spec r s -> SInv spec r s'.
Proof. exact (GI_view tree eval spec (fun h => r = Some h) s s'). Qed.

Lemma SInv_running spec t s : SInv spec None s -> SInv spec (Some t) s.
Proof. apply (GI_mono tree eval spec (fun h => None = Some h) (fun h => Some t = Some h)). intros x E. discriminate E. Qed.

Lemma SInv_entry spec r s h f : SInv spec r s -> get h s = Some f -> entry_ok spec r s h f.
Proof. intros (HE & _) Hg. apply HE. exact Hg. Qed.

Lemma SInv_items spec r s : SInv spec r s -> items_ok s.
Proof. intros (_ & HI & _). exact HI. Qed.

Lemma SInv_plain spec r s t out tk : SInv spec r s -> get t s = Some (mkFut out (KTask tk)) ->
  forallb plain_ctx (tk_ctxs tk) = true.
Proof. exact (GI_plain tree eval spec _ s t out tk). Qed.

Lemma SInv_task_ok spec s t tk o : SInv spec None s -> get t s = Some (mkFut None (KTask tk)) -> spec t = Some o ->
  task_ok spec s tk o.
Proof.
  intros HS Hg Hs. destruct (SInv_entry _ _ _ _ _ HS Hg) as (_ & o' & Hs' & _ & _ & Hk).
  rewrite Hs in Hs'. inversion Hs'; subst o'. apply Hk; [reflexivity|discriminate].
Qed.

Lemma SInv_computed_spec spec r s h : SInv spec r s -> computed h s = true -> spec h = Some (outcome_of h s).
Proof. exact (GI_computed_spec tree eval spec _ s h). Qed.

Lemma SInv_continue_with_batch spec r P s :
  pointwise P -> SInv spec r s ->
  SInv spec r (continue_with_batch P s) /\
  (forall h, computed h s = true -> computed h (continue_with_batch P s) = true) /\
  (forall t out tk, get t s = Some (mkFut out (KTask tk)) -> get t (continue_with_batch P s) = Some (mkFut out (KTask tk))).
Proof.
  intros HP HS. pose proof (continue_with_batch_item_steps P s HP (SInv_items _ _ _ HS)) as S.
  split; [exact (GI_item_steps tree eval spec _ _ _ S HS)|].
  split; [intros h; apply (item_steps_computed _ _ _ S)|intros t out tk; apply (item_steps_task _ _ _ _ _ S)].
Qed.

Lemma tree_fexpr_cls f : tree_fexpr f -> cls_fexpr tree f.
Proof. intros H. destruct H; cbn; auto. Qed.

Lemma tree_leaf_cls l : tree_leaf l -> cls_leaf tree l.
Proof. intros H. destruct H as [f Hf|]; [exact (tree_fexpr_cls f Hf)|exact I]. Qed.

Lemma fexpr_out_ev f : fexpr_out f = ev_fexpr eval f.
Proof. destruct f; reflexivity. Qed.

Lemma leaf_out_ev l : leaf_out l = ev_leaf eval l.
Proof. destruct l as [f| |]; [apply fexpr_out_ev|reflexivity|reflexivity]. Qed.

Lemma SInv_create spec r parent f s :
  SInv spec r s -> tree_fexpr f ->
  let h := fst (create parent f s) in
  let s1 := snd (create parent f s) in
  let spec' := spec_add spec h (fexpr_out f) in
  get h s = None /\ SInv spec' r s1 /\ get h s1 <> None /\
  (forall x, x <> h -> get x s1 = get x s).
Proof.
  intros HS Hf. pose proof (GI_create tree eval spec _ parent f s HS (tree_fexpr_cls f Hf)) as HC.
  cbn zeta in *. destruct HC as (A & B & C & D & _). rewrite fexpr_out_ev.
  split; [exact A|]. split; [exact B|]. split; [rewrite C; discriminate|exact D].
Qed.

Definition inst_post (spec : specmap) (r : option fid) (s : st) (spec' : specmap) (s1 : st) : Prop :=
  ext_spec s spec spec' /\ SInv spec' r s1 /\ (forall x, get x s <> None -> get x s1 = get x s).

Lemma SInv_inst r parent (y : ystruct leaf) : forall spec s,
  SInv spec r s -> (forall l, In l (leaves y) -> tree_leaf l) ->
  exists spec', inst_post spec r s spec' (snd (inst parent y s)) /\
    unwrap (look_spec spec') (fst (inst parent y s)) = unwrap leaf_out y /\
    (forall h, In (RFut h) (leaves (fst (inst parent y s))) -> get h (snd (inst parent y s)) <> None).
Proof.
  intros spec s HS Ht.
  destruct (GI_inst tree eval _ parent (fun _ _ => True) (fun _ _ _ _ _ => I) y spec s (conj HS I))
    as (spec' & (E & (S1 & _) & O & _) & U & A); [intros l Hl; apply tree_leaf_cls, Ht, Hl|].
  exists spec'. split; [split; [exact E|split; [exact S1|exact O]]|]. split; [|intros h Hin; apply A, Hin].
  rewrite U. apply unwrap_ext. intros l _. symmetry. apply leaf_out_ev.
Qed.

Definition is_task (t : fid) (s : st) : Prop := exists out tk, get t s = Some (mkFut out (KTask tk)).

Lemma is_task_view s s' x : heap s' = heap s -> is_task x s -> is_task x s'.
Proof. intros Hh (out & tk & Hg). exists out, tk. rewrite (get_view s s' Hh x). exact Hg. Qed.

(* One scheduler loop over one wait_for: a tree program never pushes a second FWait (that is what Sync does; the class
   with Sync has MachineC01S.CI). *)
Definition frames_ok (root : fid) (m : mode) (fr : list frame) : Prop :=
  match m with
  | MValue _ | MDeliver _ => fr = [FTop]
  | MWaitHead | MAfterExec => fr = [FWait root; FTop]
  | MExecLoop => exists i, fr = [FExec i; FWait root; FTop]
  | MResume t | MRun t _ => exists old i, fr = [FCont t old; FExec i; FWait root; FTop]
  | MContRet => exists t old i, fr = [FCont t old; FExec i; FWait root; FTop]
  | MUnwind _ | MDone _ | MStuck => True
  end.

Definition running_of (m : mode) : option fid := match m with MRun t _ => Some t | _ => None end.

Lemma is_task_tupd s s' t o tk x : tupd s s' t o tk -> is_task x s -> is_task x s'.
Proof.
  intros (A & B & _) (out & tk0 & Hg). destruct (fid_eqb_spec x t) as [->|N].
  - exists o, tk. exact A.
  - exists out, tk0. rewrite (B x N). exact Hg.
Qed.

Lemma look_agree spec r s (last : ystruct rleaf) :
  SInv spec r s -> (forall h, In (RFut h) (leaves last) -> computed h s = true) ->
  unwrap (look s) last = unwrap (look_spec spec) last.
Proof.
  intros HS Hc. apply unwrap_ext. intros [h|] Hin; [|reflexivity]. cbn.
  rewrite (SInv_computed_spec _ _ _ _ HS (Hc h Hin)). reflexivity.
Qed.

Lemma in_futs (l : list rleaf) h : In h (futs l) <-> In (RFut h) l.
Proof.
  unfold futs. rewrite in_flat_map. split.
  - intros ([h'|] & Hin & Hh); [destruct Hh as [<-|[]]; exact Hin|destruct Hh].
  - intros Hin. exists (RFut h). split; [exact Hin|left; reflexivity].
Qed.

Lemma remove_ctx_plain c l : forallb plain_ctx l = true -> forallb plain_ctx (remove_ctx c l) = true.
Proof.
  intros H. unfold remove_ctx. rewrite forallb_forall in *. intros x Hx. apply filter_In in Hx as [Hx _]. auto.
Qed.

Section Main.
  Variable P : params.
  Hypothesis HP : pointwise P.
  Variable root : fid.
  Variable res : outcome.

  Definition CInv (spec : specmap) (c : cfg) : Prop :=
    spec root = Some res /\
    match c_mode c with
    | MUnwind _ | MStuck => True
    | MDone o => o = res
    | m =>
      frames_ok root m (c_frames c) /\ SInv spec (running_of m) (c_st c) /\ is_task root (c_st c) /\
      match m with
      | MValue h => h = root
      | MDeliver o => o = res
      | MResume t => exists tk, get t (c_st c) = Some (mkFut None (KTask tk)) /\
                       (forall h, In (RFut h) (leaves (tk_last tk)) -> computed h (c_st c) = true)
      | MRun t p => tree p /\ spec t = Some (eval p) /\ exists tk, get t (c_st c) = Some (mkFut None (KTask tk))
      | _ => True
      end
    end.

  Lemma outcome_root spec s : SInv spec None s -> spec root = Some res -> computed root s = true -> outcome_of root s = res.
  Proof.
    intros HS Hr Hc. pose proof (SInv_computed_spec _ _ _ _ HS Hc) as E. rewrite Hr in E. inversion E. reflexivity.
  Qed.

  Lemma CInv_intro spec m fr s :
    spec root = Some res -> frames_ok root m fr -> SInv spec (running_of m) s -> is_task root s ->
    match m with
    | MValue h => h = root
    | MDeliver o => o = res
    | MResume t => exists tk, get t s = Some (mkFut None (KTask tk)) /\
                     (forall h, In (RFut h) (leaves (tk_last tk)) -> computed h s = true)
    | MRun t p => tree p /\ spec t = Some (eval p) /\ exists tk, get t s = Some (mkFut None (KTask tk))
    | MDone o => o = res
    | _ => True
    end ->
    CInv spec (mkC m fr s).
  Proof.
    intros Hr Hf HS Ht Hm. split; [exact Hr|]. cbn [c_mode c_frames c_st].
    destruct m; try exact I; try exact Hm; (split; [exact Hf|split; [exact HS|split; [exact Ht|exact Hm]]]).
  Qed.

  Lemma CInv_MResume spec c t : CInv spec c -> c_mode c = MResume t ->
    SInv spec None (c_st c) /\
    exists tk, get t (c_st c) = Some (mkFut None (KTask tk)) /\
      (forall h, In (RFut h) (leaves (tk_last tk)) -> computed h (c_st c) = true).
  Proof. intros (_ & HI) Hm. rewrite Hm in HI. destruct HI as (_ & HS & _ & HR). exact (conj HS HR). Qed.

  Lemma c01_MValue spec h fr s : CInv spec (mkC (MValue h) fr s) -> CInv spec (step P (mkC (MValue h) fr s)).
  Proof.
    intros (Hr & Hf & HS & Ht & ->). cbn in Hf, HS, Ht. subst fr. cbn [step c_mode c_frames c_st].
    destruct (computed root s) eqn:Hc.
    - apply CInv_intro; [exact Hr|reflexivity|exact HS|exact Ht|apply (outcome_root spec); auto].
    - pose proof Ht as (out & tk & Hg). rewrite Hg. apply CInv_intro; [exact Hr|reflexivity|exact HS|exact Ht|exact I].
  Qed.

  Lemma c01_wait_done spec s : spec root = Some res -> SInv spec None s -> is_task root s -> computed root s = true ->
    CInv spec (mkC (MDeliver (outcome_of root s)) [FTop] (drop_sb s)).
  Proof.
    intros Hr HS Ht Hc. apply CInv_intro; [exact Hr|reflexivity| | |exact (outcome_root spec s HS Hr Hc)].
    - apply (SInv_view spec None s); [apply heap_drop_sb|apply batches_drop_sb|apply top_next_drop_sb|exact HS].
    - apply (is_task_view s); [apply heap_drop_sb|exact Ht].
  Qed.

  Lemma c01_MWaitHead spec fr s : CInv spec (mkC MWaitHead fr s) -> CInv spec (step P (mkC MWaitHead fr s)).
  Proof.
    intros (Hr & Hf & HS & Ht & _). cbn in Hf, HS, Ht. subst fr. cbn [step c_mode c_frames c_st].
    destruct (computed root s) eqn:Hc; [exact (c01_wait_done spec s Hr HS Ht Hc)|].
    apply CInv_intro; [exact Hr|cbn; eauto|apply (SInv_view spec None s); auto|apply (is_task_view s); auto|exact I].
  Qed.

  Lemma c01_MAfterExec spec fr s : CInv spec (mkC MAfterExec fr s) -> CInv spec (step P (mkC MAfterExec fr s)).
  Proof.
    intros (Hr & Hf & HS & Ht & _). cbn in Hf, HS, Ht. subst fr. cbn [step c_mode c_frames c_st].
    destruct (computed root s) eqn:Hc; [exact (c01_wait_done spec s Hr HS Ht Hc)|].
    destruct (SInv_continue_with_batch spec None P s HP HS) as (A & B & C).
    apply CInv_intro; [exact Hr|reflexivity|exact A| |exact I].
    destruct Ht as (out & tk & Hg). exists out, tk. apply C. exact Hg.
  Qed.

  Lemma c01_MExecLoop spec fr s : CInv spec (mkC MExecLoop fr s) -> CInv spec (step P (mkC MExecLoop fr s)).
  Proof.
    intros (Hr & Hf & HS & Ht & _). cbn in Hf, HS, Ht. destruct Hf as (init & ->).
    assert (Hloop : forall s1 s', SInv spec None s1 -> is_task root s1 ->
                      heap s' = heap s1 -> batches s' = batches s1 -> top_next s' = top_next s1 ->
                      CInv spec (mkC MExecLoop [FExec init; FWait root; FTop] s')).
    { intros s1 s' HS1 Ht1 E1 E2 E3.
      apply CInv_intro; [exact Hr|cbn; eauto|apply (SInv_view spec None s1); auto|apply (is_task_view s1); auto|exact I]. }
    destruct (step_MExecLoop P init [FWait root; FTop] s (fun t out tk => GI_noraise tree eval spec _ s t out tk HS))
      as [Hle| |x ts Hts Hi Hx|x ts kind idx key a Hts Hi Hg|x ts o Hts Hi Hg
          |x ts tk s2 Hts Hi Hg Hb Hds U|x ts tk s2 Hts Hi Hg Hb Hds U|x ts tk s2 Hts Hi Hg Hb U].
    - apply CInv_intro; [exact Hr|reflexivity|exact HS|exact Ht|exact I].
    - split; [exact Hr|exact I].
    - apply (Hloop s); auto.
    - apply (Hloop s); auto; [apply heap_schedule_batch|apply batches_schedule_batch|apply top_next_schedule_batch].
    - apply (Hloop (put x (mkFut (Some o) (KLazy o)) s)); auto; [exact (GI_lazy tree eval spec _ s x None o HS Hg)|].
      destruct Ht as (out & tk & Hgr). exists out, tk. rewrite get_put_other; [exact Hgr|].
      intros ->. rewrite Hg in Hgr. discriminate.
    - apply (Hloop s2); auto; [exact (GI_flags tree eval spec _ s s2 x None tk _ _ Hg HS U)|exact (is_task_tupd _ _ _ _ _ _ U Ht)].
    - apply (Hloop s2); auto; [exact (GI_flags tree eval spec _ s s2 x None tk _ _ Hg HS U)|exact (is_task_tupd _ _ _ _ _ _ U Ht)].
    - pose proof (GI_flags tree eval spec _ s s2 x None tk _ _ Hg HS U) as HS2.
      apply CInv_intro; [exact Hr|cbn; eauto|apply (SInv_view spec None s2); auto
                        |apply (is_task_view s2); auto; exact (is_task_tupd _ _ _ _ _ _ U Ht)|].
      eexists. split; [exact (tupd_get _ _ _ _ _ U)|]. intros h Hin. change (computed h (with_active ?a ?b)) with (computed h a).
      rewrite (tupd_computed s s2 x tk _ Hg U h).
      exact (GI_unblocked tree eval spec _ s x tk HS Hg ltac:(discriminate) Hb h Hin).
  Qed.

  Lemma c01_MResume spec t fr s : CInv spec (mkC (MResume t) fr s) -> CInv spec (step P (mkC (MResume t) fr s)).
  Proof.
    intros (Hr & Hf & HS & Ht & (tk & Hg & Hcomp)). cbn in Hf, HS, Ht, Hg, Hcomp. destruct Hf as (old & i & ->).
    destruct (SInv_entry _ _ _ _ _ HS Hg) as (_ & ot & Hst & _ & Hp & Hk). cbn in Hp, Hk.
    destruct (Hk eq_refl ltac:(discriminate)) as (k & K1 & K2 & K3 & K4 & K5).
    destruct (step_MResume P t [FCont t old; FExec i; FWait root; FTop] s tk k Hg K1) as (s2 & -> & U & _).
    apply CInv_intro; [exact Hr|cbn; eauto| |exact (is_task_tupd _ _ _ _ _ _ U Ht)|].
    - exact (GI_exempt tree eval spec _ s s2 t tk _ Hg (SInv_running spec t s HS) eq_refl U Hp).
    - split; [apply K2|]. split; [|eexists; exact (tupd_get _ _ _ _ _ U)].
      rewrite (look_agree spec None s (tk_last tk) HS Hcomp), K3. exact Hst.
  Qed.

  (* the body of t takes a step; only a yield changes the ghost map, by what its new futures add *)
  Lemma c01_MRun_ext spec t p fr s : CInv spec (mkC (MRun t p) fr s) ->
    exists spec', CInv spec' (step P (mkC (MRun t p) fr s)) /\
      match p with
      | Yield y k =>
        inst_post spec (Some t) s spec' (snd (inst t y s)) /\
        unwrap (look_spec spec') (fst (inst t y s)) = unwrap leaf_out y /\
        (forall h, In (RFut h) (leaves (fst (inst t y s))) -> get h (snd (inst t y s)) <> None)
      | _ => spec' = spec
      end.
  Proof.
    intros (Hr & Hf & HS & Ht & (Htree & Hst & (tk & Hg))). cbn in Hf, HS, Ht, Hg. destruct Hf as (old & i & ->).
    set (fr := [FCont t old; FExec i; FWait root; FTop]).
    assert (Hfr : frames_ok root MContRet fr) by (exists t, old, i; reflexivity).
    assert (Hp : forallb plain_ctx (tk_ctxs tk) = true) by (apply (SInv_plain _ _ _ _ _ _ HS Hg)).
    assert (Hfin : forall q o, finishes q o -> spec t = Some o -> CInv spec (step P (mkC (MRun t q) fr s))).
    { intros q o Hq Hs. destruct (step_run_finish P t fr s tk Hg q o Hq) as (s2 & -> & U & _).
      apply CInv_intro; [exact Hr|exact Hfr| |exact (is_task_tupd _ _ _ _ _ _ U Ht)|exact I].
      apply (GI_finish tree eval spec _ _ s s2 t tk o Hg HS Hs U). intros x N E. inversion E. congruence. }
    assert (Hbody : forall k tk1 s2, tree k -> spec t = Some (eval k) -> forallb plain_ctx (tk_ctxs tk1) = true ->
               tupd s s2 t None tk1 -> CInv spec (mkC (MRun t k) fr s2)).
    { intros k tk1 s2 Hk Hsk Hp1 U.
      apply CInv_intro; [exact Hr|exists old, i; reflexivity|exact (GI_exempt tree eval spec _ s s2 t tk tk1 Hg HS eq_refl U Hp1)
                        |exact (is_task_tupd _ _ _ _ _ _ U Ht)|].
      split; [exact Hk|]. split; [exact Hsk|]. exists tk1. exact (tupd_get _ _ _ _ _ U). }
    inversion Htree as [v Ev|v Ev|e Ev|y k Hl Hk Ev|c k Hc Hk Ev|c k Hc Hk Ev]; subst p.
    - exists spec. split; [exact (Hfin _ _ (fin_ret v) Hst)|reflexivity].
    - exists spec. split; [exact (Hfin _ _ (fin_result v) Hst)|reflexivity].
    - exists spec. split; [exact (Hfin _ _ (fin_raise e) Hst)|reflexivity].
    - destruct (SInv_inst (Some t) t y spec s HS Hl) as (spec' & Hinst). exists spec'. split; [|exact Hinst].
      destruct Hinst as ((Ext & HS1 & Old) & U & A).
      destruct (step_run_yield P t fr s tk Hg y k (GI_above_free tree eval spec _ s HS)) as (s2 & -> & Hg1 & U2).
      destruct (inst t y s) as [y' s1]. cbn [fst snd] in *.
      assert (Hst' : spec' t = Some (eval (Yield y k))) by (rewrite Ext; [exact Hst|rewrite Hg; discriminate]).
      assert (Hr' : spec' root = Some res).
      { rewrite Ext; [exact Hr|]. destruct Ht as (o1 & tk1 & Hgr). rewrite Hgr. discriminate. }
      assert (HS2 : SInv spec' None s2).
      { apply (GI_suspend tree eval spec' _ _ s1 s2 t tk k y' _ Hg1 HS1 Hst' U2 Hk); [cbn; rewrite U; reflexivity|exact A|].
        intros x N E. inversion E. congruence. }
      assert (Ht2 : is_task root s2).
      { apply (is_task_tupd _ _ _ _ _ _ U2). destruct Ht as (o1 & tk1 & Hgr). exists o1, tk1.
        rewrite Old; [exact Hgr|rewrite Hgr; discriminate]. }
      destruct (futs (extract y')) as [|d ds] eqn:Ed.
      + apply CInv_intro; [exact Hr'|exists old, i; reflexivity|exact HS2|exact Ht2|].
        eexists. split; [exact (tupd_get _ _ _ _ _ U2)|]. intros h Hin. cbn [tk_last] in Hin.
        assert (Hin' : In h (futs (extract y'))) by (apply in_futs, extract_same_elements; exact Hin).
        rewrite Ed in Hin'. destruct Hin'.
      + apply CInv_intro; [exact Hr'|exact Hfr|exact HS2|exact Ht2|exact I].
    - exists spec. split; [|reflexivity]. destruct (step_run_enter P t fr s tk Hg c k) as (s2 & -> & U).
      apply (Hbody k _ s2 Hk Hst) with (2 := U). cbn. rewrite forallb_app, Hp. cbn. rewrite Hc. reflexivity.
    - exists spec. split; [|reflexivity]. destruct (step_run_exit P t fr s tk Hg c k) as (s2 & -> & U).
      apply (Hbody k _ s2 Hk Hst) with (2 := U). cbn. apply remove_ctx_plain. exact Hp.
  Qed.

  Lemma c01_MRun spec t p fr s : CInv spec (mkC (MRun t p) fr s) -> exists spec', CInv spec' (step P (mkC (MRun t p) fr s)).
  Proof. intros HI. destruct (c01_MRun_ext spec t p fr s HI) as (spec' & H & _). exists spec'. exact H. Qed.

  Lemma c01_MContRet spec fr s : CInv spec (mkC MContRet fr s) -> CInv spec (step P (mkC MContRet fr s)).
  Proof.
    intros (Hr & Hf & HS & Ht & _). cbn in Hf, HS, Ht. destruct Hf as (t & old & i & ->).
    assert (HS1 : SInv spec None (with_active s old)) by (apply (SInv_view spec None s); auto).
    assert (Ht1 : is_task root (with_active s old)) by (apply (is_task_view s); auto).
    destruct (step_MContRet_cases P t old [FExec i; FWait root; FTop] s) as (s2 & -> & [(-> & _)|(out & tk & Hg & U)]).
    - apply CInv_intro; [exact Hr|cbn; eauto|exact HS1|exact Ht1|exact I].
    - apply CInv_intro; [exact Hr|cbn; eauto| |exact (is_task_tupd _ _ _ _ _ _ U Ht1)|exact I].
      exact (GI_flags tree eval spec _ (with_active s old) s2 t out tk _ _ Hg HS1 U).
  Qed.

  Lemma c01_MDeliver spec o fr s : CInv spec (mkC (MDeliver o) fr s) -> CInv spec (step P (mkC (MDeliver o) fr s)).
  Proof.
    intros (Hr & Hf & HS & Ht & ->). cbn in Hf. subst fr. cbn [step c_mode c_frames c_st].
    split; [exact Hr|]. reflexivity.
  Qed.

  Theorem c01_step spec c : is_unwind (c_mode c) = false -> CInv spec c -> exists spec', CInv spec' (step P c).
  Proof.
    destruct c as [m fr s]. destruct m; cbn [c_mode is_unwind]; intros Hu HI; try discriminate.
    - exists spec. apply c01_MValue; exact HI.
    - exists spec. apply c01_MWaitHead; exact HI.
    - exists spec. apply c01_MAfterExec; exact HI.
    - exists spec. apply c01_MExecLoop; exact HI.
    - exists spec. apply c01_MResume; exact HI.
    - apply (c01_MRun spec); exact HI.
    - exists spec. apply c01_MContRet; exact HI.
    - exists spec. apply c01_MDeliver; exact HI.
    - exists spec. exact HI.
    - exists spec. exact HI.
  Qed.

  Theorem c01_run n : forall spec c, CInv spec c -> no_unwind P n c -> exists spec', CInv spec' (run P n c).
  Proof.
    intros spec c HI Hn. apply (run_invariant P (fun c => exists spec, CInv spec c)); [|eauto|intros k Hk; apply Hn; lia].
    intros c' Hu (sp & H). exact (c01_step sp c' Hu H).
  Qed.
End Main.

Lemma SInv_empty P : SInv (fun _ => None) None (st0 P).
Proof.
  split; [|split].
  - intros h f Hg. discriminate.
  - intros k h Hin. cbn in Hin. destruct Hin.
  - cbn. lia.
Qed.

(* the invariant along a run of a new root computation on a scheduler state satisfying the state invariant,
   e.g. one left behind by earlier computations *)
Lemma c01_reach P spec s p n :
  pointwise P -> tree p -> SInv spec None s ->
  let h := fst (create [] (FTask p) s) in
  let s1 := snd (create [] (FTask p) s) in
  no_unwind P n (start h s1) -> exists spec', CInv h (eval p) spec' (run P n (start h s1)).
Proof.
  intros HP Ht HS. cbn zeta. intros Hn.
  pose proof (GI_create tree eval spec _ [] (FTask p) s HS Ht) as HC. cbn zeta in HC.
  destruct (create [] (FTask p) s) as [h s1]. cbn [fst snd ev_fexpr new_entry] in *.
  destruct HC as (_ & HS1 & Hnew & _).
  apply (c01_run P HP h (eval p) n (spec_add spec h (eval p))); [|exact Hn].
  apply CInv_intro; [apply spec_add_same|reflexivity|exact HS1|eexists _, _; exact Hnew|reflexivity].
Qed.

Theorem async_eq_seq_tree_from P spec s p n o :
  pointwise P -> tree p -> SInv spec None s ->
  let h := fst (create [] (FTask p) s) in
  let s1 := snd (create [] (FTask p) s) in
  no_unwind P n (start h s1) -> c_mode (run P n (start h s1)) = MDone o -> o = eval p.
Proof.
  intros HP Ht HS h s1 Hn Hm. destruct (c01_reach P spec s p n HP Ht HS Hn) as (spec' & (_ & HF)).
  fold h s1 in HF. rewrite Hm in HF. exact HF.
Qed.

(* C01 for tree programs: whatever the flush order, priorities, KEEP_DEPENDENCIES setting and fuel, if the
   outermost value() returns (without the runaway guard having fired) it returns exactly what sequential,
   depth-first evaluation of the same program gives - value or exception *)
Theorem async_eq_seq_tree P p n o :
  pointwise P -> tree p ->
  let h := fst (create [] (FTask p) (st0 P)) in
  let s1 := snd (create [] (FTask p) (st0 P)) in
  no_unwind P n (start h s1) -> c_mode (run P n (start h s1)) = MDone o -> o = eval p.
Proof. intros HP Ht. exact (async_eq_seq_tree_from P _ (st0 P) p n o HP Ht (SInv_empty P)). Qed.

(* non-vacuity: a two-level tree with two batch kinds and nested structures *)
Definition c01_demo : prog :=
  Yield (YTuple [YLeaf (LNew (FItem 0 1 (ASet (VInt 5))));
                 YList [YLeaf (LNew (FTask (Yield (YLeaf (LNew (FItem 1 2 (ASet (VInt 7)))))
                                              (fun o => match o with Ok v => Ret (VTuple [v; VInt 1]) | Err e => Raise e end))));
                        YNone];
                 YLeaf (LNew (FConst (VInt 9)))])
        (fun o => match o with Ok v => Ret v | Err e => Raise e end).

Lemma c01_demo_tree : tree c01_demo.
Proof.
  unfold c01_demo. apply tree_yield.
  - intros l Hl. cbn in Hl. destruct Hl as [<-|[<-|[<-|[]]]]; constructor; try constructor.
    apply tree_yield; [intros l [<-|[]]; repeat constructor|]. intros [v|e]; constructor.
  - intros [v|e]; constructor.
Qed.

Example c01_demo_runs :
  let P := mkP [] 1000 false [] in
  let h := fst (create [] (FTask c01_demo) (st0 P)) in
  let s1 := snd (create [] (FTask c01_demo) (st0 P)) in
  no_unwind_b P 300 (start h s1) = true /\
  c_mode (run P 300 (start h s1)) = MDone (Ok (VTuple [VInt 5; VList [VTuple [VInt 7; VInt 1]; VNone]; VInt 9])) /\
  eval c01_demo = Ok (VTuple [VInt 5; VList [VTuple [VInt 7; VInt 1]; VNone]; VInt 9]).
Proof. cbv zeta. rewrite no_unwind_b_traj. vm_compute. repeat split. Qed.
