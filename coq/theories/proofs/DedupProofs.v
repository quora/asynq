(* Proofs about the Dedup model (C12).
   Normalisation: get_args_tuple with the repaired keygetter encodes exactly Python's own binding (bind_keygetter).
   The registry: [effect] says what one action does to the state; the invariants (a registered task is in flight
   and owns the callback: reg_ok; a body starts once and has an outcome exactly when Done: pool_ok) and the
   statements about single actions are proved by its five cases and lifted to action sequences by run_micro_inv.
   The driver only acts through micro, so its states are reachable (loop_reach).  Actions on other keys leave a
   key's entry alone (frame_step); which calls have different keys (keys_differ, fan_keys_distinct). *)
From Asynq Require Import Base Dedup.

Lemma fill_fill_ref names kw dfl : fill names kw dfl = fill_ref names kw dfl.
Proof.
  induction names as [|n ns IH]; cbn; [reflexivity|]. rewrite IH.
  destruct (lookup n dfl), (lookup n kw); reflexivity.
Qed.

(* what Dedup.bind returns: values of the named parameters in declaration order, *rest, the sorted **kw *)
Definition binding := (list aval * list aval * list (name * aval))%type.

(* how the repaired keygetter encodes a binding *)
Definition enc (s : sig) (b : binding) : list kelt :=
  let '(vals, rest, ex) := b in
  if varargs s then KRest rest :: map KPos vals ++ map kw_elt ex
  else map KPos vals ++ map kw_elt ex.

Lemma map_kw_elt_inj a b : map kw_elt a = map kw_elt b -> a = b.
Proof.
  revert b; induction a as [|[n1 v1] a IH]; destruct b as [|[n2 v2] b]; cbn; intros H; try discriminate; [reflexivity|].
  inversion H. subst. f_equal. apply IH. assumption.
Qed.

Lemma enc_body_inj a b a' b' :
  map KPos a ++ map kw_elt b = map KPos a' ++ map kw_elt b' -> a = a' /\ b = b'.
Proof.
  revert a'; induction a as [|x a IH]; destruct a' as [|x' a']; cbn; intros H.
  - split; [reflexivity|]. apply map_kw_elt_inj, H.
  - destruct b as [|[? ?] b]; cbn in H; discriminate.
  - destruct b' as [|[? ?] b']; cbn in H; discriminate.
  - inversion H as [[H1 H2]]. destruct (IH _ H2). subst. split; reflexivity.
Qed.

Lemma skipn_names (pn ko : list name) n :
  (n <= length pn)%nat -> skipn n (pn ++ ko) = skipn n pn ++ ko.
Proof.
  intros H. rewrite skipn_app. replace (n - length pn)%nat with O by lia. reflexivity.
Qed.

(* get_args_tuple yields the binding: as it is for a function without *rest (whose binding has no surplus
   positionals), and once the surplus positionals are kept apart for one with *rest *)
Lemma bind_keygetter s pos kw vals rest ex :
  bind s pos kw = Some (vals, rest, ex) ->
  keygetter Repaired s pos kw = Some (enc s (vals, rest, ex)) /\ (varargs s = false -> rest = []).
Proof.
  unfold keygetter, enc, bind, normalise, arg_names. destruct (varargs s) eqn:Hv; cbn [negb andb].
  - destruct (existsb _ kw); [discriminate|]. destruct (negb (varkw s) && _); [discriminate|].
    assert (E : skipn (length (firstn (length (pnames s)) pos)) (pnames s ++ konly s)
                = skipn (length pos) (pnames s) ++ konly s).
    { rewrite firstn_length. destruct (Nat.le_gt_cases (length pos) (length (pnames s))) as [L|L].
      - rewrite Nat.min_r by exact L. apply skipn_names, L.
      - rewrite Nat.min_l by lia. rewrite skipn_names by lia.
        rewrite skipn_all. rewrite (skipn_all2 (pnames s)) by lia. reflexivity. }
    rewrite E, fill_fill_ref. destruct (fill_ref _ kw (dflts s)) as [vs|]; [|discriminate].
    intros H; inversion H; subst. split; [reflexivity|discriminate].
  - destruct (length (pnames s) <? length pos)%nat eqn:Hl; [discriminate|]. apply Nat.ltb_ge in Hl.
    destruct (existsb _ kw); [discriminate|]. destruct (negb (varkw s) && _); [discriminate|].
    rewrite (skipn_names _ _ _ Hl), fill_fill_ref. destruct (fill_ref _ kw (dflts s)) as [vs|]; [|discriminate].
    intros H; inversion H; subst. rewrite (firstn_all2 pos), (skipn_all2 pos) by exact Hl. split; reflexivity.
Qed.

Lemma enc_inj s b1 b2 :
  (varargs s = false -> snd (fst b1) = [] /\ snd (fst b2) = []) -> enc s b1 = enc s b2 -> b1 = b2.
Proof.
  destruct b1 as [[v1 r1] e1], b2 as [[v2 r2] e2]. unfold enc. cbn [fst snd]. intros Hr.
  destruct (varargs s).
  - intros H. inversion H as [[H1 H2]]. destruct (enc_body_inj _ _ _ _ H2). subst. reflexivity.
  - destruct (Hr eq_refl). subst. intros H. destruct (enc_body_inj _ _ _ _ H). subst. reflexivity.
Qed.

(* two well-formed spellings get the same key component iff they bind the same arguments *)
Lemma normalise_sound s p1 k1 p2 k2 b1 b2 :
  bind s p1 k1 = Some b1 -> bind s p2 k2 = Some b2 ->
  (keygetter Repaired s p1 k1 = keygetter Repaired s p2 k2 <-> b1 = b2).
Proof.
  destruct b1 as [[v1 r1] e1], b2 as [[v2 r2] e2]. intros H1 H2.
  destruct (bind_keygetter _ _ _ _ _ _ H1) as [-> R1], (bind_keygetter _ _ _ _ _ _ H2) as [-> R2]. split.
  - intros H. inversion H as [H']. apply (enc_inj s); [|exact H']. cbn. auto.
  - intros ->. reflexivity.
Qed.

Lemma find_remove_same k m : find k (remove k m) = None.
Proof.
  induction m as [|[k' t] m IH]; cbn; [reflexivity|].
  destruct (key_eq_dec k k'); cbn; [exact IH|].
  destruct (key_eq_dec k k'); [contradiction|exact IH].
Qed.

Lemma find_remove_other k k' m : k <> k' -> find k' (remove k m) = find k' m.
Proof.
  intros Hn. induction m as [|[k0 t] m IH]; cbn; [reflexivity|].
  destruct (key_eq_dec k k0); cbn.
  - subst. destruct (key_eq_dec k' k0); [congruence|exact IH].
  - destruct (key_eq_dec k' k0); [reflexivity|exact IH].
Qed.

Lemma find_remove_some k k' m t : find k' (remove k m) = Some t -> k <> k' /\ find k' m = Some t.
Proof.
  intros H. destruct (key_eq_dec k k') as [->|Hn].
  - rewrite find_remove_same in H. discriminate.
  - split; [exact Hn|]. rewrite find_remove_other in H; assumption.
Qed.

(* the pool after a task is updated, after a task is appended *)
Lemma nth_upd l t f u :
  nth_error (upd l t f) u = option_map (fun x => if Nat.eqb t u then f x else x) (nth_error l u).
Proof.
  revert t u; induction l as [|y l IH]; destruct t, u; cbn; try reflexivity; [destruct (nth_error l u); reflexivity|apply IH].
Qed.

Lemma nth_snoc {A} (l : list A) x t :
  nth_error (l ++ [x]) t = match nth_error l t with
                           | Some y => Some y
                           | None => if Nat.eqb t (length l) then Some x else None
                           end.
Proof. revert t; induction l as [|y l IH]; intros [|t]; cbn; try reflexivity; [destruct t; reflexivity|apply IH]. Qed.

Lemma nth_new (l : list task) x : nth_error (l ++ [x]) (length l) = Some x.
Proof. rewrite nth_error_app2 by lia. rewrite Nat.sub_diag. reflexivity. Qed.

(* What one action does to the state.  A body that starts, resumes or suspends changes one task's status
   ([moves]); everything below about single actions is proved by cases of [effect], not of [micro].  The cases, in
   the order every `destruct (micro_effect ..)` names them: nothing; a new task ([cb]: it is registered and owns the
   callback); dirty(k); a status move of task t; completion of t.  [f] is what Dedup.upd applies at t - only its
   value at the task x found there matters. *)
Definition moves (x x' : task) : Prop :=
  tkey x' = tkey x /\ tcb x' = tcb x /\ tout x' = tout x /\
  ((tstatus x = Created /\ tstatus x' = Running /\ tstarts x' = S (tstarts x)) \/
   (tstatus x = Gated /\ tstatus x' = Running /\ tstarts x' = tstarts x) \/
   (tstatus x = Running /\ tstatus x' = Gated /\ tstarts x' = tstarts x)).

Inductive effect (v : variant) (st : state) : action -> state -> Prop :=
| ef_none a : effect v st a st
| ef_new c k cb : key_of v c = Some k -> (cb = true -> find k (reg st) = None) ->
    effect v st (ACall c) (mkSt (if cb then (k, length (pool st)) :: reg st else reg st) (pool st ++ [new_task k cb]))
| ef_dirty c k : key_of v c = Some k -> effect v st (ADirty c) (mkSt (remove k (reg st)) (pool st))
| ef_move a t x f : a = ARun t \/ a = AGate t -> nth_error (pool st) t = Some x -> moves x (f x) ->
    effect v st a (mkSt (reg st) (upd (pool st) t f))
| ef_finish t o x f : nth_error (pool st) t = Some x -> tstatus x = Running ->
    f x = mkTask (tkey x) (tcb x) Done (tstarts x) (Some o) ->
    effect v st (AFinish t o) (mkSt (if tcb x then callback v (tkey x) t (reg st) else reg st) (upd (pool st) t f)).

Lemma micro_effect v st a : effect v st a (fst (micro v st a)).
Proof.
  destruct a as [c|c|t|t|t o]; unfold micro.
  - destruct (key_of v c) as [k|] eqn:Hk; [|apply ef_none]. destruct (find k (reg st)) as [u|] eqn:Ef.
    + destruct (is_running st u); [|apply ef_none]. destruct (bind_of c); [|apply ef_none].
      exact (ef_new v st c k false Hk ltac:(discriminate)).
    + destruct (bind_of c); [|apply ef_none]. exact (ef_new v st c k true Hk (fun _ => Ef)).
  - destruct (key_of v c) as [k|] eqn:Hk; [|apply ef_none]. exact (ef_dirty v st c k Hk).
  - unfold status_of. destruct (nth_error (pool st) t) as [x|] eqn:Ex; [|apply ef_none]. cbn.
    destruct (tstatus x) eqn:Es; try apply ef_none; (eapply ef_move; [auto|exact Ex|]); unfold moves; cbn; rewrite Es; tauto.
  - unfold status_of. destruct (nth_error (pool st) t) as [x|] eqn:Ex; [|apply ef_none]. cbn.
    destruct (tstatus x) eqn:Es; try apply ef_none. eapply ef_move; [auto|exact Ex|]. unfold moves. cbn. rewrite Es. tauto.
  - destruct (nth_error (pool st) t) as [x|] eqn:Ex; [|apply ef_none].
    destruct (tstatus x) eqn:Es; try apply ef_none. exact (ef_finish v st t o x _ Ex Es eq_refl).
Qed.

Lemma fst_run_micro_cons v st a acts :
  fst (run_micro v st (a :: acts)) = fst (run_micro v (fst (micro v st a)) acts).
Proof. cbn. destruct (micro v st a) as [s1 r]. cbn. destruct (run_micro v s1 acts) as [s2 rs]. reflexivity. Qed.

(* a property of states that every action preserves holds after every sequence of actions *)
Lemma run_micro_inv v (I : state -> Prop) :
  (forall st a, I st -> I (fst (micro v st a))) -> forall acts st, I st -> I (fst (run_micro v st acts)).
Proof.
  intros HI. induction acts as [|a acts IH]; intros st H; [exact H|]. rewrite fst_run_micro_cons. apply IH, HI, H.
Qed.

(* registered tasks are in flight, carry the key they are registered under and own a callback *)
Definition reg_ok (st : state) : Prop :=
  forall k t, find k (reg st) = Some t ->
    exists x, nth_error (pool st) t = Some x /\ tkey x = k /\ tcb x = true /\ tstatus x <> Done.

(* life cycle bookkeeping: the body starts once; an outcome exists exactly when Done *)
Definition life_ok (x : task) : Prop :=
  match tstatus x with
  | Created => tstarts x = O /\ tout x = None
  | Done => tstarts x = 1%nat /\ tout x <> None
  | _ => tstarts x = 1%nat /\ tout x = None
  end.
Definition pool_ok (st : state) : Prop := forall t x, nth_error (pool st) t = Some x -> life_ok x.

Inductive reach (v : variant) : state -> Prop :=
| reach_init : reach v init
| reach_step st a : reach v st -> reach v (fst (micro v st a)).

Lemma reach_run v st acts : reach v st -> reach v (fst (run_micro v st acts)).
Proof.
  apply (run_micro_inv v (reach v)). intros s a H. constructor. exact H.
Qed.

Lemma reach_micro v st a s r : reach v st -> micro v st a = (s, r) -> reach v s.
Proof. intros H E. replace s with (fst (micro v st a)) by (rewrite E; reflexivity). constructor; exact H. Qed.

Ltac inv_some := match goal with H : Some _ = Some _ |- _ => inversion H; subst; clear H end.

Lemma callback_repaired_some k t m k0 t0 :
  find k0 (callback Repaired k t m) = Some t0 ->
  find k0 m = Some t0 /\ (t0 = t -> k0 <> k).
Proof.
  unfold callback. destruct (find k m) as [u|] eqn:E.
  - destruct (Nat.eqb u t) eqn:Eu.
    + intros H. apply find_remove_some in H. destruct H as [Hn H]. split; [exact H|]. intros _ ?; congruence.
    + intros H. split; [exact H|]. intros -> ->. apply Nat.eqb_neq in Eu. congruence.
  - intros H. split; [exact H|]. intros -> ->. congruence.
Qed.

Lemma reg_ok_step st a : reg_ok st -> reg_ok (fst (micro Repaired st a)).
Proof.
  intros H. destruct (micro_effect Repaired st a) as [a|c k cb Hk Hn|c k Hk|a t y f _ Ey Hm|t o y f Ey Es Hf];
    try exact H; intros k0 t0 H0; cbn [reg pool] in *.
  - (* a new task: registered only on the KeyError path *)
    destruct cb; [cbn [find] in H0; destruct (key_eq_dec k0 k) as [->|]|].
    + inv_some. exists (new_task k true). rewrite nth_new. repeat split; discriminate.
    + destruct (H _ _ H0) as (x & Hx & ?). exists x. rewrite nth_snoc, Hx. auto.
    + destruct (H _ _ H0) as (x & Hx & ?). exists x. rewrite nth_snoc, Hx. auto.
  - apply find_remove_some in H0. exact (H _ _ (proj2 H0)).
  - destruct (H _ _ H0) as (x & Hx & Hk & Hc & Hd). rewrite nth_upd, Hx. cbn.
    destruct (Nat.eqb_spec t t0) as [->|]; [|eauto]. rewrite Ey in Hx. inv_some.
    destruct Hm as (M1 & M2 & _ & M). exists (f x). repeat split; try congruence.
    destruct M as [(_ & -> & _)|[(_ & -> & _)|(_ & -> & _)]]; discriminate.
  - (* the completing task is not left registered *)
    assert (Hold : find k0 (reg st) = Some t0 /\ t0 <> t).
    { destruct (tcb y) eqn:Ec.
      - apply callback_repaired_some in H0. destruct H0 as [H0 Hne]. split; [exact H0|].
        intros ->. destruct (H _ _ H0) as (x & Hx & Hk & _). rewrite Ey in Hx. inv_some. apply Hne; reflexivity.
      - split; [exact H0|]. intros ->. destruct (H _ _ H0) as (x & Hx & _ & Hc & _). rewrite Ey in Hx. inv_some. congruence. }
    destruct Hold as [Hf' Hne]. destruct (H _ _ Hf') as (x & Hx & ?).
    exists x. rewrite nth_upd, Hx. cbn. destruct (Nat.eqb_spec t t0); [congruence|auto].
Qed.

Lemma pool_ok_step v st a : pool_ok st -> pool_ok (fst (micro v st a)).
Proof.
  intros H. destruct (micro_effect v st a) as [a|c k cb Hk Hn|c k Hk|a t y f _ Ey Hm|t o y f Ey Es Hf];
    try exact H; intros t0 x Hx; cbn [pool] in Hx.
  - rewrite nth_snoc in Hx. destruct (nth_error (pool st) t0) as [x0|] eqn:E0; [inv_some; exact (H _ _ E0)|].
    destruct (Nat.eqb t0 _); [|discriminate]. inv_some. split; reflexivity.
  - rewrite nth_upd in Hx. destruct (nth_error (pool st) t0) as [x0|] eqn:E0; [|discriminate]. cbn in Hx. inv_some.
    destruct (Nat.eqb_spec t t0) as [->|]; [|exact (H _ _ E0)]. rewrite Ey in E0. inv_some.
    pose proof (H _ _ Ey) as L. destruct Hm as (_ & _ & Mo & M). unfold life_ok in *. rewrite Mo.
    destruct M as [(E1 & -> & ->)|[(E1 & -> & ->)|(E1 & -> & ->)]]; rewrite E1 in L; destruct L; split; congruence.
  - rewrite nth_upd in Hx. destruct (nth_error (pool st) t0) as [x0|] eqn:E0; [|discriminate]. cbn in Hx. inv_some.
    destruct (Nat.eqb_spec t t0) as [->|]; [|exact (H _ _ E0)]. rewrite Ey in E0. inv_some.
    pose proof (H _ _ Ey) as L. unfold life_ok in *. rewrite Hf, Es in *. cbn. destruct L. split; [assumption|discriminate].
Qed.

Lemma reach_reg_ok st : reach Repaired st -> reg_ok st.
Proof. induction 1; [intros k t H; discriminate|apply reg_ok_step; assumption]. Qed.

Lemma reach_pool_ok v st : reach v st -> pool_ok st.
Proof. induction 1; [intros [|t] x H; discriminate|apply pool_ok_step; assumption]. Qed.

(* a call whose key maps to a task that is not running returns that very task, creating nothing ([MTask t fresh]:
   fresh = true iff the call appended t to the pool) *)
Lemma call_shares v st c k t :
  key_of v c = Some k -> find k (reg st) = Some t -> is_running st t = false ->
  micro v st (ACall c) = (st, MTask t false).
Proof. intros Hk Hf Hr. unfold micro. rewrite Hk, Hf, Hr. reflexivity. Qed.

Definition harmless (v : variant) (k : key) (t : nat) (a : action) : Prop :=
  match a with
  | ADirty c => key_of v c <> Some k        (* no dirty() for this key *)
  | AFinish u _ => u <> t                   (* t itself does not complete *)
  | _ => True
  end.

(* with the repaired callback nothing but dirty(k) or t's own completion unregisters t *)
Lemma owner_preserved st a k t :
  find k (reg st) = Some t -> harmless Repaired k t a ->
  find k (reg (fst (micro Repaired st a))) = Some t.
Proof.
  intros Hf Hh. destruct (micro_effect Repaired st a) as [a|c k' cb Hk Hn|c k' Hk|a u y f _ Ey Hm|u o y f Ey Es Hy];
    try exact Hf; cbn [reg] in *.
  - destruct cb; [|exact Hf]. cbn. destruct (key_eq_dec k k') as [->|]; [|exact Hf]. rewrite Hn in Hf by reflexivity. discriminate.
  - rewrite find_remove_other; [exact Hf|]. cbn in Hh. congruence.
  - destruct (tcb y); [|exact Hf]. unfold callback. destruct (find (tkey y) (reg st)) as [w|] eqn:Ew; [|exact Hf].
    destruct (Nat.eqb_spec w u) as [->|]; [|exact Hf]. rewrite find_remove_other; [exact Hf|]. cbn in Hh. congruence.
Qed.

Fixpoint all_harmless (v : variant) (k : key) (t : nat) (acts : list action) : Prop :=
  match acts with
  | [] => True
  | a :: r => harmless v k t a /\ all_harmless v k t r
  end.

(* every call for k issued while t is not running returns t and creates nothing *)
Fixpoint calls_share (v : variant) (st : state) (k : key) (t : nat) (acts : list action) : Prop :=
  match acts with
  | [] => True
  | a :: r =>
    match a with
    | ACall c => key_of v c = Some k -> is_running st t = false -> micro v st a = (st, MTask t false)
    | _ => True
    end /\ calls_share v (fst (micro v st a)) k t r
  end.

Definition shared_statement (v : variant) : Prop :=
  forall acts st k t,
    find k (reg st) = Some t -> all_harmless v k t acts ->
    calls_share v st k t acts /\ find k (reg (fst (run_micro v st acts))) = Some t.

Lemma shared_while_in_flight : shared_statement Repaired.
Proof.
  intros acts; induction acts as [|a acts IH]; intros st k t Hf Hh; [split; [exact I|exact Hf]|].
  destruct Hh as [Ha Hr]. destruct (IH _ _ _ (owner_preserved _ _ _ _ Hf Ha) Hr) as [Hs Hfin].
  rewrite fst_run_micro_cons. split; [|exact Hfin]. split; [|exact Hs].
  destruct a; try exact I. intros Hk Hrun. apply (call_shares _ _ _ k); assumption.
Qed.

(* [AsWritten] (the callback before /repo a2ce350) violates the statement: 4 actions set up the state, 2 more show it *)
Lemma shared_as_written_refuted : ~ shared_statement AsWritten.
Proof.
  intros H.
  pose (c := mkCall 0 0 0 0 [AInt 1] []).
  pose (st := fst (run_micro AsWritten init [ACall c; ADirty c; ACall c; ARun 0])).
  destruct (H [AFinish 0 (Ok VNone); ACall c] st ([KPos (AInt 1); KPos (AInt 0)], 0, (0, 0)) 1%nat) as [_ Hfin];
    [vm_compute; reflexivity|cbn; repeat split; discriminate|]. vm_compute in Hfin. discriminate.
Qed.

(* what a call returns: a new task, or the registered one, which is in flight and not running *)
Lemma call_result st c st' t b :
  reach Repaired st -> micro Repaired st (ACall c) = (st', MTask t b) ->
  exists x, nth_error (pool st') t = Some x /\ Some (tkey x) = key_of Repaired c /\
    (b = false -> st' = st /\ tstatus x <> Done /\ tstatus x <> Running).
Proof.
  intros Hr. unfold micro. destruct (key_of Repaired c) as [k|]; [|discriminate].
  destruct (find k (reg st)) as [u|] eqn:Ef; [destruct (is_running st u) eqn:Er|].
  - destruct (bind_of c); [|discriminate]. intros H; inversion H; subst. cbn.
    exists (new_task k false). rewrite nth_new. repeat split; discriminate.
  - intros H; inversion H; subst. destruct (reach_reg_ok _ Hr _ _ Ef) as (x & Hx & Hk & _ & Hd).
    exists x. split; [exact Hx|]. split; [congruence|]. intros _. repeat split; [exact Hd|].
    unfold is_running, status_of in Er. rewrite Hx in Er. cbn in Er. intros E; rewrite E in Er; discriminate.
  - destruct (bind_of c); [|discriminate]. intros H; inversion H; subst. cbn.
    exists (new_task k true). rewrite nth_new. repeat split; discriminate.
Qed.

(* when the body runs again: a call is handed an existing task only while that task is neither Done nor Running, so
   after completion or dirty() - each of which unregisters the key (parts 2, 3) - the next call makes a new task *)
Lemma rerun_after_done_or_dirty st : reach Repaired st ->
  (forall c st' t, micro Repaired st (ACall c) = (st', MTask t false) ->
     exists x, nth_error (pool st) t = Some x /\ Some (tkey x) = key_of Repaired c /\
               tstatus x <> Done /\ tstatus x <> Running) /\
  (forall k t o, find k (reg st) = Some t -> is_running st t = true ->
     find k (reg (fst (micro Repaired st (AFinish t o)))) = None) /\
  (forall c k, key_of Repaired c = Some k -> find k (reg (fst (micro Repaired st (ADirty c)))) = None).
Proof.
  intros Hr. split; [|split].
  - intros c st' t E. destruct (call_result st c st' t false Hr E) as (x & Hx & Hk & Hb).
    destruct (Hb eq_refl) as (-> & Hd & Hn). eauto.
  - (* the registered task completes: it owns the callback, and the key still maps to it *)
    intros k t o Hf Hrun. destruct (reach_reg_ok _ Hr _ _ Hf) as (x & Hx & Hk & Hc & _).
    unfold is_running, status_of in Hrun. rewrite Hx in Hrun. cbn in Hrun.
    unfold micro. rewrite Hx. destruct (tstatus x); try discriminate. cbn. rewrite Hc, Hk.
    unfold callback. rewrite Hf, Nat.eqb_refl. apply find_remove_same.
  - intros c k Hk. unfold micro. rewrite Hk. cbn. apply find_remove_same.
Qed.

(* a task keeps its key for ever, and once it is Done no action changes it any more *)
Lemma task_stable v st a t x :
  nth_error (pool st) t = Some x ->
  exists x', nth_error (pool (fst (micro v st a))) t = Some x' /\ tkey x' = tkey x /\ (tstatus x = Done -> x' = x).
Proof.
  intros Hx. destruct (micro_effect v st a) as [a|c k cb Hk Hn|c k Hk|a u y f _ Ey Hm|u o y f Ey Es Hy]; cbn [pool]; eauto.
  - exists x. rewrite nth_snoc, Hx. auto.
  - rewrite nth_upd, Hx. cbn. destruct (Nat.eqb_spec u t) as [->|]; [|eauto]. rewrite Ey in Hx. inv_some.
    destruct Hm as (M1 & _ & _ & M). exists (f x). repeat split; [exact M1|].
    intros E. destruct M as [(E' & _)|[(E' & _)|(E' & _)]]; congruence.
  - rewrite nth_upd, Hx. cbn. destruct (Nat.eqb_spec u t) as [->|]; [|eauto]. rewrite Ey in Hx. inv_some.
    exists (f x). rewrite Hy. repeat split. congruence.
Qed.

Lemma tkey_stable_run v acts st t x :
  nth_error (pool st) t = Some x ->
  exists x', nth_error (pool (fst (run_micro v st acts))) t = Some x' /\ tkey x' = tkey x.
Proof.
  intros Hx. apply (run_micro_inv v (fun s => exists x', nth_error (pool s) t = Some x' /\ tkey x' = tkey x)); [|eauto].
  intros s a (y & Hy & Hk). destruct (task_stable v s a t y Hy) as (y' & Hy' & Hk' & _). exists y'. split; congruence.
Qed.

(* two calls, anywhere in any history, that receive the same task have the same key; read backwards: calls with
   different keys never share a task *)
Lemma keys_disjoint st c1 s1 t b1 acts c2 b2 :
  reach Repaired st ->
  micro Repaired st (ACall c1) = (s1, MTask t b1) ->
  snd (micro Repaired (fst (run_micro Repaired s1 acts)) (ACall c2)) = MTask t b2 ->
  key_of Repaired c1 = key_of Repaired c2.
Proof.
  intros Hr H1 H2. destruct (call_result _ _ _ _ _ Hr H1) as (x1 & Hx1 & Hk1 & _).
  pose proof (reach_run Repaired s1 acts (reach_micro _ _ _ _ _ Hr H1)) as Hr2.
  destruct (tkey_stable_run Repaired acts s1 t x1 Hx1) as (x2 & Hx2 & Hk2).
  set (s2 := fst (run_micro Repaired s1 acts)) in *.
  destruct (task_stable Repaired s2 (ACall c2) t x2 Hx2) as (x3' & Hx3' & Hk3' & _).
  destruct (micro Repaired s2 (ACall c2)) as [s3 r] eqn:E. cbn in H2, Hx3'. subst r.
  destruct (call_result _ _ _ _ _ Hr2 E) as (x3 & Hx3 & Hk3 & _).
  rewrite Hx3 in Hx3'. inv_some. congruence.
Qed.

Lemma body_runs_once v st t x :
  reach v st -> nth_error (pool st) t = Some x ->
  (tstarts x <= 1)%nat /\ (tstatus x <> Created -> tstarts x = 1%nat) /\ (tout x <> None <-> tstatus x = Done).
Proof.
  intros Hr Hx. pose proof (reach_pool_ok _ _ Hr _ _ Hx) as H. unfold life_ok in H.
  destruct (tstatus x); destruct H as [H1 H2]; rewrite H1; repeat split; try lia; try congruence; intros; try discriminate; tauto.
Qed.

(* once a task has an outcome no action changes the task any more *)
Lemma outcome_stable v st a t x o :
  reach v st -> nth_error (pool st) t = Some x -> tout x = Some o ->
  nth_error (pool (fst (micro v st a))) t = Some x.
Proof.
  intros Hr Hx Ho. destruct (task_stable v st a t x Hx) as (x' & Hx' & _ & Hd). rewrite Hx'. f_equal. apply Hd.
  apply (body_runs_once v st t x Hr Hx). congruence.
Qed.

Lemma d_call_core v d ctx c : core (d_call v d ctx c) = fst (micro v (core d) (ACall c)).
Proof. unfold d_call. destruct (micro v (core d) (ACall c)) as [s r]. destruct r; reflexivity. Qed.

Lemma d_fcall_core v d ctx c : core (d_fcall v d ctx c) = fst (micro v (core d) (ACall c)).
Proof. unfold d_fcall. destruct (micro v (core d) (ACall c)) as [s r]. destruct r; reflexivity. Qed.

Lemma d_dirty_core v d ctx c : core (d_dirty v d ctx c) = fst (micro v (core d) (ADirty c)).
Proof. unfold d_dirty. destruct (micro v (core d) (ADirty c)) as [s r]. reflexivity. Qed.

Lemma d_fcall_reach v d ctx c : reach v (core d) -> reach v (core (d_fcall v d ctx c)).
Proof. rewrite d_fcall_core. apply reach_step. Qed.

(* the compact fan-out op is nothing but its calls, performed one after the other through micro *)
Lemma fan_is_calls v d ctx th fn gen inst sp lo n :
  core (d_fan v d ctx th fn gen inst sp lo n)
  = fst (run_micro v (core d) (map ACall (fan_calls th fn gen inst sp lo n))).
Proof.
  unfold d_fan. generalize (fan_calls th fn gen inst sp lo n) as cs. intros cs. revert d.
  induction cs as [|c cs IH]; intros d; [reflexivity|].
  cbn [fold_left map]. rewrite IH, fst_run_micro_cons, d_fcall_core. reflexivity.
Qed.

Lemma run_steps_reach v steps : forall d t e f, reach v (core d) -> reach v (core (run_steps v d t e steps f)).
Proof.
  induction steps as [|s steps IH]; intros d t e f H; cbn [run_steps].
  - destruct (micro v (core d) (AFinish t (outcome_of f))) as [s' r] eqn:E. exact (reach_micro _ _ _ _ _ H E).
  - destruct s.
    + destruct (micro v (core d) (AGate t)) as [s' r] eqn:E. exact (reach_micro _ _ _ _ _ H E).
    + apply IH. rewrite d_call_core. apply reach_step, H.
    + apply IH. rewrite d_dirty_core. apply reach_step, H.
    + apply IH. rewrite fan_is_calls. apply reach_run, H.
Qed.

Lemma d_start_reach v scripts d t : reach v (core d) -> reach v (core (d_start v scripts d t)).
Proof.
  intros H. unfold d_start. destruct (micro v (core d) (ARun t)) as [s' r] eqn:E.
  destruct (nth (nexec d) scripts ([], Ret 0)) as [steps f]. apply run_steps_reach. exact (reach_micro _ _ _ _ _ H E).
Qed.

Lemma d_go_reach v scripts d : reach v (core d) -> reach v (core (d_go v scripts d)).
Proof.
  intros H. unfold d_go.
  set (d0 := mkD (core d) (nexec d) (gated d) [] (callers d) (ncall d) (trace d)).
  assert (H0 : reach v (core d0)) by exact H. clearbody d0. revert d0 H0.
  induction (fresh d) as [|ct l IH]; intros d0 H0; cbn [fold_left]; [exact H0|].
  apply IH. destruct (status_of (core d0) (snd ct)) as [[| | |]|]; try exact H0. apply d_start_reach, H0.
Qed.

Lemma d_flush_reach v d e : reach v (core d) -> reach v (core (d_flush v d e)).
Proof.
  intros H. unfold d_flush. destruct (take_gated e (gated d)) as [[[t [steps f]] g']|]; [|exact H].
  destruct (micro v (core d) (ARun t)) as [s' r] eqn:E. apply run_steps_reach. exact (reach_micro _ _ _ _ _ H E).
Qed.

Lemma d_group_reach v ops : forall d, reach v (core d) -> reach v (core (fst (d_group v d ops))).
Proof.
  induction ops as [|o ops IH]; intros d H; cbn [d_group fst]; [exact H|].
  destruct o; cbn [d_group fst]; try exact H; apply IH.
  - rewrite d_call_core. apply reach_step, H.
  - rewrite d_dirty_core. apply reach_step, H.
  - rewrite fan_is_calls. apply reach_run, H.
Qed.

(* every state the executable driver (run_case) passes through is a state the theorems cover *)
Lemma loop_reach v scripts fuel : forall ops d, reach v (core d) -> reach v (core (loop v scripts fuel ops d)).
Proof.
  induction fuel as [|fuel IH]; intros ops d H; cbn [loop]; [exact H|].
  destruct (skip_invalid d ops) as [|o ops1] eqn:E.
  - destruct (fresh d); [destruct (gated d); [exact H|]|].
    + apply IH, d_flush_reach, H.
    + apply IH, d_go_reach, H.
  - destruct o; [| | |apply IH, d_flush_reach, H|];
      match goal with |- context [d_group v d ?l] =>
        pose proof (d_group_reach v l d H) as Hg; destruct (d_group v d l) as [d' ops2]; apply IH, d_go_reach, Hg end.
Qed.

(* an action that concerns other keys than k: a call / dirty() with another key, the completion of a
   task created for another key; starting and suspending bodies never touch the registry *)
Definition off_key (v : variant) (st : state) (k : key) (a : action) : Prop :=
  match a with
  | ACall c | ADirty c => key_of v c <> Some k
  | AFinish t _ => forall x, nth_error (pool st) t = Some x -> tkey x <> k
  | _ => True
  end.

Lemma callback_other v k' t m k : k' <> k -> find k (callback v k' t m) = find k m.
Proof.
  intros Hn. unfold callback.
  destruct v; try (apply find_remove_other; exact Hn);
    (destruct (find k' m) as [u|]; [destruct (Nat.eqb u t); [apply find_remove_other; exact Hn|reflexivity]|reflexivity]).
Qed.

(* every variant: the entry of k (present or absent) is not changed by actions on other keys *)
Lemma frame_step v st k a : off_key v st k a -> find k (reg (fst (micro v st a))) = find k (reg st).
Proof.
  intros Hh. destruct (micro_effect v st a) as [a|c k' cb Hk Hn|c k' Hk|a u y f _ Ey Hm|u o y f Ey Es Hy];
    try reflexivity; cbn [reg]; cbn in Hh.
  - destruct cb; [|reflexivity]. cbn. destruct (key_eq_dec k k') as [->|]; [congruence|reflexivity].
  - apply find_remove_other. congruence.
  - destruct (tcb y); [|reflexivity]. apply callback_other. exact (Hh y Ey).
Qed.

Fixpoint all_off_key (v : variant) (st : state) (k : key) (acts : list action) : Prop :=
  match acts with
  | [] => True
  | a :: r => off_key v st k a /\ all_off_key v (fst (micro v st a)) k r
  end.

(* calls start no body: a task that is not running is not running afterwards *)
Lemma call_keeps_not_running v st c t :
  is_running st t = false -> is_running (fst (micro v st (ACall c))) t = false.
Proof.
  intros H. remember (ACall c) as a eqn:Ea.
  destruct (micro_effect v st a) as [a|c' k cb Hk Hn|c' k Hk|a u y f [->| ->] Ey Hm|u o y f Ey Es Hy]; try discriminate; [exact H|].
  unfold is_running, status_of in *. cbn [pool]. rewrite nth_snoc.
  destruct (nth_error (pool st) t); [exact H|]. destruct (Nat.eqb t _); reflexivity.
Qed.

(* sharing does not depend on how many other keys are registered: whatever calls with other keys
   happen in between (any number, every variant), the next call for k still returns t, creating nothing *)
Lemma shared_whatever_else_is_registered v cs st c k t :
  key_of v c = Some k -> find k (reg st) = Some t -> is_running st t = false ->
  Forall (fun c' => key_of v c' <> Some k) cs ->
  let st' := fst (run_micro v st (map ACall cs)) in
  find k (reg st') = Some t /\ micro v st' (ACall c) = (st', MTask t false).
Proof.
  intros Hk Hf Hr Hcs st'.
  assert (H : find k (reg st') = Some t /\ is_running st' t = false).
  { unfold st'. clear st'. revert st Hf Hr. induction Hcs as [|c' cs Hc _ IH]; intros st Hf Hr; [auto|].
    cbn [map]. rewrite fst_run_micro_cons. apply IH; [rewrite frame_step; assumption|apply call_keeps_not_running, Hr]. }
  split; [apply H|]. apply (call_shares v st' c k t Hk); apply H.
Qed.

(* what makes two calls calls of different callables / contexts: another def statement, another
   execution of the same def statement (a different function object with the same module and
   qualname), another thread, or (methods) another instance; fn 4 is the one method of the table Dedup.sigs *)
Definition differ (c1 c2 : callspec) : Prop :=
  cfn c1 <> cfn c2 \/ cgen c1 <> cgen c2 \/ cthread c1 <> cthread c2 \/
  (cfn c1 = 4 /\ cfn c2 = 4 /\ cinst c1 <> cinst c2).

Lemma keys_differ v c1 c2 k1 k2 :
  key_of v c1 = Some k1 -> key_of v c2 = Some k2 -> differ c1 c2 -> k1 <> k2.
Proof.
  intros H1 H2 Hd E. subst k2. destruct Hd as [H|[H|[H|(F1 & F2 & H)]]].
  4:{ (* a method's key starts with its instance *)
    revert H1 H2. unfold key_of, full_pos. rewrite F1, F2. cbn [Z.eqb Pos.eqb].
    assert (Ek : forall g i pos kw, keygetter v (sig_of 4) (AInst g i :: pos) kw
                = match fill (skipn (length pos) [N_A; N_B]) kw [(N_B, AInt 0)] with
                  | None => None
                  | Some fl => Some (KPos (AInst g i) :: map KPos (pos ++ fl) ++ map kw_elt (extras [N_SELF; N_A; N_B] kw))
                  end) by (intros; destruct v; reflexivity).
    rewrite !Ek. destruct (fill _ (ckw c1) _); [|discriminate]. destruct (fill _ (ckw c2) _); [|discriminate].
    intros E1 E2. rewrite <- E1 in E2. inversion E2. congruence. }
  (* the key carries the function id and the thread *)
  all: revert H1 H2; unfold key_of, fid_of; destruct (keygetter v _ _ _); [|discriminate];
    destruct (keygetter v _ _ _); [|discriminate]; intros E1 E2; rewrite <- E1 in E2; inversion E2; congruence.
Qed.

(* the fan index can be read off the key: it is its first integer, positional or keyword (a sweep over the
   table [sigs] - its seven entries and the default signature past the end -, both spellings, every variant; the
   index is generalised first so that nothing is computed on it) *)
Fixpoint first_int (l : list kelt) : option Z :=
  match l with
  | KPos (AInt z) :: _ | KKw _ (AInt z) :: _ => Some z
  | _ :: r => first_int r
  | [] => None
  end.

Lemma fan_key_index v th fn gen inst sp lo i :
  match key_of v (fan_call th fn gen inst sp lo i) with
  | Some k => first_int (fst (fst k)) = Some (lo + Z.of_nat i)
  | None => True
  end.
Proof.
  unfold key_of, full_pos, fan_call, sig_of. generalize (lo + Z.of_nat i) as x. intros x.
  destruct (Z.eqb sp 1); cbn [cfn cgen cinst cpos ckw cthread];
    (destruct (Z.eqb_spec fn 4) as [->|N];
     [|destruct (Z.to_nat fn) as [|[|[|[|[|[|[|[|?]]]]]]]] eqn:En; try (exfalso; lia)]);
    destruct v; vm_compute; auto.
Qed.

(* the keys of one fan-out are pairwise distinct whenever they exist: n calls register n keys *)
Lemma fan_keys_distinct v th fn gen inst sp lo i j ki kj :
  key_of v (fan_call th fn gen inst sp lo i) = Some ki ->
  key_of v (fan_call th fn gen inst sp lo j) = Some kj -> i <> j -> ki <> kj.
Proof.
  intros Hi Hj Hne <-.
  pose proof (fan_key_index v th fn gen inst sp lo i) as Ii. pose proof (fan_key_index v th fn gen inst sp lo j) as Ij.
  rewrite Hi in Ii. rewrite Hj in Ij. assert (lo + Z.of_nat i = lo + Z.of_nat j)%Z by congruence. lia.
Qed.
