(* Frame lemmas for Machine.v: which helper touches which component of the state. *)
From Asynq Require Import Machine proofs.ProgProofs.

Lemma fold_left_pres {S X R} (f : S -> X -> S) (pr : S -> R) l :
  (forall s x, pr (f s x) = pr s) -> forall s, pr (fold_left f l s) = pr s.
Proof. intros H. induction l as [|x l IH]; intros s; simpl; [reflexivity|]. rewrite IH. apply H. Qed.

Lemma fold_left_pair_pres {S X E R} (f : S * E -> X -> S * E) (pr : S -> R) l :
  (forall a x, pr (fst (f a x)) = pr (fst a)) -> forall a, pr (fst (fold_left f l a)) = pr (fst a).
Proof. intros H. induction l as [|x l IH]; intros a; simpl; [reflexivity|]. rewrite IH. apply H. Qed.

Lemma key_eqb_spec a b : reflect (a = b) (key_eqb a b).
Proof.
  destruct a as [a1 a2], b as [b1 b2]. unfold key_eqb. cbn [fst snd].
  destruct (Z.eqb_spec a1 b1); [destruct (Z.eqb_spec a2 b2)|]; constructor; congruence.
Qed.

Lemma get_view s s' : heap s' = heap s -> forall h, get h s' = get h s.
Proof. intros H h. unfold get. rewrite H. reflexivity. Qed.

Lemma get_batch_view k s s' : batches s' = batches s -> get_batch k s' = get_batch k s.
Proof. intros H. unfold get_batch. rewrite H. reflexivity. Qed.

Lemma computed_get h s f : get h s = Some f -> computed h s = match f_out f with Some _ => true | None => false end.
Proof. unfold computed. intros ->. reflexivity. Qed.

Lemma computed_true h s : computed h s = true <-> exists f o, get h s = Some f /\ f_out f = Some o.
Proof.
  unfold computed. destruct (get h s) as [f|]; [destruct (f_out f) as [o|] eqn:O|]; split; try discriminate; eauto.
  - intros (f' & o & E & O'). congruence.
  - intros (f' & o & E & _). discriminate E.
Qed.

Lemma outcome_of_get h s f o : get h s = Some f -> f_out f = Some o -> outcome_of h s = o.
Proof. unfold outcome_of. intros -> ->. reflexivity. Qed.

Lemma get_task_some t s tk : get_task t s = Some tk <-> exists out, get t s = Some (mkFut out (KTask tk)).
Proof.
  unfold get_task. split.
  - destruct (get t s) as [[out [tk0| | |]]|]; intros H; try discriminate. inversion H; subst. exists out. reflexivity.
  - intros (out & ->). reflexivity.
Qed.

Lemma set_task_some t tk s f : get t s = Some f -> set_task t tk s = put t (mkFut (f_out f) (KTask tk)) s.
Proof. unfold set_task. intros ->. reflexivity. Qed.

Lemma set_task_none t tk s : get t s = None -> set_task t tk s = s.
Proof. unfold set_task. intros ->. reflexivity. Qed.

(* the state after one scheduler-driven resume() / pause() does not depend on the scripted fault *)
Lemma resume1_st t c s :
  fst (resume1 t c s) =
  match c with
  | CAsync cid _ =>
    emit (EvResume t cid) (ci_put (t, cid) (mkCI (ci_old (ci_get (t, cid) s)) (S (ci_nres (ci_get (t, cid) s)))
                                                 (ci_npause (ci_get (t, cid) s))) s)
  | CNonAsync _ => s
  | COverride cid var v =>
    var_set var v (ci_put (t, cid) (mkCI (var_get var s) (ci_nres (ci_get (t, cid) s)) (ci_npause (ci_get (t, cid) s))) s)
  end.
Proof. unfold resume1. destruct c as [cid [|k e|k e]| |]; try reflexivity. cbv zeta. destruct (Nat.eqb _ _); reflexivity. Qed.

Lemma pause1_st t c s :
  fst (pause1 t c s) =
  match c with
  | CAsync cid _ =>
    emit (EvPause t cid) (ci_put (t, cid) (mkCI (ci_old (ci_get (t, cid) s)) (ci_nres (ci_get (t, cid) s))
                                                (S (ci_npause (ci_get (t, cid) s)))) s)
  | CNonAsync _ => s
  | COverride cid var _ => var_set var (ci_old (ci_get (t, cid) s)) s
  end.
Proof. unfold pause1. destruct c as [cid [|k e|k e]| |]; try reflexivity. cbv zeta. destruct (Nat.eqb _ _); reflexivity. Qed.

(* Any observation of the state that ignores the heap, the trace, the scoped variables, the context
   instances and the id counter is invariant under all context / completion helpers. *)
Section Stable1.
  Context {R : Type} (pr : st -> R).
  Hypothesis pr_heap : forall s h, pr (with_heap s h) = pr s.
  Hypothesis pr_emit : forall s e, pr (emit e s) = pr s.
  Hypothesis pr_vars : forall s v, pr (with_vars s v) = pr s.
  Hypothesis pr_cis : forall s c, pr (with_cis s c) = pr s.
  Hypothesis pr_top : forall s n, pr (with_top_next s n) = pr s.

  Lemma pr_put h f s : pr (put h f s) = pr s. Proof. apply pr_heap. Qed.
  Lemma pr_set_task t tk s : pr (set_task t tk s) = pr s.
  Proof. unfold set_task. destruct (get t s); [apply pr_put|reflexivity]. Qed.
  Lemma pr_var_set v x s : pr (var_set v x s) = pr s. Proof. apply pr_vars. Qed.
  Lemma pr_ci_put k c s : pr (ci_put k c s) = pr s. Proof. apply pr_cis. Qed.

  Ltac prr := repeat first [rewrite pr_emit | rewrite pr_put | rewrite pr_set_task | rewrite pr_var_set
                            | rewrite pr_ci_put | rewrite pr_heap | rewrite pr_vars | rewrite pr_cis | rewrite pr_top];
              try reflexivity.

  Lemma pr_alloc p s : pr (snd (alloc p s)) = pr s. Proof. unfold alloc. cbn [snd]. prr. Qed.

  Lemma pr_enter_ctx t c s : pr (enter_ctx t c s) = pr s.
  Proof. unfold enter_ctx. destruct (get_task t s); destruct c; prr. Qed.
  Lemma pr_pause_plain t c s : pr (pause_plain t c s) = pr s.
  Proof. destruct c; unfold pause_plain; prr. Qed.
  Lemma pr_exit_ctx t c s : pr (exit_ctx t c s) = pr s.
  Proof. unfold exit_ctx. destruct (get_task t s) as [tk|]; [destruct (tk_cact tk)|]; rewrite ?pr_pause_plain; prr. Qed.

  Lemma pr_complete_task t o s : pr (complete_task t o s) = pr s.
  Proof.
    unfold complete_task. destruct (get_task t s) as [tk|]; [|reflexivity].
    assert (H : pr (match tk_gen tk with
                    | Some _ => fold_left (fun s c => exit_ctx t c s) (rev (tk_ctxs tk)) s
                    | None => s end) = pr s).
    { destruct (tk_gen tk); [|reflexivity]. apply fold_left_pres. intros. apply pr_exit_ctx. }
    destruct (get_task t _); [|exact H]. prr. exact H.
  Qed.

  Lemma pr_accept_error t e s : pr (accept_error t e s) = pr s.
  Proof. unfold accept_error. destruct (computed t s); [reflexivity|apply pr_complete_task]. Qed.

  Lemma pr_resume1 t c s : pr (fst (resume1 t c s)) = pr s.
  Proof. rewrite resume1_st. destruct c; prr. Qed.
  Lemma pr_pause1 t c s : pr (fst (pause1 t c s)) = pr s.
  Proof. rewrite pause1_st. destruct c; prr. Qed.

  (* the loop of _resume_contexts / _pause_contexts: one call [step1] per context, [g] keeps one of the errors *)
  Lemma pr_sweep t (step1 : fid -> ctxk -> st -> st * option exn) (g : option exn -> option exn -> option exn) l s0 :
    (forall c s, pr (fst (step1 t c s)) = pr s) ->
    pr (let '(s1, err) := fold_left (fun acc c => let '(s, err) := acc in let '(s', e) := step1 t c s in (s', g err e)) l
                                    (s0, None) in
        match err with Some e => accept_error t e s1 | None => s1 end) = pr s0.
  Proof.
    intros H1.
    match goal with |- context [fold_left ?f l ?a] => pose proof (fold_left_pair_pres f pr l) as H; specialize (H) end.
    match goal with |- context [fold_left ?f l ?a] => assert (H2 : pr (fst (fold_left f l a)) = pr s0) end.
    { rewrite H; [reflexivity|]. intros [s e] c. cbn [fst]. specialize (H1 c s). destruct (step1 t c s). exact H1. }
    match goal with |- context [fold_left ?f l ?a] => destruct (fold_left f l a) as [s1 [e|]] end;
      cbn [fst] in H2; rewrite ?pr_accept_error; exact H2.
  Qed.

  Lemma pr_resume_contexts t s : pr (resume_contexts t s) = pr s.
  Proof.
    unfold resume_contexts. destruct (get_task t s) as [tk|]; [|reflexivity]. destruct (tk_cact tk); [reflexivity|].
    rewrite (pr_sweep t resume1 (fun err e => match err with Some _ => err | None => e end)); [apply pr_set_task|apply pr_resume1].
  Qed.

  Lemma pr_pause_contexts t s : pr (pause_contexts t s) = pr s.
  Proof.
    unfold pause_contexts. destruct (get_task t s) as [tk|]; [|reflexivity]. destruct (negb (tk_cact tk)); [reflexivity|].
    rewrite (pr_sweep t pause1 (fun err e => match e with Some _ => e | None => err end)); [apply pr_set_task|apply pr_pause1].
  Qed.

  Lemma pr_complete_item h o s : pr (complete_item h o s) = pr s.
  Proof. unfold complete_item. destruct (get h s) as [f|]; [destruct (f_out f)|]; prr. Qed.

  Lemma pr_flush_body items : forall i ra s, pr (fst (flush_body items i ra s)) = pr s.
  Proof.
    induction items as [|h rest IH]; intros i ra s; simpl.
    - destruct ra as [[k e]|]; reflexivity.
    - assert (H : pr (match get h s with
                      | Some (mkFut _ (KItem _ _ _ (ASet v))) => complete_item h (Ok v) s
                      | Some (mkFut _ (KItem _ _ _ (AErr e'))) => complete_item h (Err e') s
                      | _ => s end) = pr s)
        by (destruct (get h s) as [[o [ | kind idx key [v|e'|] | | ]]|]; rewrite ?pr_complete_item; reflexivity).
      destruct ra as [[k e]|]; [destruct (Z.eqb i k); [reflexivity|]|]; rewrite IH; exact H.
  Qed.
End Stable1.

(* the two fields that only the control transitions themselves write; with sb, cur, batches, top_next, oracle they
   make MachineCases.sched *)
Definition regs (s : st) : list fid * option fid := (tasks s, active s).
Arguments regs : simpl never.

Lemma regs_put h f s : regs (put h f s) = regs s. Proof. reflexivity. Qed.
Lemma regs_set_task t tk s : regs (set_task t tk s) = regs s. Proof. apply (pr_set_task regs); reflexivity. Qed.
Lemma regs_emit e s : regs (emit e s) = regs s. Proof. reflexivity. Qed.
Lemma regs_put_batch k b s : regs (put_batch k b s) = regs s. Proof. reflexivity. Qed.
Lemma regs_var_set v x s : regs (var_set v x s) = regs s. Proof. reflexivity. Qed.
Lemma regs_ci_put k c s : regs (ci_put k c s) = regs s. Proof. reflexivity. Qed.
Lemma regs_with_heap s h : regs (with_heap s h) = regs s. Proof. reflexivity. Qed.
Lemma regs_with_batches s h : regs (with_batches s h) = regs s. Proof. reflexivity. Qed.
Lemma regs_with_cur s h : regs (with_cur s h) = regs s. Proof. reflexivity. Qed.
Lemma regs_with_sb s h : regs (with_sb s h) = regs s. Proof. reflexivity. Qed.
Lemma regs_with_vars s h : regs (with_vars s h) = regs s. Proof. reflexivity. Qed.
Lemma regs_with_cis s h : regs (with_cis s h) = regs s. Proof. reflexivity. Qed.
Lemma regs_with_oracle s h : regs (with_oracle s h) = regs s. Proof. reflexivity. Qed.
Lemma regs_with_top_next s h : regs (with_top_next s h) = regs s. Proof. reflexivity. Qed.

Lemma regs_enter_ctx t c s : regs (enter_ctx t c s) = regs s. Proof. apply (pr_enter_ctx regs); reflexivity. Qed.
Lemma regs_exit_ctx t c s : regs (exit_ctx t c s) = regs s. Proof. apply (pr_exit_ctx regs); reflexivity. Qed.
Lemma regs_complete_task t o s : regs (complete_task t o s) = regs s. Proof. apply (pr_complete_task regs); reflexivity. Qed.
Lemma regs_accept_error t e s : regs (accept_error t e s) = regs s. Proof. apply (pr_accept_error regs); reflexivity. Qed.
Lemma regs_resume_contexts t s : regs (resume_contexts t s) = regs s. Proof. apply (pr_resume_contexts regs); reflexivity. Qed.
Lemma regs_pause_contexts t s : regs (pause_contexts t s) = regs s. Proof. apply (pr_pause_contexts regs); reflexivity. Qed.
Lemma regs_complete_item h o s : regs (complete_item h o s) = regs s. Proof. apply (pr_complete_item regs); reflexivity. Qed.

(* the end of wait_for only touches the set of scheduled batches *)
Lemma drop_sb_cases s : drop_sb s = with_sb s [] \/ drop_sb s = s.
Proof. unfold drop_sb. destruct (tasks s); auto. Qed.
Lemma regs_drop_sb s : regs (drop_sb s) = regs s.
Proof. destruct (drop_sb_cases s) as [E|E]; rewrite E; reflexivity. Qed.
Lemma heap_drop_sb s : heap (drop_sb s) = heap s.
Proof. destruct (drop_sb_cases s) as [E|E]; rewrite E; reflexivity. Qed.
Lemma batches_drop_sb s : batches (drop_sb s) = batches s.
Proof. destruct (drop_sb_cases s) as [E|E]; rewrite E; reflexivity. Qed.
Lemma top_next_drop_sb s : top_next (drop_sb s) = top_next s.
Proof. destruct (drop_sb_cases s) as [E|E]; rewrite E; reflexivity. Qed.
Lemma trace_drop_sb s : trace (drop_sb s) = trace s.
Proof. destruct (drop_sb_cases s) as [E|E]; rewrite E; reflexivity. Qed.
Lemma tasks_drop_sb s : tasks (drop_sb s) = tasks s.
Proof. destruct (drop_sb_cases s) as [E|E]; rewrite E; reflexivity. Qed.
Lemma active_drop_sb s : active (drop_sb s) = active s.
Proof. destruct (drop_sb_cases s) as [E|E]; rewrite E; reflexivity. Qed.
Lemma vars_drop_sb s : vars (drop_sb s) = vars s.
Proof. destruct (drop_sb_cases s) as [E|E]; rewrite E; reflexivity. Qed.
Lemma cis_drop_sb s : cis (drop_sb s) = cis s.
Proof. destruct (drop_sb_cases s) as [E|E]; rewrite E; reflexivity. Qed.
Lemma cur_drop_sb s : cur (drop_sb s) = cur s.
Proof. destruct (drop_sb_cases s) as [E|E]; rewrite E; reflexivity. Qed.
Lemma get_drop_sb h s : get h (drop_sb s) = get h s.
Proof. unfold get. rewrite heap_drop_sb. reflexivity. Qed.
Lemma computed_drop_sb h s : computed h (drop_sb s) = computed h s.
Proof. unfold computed. rewrite get_drop_sb. reflexivity. Qed.
Lemma drop_sb_empty s : tasks s = [] -> sb (drop_sb s) = [].
Proof. intros H. unfold drop_sb. rewrite H. reflexivity. Qed.
Lemma sb_drop_sb_incl s k : In k (sb (drop_sb s)) -> In k (sb s).
Proof. destruct (drop_sb_cases s) as [E|E]; rewrite E; [intros []|auto]. Qed.

Lemma regs_create p f s : regs (snd (create p f s)) = regs s.
Proof. unfold create, alloc. destruct f; reflexivity. Qed.

Lemma regs_inst p y : forall s, regs (snd (inst p y s)) = regs s.
Proof.
  (* the two local loops of [inst] thread the state through the elements *)
  assert (L : forall l, Forall (fun x => forall s, regs (snd (inst p x s)) = regs s) l ->
            forall (go : list (ystruct leaf) -> st -> list (ystruct rleaf) * st),
              (forall x l' s, go (x :: l') s = let '(x', s1) := inst p x s in let '(l'', s2) := go l' s1 in (x' :: l'', s2)) ->
              (forall s, go [] s = ([], s)) -> forall s, regs (snd (go l s)) = regs s).
  { intros l IH go Hc Hn. induction IH as [|x l Hx _ IHl]; intros s; [rewrite Hn; reflexivity|]. rewrite Hc.
    specialize (Hx s). destruct (inst p x s) as [x' s1]. specialize (IHl s1). destruct (go l s1). cbn [snd] in *. congruence. }
  induction y as [| a | l IH | l IH | l IH] using ystruct_ind2; intros s.
  - reflexivity.
  - destruct a as [f|h|]; simpl; try reflexivity.
    pose proof (regs_create p f s) as H. destruct (create p f s). exact H.
  - simpl. match goal with |- context [(?g l s)] => pose proof (L l IH g (fun _ _ _ => eq_refl) (fun _ => eq_refl) s) as H;
                                                      destruct (g l s) end. exact H.
  - simpl. match goal with |- context [(?g l s)] => pose proof (L l IH g (fun _ _ _ => eq_refl) (fun _ => eq_refl) s) as H;
                                                      destruct (g l s) end. exact H.
  - simpl. match goal with |- context [(?g l s)] => set (go := g) end.
    assert (H : forall s, regs (snd (go l s)) = regs s).
    { clear s. induction IH as [|[k x] l Hx Hl IHl]; intros s; [reflexivity|]. simpl. simpl in Hx.
      specialize (Hx s). destruct (inst p x s) as [x' s1]. cbn [snd] in Hx.
      specialize (IHl s1). destruct (go l s1) as [l'' s2]. cbn [snd] in *. congruence. }
    specialize (H s). destruct (go l s). exact H.
Qed.

(* leaving a with-block in a task whose contexts are active: leave_context, then pause() *)
Lemma exit_ctx_active t c s out tk : get t s = Some (mkFut out (KTask tk)) -> tk_cact tk = true ->
  exit_ctx t c s = pause_plain t c (set_task t (tk_with_ctxs tk (remove_ctx c (tk_ctxs tk)) (tk_cact tk)) s).
Proof. intros Hg Hc. unfold exit_ctx, get_task. rewrite Hg. destruct (tk_cact tk); [reflexivity|discriminate]. Qed.

Lemma regs_flush_batch P k s : regs (flush_batch P k s) = regs s.
Proof.
  unfold flush_batch. destruct (b_done (get_batch k s)); [reflexivity|].
  match goal with |- context [flush_body ?a ?b ?c ?d] =>
    pose proof (pr_flush_body regs (fun _ _ => eq_refl) (fun _ _ => eq_refl) a b c d) as H; destruct (flush_body a b c d) as [s2 err] end.
  cbn [fst] in H. rewrite regs_put_batch.
  rewrite (fold_left_pres (fun s h => complete_item h _ s) regs); [|intros; apply regs_complete_item].
  rewrite H. destruct (Z.eqb _ _); reflexivity.
Qed.

Lemma regs_select P s : regs (snd (select P s)) = regs s.
Proof.
  unfold select. destruct (filter _ (sb s)); [reflexivity|].
  cbn [oracle with_sb]. destruct (oracle s); [reflexivity|].
  match goal with |- context [if ?b then _ else _] => destruct b end; reflexivity.
Qed.

Lemma regs_continue_with_batch P s : regs (continue_with_batch P s) = regs s.
Proof.
  unfold continue_with_batch. pose proof (regs_select P s) as H. destruct (select P s) as [[k|] s1]; cbn [snd] in H.
  - rewrite regs_emit, regs_flush_batch, regs_emit, regs_with_sb. exact H.
  - exact H.
Qed.

Lemma regs_schedule_batch k s : regs (schedule_batch k s) = regs s.
Proof. unfold schedule_batch. destruct (b_done _); [reflexivity|]. destruct (existsb _ _); reflexivity. Qed.
