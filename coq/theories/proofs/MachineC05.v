(* C05 on the scheduler machine: batch selection picks a maximal-priority eligible batch; a batch
   is flushed at most once; before/after events bracket each scheduler flush; every item of a
   flushed batch is completed by that flush. *)
From Asynq Require Import Machine proofs.ProgProofs proofs.MachineFrame.

Lemma fid_eqb_eq a : forall b, fid_eqb a b = true <-> a = b.
Proof. intros b. destruct (fid_eqb_spec a b); split; congruence. Qed.

Lemma fid_eqb_refl a : fid_eqb a a = true. Proof. apply fid_eqb_eq. reflexivity. Qed.

Lemma key_eqb_eq a b : key_eqb a b = true <-> a = b.
Proof. destruct (key_eqb_spec a b); split; congruence. Qed.

Lemma key_eqb_refl a : key_eqb a a = true. Proof. apply key_eqb_eq. reflexivity. Qed.

Section Upd.
  Context {K V : Type} (eqb : K -> K -> bool).
  Hypothesis eqb_eq : forall a b, eqb a b = true <-> a = b.

  Lemma find_upd_same (k : K) (v : V) (l : list (K * V)) :
    find (fun kv : K * V => eqb (fst kv) k) (upd eqb k v l) = Some (k, v).
  Proof.
    induction l as [|[k' v'] l IH]; cbn.
    - assert (eqb k k = true) as -> by (apply eqb_eq; reflexivity). reflexivity.
    - destruct (eqb k' k) eqn:E; cbn.
      + assert (eqb k k = true) as -> by (apply eqb_eq; reflexivity). reflexivity.
      + rewrite E. exact IH.
  Qed.

  Lemma find_upd_other (k k2 : K) (v : V) (l : list (K * V)) : k2 <> k ->
    find (fun kv : K * V => eqb (fst kv) k2) (upd eqb k v l) = find (fun kv : K * V => eqb (fst kv) k2) l.
  Proof.
    intros N. induction l as [|[k' v'] l IH]; cbn.
    - destruct (eqb k k2) eqn:E; [apply eqb_eq in E; congruence|reflexivity].
    - destruct (eqb k' k) eqn:E; cbn.
      + apply eqb_eq in E. subst k'. destruct (eqb k k2) eqn:E2; [apply eqb_eq in E2; congruence|reflexivity].
      + destruct (eqb k' k2); [reflexivity|exact IH].
  Qed.
End Upd.

Lemma get_batch_put_same k b s : get_batch k (put_batch k b s) = b.
Proof. unfold get_batch, put_batch. cbn. rewrite (find_upd_same key_eqb key_eqb_eq). reflexivity. Qed.

Lemma get_batch_put_other k k2 b s : k2 <> k -> get_batch k2 (put_batch k b s) = get_batch k2 s.
Proof. intros N. unfold get_batch, put_batch. cbn. rewrite (find_upd_other key_eqb key_eqb_eq) by exact N. reflexivity. Qed.

Lemma get_put_same h f s : get h (put h f s) = Some f.
Proof. unfold get, put. cbn. rewrite (find_upd_same fid_eqb fid_eqb_eq). reflexivity. Qed.

Lemma get_put_other h h2 f s : h2 <> h -> get h2 (put h f s) = get h2 s.
Proof. intros N. unfold get, put. cbn. rewrite (find_upd_other fid_eqb fid_eqb_eq) by exact N. reflexivity. Qed.

Lemma prio_lt_trans a b c : prio_lt a b = true -> prio_lt b c = true -> prio_lt a c = true.
Proof.
  unfold prio_lt. destruct a as [a1 a2], b as [b1 b2], c as [c1 c2]. cbn.
  rewrite !orb_true_iff, !andb_true_iff, !Z.ltb_lt, !Z.eqb_eq. lia.
Qed.

Lemma prio_lt_irrefl a : prio_lt a a = false.
Proof.
  unfold prio_lt. destruct a as [a1 a2]. cbn. rewrite !Z.ltb_irrefl, Z.eqb_refl. reflexivity.
Qed.

(* "not below": b <= a in the lexicographic order *)
Lemma not_lt_trans a b c : prio_lt a b = false -> prio_lt b c = false -> prio_lt a c = false.
Proof.
  unfold prio_lt. destruct a as [a1 a2], b as [b1 b2], c as [c1 c2]. cbn.
  rewrite !orb_false_iff, !andb_false_iff, !Z.ltb_ge, !Z.eqb_neq. lia.
Qed.

Lemma lt_not_lt a b c : prio_lt a b = true -> prio_lt a c = false -> prio_lt b c = false.
Proof.
  unfold prio_lt. destruct a as [a1 a2], b as [b1 b2], c as [c1 c2]. cbn.
  rewrite !orb_true_iff, !orb_false_iff, !andb_true_iff, !andb_false_iff, !Z.ltb_lt, !Z.ltb_ge, !Z.eqb_eq, !Z.eqb_neq. lia.
Qed.

Lemma first_max_spec P s l : forall best k,
  first_max P l best s = Some k ->
  (In k l \/ best = Some k) /\
  (forall k', In k' l -> prio_lt (prio_of P k s) (prio_of P k' s) = false) /\
  (forall b, best = Some b -> prio_lt (prio_of P k s) (prio_of P b s) = false).
Proof.
  induction l as [|x l IH]; intros best k H; cbn in H.
  - subst best. repeat split; auto; [intros k' []|].
    intros b E. inversion E; subst. apply prio_lt_irrefl.
  - (* the loop goes on with y, the greater of best and x *)
    assert (Hy : exists y, first_max P l (Some y) s = Some k /\ (y = x \/ best = Some y) /\
                   prio_lt (prio_of P y s) (prio_of P x s) = false /\
                   forall b, best = Some b -> prio_lt (prio_of P y s) (prio_of P b s) = false).
    { destruct best as [b|]; [destruct (prio_lt (prio_of P b s) (prio_of P x s)) eqn:E|].
      - exists x. repeat split; auto; [apply prio_lt_irrefl|]. intros b' Eb. inversion Eb; subst b'.
        destruct (prio_lt (prio_of P x s) (prio_of P b s)) eqn:E3; [|reflexivity].
        pose proof (prio_lt_trans _ _ _ E3 E) as C. rewrite prio_lt_irrefl in C. discriminate.
      - exists b. repeat split; auto. intros b' Eb. inversion Eb. apply prio_lt_irrefl.
      - exists x. repeat split; auto; [apply prio_lt_irrefl|discriminate]. }
    destruct Hy as (y & Hf & Hyx & Hx & Hbest). destruct (IH _ _ Hf) as (Hin & Hmax & Hb). specialize (Hb y eq_refl).
    repeat split.
    + destruct Hin as [Hin|Hin]; [left; right; exact Hin|]. inversion Hin; subst y.
      destruct Hyx as [->|E]; [left; left; reflexivity|right; exact E].
    + intros k' [<-|Hk']; [exact (not_lt_trans _ _ _ Hb Hx)|apply Hmax; exact Hk'].
    + intros b Eb. exact (not_lt_trans _ _ _ Hb (Hbest b Eb)).
Qed.

Lemma first_max_none P s l best : first_max P l best s = None -> l = [] /\ best = None.
Proof.
  revert best. induction l as [|x l IH]; intros best H; cbn in H; [auto|].
  destruct best as [b|].
  - destruct (prio_lt _ _); apply IH in H; destruct H; discriminate.
  - apply IH in H. destruct H. discriminate.
Qed.

Lemma prio_of_with_sb P k s l : prio_of P k (with_sb s l) = prio_of P k s. Proof. reflexivity. Qed.
Lemma prio_of_with_oracle P k s l : prio_of P k (with_oracle s l) = prio_of P k s. Proof. reflexivity. Qed.
Lemma prio_of_emit P k s e : prio_of P k (emit e s) = prio_of P k s. Proof. reflexivity. Qed.

(* the batch chosen by _select_batch_to_flush is scheduled, pending and non-empty, and no scheduled
   eligible batch has a strictly greater priority - whatever the oracle (set iteration order) says *)
Theorem select_spec P s k s' :
  select P s = (Some k, s') ->
  In k (sb s) /\ eligible k s = true /\
  (forall k', In k' (sb s) -> eligible k' s = true -> prio_lt (prio_of P k s) (prio_of P k' s) = false) /\
  sb s' = filter (fun k => eligible k s) (sb s).
Proof.
  unfold select. set (el := filter (fun k0 => eligible k0 s) (sb s)).
  assert (Hel : forall x, In x el <-> In x (sb s) /\ eligible x s = true) by (intros x; apply filter_In).
  assert (Hfm : forall s2, first_max P el None (with_sb s el) = Some k -> sb s2 = el ->
            In k (sb s) /\ eligible k s = true /\
            (forall k', In k' (sb s) -> eligible k' s = true -> prio_lt (prio_of P k s) (prio_of P k' s) = false) /\
            sb s2 = el).
  { intros s2 Hf Hsb. destruct (first_max_spec _ _ _ _ _ Hf) as (Hin & Hmax & _).
    destruct Hin as [Hin|Hin]; [|discriminate]. apply Hel in Hin as [Hi1 Hi2].
    repeat split; auto. intros k' Hk' He. apply Hmax. apply Hel. auto. }
  destruct el as [|e0 el'] eqn:Eel; [discriminate|]. rewrite <- Eel in *.
  cbn [oracle with_sb]. destruct (oracle s) as [|c rest].
  - intros H. injection H as Hf Hs2. subst s'. apply Hfm; [exact Hf|reflexivity].
  - destruct (existsb (key_eqb c) el && is_max P c el (with_sb s el)) eqn:E.
    + intros H. injection H as Hc Hs2. subst s' c. apply andb_true_iff in E as [E1 E2].
      apply existsb_exists in E1 as (x & Hx & Ex). apply key_eqb_eq in Ex. subst x.
      apply Hel in Hx as [Hx1 Hx2]. repeat split; auto.
      intros k' Hk' He. unfold is_max in E2. rewrite forallb_forall in E2.
      specialize (E2 k' (proj2 (Hel k') (conj Hk' He))). apply negb_true_iff in E2. exact E2.
    + intros H. injection H as Hf Hs2. subst s'. apply Hfm; [exact Hf|reflexivity].
Qed.

Theorem select_none P s s' :
  select P s = (None, s') -> forall k, In k (sb s) -> eligible k s = false.
Proof.
  unfold select. set (el := filter (fun k0 => eligible k0 s) (sb s)).
  assert (Hel : forall x, In x el <-> In x (sb s) /\ eligible x s = true) by (intros x; apply filter_In).
  destruct el as [|e0 el'] eqn:Eel.
  - intros _ k Hk. destruct (eligible k s) eqn:E; [|reflexivity].
    destruct (proj2 (Hel k) (conj Hk E)).
  - rewrite <- Eel. cbn [oracle with_sb]. destruct (oracle s) as [|c rest].
    + intros H. injection H as Hf _. apply first_max_none in Hf as [Hf _].
      rewrite Eel in Hf. discriminate.
    + destruct (existsb _ _ && _); intros H; [discriminate|]. injection H as Hf _.
      apply first_max_none in Hf as [Hf _]. rewrite Eel in Hf. discriminate.
Qed.

Definition flush_event (e : event) : Prop :=
  match e with EvItemDone _ _ => True | _ => False end.

Lemma computed_put_same h o k s : computed h (put h (mkFut (Some o) k) s) = true.
Proof. unfold computed. rewrite get_put_same. reflexivity. Qed.

Lemma get_emit h e s : get h (emit e s) = get h s. Proof. reflexivity. Qed.
Lemma computed_emit h e s : computed h (emit e s) = computed h s. Proof. reflexivity. Qed.

(* what completing items does to the rest of the state: only completion events are appended, nothing
   computed is lost, no entry disappears, the batch table and the registry stay *)
Definition item_writes (s s' : st) : Prop :=
  (exists evs, trace s' = evs ++ trace s /\ Forall flush_event evs) /\
  (forall h', computed h' s = true -> computed h' s' = true) /\
  (forall h', get h' s <> None -> get h' s' <> None) /\
  batches s' = batches s /\ cur s' = cur s.

Lemma item_writes_refl s : item_writes s s.
Proof. repeat split; auto. exists []. split; [reflexivity|constructor]. Qed.

Lemma item_writes_trans a b c : item_writes a b -> item_writes b c -> item_writes a c.
Proof.
  intros ((ev1 & T1 & F1) & C1 & G1 & B1 & U1) ((ev2 & T2 & F2) & C2 & G2 & B2 & U2).
  repeat split; try congruence; auto.
  exists (ev2 ++ ev1). split; [rewrite T2, T1, app_assoc; reflexivity|]. apply Forall_app. auto.
Qed.

Lemma item_writes_fold {X} (f : st -> X -> st) l : (forall s x, item_writes s (f s x)) -> forall s, item_writes s (fold_left f l s).
Proof. intros H. induction l as [|x l IH]; intros s; cbn; [apply item_writes_refl|]. eapply item_writes_trans; [apply H|apply IH]. Qed.

Lemma complete_item_computed h o s : get h s <> None -> computed h (complete_item h o s) = true.
Proof.
  intros Hg. unfold complete_item. destruct (get h s) as [f|] eqn:G; [|congruence].
  destruct (f_out f) eqn:O; [unfold computed; rewrite G, O; reflexivity|apply computed_put_same].
Qed.

Lemma item_writes_complete_item h o s : item_writes s (complete_item h o s).
Proof.
  unfold complete_item. destruct (get h s) as [f|] eqn:G; [|apply item_writes_refl].
  destruct (f_out f) as [o'|] eqn:O; [apply item_writes_refl|]. repeat split; auto.
  - exists [EvItemDone h o]. split; [reflexivity|]. repeat constructor.
  - intros h' Hc. rewrite computed_emit. destruct (fid_eqb_spec h' h) as [->|N]; [apply computed_put_same|].
    unfold computed in *. rewrite get_put_other by assumption. exact Hc.
  - intros h' Hg. rewrite get_emit. destruct (fid_eqb_spec h' h) as [->|N]; [rewrite get_put_same; discriminate|].
    rewrite get_put_other by assumption. exact Hg.
Qed.

(* the flush body as a fold: [serve] is what it does to one item, [reached_items] are the items it gets to before
   the scripted exception *)
Definition serve (s : st) (h : fid) : st :=
  match get h s with
  | Some (mkFut _ (KItem _ _ _ (ASet v))) => complete_item h (Ok v) s
  | Some (mkFut _ (KItem _ _ _ (AErr e))) => complete_item h (Err e) s
  | _ => s
  end.

Fixpoint reached_items (items : list fid) (i : Z) (ra : option (Z * exn)) : list fid :=
  match items with
  | [] => []
  | h :: rest => match ra with
                 | Some (k, _) => if Z.eqb i k then [] else h :: reached_items rest (i + 1) ra
                 | None => h :: reached_items rest (i + 1) ra
                 end
  end.

Lemma flush_body_fold items : forall i ra s, fst (flush_body items i ra s) = fold_left serve (reached_items items i ra) s.
Proof.
  induction items as [|h rest IH]; intros i ra s; cbn [flush_body reached_items].
  - destruct ra as [[k e]|]; reflexivity.
  - destruct ra as [[k e]|]; [destruct (Z.eqb i k); [reflexivity|]|]; rewrite IH; reflexivity.
Qed.

Lemma flush_body_spec items : forall i ra s,
  let s' := fst (flush_body items i ra s) in
  (exists evs, trace s' = evs ++ trace s /\ Forall flush_event evs) /\
  (forall h', computed h' s = true -> computed h' s' = true) /\
  (forall h', get h' s <> None -> get h' s' <> None) /\
  batches s' = batches s /\ cur s' = cur s.
Proof.
  intros i ra s. cbv zeta. rewrite flush_body_fold. apply item_writes_fold. intros s0 h. unfold serve.
  destruct (get h s0) as [[o [ | kind idx key [v|e'|] | | ]]|]; first [apply item_writes_complete_item | apply item_writes_refl].
Qed.

Lemma item_writes_fold_complete o items s : item_writes s (fold_left (fun s h => complete_item h o s) items s).
Proof. apply item_writes_fold. intros. apply item_writes_complete_item. Qed.

Lemma fold_complete_all o items : forall s h, In h items -> get h s <> None ->
  computed h (fold_left (fun s h => complete_item h o s) items s) = true.
Proof.
  induction items as [|x rest IH]; intros s h Hin Hg; [destruct Hin|]. cbn [fold_left].
  destruct Hin as [<-|Hin].
  - destruct (item_writes_fold_complete o rest (complete_item x o s)) as (_ & C & _). apply C, complete_item_computed, Hg.
  - apply IH; [exact Hin|]. apply (item_writes_complete_item x o s), Hg.
Qed.

Lemma fold_complete_spec o items : forall s,
  let s' := fold_left (fun s h => complete_item h o s) items s in
  (exists evs, trace s' = evs ++ trace s /\ Forall flush_event evs) /\
  (forall h', computed h' s = true -> computed h' s' = true) /\
  (forall h', get h' s <> None -> get h' s' <> None) /\
  (forall h, In h items -> get h s <> None -> computed h s' = true) /\
  batches s' = batches s /\ cur s' = cur s.
Proof.
  intros s. destruct (item_writes_fold_complete o items s) as (A & C & G & B & U).
  repeat split; try assumption. apply fold_complete_all.
Qed.

(* a batch that is already flushed or cancelled is never flushed again: no event, no change *)
Theorem flush_done_is_noop P k s : b_done (get_batch k s) = true -> flush_batch P k s = s.
Proof. intros H. unfold flush_batch. rewrite H. reflexivity. Qed.

(* flushing a pending batch: the body runs once (one EvFlush with the batch's items in order), only
   item completions follow, the batch is done afterwards and every one of its items is computed *)
Theorem flush_pending P k s :
  b_done (get_batch k s) = false ->
  let s' := flush_batch P k s in
  (exists evs, trace s' = evs ++ EvFlush (fst k) (snd k) (b_items (get_batch k s)) :: trace s /\
               Forall flush_event evs) /\
  b_done (get_batch k s') = true /\
  (forall h, In h (b_items (get_batch k s)) -> get h s <> None -> computed h s' = true) /\
  (forall h, computed h s = true -> computed h s' = true).
Proof.
  intros Hd. cbn zeta. unfold flush_batch. rewrite Hd.
  set (s0 := if Z.eqb (cur_idx (fst k) s) (snd k) then with_cur s (upd Z.eqb (fst k) (snd k + 1) (cur s)) else s).
  assert (H0 : heap s0 = heap s /\ trace s0 = trace s /\ batches s0 = batches s).
  { unfold s0. destruct (Z.eqb _ _); auto. }
  destruct H0 as (Hh0 & Ht0 & Hb0).
  set (s1 := emit (EvFlush (fst k) (snd k) (b_items (get_batch k s))) s0).
  pose proof (flush_body_spec (b_items (get_batch k s)) 0 (ks_raise (kspec_of P (fst k))) s1) as HB.
  destruct (flush_body (b_items (get_batch k s)) 0 (ks_raise (kspec_of P (fst k))) s1) as [s2 err].
  cbn zeta in HB. cbn [fst] in HB. destruct HB as ((ev2 & T2 & F2) & C2 & G2 & B2 & U2).
  set (fill := match err with Some e => Err e | None => Err E_NOTSET end).
  pose proof (fold_complete_spec fill (b_items (get_batch k s)) s2) as HF. cbn zeta in HF.
  destruct HF as ((ev3 & T3 & F3) & C3 & G3 & I3 & B3 & U3).
  set (s3 := fold_left (fun s h => complete_item h fill s) (b_items (get_batch k s)) s2) in *.
  assert (Hget : forall h, get h s1 = get h s) by (intros h; unfold get, s1; cbn; rewrite Hh0; reflexivity).
  assert (Hcomp : forall h, computed h s1 = computed h s) by (intros h; unfold computed; rewrite Hget; reflexivity).
  repeat split.
  - exists (ev3 ++ ev2). split.
    + cbn. change (trace (put_batch k _ s3)) with (trace s3). rewrite T3, T2. unfold s1. cbn. rewrite Ht0, app_assoc. reflexivity.
    + apply Forall_app. split; assumption.
  - rewrite get_batch_put_same. reflexivity.
  - intros h Hin Hg. unfold computed. cbn. change (get h (put_batch k _ s3)) with (get h s3).
    apply I3; [exact Hin|]. apply G2. rewrite Hget. exact Hg.
  - intros h Hc. unfold computed. change (get h (put_batch k _ s3)) with (get h s3).
    apply C3, C2. rewrite Hcomp. exact Hc.
Qed.

Lemma sb_flush_batch P k s : sb (flush_batch P k s) = sb s.
Proof.
  unfold flush_batch. destruct (b_done (get_batch k s)); [reflexivity|].
  match goal with |- context [flush_body ?a ?b ?c ?d] =>
    pose proof (pr_flush_body sb (fun _ _ => eq_refl) (fun _ _ => eq_refl) a b c d) as H; destruct (flush_body a b c d) as [s2 err] end.
  cbn [fst] in H. change (sb (put_batch k ?b ?s)) with (sb s).
  rewrite (fold_left_pres (fun s h => complete_item h _ s) sb); [|intros; apply (pr_complete_item sb); reflexivity].
  rewrite H. destruct (Z.eqb _ _); reflexivity.
Qed.

(* the state after _select_batch_to_flush: the scheduled batches are pruned, the oracle's head is consumed,
   an illegal choice is reported *)
Lemma select_st P s : let el := filter (fun k => eligible k s) (sb s) in
  exists o, snd (select P s) = with_oracle (with_sb s el) o \/
            exists a b, snd (select P s) = emit (EvIllegal a b) (with_oracle (with_sb s el) o).
Proof.
  cbn zeta. unfold select. destruct (filter _ (sb s)) as [|e0 el]; [exists (oracle s); left; reflexivity|].
  cbn [oracle with_sb]. destruct (oracle s) as [|c rest] eqn:Eo; [exists (oracle s); left; reflexivity|].
  exists rest. destruct (existsb _ _ && _); [left|right; exists (fst c), (snd c)]; reflexivity.
Qed.

Lemma select_batches P s : batches (snd (select P s)) = batches s /\ heap (snd (select P s)) = heap s.
Proof. destruct (select_st P s) as (o & [->|(a & b & ->)]); split; reflexivity. Qed.

(* _continue_with_batch: nothing happens without an eligible batch; otherwise exactly
   before, flush body with the items in order, item completions, after - and the flushed batch is
   removed from the scheduler's set, done, with every item computed *)
Theorem continue_with_batch_spec P s :
  match select P s with
  | (None, s1) => continue_with_batch P s = s1
  | (Some k, s1) =>
    let s' := continue_with_batch P s in
    (exists evs, trace s' = EvAfter (fst k) (snd k) :: evs ++
                            EvFlush (fst k) (snd k) (b_items (get_batch k s)) :: EvBefore (fst k) (snd k) :: trace s1 /\
                 Forall flush_event evs) /\
    b_done (get_batch k s') = true /\
    ~ In k (sb s') /\
    (forall h, In h (b_items (get_batch k s)) -> get h s <> None -> computed h s' = true)
  end.
Proof.
  unfold continue_with_batch. destruct (select P s) as [[k|] s1] eqn:Sel; [|reflexivity].
  destruct (select_spec _ _ _ _ Sel) as (Hin & Hel & _ & _).
  pose proof (select_batches P s) as [Hb Hh]. rewrite Sel in Hb, Hh. cbn [snd] in Hb, Hh.
  set (s2 := with_sb s1 (filter (fun k' => negb (key_eqb k' k)) (sb s1))).
  set (s3 := emit (EvBefore (fst k) (snd k)) s2).
  assert (Hgb : get_batch k s3 = get_batch k s) by (unfold get_batch, s3, s2; cbn; rewrite Hb; reflexivity).
  assert (Hget : forall h, get h s3 = get h s) by (intros h; unfold get, s3, s2; cbn; rewrite Hh; reflexivity).
  assert (Hnd : b_done (get_batch k s3) = false).
  { rewrite Hgb. unfold eligible in Hel. apply andb_true_iff in Hel as [Hd _]. apply negb_true_iff in Hd. exact Hd. }
  destruct (flush_pending P k s3 Hnd) as ((evs & T & F) & D & I & _). cbn zeta in *.
  repeat split.
  - exists evs. split; [|exact F]. cbn. rewrite T, Hgb. reflexivity.
  - exact D.
  - cbn. rewrite sb_flush_batch. unfold s3, s2. cbn. intros Hk. apply filter_In in Hk as [_ Hk].
    rewrite key_eqb_refl in Hk. discriminate.
  - intros h Hi Hg. rewrite computed_emit. apply I; [rewrite Hgb; exact Hi | rewrite Hget; exact Hg].
Qed.
