(* ThreadsProofs.v — the state-partitioning argument behind C16, for every thread program
   (next_request, advance), every starting state and every interleaving. *)
From Asynq Require Import Base Threads.

Lemma zlist_eqb_refl : forall a, zlist_eqb a a = true.
Proof. induction a; simpl; auto. rewrite Z.eqb_refl; auto. Qed.

Lemma dkey_eqb_thread : forall a b, dkey_eqb a b = true -> dk_thread b = dk_thread a.
Proof.
  intros a b H. unfold dkey_eqb in H.
  apply andb_prop in H. destruct H as [H _]. apply andb_prop in H. destruct H as [_ H].
  apply Nat.eqb_eq in H. auto.
Qed.

(* a lookup sees only the entries with its own key *)
Lemma d_get_filter : forall (P : dkey * Z -> bool) k d,
  (forall kv, dkey_eqb k (fst kv) = true -> P kv = true) -> d_get k (filter P d) = d_get k d.
Proof.
  intros P k d H. induction d as [|[k' v] r IH]; simpl; auto.
  destruct (dkey_eqb k k') eqn:E.
  - rewrite (H (k', v) E). simpl. rewrite E. reflexivity.
  - destruct (P (k', v)); simpl; rewrite ?E; auto.
Qed.

Lemma owned_d_pop : forall i k d, owned i (d_pop k d) = d_pop k (owned i d).
Proof.
  intros i k d. induction d as [|[k' v] r IH]; simpl; auto.
  destruct (dkey_eqb k k') eqn:E; destruct (Nat.eqb (dk_thread k') i) eqn:E2; simpl; rewrite ?E, ?E2; simpl; congruence.
Qed.

(* popping k does not show in a selection that takes no entry with k's key *)
Lemma filter_d_pop : forall (P : dkey * Z -> bool) k d,
  (forall kv, dkey_eqb k (fst kv) = true -> P kv = false) -> filter P (d_pop k d) = filter P d.
Proof.
  intros P k d H. induction d as [|[k' v] r IH]; simpl; auto.
  destruct (dkey_eqb k k') eqn:E; simpl; rewrite IH; auto. rewrite (H (k', v) E). reflexivity.
Qed.

Lemma serve_owned : forall i rq d1 d2, owned i d1 = owned i d2 ->
  snd (serve i rq d1) = snd (serve i rq d2) /\ owned i (fst (serve i rq d1)) = owned i (fst (serve i rq d2)).
Proof.
  intros i rq d1 d2 H. destruct rq; cbn [serve fst snd]; split; auto.
  - assert (O : forall d, d_get (args, i, f) (owned i d) = d_get (args, i, f) d).
    { intros d. apply d_get_filter. intros kv E. apply dkey_eqb_thread in E. rewrite E. apply Nat.eqb_refl. }
    rewrite <- (O d1), <- (O d2), H. auto.
  - unfold d_set, owned; cbn. rewrite Nat.eqb_refl. fold (owned i (d_pop (args, i, f) d1)) (owned i (d_pop (args, i, f) d2)).
    rewrite !owned_d_pop, H. auto.
  - rewrite !owned_d_pop, H. auto.
Qed.

(* an access by thread i leaves alone every selection of entries that takes none whose key names i *)
Lemma serve_filter : forall (P : dkey * Z -> bool) i rq d,
  (forall kv, dk_thread (fst kv) = i -> P kv = false) -> filter P (fst (serve i rq d)) = filter P d.
Proof.
  intros P i rq d H.
  assert (A : forall a f kv, dkey_eqb (a, i, f) (fst kv) = true -> P kv = false).
  { intros a f kv E. apply H. exact (dkey_eqb_thread _ _ E). }
  destruct rq; cbn [serve fst]; auto; [unfold d_set; cbn [filter]; rewrite H by reflexivity|];
    apply filter_d_pop, A.
Qed.

(* ... hence also every lookup of a key that names another thread *)
Lemma serve_get_other : forall i rq d k, dk_thread k <> i -> d_get k (fst (serve i rq d)) = d_get k d.
Proof.
  intros i rq d k H. set (P := fun kv : dkey * Z => dkey_eqb k (fst kv)).
  rewrite <- (d_get_filter P k (fst (serve i rq d))), serve_filter, d_get_filter; auto.
  intros kv E. destruct (P kv) eqn:E2; auto. apply dkey_eqb_thread in E2. congruence.
Qed.

Section MachineProofs.
  Variable RO : Type.
  Variable local : Type.
  Variable next_request : RO -> local -> request.
  Variable advance : RO -> local -> response -> local.

  Notation G := (@global RO local).
  Notation step := (step next_request advance).
  Notation run := (run next_request advance).
  Notation solo := (solo next_request advance).

  Lemma filter_repeat : forall i sch, filter (Nat.eqb i) sch = repeat i (count i sch).
  Proof.
    intros i sch. unfold count. induction sch as [|j r IH]; simpl; auto.
    destruct (Nat.eqb i j) eqn:E; simpl; auto.
    apply Nat.eqb_eq in E. subst j. f_equal. auto.
  Qed.

  Lemma count_app : forall i s1 s2, count i (s1 ++ s2) = (count i s1 + count i s2)%nat.
  Proof. intros. unfold count. rewrite filter_app, app_length. auto. Qed.

  (* the thread component of the key: any INJECTIVE function of the thread will do *)
  Section Ident.
    Variable ident : tid -> nat.
    Notation stepb := (step_by next_request advance ident).
    Notation runb := (run_by next_request advance ident).

    Lemma step_by_unfold : forall i (g : G),
      stepb i g = mkG (g_ro g)
                     (upd i (advance (g_ro g) (g_loc g i) (snd (serve (ident i) (next_request (g_ro g) (g_loc g i)) (g_dedup g)))) (g_loc g))
                     (fst (serve (ident i) (next_request (g_ro g) (g_loc g i)) (g_dedup g))).
    Proof. intros. unfold Threads.step_by. destruct (serve _ _ _). reflexivity. Qed.

    (* what thread i does next depends only on slot i, the options and i's own entries *)
    Definition simb (i : tid) (g1 g2 : G) : Prop :=
      g_ro g1 = g_ro g2 /\ g_loc g1 i = g_loc g2 i /\ owned (ident i) (g_dedup g1) = owned (ident i) (g_dedup g2).

    Hypothesis ident_injective : forall a b, ident a = ident b -> a = b.

    Lemma simb_step_same : forall i g1 g2, simb i g1 g2 -> simb i (stepb i g1) (stepb i g2).
    Proof.
      intros i g1 g2 (Hro & Hl & Hd). rewrite !step_by_unfold. unfold simb. simpl.
      rewrite Hro, Hl.
      destruct (serve_owned (ident i) (next_request (g_ro g2) (g_loc g2 i)) _ _ Hd) as [Hr Ho].
      repeat split; auto.
      unfold upd. rewrite Nat.eqb_refl. rewrite Hr. auto.
    Qed.

    Lemma simb_step_other : forall i j g1 g2, j <> i -> simb i g1 g2 -> simb i (stepb j g1) g2.
    Proof.
      intros i j g1 g2 Hj (Hro & Hl & Hd). rewrite step_by_unfold. unfold simb. simpl.
      repeat split; auto.
      - unfold upd. apply Nat.eqb_neq in Hj. rewrite Nat.eqb_sym in Hj. rewrite Hj. auto.
      - rewrite <- Hd. apply serve_filter. intros kv E. apply Nat.eqb_neq. rewrite E. auto.
    Qed.

    Lemma runb_sim : forall i sch g1 g2, simb i g1 g2 -> simb i (runb sch g1) (runb (filter (Nat.eqb i) sch) g2).
    Proof.
      intros i sch. induction sch as [|j r IH]; intros g1 g2 H; simpl; auto.
      destruct (Nat.eqb i j) eqn:E.
      - apply Nat.eqb_eq in E. subst j. simpl. apply IH. apply simb_step_same. auto.
      - apply IH. apply simb_step_other; auto. apply Nat.eqb_neq in E. auto.
    Qed.

    Theorem solo_equals_interleaved_by_injective_ident : forall (g : G) sch i,
      g_loc (runb sch g) i = g_loc (runb (repeat i (count i sch)) g) i /\
      owned (ident i) (g_dedup (runb sch g)) = owned (ident i) (g_dedup (runb (repeat i (count i sch)) g)).
    Proof.
      intros g sch i. rewrite <- filter_repeat.
      destruct (runb_sim i sch g g) as (_ & H2 & H3); [unfold simb; auto|]. auto.
    Qed.
  End Ident.

  (* the key holds the Thread object itself: [step] is [step_by] with the identity *)
  Lemma run_by_id : forall sch (g : G), run_by next_request advance (fun i => i) sch g = run sch g.
  Proof. induction sch as [|j r IH]; intros g; simpl; auto. Qed.

  (* a step of thread i changes only slot i and dict entries whose key names i *)
  Theorem frame : forall i (g : G),
    g_ro (step i g) = g_ro g /\
    (forall j, j <> i -> g_loc (step i g) j = g_loc g j) /\
    others i (g_dedup (step i g)) = others i (g_dedup g) /\
    (forall j, j <> i -> owned j (g_dedup (step i g)) = owned j (g_dedup g)) /\
    (forall k, dk_thread k <> i -> d_get k (g_dedup (step i g)) = d_get k (g_dedup g)).
  Proof.
    intros i g. change (step i g) with (step_by next_request advance (fun i => i) i g).
    rewrite step_by_unfold. simpl. repeat split.
    - intros j Hj. unfold upd. apply Nat.eqb_neq in Hj. rewrite Hj. auto.
    - apply serve_filter. intros kv E. rewrite E, Nat.eqb_refl. reflexivity.
    - intros j Hj. apply serve_filter. intros kv E. apply Nat.eqb_neq. rewrite E. auto.
    - intros k Hk. apply serve_get_other. auto.
  Qed.

  Definition sim (i : tid) (g1 g2 : G) : Prop :=
    g_ro g1 = g_ro g2 /\ g_loc g1 i = g_loc g2 i /\ owned i (g_dedup g1) = owned i (g_dedup g2).

  Lemma run_sim : forall i sch g1 g2, sim i g1 g2 -> sim i (run sch g1) (run (filter (Nat.eqb i) sch) g2).
  Proof. intros i sch g1 g2 H. rewrite <- !run_by_id. apply (runb_sim (fun i => i)); auto. Qed.

  (* for EVERY interleaving, thread i ends exactly where it ends when it
     makes the same number of steps alone — its slot and its entries of the shared dict *)
  Theorem solo_equals_interleaved : forall (g : G) sch i,
    g_loc (run sch g) i = g_loc (solo i (count i sch) g) i /\
    owned i (g_dedup (run sch g)) = owned i (g_dedup (solo i (count i sch) g)) /\
    g_ro (run sch g) = g_ro g.
  Proof.
    intros g sch i. unfold Threads.solo. rewrite <- filter_repeat.
    destruct (run_sim i sch g g) as (H1 & H2 & H3); [unfold sim; auto|].
    repeat split; auto.
    clear. revert g. induction sch as [|j r IH]; intros g; simpl; auto.
    rewrite IH. apply frame.
  Qed.

  (* a thread that makes no step is not affected at all *)
  Corollary untouched : forall (g : G) sch i, count i sch = O ->
    g_loc (run sch g) i = g_loc g i /\ owned i (g_dedup (run sch g)) = owned i (g_dedup g).
  Proof.
    intros g sch i H. destruct (solo_equals_interleaved g sch i) as (A & B & _).
    rewrite H in A, B. simpl in A, B. auto.
  Qed.
End MachineProofs.

(* the asynq instance: the whole thread-local state (scheduler slot, debug-batch registry, profiler slot,
   asyncio flag, the per-op event traces) of a thread that makes n of the steps of a schedule.  The count is a
   premise so that, on a concrete schedule, only `count i sch` has to be evaluated to apply the lemma: unifying
   the two runs themselves unfolds them symbolically and does not come back *)
Lemma local_state_solo : forall (g : proc) sch i n, count i sch = n ->
  g_loc (trun sch g) i = g_loc (trun (repeat i n) g) i.
Proof. intros g sch i n <-. apply (solo_equals_interleaved bool local next_request advance). Qed.

(* The thread in the key is what makes this true: the same machine with a dict whose keys do not
   contain the thread (every access made as "thread 0") lets thread 1 change what thread 0 reads. *)
Definition step_nokey {RO local} (nr : RO -> local -> request) (adv : RO -> local -> response -> local)
  (i : tid) (g : @global RO local) : @global RO local :=
  let l := g_loc g i in
  let '(d', rs) := serve O (nr (g_ro g) l) (g_dedup g) in
  mkG (g_ro g) (upd i (adv (g_ro g) l rs) (g_loc g)) d'.

Fixpoint run_nokey {RO local} nr adv (sch : list tid) (g : @global RO local) :=
  match sch with [] => g | i :: r => run_nokey nr adv r (step_nokey nr adv i g) end.

Definition w_next (_ : unit) (l : bool * response) : request :=
  if fst l then RqSet [] 0 7 else RqGet [] 0.
Definition w_adv (_ : unit) (l : bool * response) (r : response) : bool * response := (fst l, r).
Definition w_init : @global unit (bool * response) := mkG tt (fun i => (Nat.eqb i 1, RsNone)) [].

(* ... and it has to be unique over the whole life of the process, not only among the threads alive at
   the same time: thread 1 registers an entry and exits; thread 2 is started afterwards and the OS gives it
   the ident of thread 1.  With that number in the key thread 2 is handed thread 1's entry; with the
   thread itself in the key it is not. *)
Definition reused_ident (i : tid) : nat := if Nat.eqb i 2 then 1%nat else i.

(* hypotheses are satisfiable / the instance computes: two threads calling the same deduplicated
   function with the same arguments, any of these interleavings, same traces as alone *)
Example two_threads_same_dedup_call :
  let p := [ORun (Node 0 CNone [DLeaf 0 0; DLeaf 0 0]); OProf] in
  let g := init_global true [p; p] in
  l_trace (g_loc (trun [0;1;0;1;1;0;0;1;0;1;0;1;0;1;0;1;1;1;0;0]%nat g) 0%nat)
  = l_trace (g_loc (trun (repeat 0%nat 10) g) 0%nat)
  /\ length (l_trace (g_loc (trun (repeat 0%nat 10) g) 0%nat)) = 3%nat.
Proof.
  intros p g. split; [|vm_compute; reflexivity].
  apply (f_equal l_trace), local_state_solo. reflexivity.
Qed.

(* generations: thread 0 leaves two un-awaited deduplicated calls behind (one made inside a task, one at
   top level) and exits; thread 1, started afterwards, makes the same calls and computes its own *)
Example abandoned_calls_then_a_new_thread :
  let p0 := [ORun (Node 0 CNone [Spec 1 3; Leaf 1 CNone 0 2]); OSpec 0 0] in
  let p1 := [ORun (Node 0 CNone [DLeaf 1 3; DLeaf 0 0]); OProf] in
  let g := init_global true [p0; p1] in
  let sch := gen_schedule [p0; p1] 0 [1; 1]%nat [[]; []] in
  l_trace (g_loc (trun sch g) 1%nat) = l_trace (g_loc (trun (repeat 1%nat (count 1%nat sch)) g) 1%nat)
  /\ length (g_dedup (trun sch g)) = 2%nat                  (* thread 0's entries are still registered *)
  /\ length (l_trace (g_loc (trun sch g) 1%nat)) = 3%nat.
Proof.
  intros p0 p1 g sch. split.
  - apply (f_equal l_trace), local_state_solo. reflexivity.
  - (* the interleaved run is evaluated once for both counts *)
    change (let r := trun sch g in length (g_dedup r) = 2%nat /\ length (l_trace (g_loc r 1%nat)) = 3%nat).
    vm_compute. split; reflexivity.
Qed.
