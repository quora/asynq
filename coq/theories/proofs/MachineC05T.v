(* C05 as TRACE properties of the machine, for every program (not only trees), every parameter
   record, history and fuel.

   T1  every batch item is completed at most once (at most one [EvItemDone h _] per h);
   T2  the scheduler flushes (emits EvBefore / EvAfter) only from a configuration in mode MAfterExec
       whose top frame is [FWait root] with [root] NOT computed - step level for every configuration,
       run level with the index of the emitting step; nested synchronous calls are covered because
       every nested wait has its own FWait frame;
   T3  the batch picked by [select] is pending and non-empty, hence in the trace every EvBefore is
       immediately followed by the EvFlush of the same batch with a non-empty item list;
   T4  bracket discipline: the chronological trace is a concatenation ([blocks]) of tame events
       (no EvBefore / EvAfter / EvFlush / EvItemDone), unbracketed flushes forced by item.value()
       (EvFlush k i items; dones) and scheduler flushes (EvBefore k i; EvFlush k i items; dones;
       EvAfter k i) where [served items dones]: dones are completions of items of the batch only, and
       every item of the batch has one;
   T5  hence (with T1) every item of a flushed batch is completed exactly once in the whole trace, by
       that flush; every EvItemDone lies in a flush of a batch containing the item; EvBefore k i and
       EvAfter k i occur equally often and at most once.

   Method: every transition is a composition of helper calls (MachineHelpers.step_hstep), so the step theorems are
   inductions on [hstep].  [mild s s']: only tame events, heap ids stay below the counter, and every EvItemDone h
   turns h from uncomputed to computed ([grows]: a counting argument, which gives T1); [keep s s']: batch table and
   item entries untouched, for the heap invariant [BI] (every member of a batch is a heap entry recording that batch,
   without outcome while the batch is pending); [fxe]: what the completions of one flush do to trace and heap;
   [ok]: one transition adds whole blocks; the invariant [Inv]. *)
From Asynq Require Import Machine proofs.ProgProofs proofs.MachineFrame proofs.MachineC05 proofs.MachineC08
  proofs.MachineTrace.
From Asynq Require Export proofs.MachineHelpers.

Definition plain (e : event) : Prop :=
  match e with EvBefore _ _ | EvAfter _ _ => False | _ => True end.

(* events a helper outside BatchBase.flush may emit *)
Definition tame (e : event) : Prop :=
  match e with EvBefore _ _ | EvAfter _ _ | EvItemDone _ _ | EvFlush _ _ _ => False | _ => True end.

(* the completion of one of [items] *)
Definition done_in (items : list fid) (e : event) : Prop :=
  match e with EvItemDone h _ => In h items | _ => False end.

Definition is_item (h : fid) (e : event) : bool :=
  match e with EvItemDone h' _ => fid_eqb h h' | _ => false end.
Definition cnt (h : fid) (tr : list event) : nat := length (filter (is_item h) tr).

Definition b2n (b : bool) : nat := if b then 1%nat else 0%nat.

(* futures are numbered by the creation counter *)
Definition dom (s : st) : Prop := forall h, get h s <> None -> exists n, h = [n] /\ (n < top_next s)%Z.

(* the events [evs] lead from s to s': ids stay in range and each EvItemDone h in evs accounts for
   the one change of [computed h] from false to true (this also says that computed is monotone) *)
Definition grows (s s' : st) (evs : list event) : Prop :=
  dom s -> dom s' /\ forall h, (cnt h evs + b2n (computed h s) <= b2n (computed h s'))%nat.

(* s' extends s by events satisfying Q *)
Definition ext (Q : list event -> Prop) (s s' : st) : Prop :=
  exists evs, trace s' = evs ++ trace s /\ Q evs /\ grows s s' evs.

Definition mild : st -> st -> Prop := ext (Forall tame).

Lemma cnt_app h a b : cnt h (a ++ b) = (cnt h a + cnt h b)%nat.
Proof. unfold cnt. rewrite filter_app, app_length. reflexivity. Qed.

Lemma tame_plain e : tame e -> plain e.
Proof. destruct e; cbn; auto. Qed.

Lemma done_in_plain items e : done_in items e -> plain e.
Proof. destruct e; cbn; auto. Qed.

Lemma tame_cnt h e : tame e -> cnt h [e] = O.
Proof. destruct e; cbn; intros H; try reflexivity; destruct H. Qed.

Lemma grows_refl s : grows s s [].
Proof. intros D. split; [exact D|]. intros h. cbn. lia. Qed.

Lemma grows_trans a b c ea eb : grows a b ea -> grows b c eb -> grows a c (eb ++ ea).
Proof.
  intros A B Da. destruct (A Da) as [Db Ca]. destruct (B Db) as [Dc Cb]. split; [exact Dc|].
  intros h. rewrite cnt_app. specialize (Ca h). specialize (Cb h). lia.
Qed.

Lemma grows_view s s' : heap s' = heap s -> top_next s' = top_next s -> grows s s' [].
Proof.
  intros Hh Hn D.
  pose proof (get_view s s' Hh) as G.
  split.
  - intros h Hg. rewrite G in Hg. rewrite Hn. exact (D h Hg).
  - intros h. unfold computed. rewrite G. cbn. lia.
Qed.

Lemma grows_emit e s : (forall h, is_item h e = false) -> grows s (emit e s) [e].
Proof.
  intros H D. split; [exact D|]. intros h. unfold cnt. cbn [filter]. rewrite H.
  change (computed h (emit e s)) with (computed h s). cbn. lia.
Qed.

Lemma ext_refl (Q : list event -> Prop) s : Q [] -> ext Q s s.
Proof. intros H. exists []. split; [reflexivity|]. split; [exact H|apply grows_refl]. Qed.

Lemma ext_trans (Q : list event -> Prop) a b c :
  (forall x y, Q x -> Q y -> Q (y ++ x)) -> ext Q a b -> ext Q b c -> ext Q a c.
Proof.
  intros HQ (ea & Ta & Fa & Ga) (eb & Tb & Fb & Gb). exists (eb ++ ea).
  split; [rewrite Tb, Ta, app_assoc; reflexivity|]. split; [apply HQ; assumption|].
  exact (grows_trans a b c ea eb Ga Gb).
Qed.

Lemma Forall_app_rev {A} (R : A -> Prop) x y : Forall R x -> Forall R y -> Forall R (y ++ x).
Proof. intros Hx Hy. apply Forall_app. auto. Qed.

Lemma mild_refl s : mild s s.
Proof. apply ext_refl. constructor. Qed.

Lemma mild_trans a b c : mild a b -> mild b c -> mild a c.
Proof. apply ext_trans. apply Forall_app_rev. Qed.

Lemma mild_view s s' : heap s' = heap s -> top_next s' = top_next s -> trace s' = trace s -> mild s s'.
Proof.
  intros Hh Hn Ht. exists []. split; [exact Ht|]. split; [constructor|apply grows_view; assumption].
Qed.

Lemma mild_emit e s : tame e -> mild s (emit e s).
Proof.
  intros H. exists [e]. split; [reflexivity|]. split; [repeat constructor; exact H|].
  apply grows_emit. intros h. destruct e; try reflexivity; destruct H.
Qed.

Lemma dom_put h f s : dom s -> get h s <> None -> dom (put h f s).
Proof.
  intros D G h0. rewrite get_put. destruct (fid_eqb_spec h0 h) as [->|_]; intros Hg; [exact (D h G)|exact (D h0 Hg)].
Qed.

(* overwriting an existing entry without losing an outcome *)
Lemma mild_put h f' s :
  get h s <> None -> (computed h s = true -> f_out f' <> None) -> mild s (put h f' s).
Proof.
  intros G O. exists []. split; [reflexivity|]. split; [constructor|]. intros D.
  split; [exact (dom_put h f' s D G)|]. intros h0. rewrite computed_put. cbn [cnt filter length].
  destruct (fid_eqb_spec h0 h) as [->|_]; [|lia].
  destruct (computed h s) eqn:C; [|cbn; lia]. specialize (O eq_refl). destruct (f_out f'); [cbn; lia|congruence].
Qed.

Lemma mild_put_some h o kd s : get h s <> None -> mild s (put h (mkFut (Some o) kd) s).
Proof. intros G. apply mild_put; [exact G|cbn; discriminate]. Qed.

Lemma mild_set_task t tk s : mild s (set_task t tk s).
Proof.
  unfold set_task. destruct (get t s) as [f|] eqn:G; [|apply mild_refl].
  apply mild_put; [congruence|]. cbn. intros C. unfold computed in C. rewrite G in C.
  destruct (f_out f); [discriminate|discriminate C].
Qed.

Lemma get_task_get t s tk : get_task t s = Some tk -> get t s <> None.
Proof. unfold get_task. destruct (get t s); [discriminate|intros H; discriminate H]. Qed.

Lemma fresh_none s : dom s -> get [top_next s] s = None.
Proof.
  intros D. destruct (get [top_next s] s) as [x|] eqn:E; [|reflexivity].
  destruct (D [top_next s]) as (n & En & Hn); [rewrite E; discriminate|]. inversion En. lia.
Qed.

(* creating a future: the fresh id [top_next s] has no entry yet *)
Lemma mild_alloc_put s f : mild s (put [top_next s] f (with_top_next s (top_next s + 1))).
Proof.
  exists []. split; [reflexivity|]. split; [constructor|]. intros D.
  assert (C0 : computed [top_next s] s = false) by (unfold computed; rewrite (fresh_none s D); reflexivity).
  split.
  - intros h. rewrite get_put. destruct (fid_eqb_spec h [top_next s]) as [->|_]; intros Hg.
    + exists (top_next s). split; [reflexivity|cbn; lia].
    + destruct (D h Hg) as (n & -> & Hn). exists n. split; [reflexivity|cbn; lia].
  - intros h. rewrite computed_put. cbn [cnt filter length]. destruct (fid_eqb_spec h [top_next s]) as [->|_].
    + rewrite C0. destruct (f_out f); cbn; lia.
    + change (computed h (with_top_next s (top_next s + 1))) with (computed h s). lia.
Qed.

Lemma mild_create p f s : mild s (snd (create p f s)).
Proof.
  unfold create, alloc. cbn zeta. destruct f; cbn [snd]; try (eapply mild_trans; [|apply mild_view; reflexivity]);
    apply mild_alloc_put.
Qed.

(* a preorder that contains the completion of every member of [items] contains the flush body and the
   fill loop over sublists of [items] *)
Section ItemsClosure.
  Variables (R : st -> st -> Prop) (items : list fid).
  Hypothesis R_refl : forall s, R s s.
  Hypothesis R_trans : forall a b c, R a b -> R b c -> R a c.
  Hypothesis R_item : forall h o s, In h items -> R s (complete_item h o s).

  Lemma items_flush_body l : incl l items -> forall i ra s, R s (fst (flush_body l i ra s)).
  Proof.
    induction l as [|h rest IH]; intros Hsub i ra s; cbn [flush_body].
    - destruct ra as [[k e]|]; apply R_refl.
    - assert (H : forall s1, R s s1 -> R s (fst (flush_body rest (i + 1) ra s1))).
      { intros s1 H1. eapply R_trans; [exact H1|]. apply IH. intros x Hx. apply Hsub. right. exact Hx. }
      assert (Hh : In h items) by (apply Hsub; left; reflexivity).
      destruct ra as [[k e]|]; [destruct (Z.eqb i k); [apply R_refl|]|];
        apply H; destruct (get h s) as [[o [ | kind idx key [v|e'|] | | ]]|]; first [apply R_item, Hh | apply R_refl].
  Qed.

  Lemma items_fill o l : incl l items -> forall s, R s (fold_left (fun s h => complete_item h o s) l s).
  Proof.
    induction l as [|h rest IH]; intros Hsub s; cbn [fold_left]; [apply R_refl|].
    eapply R_trans; [apply R_item, Hsub; left; reflexivity|]. apply IH. intros x Hx. apply Hsub. right. exact Hx.
  Qed.
End ItemsClosure.

(* [evs] lead from s to s' by completing members of [items]: the batch table stays, and every entry is untouched,
   or it is one of [items], had no outcome, got the outcome o (same kind) and EvItemDone h o was emitted *)
Definition fxe (items : list fid) (evs : list event) (s s' : st) : Prop :=
  batches s' = batches s /\ trace s' = evs ++ trace s /\ grows s s' evs /\
  forall h, get h s' = get h s \/
            (In h items /\ exists f o, get h s = Some f /\ f_out f = None /\
                                       get h s' = Some (mkFut (Some o) (f_kind f)) /\ In (EvItemDone h o) evs).

Lemma fxe_view items s s' :
  heap s' = heap s -> batches s' = batches s -> top_next s' = top_next s -> trace s' = trace s -> fxe items [] s s'.
Proof.
  intros Hh Hb Hn Ht. split; [exact Hb|]. split; [exact Ht|]. split; [exact (grows_view s s' Hh Hn)|].
  intros h. left. exact (get_view s s' Hh h).
Qed.

Lemma fxe_emit items e s : (forall h, is_item h e = false) -> fxe items [e] s (emit e s).
Proof.
  intros H. split; [reflexivity|]. split; [reflexivity|]. split; [exact (grows_emit e s H)|]. intros h. left. reflexivity.
Qed.

Lemma fxe_trans items ea eb a b c : fxe items ea a b -> fxe items eb b c -> fxe items (eb ++ ea) a c.
Proof.
  intros (A1 & Ta & Ga & Ha) (B1 & Tb & Gb & Hb). split; [congruence|].
  split; [rewrite Tb, Ta, app_assoc; reflexivity|]. split; [exact (grows_trans a b c ea eb Ga Gb)|]. intros h.
  destruct (Ha h) as [Ea|(Ia & fa & oa & Ga' & Oa & Ga'' & Ina)]; destruct (Hb h) as [Eb|(Ib & fb & ob & Gb' & Ob & Gb'' & Inb)].
  - left. congruence.
  - right. split; [exact Ib|]. exists fb, ob. rewrite <- Ea. split; [exact Gb'|]. split; [exact Ob|]. split; [exact Gb''|].
    apply in_or_app. left. exact Inb.
  - right. split; [exact Ia|]. exists fa, oa. split; [exact Ga'|]. split; [exact Oa|]. split; [congruence|].
    apply in_or_app. right. exact Ina.
  - rewrite Ga'' in Gb'. inversion Gb'; subst fb. cbn in Ob. discriminate.
Qed.

Definition fx (items : list fid) (s s' : st) : Prop := exists evs, Forall (done_in items) evs /\ fxe items evs s s'.

Lemma fx_refl items s : fx items s s.
Proof. exists []. split; [constructor|apply fxe_view; reflexivity]. Qed.

Lemma fx_trans items a b c : fx items a b -> fx items b c -> fx items a c.
Proof.
  intros (ea & Fa & A) (eb & Fb & B). exists (eb ++ ea).
  split; [apply Forall_app_rev; assumption|exact (fxe_trans items ea eb a b c A B)].
Qed.

(* the one helper that emits EvItemDone: only for an entry without outcome, which gets one *)
Lemma fx_complete_item items h o s : In h items -> fx items s (complete_item h o s).
Proof.
  intros Hin. unfold complete_item. destruct (get h s) as [f|] eqn:G; [|apply fx_refl].
  destruct (f_out f) eqn:O; [apply fx_refl|].
  exists [EvItemDone h o]. split; [repeat constructor; exact Hin|]. split; [reflexivity|]. split; [reflexivity|]. split.
  - intros D. split; [apply (dom_put h _ s D); congruence|]. intros h0. rewrite computed_emit, computed_put.
    unfold cnt. cbn [filter is_item]. destruct (fid_eqb_spec h0 h) as [->|_]; cbn [length f_out b2n]; [|lia].
    unfold computed. rewrite G, O. cbn. lia.
  - intros h0. rewrite get_emit, get_put. destruct (fid_eqb_spec h0 h) as [->|_]; [|left; reflexivity].
    right. split; [exact Hin|]. exists f, o. split; [exact G|]. split; [exact O|].
    split; [reflexivity|left; reflexivity].
Qed.

(* one BatchBase.flush of a pending batch: the body's EvFlush with the batch's items, then completions of these
   items only (up to s3), then the batch is marked done *)
Lemma flush_batch_fx P k s : b_done (get_batch k s) = false ->
  let items := b_items (get_batch k s) in
  exists s3 dones, flush_batch P k s = put_batch k (mkB items true) s3 /\ Forall (done_in items) dones /\
                   fxe items (dones ++ [EvFlush (fst k) (snd k) items]) s s3.
Proof.
  intros Hd items. unfold flush_batch. rewrite Hd. fold items.
  set (s0 := if Z.eqb (cur_idx (fst k) s) (snd k) then with_cur s (upd Z.eqb (fst k) (snd k + 1) (cur s)) else s).
  assert (F0 : fxe items [] s s0) by (unfold s0; destruct (Z.eqb _ _); apply fxe_view; reflexivity).
  set (s1 := emit (EvFlush (fst k) (snd k) items) s0).
  assert (F1 : fxe items [EvFlush (fst k) (snd k) items] s0 s1) by (apply fxe_emit; reflexivity).
  pose proof (items_flush_body (fx items) items (fx_refl items) (fx_trans items) (fx_complete_item items) items
                (incl_refl items) 0 (ks_raise (kspec_of P (fst k))) s1) as F2.
  destruct (flush_body items 0 (ks_raise (kspec_of P (fst k))) s1) as [s2 err]. cbn [fst] in F2.
  set (fill := match err with Some e => Err e | None => Err E_NOTSET end).
  pose proof (items_fill (fx items) items (fx_refl items) (fx_trans items) (fx_complete_item items) fill items (incl_refl items) s2)
    as F3.
  set (s3 := fold_left (fun s h => complete_item h fill s) items s2) in *.
  destruct (fx_trans items s1 s2 s3 F2 F3) as (dones & Fd & F).
  pose proof (fxe_trans _ _ _ _ _ _ (fxe_trans _ _ _ _ _ _ F0 F1) F) as F'. cbn [app] in F'.
  exists s3, dones. rewrite (get_batch_view k s s3 (proj1 F')). split; [reflexivity|]. split; assumption.
Qed.

Definition fblock (k : Z * Z) (items : list fid) (evs : list event) : Prop :=
  exists dones, evs = dones ++ [EvFlush (fst k) (snd k) items] /\ Forall (done_in items) dones.

Lemma flush_batch_ext P k s :
  b_done (get_batch k s) = false -> ext (fblock k (b_items (get_batch k s))) s (flush_batch P k s).
Proof.
  intros Hd. destruct (flush_batch_fx P k s Hd) as (s3 & dones & -> & F & (_ & T & G & _)).
  exists (dones ++ [EvFlush (fst k) (snd k) (b_items (get_batch k s))]). split; [exact T|]. split; [exists dones; auto|].
  apply (grows_trans s s3 _ _ [] G). apply grows_view; reflexivity.
Qed.

Lemma mild_select P s : mild s (snd (select P s)).
Proof.
  apply (rel_select mild); first [exact mild_trans|intros; apply mild_view; reflexivity|intros; apply mild_emit; exact I].
Qed.

Definition is_itemk (f : fut) : Prop := match f_kind f with KItem _ _ _ _ => True | _ => False end.

(* every member of a batch is a heap entry recording that batch, without outcome while the batch is
   pending *)
Definition BI (s : st) : Prop :=
  forall k h, In h (b_items (get_batch k s)) ->
    exists out key a, get h s = Some (mkFut out (KItem (fst k) (snd k) key a)) /\
                      (b_done (get_batch k s) = false -> out = None).

(* helpers that leave the batch table and all item entries alone *)
Definition keep (s s' : st) : Prop :=
  batches s' = batches s /\ forall h f, get h s = Some f -> is_itemk f -> get h s' = Some f.

Lemma keep_refl s : keep s s. Proof. split; auto. Qed.
Lemma keep_trans a b c : keep a b -> keep b c -> keep a c.
Proof. intros [A1 A2] [B1 B2]. split; [congruence|]. intros h f G I. apply B2; auto. Qed.
Lemma keep_view s s' : heap s' = heap s -> batches s' = batches s -> keep s s'.
Proof. intros Hh Hb. split; [exact Hb|]. intros h f G _. unfold get in *. rewrite Hh. exact G. Qed.

Lemma keep_put h f' s : (forall f0, get h s = Some f0 -> ~ is_itemk f0) -> keep s (put h f' s).
Proof.
  intros N. split; [reflexivity|]. intros h0 f G I. rewrite get_put. destruct (fid_eqb_spec h0 h) as [->|_]; [|exact G].
  destruct (N f G I).
Qed.

Lemma get_task_kind t s tk : get_task t s = Some tk -> forall f0, get t s = Some f0 -> ~ is_itemk f0.
Proof.
  unfold get_task. intros H f0 G. rewrite G in H. unfold is_itemk. destruct f0 as [out [tk0|kind idx key a|o|]]; cbn; auto; discriminate.
Qed.

Lemma keep_set_task t tk0 tk s : get_task t s = Some tk0 -> keep s (set_task t tk s).
Proof.
  intros G. unfold set_task. destruct (get t s) as [f|] eqn:E; [|apply keep_refl].
  apply keep_put. intros f0 E0. rewrite E in E0. apply (get_task_kind t s tk0 G). congruence.
Qed.

Lemma keep_emit e s : keep s (emit e s). Proof. apply keep_view; reflexivity. Qed.

Lemma keep_select P s : keep s (snd (select P s)).
Proof. destruct (select_batches P s) as [Hb Hh]. apply keep_view; assumption. Qed.

Lemma BI_keep s s' : BI s -> keep s s' -> BI s'.
Proof.
  intros B [Kb Kh] k h Hin. unfold get_batch in *. rewrite Kb in *. destruct (B k h Hin) as (out & key & a & G & Hd).
  exists out, key, a. split; [|exact Hd]. apply Kh; [exact G|]. cbn. exact I.
Qed.

(* creating a future: the fresh id is in no batch; a new item joins the batch it records *)
Lemma BI_fresh s h : dom s -> BI s -> get h s = None -> forall k, ~ In h (b_items (get_batch k s)).
Proof. intros D B N k Hin. destruct (B k h Hin) as (out & key & a & G & _). congruence. Qed.

Lemma BI_alloc_put s f : dom s -> BI s -> BI (put [top_next s] f (with_top_next s (top_next s + 1))).
Proof.
  intros D B k h Hin. change (get_batch k (put [top_next s] f (with_top_next s (top_next s + 1)))) with (get_batch k s) in *.
  destruct (B k h Hin) as (out & key & a & G & Hd). exists out, key, a. split; [|exact Hd].
  rewrite get_put. destruct (fid_eqb_spec h [top_next s]) as [->|_]; [|exact G].
  rewrite (fresh_none s D) in G. discriminate.
Qed.

Lemma BI_create p f s : dom s -> BI s -> BI (snd (create p f s)).
Proof.
  intros D B. unfold create, alloc. cbn zeta. destruct f; cbn [snd]; try (apply BI_alloc_put; assumption).
  set (s0 := with_top_next s (top_next s + 1)). set (h0 := [top_next s]).
  set (k0 := (kind, cur_idx kind s0)).
  pose proof (BI_alloc_put s (mkFut None (KItem kind (cur_idx kind s0) key a)) D B) as B1.
  fold s0 h0 in B1. set (s1 := put h0 (mkFut None (KItem kind (cur_idx kind s0) key a)) s0) in *.
  change (get_batch k0 s0) with (get_batch k0 s1).
  intros k h Hin. change (get h (put_batch k0 (mkB (b_items (get_batch k0 s1) ++ [h0]) (b_done (get_batch k0 s1))) s1)) with (get h s1).
  destruct (key_eqb_spec k k0) as [->|N].
  - rewrite get_batch_put_same in *. cbn [b_items b_done] in *.
    apply in_app_or in Hin as [Hin|[<-|[]]]; [exact (B1 k0 h Hin)|].
    exists None, key, a. split; [|reflexivity]. unfold s1. rewrite get_put_same. reflexivity.
  - rewrite get_batch_put_other in * by exact N. exact (B1 k h Hin).
Qed.

Definition DB (s : st) : Prop := dom s /\ BI s.

Lemma DB_mild_keep s s' : DB s -> mild s s' -> keep s s' -> DB s'.
Proof. intros [D B] (evs & _ & _ & G) K. destruct (G D) as [D' _]. split; [exact D'|exact (BI_keep s s' B K)]. Qed.

Lemma BI_flush_batch P k s : BI s -> BI (flush_batch P k s).
Proof.
  intros B. destruct (b_done (get_batch k s)) eqn:Hd; [rewrite (flush_done_is_noop P k s Hd); exact B|].
  destruct (flush_batch_fx P k s Hd) as (s3 & dones & -> & _ & (Fb & _ & _ & Fh)).
  pose proof (fun k' => get_batch_view k' s s3 Fb) as GB.
  intros k' h Hin.
  change (get h (put_batch k (mkB (b_items (get_batch k s)) true) s3)) with (get h s3).
  destruct (key_eqb_spec k' k) as [->|N].
  - rewrite get_batch_put_same in *. cbn [b_items b_done] in *.
    destruct (B k h Hin) as (out & key & a & G & _).
    destruct (Fh h) as [Eh|(_ & f & o & Gf & _ & Gf' & _)].
    + exists out, key, a. split; [congruence|discriminate].
    + rewrite G in Gf. inversion Gf; subst f. cbn [f_kind] in Gf'. exists (Some o), key, a. split; [exact Gf'|discriminate].
  - rewrite get_batch_put_other in * by exact N. rewrite GB in *.
    destruct (B k' h Hin) as (out & key & a & G & Hout).
    destruct (Fh h) as [Eh|(Hk & f & o & Gf & _ & _ & _)].
    + exists out, key, a. split; [congruence|exact Hout].
    + destruct (B k h Hk) as (out2 & key2 & a2 & G2 & _). rewrite G in G2. inversion G2.
      exfalso. apply N. destruct k, k'. cbn in *. congruence.
Qed.

Theorem select_nonempty_pending P s k s1 :
  select P s = (Some k, s1) -> b_items (get_batch k s) <> [] /\ b_done (get_batch k s) = false.
Proof.
  intros Sel. destruct (select_spec _ _ _ _ Sel) as (_ & Hel & _). unfold eligible in Hel.
  apply andb_true_iff in Hel as [Hd Hne]. apply negb_true_iff in Hd. split; [|exact Hd].
  intros E. rewrite E in Hne. discriminate.
Qed.

(* _continue_with_batch, unfolded once *)
Lemma continue_with_batch_form P s :
  match select P s with
  | (None, s1) => continue_with_batch P s = s1 /\ keep s s1 /\ mild s s1
  | (Some k, s1) =>
    exists s3 e1, continue_with_batch P s = emit (EvAfter (fst k) (snd k)) (flush_batch P k s3) /\
      heap s3 = heap s /\ batches s3 = batches s /\
      trace s3 = EvBefore (fst k) (snd k) :: e1 ++ trace s /\ Forall tame e1 /\ grows s s3 (EvBefore (fst k) (snd k) :: e1) /\
      b_done (get_batch k s3) = false /\ b_items (get_batch k s3) <> []
  end.
Proof.
  unfold continue_with_batch. pose proof (keep_select P s) as K. pose proof (mild_select P s) as M.
  pose proof (select_batches P s) as [Hb Hh].
  destruct (select P s) as [[k|] s1] eqn:Sel; cbn [snd] in *; [|auto].
  destruct M as (e1 & T1 & F1 & G1). destruct (select_nonempty_pending _ _ _ _ Sel) as [Hne Hd].
  set (s2 := with_sb s1 (filter (fun k' => negb (key_eqb k' k)) (sb s1))).
  exists (emit (EvBefore (fst k) (snd k)) s2), e1.
  split; [reflexivity|]. split; [exact Hh|]. split; [exact Hb|]. split; [cbn [trace emit]; rewrite <- T1; reflexivity|].
  split; [exact F1|]. split.
  - apply (grows_trans s s1 _ e1 [_] G1), (grows_trans s1 s2 _ [] [_]); [apply grows_view; reflexivity|apply grows_emit; reflexivity].
  - assert (E : get_batch k (emit (EvBefore (fst k) (snd k)) s2) = get_batch k s) by (unfold get_batch, s2; cbn [batches emit with_sb]; rewrite Hb; reflexivity).
    rewrite E. split; assumption.
Qed.

Lemma BI_continue_with_batch P s : BI s -> BI (continue_with_batch P s).
Proof.
  intros B. pose proof (continue_with_batch_form P s) as F. destruct (select P s) as [[k|] s1].
  - destruct F as (s3 & e1 & -> & Hh & Hb & _). apply (BI_keep (flush_batch P k s3)); [|apply keep_emit].
    apply BI_flush_batch, (BI_keep s _ B), keep_view; assumption.
  - destruct F as (-> & K & _). exact (BI_keep _ _ B K).
Qed.

(* the completions [dones] of one flush of [items]: only items of the batch, and every one of them *)
Definition served (items : list fid) (dones : list event) : Prop :=
  Forall (done_in items) dones /\ forall h, In h items -> exists o, In (EvItemDone h o) dones.

Lemma served_rev items dones : served items dones -> served items (rev dones).
Proof.
  intros [F C]. split; [apply Forall_rev; exact F|]. intros h Hin. destruct (C h Hin) as (o & Ho).
  exists o. apply in_rev. rewrite rev_involutive. exact Ho.
Qed.

(* newest-first (the order of [trace s]) *)
Inductive blocksR : list event -> Prop :=
| blocksR_nil : blocksR []
| blocksR_tame e tr : tame e -> blocksR tr -> blocksR (e :: tr)
| blocksR_sync kind idx items dones tr :
    served items dones -> blocksR tr ->
    blocksR (dones ++ EvFlush kind idx items :: tr)
| blocksR_sched kind idx items dones tr :
    items <> [] -> served items dones -> blocksR tr ->
    blocksR (EvAfter kind idx :: dones ++ EvFlush kind idx items :: EvBefore kind idx :: tr).

(* chronological (the order of [snd (run_case ...)]): tame events, flushes forced by a synchronous
   item.value() (no bracket events), scheduler flushes (bracketed, never empty) *)
Inductive blocks : list event -> Prop :=
| blocks_nil : blocks []
| blocks_tame e tr : tame e -> blocks tr -> blocks (e :: tr)
| blocks_sync kind idx items dones tr :
    served items dones -> blocks tr ->
    blocks (EvFlush kind idx items :: dones ++ tr)
| blocks_sched kind idx items dones tr :
    items <> [] -> served items dones -> blocks tr ->
    blocks (EvBefore kind idx :: EvFlush kind idx items :: dones ++ EvAfter kind idx :: tr).

Lemma blocksR_app a b : blocksR a -> blocksR b -> blocksR (a ++ b).
Proof.
  intros Ha Hb. induction Ha as [|e tr He Ht IH|kind idx items dones tr Hd Ht IH|kind idx items dones tr Hi Hd Ht IH]; [exact Hb| | |].
  - cbn [app]. apply blocksR_tame; assumption.
  - rewrite <- app_assoc. cbn [app]. apply blocksR_sync; assumption.
  - cbn [app]. rewrite <- app_assoc. cbn [app]. apply blocksR_sched; assumption.
Qed.

Lemma blocks_app a b : blocks a -> blocks b -> blocks (a ++ b).
Proof.
  intros Ha Hb. induction Ha as [|e tr He Ht IH|kind idx items dones tr Hd Ht IH|kind idx items dones tr Hi Hd Ht IH]; [exact Hb| | |].
  - cbn [app]. apply blocks_tame; assumption.
  - cbn [app]. rewrite <- app_assoc. apply blocks_sync; assumption.
  - cbn [app]. rewrite <- app_assoc. cbn [app]. apply blocks_sched; assumption.
Qed.

Lemma blocksR_all_tame evs : Forall tame evs -> blocksR evs.
Proof. intros H. induction H as [|e evs He Hf IH]; [constructor|apply blocksR_tame; assumption]. Qed.

Lemma blocksR_rev tr : blocksR tr -> blocks (rev tr).
Proof.
  intros H. induction H as [|e tr He Ht IH|kind idx items dones tr Hd Ht IH|kind idx items dones tr Hi Hd Ht IH]; [constructor| | |].
  - cbn [rev]. apply blocks_app; [exact IH|]. apply blocks_tame; [exact He|constructor].
  - rewrite rev_app_distr. cbn [rev]. rewrite <- !app_assoc. cbn [app].
    apply blocks_app; [exact IH|]. rewrite <- (app_nil_r (rev dones)).
    apply blocks_sync; [apply served_rev; exact Hd|constructor].
  - cbn [rev]. rewrite rev_app_distr. cbn [rev]. rewrite <- !app_assoc. cbn [app].
    apply blocks_app; [exact IH|]. apply blocks_sched; [exact Hi|apply served_rev; exact Hd|constructor].
Qed.

(* one transition: whole blocks (that every item is served needs the heap invariant BI) *)
Definition ok (s s' : st) : Prop :=
  exists evs, trace s' = evs ++ trace s /\ (BI s -> blocksR evs) /\ grows s s' evs.

Lemma mild_ok s s' : mild s s' -> ok s s'.
Proof. intros (evs & T & F & G). exists evs. split; [exact T|]. split; [intros _; apply blocksR_all_tame; exact F|exact G]. Qed.

Lemma ok_refl s : ok s s. Proof. apply mild_ok, mild_refl. Qed.

(* a flush of a pending batch completes every one of its items: the event is emitted *)
Lemma served_flush P k s dones :
  BI s -> b_done (get_batch k s) = false ->
  trace (flush_batch P k s) = (dones ++ [EvFlush (fst k) (snd k) (b_items (get_batch k s))]) ++ trace s ->
  Forall (done_in (b_items (get_batch k s))) dones -> served (b_items (get_batch k s)) dones.
Proof.
  intros B Hd T F. split; [exact F|]. intros h Hin.
  destruct (B k h Hin) as (out & key & a & G & Hout). specialize (Hout Hd). subst out.
  destruct (flush_pending P k s Hd) as (_ & _ & Hc & _). cbn zeta in Hc.
  assert (C : computed h (flush_batch P k s) = true) by (apply Hc; [exact Hin|congruence]).
  destruct (flush_batch_fx P k s Hd) as (s3 & dones' & E & _ & (_ & T' & _ & Fh)). rewrite E in C, T.
  change (computed h (put_batch k (mkB (b_items (get_batch k s)) true) s3)) with (computed h s3) in C.
  change (trace (put_batch k (mkB (b_items (get_batch k s)) true) s3)) with (trace s3) in T. rewrite T' in T.
  apply app_inv_tail, app_inv_tail in T. subst dones'.
  destruct (Fh h) as [Eh|(_ & f & o & _ & _ & _ & Hev)].
  - unfold computed in C. rewrite Eh, G in C. discriminate.
  - exists o. apply in_app_or in Hev as [Hev|[Hev|[]]]; [exact Hev|discriminate Hev].
Qed.

(* BatchBase.flush called outside the scheduler (item.value()): nothing, or one unbracketed block *)
Lemma ok_flush_batch P k s : ok s (flush_batch P k s).
Proof.
  destruct (b_done (get_batch k s)) eqn:Hd; [rewrite (flush_done_is_noop P k s Hd); apply ok_refl|].
  destruct (flush_batch_ext P k s Hd) as (evs & T & (dones & -> & F) & G).
  exists (dones ++ [EvFlush (fst k) (snd k) (b_items (get_batch k s))]). split; [exact T|]. split; [|exact G].
  intros B. apply blocksR_sync; [exact (served_flush P k s dones B Hd T F)|constructor].
Qed.

Lemma plain_flush_batch P k s :
  exists evs, trace (flush_batch P k s) = evs ++ trace s /\ Forall plain evs.
Proof.
  destruct (b_done (get_batch k s)) eqn:Hd.
  - rewrite (flush_done_is_noop P k s Hd). exists []. split; [reflexivity|constructor].
  - destruct (flush_batch_ext P k s Hd) as (evs & T & (dones & -> & F) & G).
    exists (dones ++ [EvFlush (fst k) (snd k) (b_items (get_batch k s))]). split; [exact T|].
    apply Forall_app. split; [|repeat constructor].
    revert F. apply Forall_impl. intros e. apply done_in_plain.
Qed.

(* one scheduler flush is one bracketed block *)
Lemma ok_continue_with_batch P s : ok s (continue_with_batch P s).
Proof.
  pose proof (continue_with_batch_form P s) as F. destruct (select P s) as [[k|] s1]; [|destruct F as (-> & _ & M); apply mild_ok, M].
  destruct F as (s3 & e1 & -> & Hh & Hb & T3 & F1 & G3 & Hd & Hne).
  destruct (flush_batch_ext P k s3 Hd) as (e4 & T4 & (dones & -> & F) & G4).
  exists (EvAfter (fst k) (snd k) :: dones ++ EvFlush (fst k) (snd k) (b_items (get_batch k s3)) :: EvBefore (fst k) (snd k) :: e1).
  split; [|split].
  - cbn [trace emit]. rewrite T4, T3. cbn [app]. rewrite <- !app_assoc. reflexivity.
  - intros B. apply blocksR_sched; [exact Hne| |apply blocksR_all_tame; exact F1].
    apply (served_flush P k s3 dones); [apply (BI_keep s _ B), keep_view; assumption|exact Hd|exact T4|exact F].
  - pose proof (grows_trans _ _ _ _ _ (grows_trans _ _ _ _ _ G3 G4) (grows_emit (EvAfter (fst k) (snd k)) _ (fun _ => eq_refl))) as G.
    cbn [app] in G. rewrite <- app_assoc in G. exact G.
Qed.

(* the only transition that emits EvBefore / EvAfter: wait_for found its task still incomplete after
   _execute returned (scheduler.py 63-74) *)
Definition flushes (c : cfg) : bool :=
  match c_mode c, c_frames c with
  | MAfterExec, FWait root :: _ => negb (computed root (c_st c))
  | _, _ => false
  end.

(* the only other transition that flushes: .value() on a batch item that is not computed
   (batching.py 222-228), outside the scheduler's selection and without bracket events *)
Definition syncs (c : cfg) : bool :=
  match c_mode c with
  | MValue h => negb (computed h (c_st c)) &&
                match get h (c_st c) with Some (mkFut _ (KItem _ _ _ _)) => true | _ => false end
  | _ => false
  end.

Lemma flushes_true c : flushes c = true ->
  c_mode c = MAfterExec /\ exists root fr, c_frames c = FWait root :: fr /\ computed root (c_st c) = false.
Proof.
  unfold flushes. destruct (c_mode c); try discriminate. destruct (c_frames c) as [|[| |root| |] fr]; try discriminate.
  intros H. apply negb_true_iff in H. split; [reflexivity|]. exists root, fr. split; [reflexivity|exact H].
Qed.

Lemma syncs_true c : syncs c = true ->
  exists h out kind idx key a,
    c_mode c = MValue h /\ computed h (c_st c) = false /\ get h (c_st c) = Some (mkFut out (KItem kind idx key a)).
Proof.
  unfold syncs. destruct (c_mode c) as [h| | | |t|t p| |o|e|o|]; try discriminate.
  intros H. apply andb_true_iff in H as [H1 H2]. apply negb_true_iff in H1.
  destruct (get h (c_st c)) as [[out [tk|kind idx key a|o|]]|] eqn:G; try discriminate.
  exists h, out, kind, idx, key, a. auto.
Qed.

(* one transition, as a composition of helper calls: events and heap growth (tame unless the transition
   flushes), the domain, the batch-item invariant *)
Lemma local_tame e : local_event e -> tame e.
Proof. destruct e; cbn; auto. Qed.

Lemma ext_weaken (Q Q' : list event -> Prop) a b : (forall evs, Q evs -> Q' evs) -> ext Q a b -> ext Q' a b.
Proof. intros HQ (evs & T & F & G). exists evs. auto. Qed.

Lemma hstep_ext P A s s' : hstep P A s s' -> ext (fun evs => ~ A TFlush -> Forall tame evs) s s'.
Proof.
  assert (M : forall a b, mild a b -> ext (fun evs => ~ A TFlush -> Forall tame evs) a b)
    by (intros a b; apply ext_weaken; auto).
  induction 1 as [s|a b c _ IH1 _ IH2|s s' Hh _ _ _ _ Hn Ht|v x s|k c s|e s He|t tk tk' s G Bk|t tk o s G C|x out o s G C
                  |p f s _|k s|k s F|s F|t tk o d s _ G _|t tk k y' F s _ G].
  - apply M, mild_refl.
  - refine (ext_trans _ a b c _ IH1 IH2). intros x y Hx Hy NF. apply Forall_app_rev; auto.
  - apply M, mild_view; assumption.
  - apply M, mild_view; reflexivity.
  - apply M, mild_view; reflexivity.
  - apply M, mild_emit, local_tame, He.
  - apply M, mild_set_task.
  - apply M. eapply mild_trans; [apply mild_put_some, (get_task_get t s tk G)|apply mild_emit; exact I].
  - apply M, mild_put_some. congruence.
  - apply M, mild_create.
  - apply M, (rel_schedule_batch mild); [exact mild_refl|intros; apply mild_view; reflexivity].
  - destruct (b_done (get_batch k s)) eqn:Hd; [rewrite (flush_done_is_noop P k s Hd); apply M, mild_refl|].
    refine (ext_weaken _ _ _ _ _ (flush_batch_ext P k s Hd)). intros evs _ NF. destruct (NF F).
  - destruct (ok_continue_with_batch P s) as (evs & T & _ & G). exists evs. split; [exact T|]. split; [|exact G].
    intros NF. destruct (NF F).
  - apply M. eapply mild_trans; [apply mild_set_task|apply mild_emit; exact I].
  - apply M, mild_set_task.
Qed.

Lemma hstep_mild P A s s' : hstep P A s s' -> ~ A TFlush -> mild s s'.
Proof. intros H NF. destruct (hstep_ext P A s s' H) as (evs & T & F & G). exists evs. auto. Qed.

Lemma hstep_dom P A s s' : hstep P A s s' -> dom s -> dom s'.
Proof. intros H D. destruct (hstep_ext P A s s' H) as (evs & _ & _ & G). exact (proj1 (G D)). Qed.

Lemma hstep_BI P A s s' : hstep P A s s' -> dom s -> BI s -> BI s'.
Proof.
  induction 1 as [s|a b c H1 IH1 _ IH2|s s' Hh Hb _ _ _ _ _|v x s|k c s|e s He|t tk tk' s G Bk|t tk o s G C|x out o s G C
                  |p f s _|k s|k s F|s F|t tk o d s _ G _|t tk k y' F s _ G]; intros D B.
  - exact B.
  - apply IH2; [exact (hstep_dom P A a b H1 D)|exact (IH1 D B)].
  - exact (BI_keep _ _ B (keep_view _ _ Hh Hb)).
  - apply (BI_keep _ _ B), keep_view; reflexivity.
  - apply (BI_keep _ _ B), keep_view; reflexivity.
  - exact (BI_keep _ _ B (keep_emit e s)).
  - exact (BI_keep _ _ B (keep_set_task t tk tk' s G)).
  - apply (BI_keep _ _ B). eapply keep_trans; [apply keep_put, (get_task_kind t s tk G)|apply keep_emit].
  - apply (BI_keep _ _ B), keep_put. intros f0 G0. rewrite G in G0. inversion G0; subst. cbn. auto.
  - exact (BI_create p f s D B).
  - apply (BI_keep _ _ B), (rel_schedule_batch keep); [exact keep_refl|intros; apply keep_view; reflexivity].
  - apply BI_flush_batch, B.
  - apply BI_continue_with_batch, B.
  - apply (BI_keep _ _ B). eapply keep_trans; [eapply keep_set_task, G|apply keep_emit].
  - apply (BI_keep _ _ B). eapply keep_set_task, G.
Qed.

Lemma tag_flush c : tag_of_cfg c TFlush -> flushes c = true \/ syncs c = true.
Proof.
  unfold flushes, syncs. intros [(root & fr & -> & -> & ->)|(h & out & kind & idx & key & a & -> & -> & ->)]; auto.
Qed.

Theorem step_mild P c : flushes c = false -> syncs c = false -> mild (c_st c) (c_st (step P c)).
Proof.
  intros F S. apply (hstep_mild P _ _ _ (step_hstep P c)). intros T. destruct (tag_flush c T); congruence.
Qed.

Theorem BI_step P c : dom (c_st c) -> BI (c_st c) -> BI (c_st (step P c)).
Proof. apply (hstep_BI P _ _ _ (step_hstep P c)). Qed.

Lemma step_syncs P c : syncs c = true -> exists k, c_st (step P c) = flush_batch P k (c_st c).
Proof.
  intros E. destruct (syncs_true c E) as (h & out & kind & idx & key & a & Hm & Hc & Hg).
  destruct c as [m fr s]. cbn [c_mode c_st] in *. subst m. cbn [step c_mode c_frames c_st].
  rewrite Hc, Hg. cbn [c_st]. exists (kind, idx). reflexivity.
Qed.

Lemma step_flushes P c : flushes c = true -> c_st (step P c) = continue_with_batch P (c_st c).
Proof.
  intros E. destruct (flushes_true c E) as (Hm & root & fr & Hf & Hc). destruct c as [m fr0 s]. cbn [c_mode c_frames c_st] in *.
  subst m fr0. cbn [step c_mode c_frames c_st]. rewrite Hc. reflexivity.
Qed.

(* the scheduler's flush, a flush forced by item.value(), or tame events only *)
Lemma step_cases P c :
  (flushes c = true /\ c_st (step P c) = continue_with_batch P (c_st c)) \/
  (flushes c = false /\ exists k, c_st (step P c) = flush_batch P k (c_st c)) \/
  (flushes c = false /\ mild (c_st c) (c_st (step P c))).
Proof.
  destruct (flushes c) eqn:E; [left; split; [reflexivity|apply step_flushes, E]|right].
  destruct (syncs c) eqn:E2; [left; split; [reflexivity|apply step_syncs, E2]|right; split; [reflexivity|apply step_mild; assumption]].
Qed.

Theorem step_ok P c : ok (c_st c) (c_st (step P c)).
Proof.
  destruct (step_cases P c) as [[_ ->]|[[_ (k & ->)]|[_ M]]];
    [apply ok_continue_with_batch|apply ok_flush_batch|apply mild_ok, M].
Qed.

(* every transition but the scheduler's flush emits plain events only *)
Theorem step_plain P c : flushes c = false ->
  exists evs, trace (c_st (step P c)) = evs ++ trace (c_st c) /\ Forall plain evs.
Proof.
  intros E. destruct (step_cases P c) as [[E' _]|[[_ (k & ->)]|[_ (evs & T & F & _)]]]; [congruence|apply plain_flush_batch|].
  exists evs. split; [exact T|]. revert F. apply Forall_impl. exact tame_plain.
Qed.

(* a bracket event (EvBefore or EvAfter) gained by one transition comes from the scheduler's flush
   transition: mode MAfterExec, innermost frame FWait root, root not computed - for EVERY configuration *)
Theorem step_bracket_origin P c evs e :
  trace (c_st (step P c)) = evs ++ trace (c_st c) -> In e evs -> ~ plain e ->
  c_mode c = MAfterExec /\ exists root fr, c_frames c = FWait root :: fr /\ computed root (c_st c) = false.
Proof.
  intros T Hin Hnp. destruct (flushes c) eqn:E; [exact (flushes_true c E)|].
  destruct (step_plain P c E) as (evs' & T' & F).
  assert (evs = evs') by (apply (app_inv_tail (trace (c_st c))); rewrite <- T, <- T'; reflexivity). subst evs'.
  rewrite Forall_forall in F. destruct (Hnp (F e Hin)).
Qed.

Theorem step_before_only_when_waiting P c evs kind idx :
  trace (c_st (step P c)) = evs ++ trace (c_st c) -> In (EvBefore kind idx) evs ->
  c_mode c = MAfterExec /\ exists root fr, c_frames c = FWait root :: fr /\ computed root (c_st c) = false.
Proof. intros T Hin. apply (step_bracket_origin P c evs (EvBefore kind idx) T Hin). intros H. exact H. Qed.

Lemma step_trace P c : exists evs, trace (c_st (step P c)) = evs ++ trace (c_st c).
Proof. destruct (step_ok P c) as (evs & T & _). exists evs. exact T. Qed.

(* an event of the trace after n transitions was there at the start or was gained by transition number k < n *)
Lemma run_event_origin P n c0 e :
  In e (trace (c_st (run P n c0))) ->
  In e (trace (c_st c0)) \/
  exists k evs, (k < n)%nat /\ trace (c_st (step P (run P k c0))) = evs ++ trace (c_st (run P k c0)) /\ In e evs.
Proof.
  induction n as [|n IH]; intros H; [left; exact H|]. rewrite run_step in H.
  destruct (step_trace P (run P n c0)) as (evs & T). rewrite T in H. apply in_app_or in H as [H|H].
  - right. exists n, evs. auto.
  - destruct (IH H) as [H0|(k & evs' & Hk & T' & Hi)]; [left; exact H0|]. right. exists k, evs'. auto.
Qed.

Theorem run_before_origin P n : forall c0 kind idx,
  In (EvBefore kind idx) (trace (c_st (run P n c0))) ->
  In (EvBefore kind idx) (trace (c_st c0)) \/
  exists k root fr evs,
    (k < n)%nat /\ c_mode (run P k c0) = MAfterExec /\ c_frames (run P k c0) = FWait root :: fr /\
    computed root (c_st (run P k c0)) = false /\
    trace (c_st (run P (S k) c0)) = evs ++ trace (c_st (run P k c0)) /\ In (EvBefore kind idx) evs.
Proof.
  intros c0 kind idx H. destruct (run_event_origin P n c0 _ H) as [H0|(k & evs & Hk & T & Hi)]; [left; exact H0|].
  right. destruct (step_before_only_when_waiting P _ evs kind idx T Hi) as (Hm & root & fr & Hfr & Hc).
  exists k, root, fr, evs. rewrite run_step. repeat split; assumption.
Qed.

Definition Inv (s : st) : Prop :=
  dom s /\ BI s /\ blocksR (trace s) /\ forall h, (cnt h (trace s) <= b2n (computed h s))%nat.

Lemma Inv_ok s s' : Inv s -> ok s s' -> BI s' -> Inv s'.
Proof.
  intros (D & Bi & B & C) (evs & T & Be & G) Bi'. destruct (G D) as [D' C']. split; [exact D'|]. split; [exact Bi'|]. split.
  - rewrite T. apply blocksR_app; [exact (Be Bi)|exact B].
  - intros h. rewrite T, cnt_app. specialize (C h). specialize (C' h). lia.
Qed.

Lemma Inv_mild s s' : Inv s -> mild s s' -> BI s' -> Inv s'.
Proof. intros HI M. exact (Inv_ok s s' HI (mild_ok s s' M)). Qed.

Theorem Inv_step P c : Inv (c_st c) -> Inv (c_st (step P c)).
Proof.
  intros HI. apply (Inv_ok _ _ HI (step_ok P c)), BI_step; apply HI.
Qed.

Lemma Inv_run P n c : Inv (c_st c) -> Inv (c_st (run P n c)).
Proof. apply inv_run, Inv_step. Qed.

Lemma Inv_st0 P : Inv (st0 P).
Proof.
  split; [intros h Hh; cbn in Hh; congruence|]. split; [intros k h []|]. split; [constructor|]. intros h. cbn. lia.
Qed.

Lemma Inv_create p f s : Inv s -> Inv (snd (create p f s)).
Proof. intros HI. apply (Inv_mild s _ HI (mild_create p f s)), BI_create; apply HI. Qed.

Lemma Inv_emit e s : tame e -> Inv s -> Inv (emit e s).
Proof.
  intros He HI. apply (Inv_mild s _ HI (mild_emit e s He)), (BI_keep s); [apply HI|apply keep_emit].
Qed.

Lemma Inv_run_case P fuel ps : exists s, snd (run_case P fuel ps) = rev (trace s) /\ Inv s.
Proof.
  apply inv_run_case; [apply Inv_step|apply Inv_create|intros a b c s; apply Inv_emit; exact I|apply Inv_st0].
Qed.

Lemma cnt_rev h tr : cnt h (rev tr) = cnt h tr.
Proof.
  induction tr as [|e tr IH]; [reflexivity|]. cbn [rev]. rewrite cnt_app, IH.
  change (e :: tr) with ([e] ++ tr). rewrite cnt_app. lia.
Qed.

Theorem run_case_item_done_at_most_once P fuel ps h : (cnt h (snd (run_case P fuel ps)) <= 1)%nat.
Proof.
  destruct (Inv_run_case P fuel ps) as (s & -> & (_ & _ & _ & C)). rewrite cnt_rev. specialize (C h).
  destruct (computed h s); cbn in C; lia.
Qed.

Lemma cnt_pos h o tr : In (EvItemDone h o) tr -> (1 <= cnt h tr)%nat.
Proof.
  intros Hin. unfold cnt. assert (Hf : In (EvItemDone h o) (filter (is_item h) tr)).
  { apply filter_In. split; [exact Hin|]. cbn. apply fid_eqb_refl. }
  destruct (filter (is_item h) tr); [destruct Hf|cbn; lia].
Qed.

(* the same for one run of the machine from any state satisfying the invariant; moreover an item
   whose completion event is in the trace is computed *)
Theorem run_item_done_at_most_once P n c h :
  Inv (c_st c) ->
  (cnt h (trace (c_st (run P n c))) <= 1)%nat /\
  (forall o, In (EvItemDone h o) (trace (c_st (run P n c))) -> computed h (c_st (run P n c)) = true).
Proof.
  intros HI. destruct (Inv_run P n c HI) as (_ & _ & _ & C). specialize (C h). split.
  - destruct (computed h (c_st (run P n c))); cbn in C; lia.
  - intros o Hin. destruct (computed h (c_st (run P n c))); [reflexivity|]. cbn in C.
    pose proof (cnt_pos h o _ Hin) as Hpos.
    lia.
Qed.

Theorem run_case_blocks P fuel ps : blocks (snd (run_case P fuel ps)).
Proof. destruct (Inv_run_case P fuel ps) as (s & -> & (_ & _ & B & _)). apply blocksR_rev. exact B. Qed.

(* the same for one run of the machine from any state satisfying the invariant *)
Theorem run_blocks P n c : Inv (c_st c) -> blocks (rev (trace (c_st (run P n c)))).
Proof. intros HI. destruct (Inv_run P n c HI) as (_ & _ & B & _). apply blocksR_rev. exact B. Qed.

Lemma app_eq_split {A} (a b : list A) x : forall c d,
  a ++ b = c ++ x :: d ->
  (exists a2, a = c ++ x :: a2 /\ d = a2 ++ b) \/ (exists c', c = a ++ c' /\ b = c' ++ x :: d).
Proof.
  induction a as [|y a IH]; intros c d H; cbn [app] in H.
  - right. exists c. split; [reflexivity|exact H].
  - destruct c as [|z c]; cbn [app] in H; injection H as Hy Ht.
    + subst y d. left. exists a. split; reflexivity.
    + subst z. destruct (IH c d Ht) as [(a2 & -> & ->)|(c' & -> & ->)].
      * left. exists a2. split; reflexivity.
      * right. exists c'. split; reflexivity.
Qed.

Lemma done_in_mid items l x r : Forall (done_in items) (l ++ x :: r) -> done_in items x /\ Forall (done_in items) l.
Proof. intros H. apply Forall_app in H as [Hl Hr]. inversion Hr; subst. auto. Qed.

(* the idea of the look-up lemmas below: a marker event (EvBefore, EvAfter, EvFlush) cannot occur among the
   completions of a flush, so a split of the trace at a marker falls on a block boundary *)
Lemma dones_split items dones tr c x d :
  Forall (done_in items) dones -> dones ++ tr = c ++ x :: d -> ~ done_in items x ->
  exists c', c = dones ++ c' /\ tr = c' ++ x :: d.
Proof.
  intros F E N. destruct (app_eq_split _ _ _ _ _ E) as [(a2 & -> & _)|(c' & -> & Hc)]; [|exists c'; auto].
  destruct (N (proj1 (done_in_mid _ _ _ _ F))).
Qed.

(* every EvBefore is immediately followed by the EvFlush of the same batch with a non-empty item list,
   then only completions of items of that batch, then the EvAfter of the same batch *)
Lemma blocks_before tr : blocks tr -> forall l1 l2 kind idx,
  tr = l1 ++ EvBefore kind idx :: l2 ->
  exists items dones l3, l2 = EvFlush kind idx items :: dones ++ EvAfter kind idx :: l3 /\
                         items <> [] /\ served items dones.
Proof.
  intros H. induction H as [|e tr He Ht IH|k0 i0 items dones tr Hd Ht IH|k0 i0 items dones tr Hi Hd Ht IH];
    intros l1 l2 kind idx E.
  - destruct l1; discriminate.
  - destruct l1 as [|x l1]; cbn [app] in E; injection E as Ex Et.
    + subst e. destruct He.
    + exact (IH l1 l2 kind idx Et).
  - destruct l1 as [|x l1]; cbn [app] in E; [discriminate E|]. injection E as Ex Et.
    destruct (dones_split _ _ _ _ _ _ (proj1 Hd) Et (fun H => H)) as (c' & -> & Hc).
    exact (IH c' l2 kind idx Hc).
  - destruct l1 as [|x l1]; cbn [app] in E; injection E as Ex Et.
    + inversion Ex; subst. exists items, dones, tr. auto.
    + destruct l1 as [|y l1]; cbn [app] in Et; [discriminate Et|]. injection Et as Ey Et.
      destruct (dones_split _ _ _ _ _ _ (proj1 Hd) Et (fun H => H)) as (c' & -> & Hc).
      destruct c' as [|z c']; cbn [app] in Hc; [discriminate Hc|]. injection Hc as Ez Hc.
      exact (IH c' l2 kind idx Hc).
Qed.

(* every EvAfter closes such a block *)
Lemma blocks_after tr : blocks tr -> forall l1 l2 kind idx,
  tr = l1 ++ EvAfter kind idx :: l2 ->
  exists items dones l0, l1 = l0 ++ EvBefore kind idx :: EvFlush kind idx items :: dones /\
                         items <> [] /\ served items dones.
Proof.
  intros H. induction H as [|e tr He Ht IH|k0 i0 items dones tr Hd Ht IH|k0 i0 items dones tr Hi Hd Ht IH];
    intros l1 l2 kind idx E.
  - destruct l1; discriminate.
  - destruct l1 as [|x l1]; cbn [app] in E; injection E as Ex Et.
    + subst e. destruct He.
    + destruct (IH l1 l2 kind idx Et) as (items & dones & l0 & -> & Hi & Hd).
      exists items, dones, (x :: l0). auto.
  - destruct l1 as [|x l1]; cbn [app] in E; [discriminate E|]. injection E as Ex Et.
    destruct (dones_split _ _ _ _ _ _ (proj1 Hd) Et (fun H => H)) as (c' & -> & Hc).
    destruct (IH c' l2 kind idx Hc) as (items' & dones' & l0 & -> & Hi' & Hd').
    exists items', dones', (x :: dones ++ l0). split; [|auto]. cbn [app]. rewrite <- app_assoc. reflexivity.
  - destruct l1 as [|x l1]; cbn [app] in E; [discriminate E|]. injection E as Ex Et.
    destruct l1 as [|y l1]; cbn [app] in Et; [discriminate Et|]. injection Et as Ey Et.
    destruct (dones_split _ _ _ _ _ _ (proj1 Hd) Et (fun H => H)) as (c' & -> & Hc).
    subst x y. destruct c' as [|z c']; cbn [app] in Hc; injection Hc as Ez Hc.
    + inversion Ez; subst. exists items, dones, []. rewrite app_nil_r. auto.
    + destruct (IH c' l2 kind idx Hc) as (items' & dones' & l0 & -> & Hi' & Hd').
      exists items', dones', (EvBefore k0 i0 :: EvFlush k0 i0 items :: dones ++ EvAfter k0 i0 :: l0).
      split; [|auto]. subst z. cbn [app]. rewrite <- app_assoc. reflexivity.
Qed.

Theorem run_case_before_flush_after P fuel ps l1 l2 kind idx :
  snd (run_case P fuel ps) = l1 ++ EvBefore kind idx :: l2 ->
  exists items dones l3, l2 = EvFlush kind idx items :: dones ++ EvAfter kind idx :: l3 /\
                         items <> [] /\ served items dones.
Proof. apply blocks_before. apply run_case_blocks. Qed.

Theorem run_case_after_closes_block P fuel ps l1 l2 kind idx :
  snd (run_case P fuel ps) = l1 ++ EvAfter kind idx :: l2 ->
  exists items dones l0, l1 = l0 ++ EvBefore kind idx :: EvFlush kind idx items :: dones /\
                         items <> [] /\ served items dones.
Proof. apply blocks_after. apply run_case_blocks. Qed.

Definition is_before (k : Z * Z) (e : event) : bool :=
  match e with EvBefore kind idx => key_eqb (kind, idx) k | _ => false end.
Definition is_after (k : Z * Z) (e : event) : bool :=
  match e with EvAfter kind idx => key_eqb (kind, idx) k | _ => false end.
Definition count_before (k : Z * Z) (tr : list event) : nat := length (filter (is_before k) tr).
Definition count_after (k : Z * Z) (tr : list event) : nat := length (filter (is_after k) tr).

Lemma dones_no_marks k items dones : Forall (done_in items) dones ->
  filter (is_before k) dones = [] /\ filter (is_after k) dones = [] /\ filter (is_flush k) dones = [].
Proof.
  intros H. induction H as [|e l He Hl IH]; [auto|]. destruct e; cbn in He; try destruct He. cbn. exact IH.
Qed.

Lemma blocks_counts k tr : blocks tr ->
  count_before k tr = count_after k tr /\ (count_before k tr <= count_flush k tr)%nat.
Proof.
  unfold count_before, count_after, count_flush.
  intros H. induction H as [|e tr He Ht IH|k0 i0 items dones tr Hd Ht IH|k0 i0 items dones tr Hi Hd Ht IH];
    [split; [reflexivity|cbn; lia]| | |].
  - destruct IH as [IH1 IH2]. destruct e; cbn [filter is_before is_after is_flush] in *; try destruct He;
      split; assumption.
  - destruct IH as [IH1 IH2]. destruct (dones_no_marks k items dones (proj1 Hd)) as (N1 & N2 & N3).
    cbn [filter is_before is_after is_flush]. rewrite !filter_app, N1, N2, N3. cbn [app].
    destruct (key_eqb (k0, i0) k); cbn [length]; split; lia.
  - destruct IH as [IH1 IH2]. destruct (dones_no_marks k items dones (proj1 Hd)) as (N1 & N2 & N3).
    cbn [filter is_before is_after is_flush]. rewrite !filter_app, N1, N2, N3. cbn [app filter is_before is_after is_flush].
    destruct (key_eqb (k0, i0) k); cbn [length]; split; lia.
Qed.

Theorem run_case_brackets_at_most_once P fuel ps k :
  (count_before k (snd (run_case P fuel ps)) <= 1)%nat /\
  count_after k (snd (run_case P fuel ps)) = count_before k (snd (run_case P fuel ps)).
Proof.
  destruct (blocks_counts k _ (run_case_blocks P fuel ps)) as [E L].
  pose proof (run_case_flush_at_most_once P fuel ps k) as F. split; [lia|symmetry; exact E].
Qed.

Definition c05_ret (o : outcome) : prog := match o with Ok v => Ret v | Err e => Raise e end.

(* one task yields two items of the same batch *)
Definition c05_demo1 : prog :=
  Yield (YTuple [YLeaf (LNew (FItem 0 1 (ASet (VInt 5)))); YLeaf (LNew (FItem 0 2 (ASet (VInt 6))))]) c05_ret.

(* a synchronous call nested inside a task: the inner wait_for does the flush *)
Definition c05_demo2 : prog :=
  Let (FTask (Yield (YLeaf (LNew (FItem 0 1 (ASet (VInt 7))))) c05_ret)) (fun h => Sync h c05_ret).

Example c05_demo_trace :
  run_case (mkP [] 1000 false []) 100%nat [c05_demo1; c05_demo2] =
  ([Some (Ok (VTuple [VInt 5; VInt 6])); Some (Ok (VInt 7))],
   [EvStep [0] 0 (Ok VNone); EvBefore 0 0; EvFlush 0 0 [[1]; [2]];
    EvItemDone [1] (Ok (VInt 5)); EvItemDone [2] (Ok (VInt 6)); EvAfter 0 0;
    EvStep [0] 1 (Ok (VTuple [VInt 5; VInt 6])); EvDone [0] (Ok (VTuple [VInt 5; VInt 6])); EvSched 0 0 None;
    EvStep [3] 0 (Ok VNone); EvStep [4] 0 (Ok VNone); EvBefore 0 1; EvFlush 0 1 [[5]];
    EvItemDone [5] (Ok (VInt 7)); EvAfter 0 1; EvStep [4] 1 (Ok (VInt 7)); EvDone [4] (Ok (VInt 7));
    EvGot [3] (Ok (VInt 7)); EvDone [3] (Ok (VInt 7)); EvSched 0 0 None]).
Proof. vm_compute. reflexivity. Qed.

(* the flush body raises before touching the second item: the after event still fires, and both items
   are completed exactly once (the second with the flush error) *)
Example c05_demo_raise :
  snd (run_case (mkP [(0, mkK PDefault (Some (1, 77)))] 1000 false []) 100%nat [c05_demo1]) =
  [EvStep [0] 0 (Ok VNone); EvBefore 0 0; EvFlush 0 0 [[1]; [2]];
   EvItemDone [1] (Ok (VInt 5)); EvItemDone [2] (Err 77); EvAfter 0 0;
   EvStep [0] 1 (Err 77); EvDone [0] (Err 77); EvSched 0 0 None].
Proof. vm_compute. reflexivity. Qed.

(* the hypothesis of the run-level theorems holds initially and the flush transition is reachable *)
Example c05_flush_step_reached :
  let P := mkP [] 1000 false [] in
  let h := fst (create [] (FTask c05_demo1) (st0 P)) in
  let s1 := snd (create [] (FTask c05_demo1) (st0 P)) in
  exists k, (k < 100)%nat /\ flushes (run P k (start h s1)) = true.
Proof. exists 11%nat. vm_compute. split; [repeat constructor|reflexivity]. Qed.
