(* Proofs about the Dispatch model (C09).  Every statement quantifies over ALL argument lists
   (positional list and keyword map of any length, values of any type A, any raise predicate, any
   defaults) and over every decorator x binding cell; the finite decorator x binding part is settled by
   case analysis.  [valid] (the cells the decorators are written for) appears as a hypothesis of the two theorems
   to mark their intended scope; the closed forms hold at every cell and the proofs discard it. *)
From Asynq Require Import Base Dispatch.

(* the receiver the attribute lookup is expected to bind (BClass: the user passes it explicitly) *)
Definition expected_recv (b : binding) : option recv :=
  match b with
  | BFunc | BClass | BSmClass | BSmInst => None
  | BInst => Some RObj
  | BSub => Some RSubObj
  | BCmClass | BCmInst => Some RCls
  | BCmSub | BCmSubInst => Some RSubCls
  | BSub2 => Some RSub2Obj
  | BCmSub2 => Some RSub2Cls
  end.

(* what the direct call hands back *)
Definition ret_kind (d : deco) : retkind :=
  match d with DPure | DProxyPure => KFuture | _ => KValue end.

(* no lookup writes to the stored decorator object: after any history it is what it was *)
Lemma after_hist_id d s hs : after_hist d s hs = s.
Proof. revert s; induction hs as [|b r IH]; intros s; cbn; auto. Qed.

Lemma get_step_state d s b : snd (get_step d s b) = s.
Proof. reflexivity. Qed.

(* the receiver a lookup binds is a function of THIS lookup's (owner, cls) alone: Python's binding of the
   raw function / classmethod / staticmethod for the class or instance the attribute was looked up through *)
Lemma expected_recv_of_path b :
  expected_recv b = match access b with None => None | Some (owner, cls) => py_get (mtype_of b) owner cls end.
Proof. destruct b; reflexivity. Qed.

Lemma base_get_py m o c :
  base_get m o c = (match m with TStaticmethod => KDeco | _ => KBinder end, py_get m o c).
Proof. destruct m, o; reflexivity. Qed.

(* every lookup in closed form: the history plays no part, the receiver is [expected_recv], and the
   decorator object itself is handed out exactly for module-level functions and staticmethods *)
Lemma resolve_closed hs d b :
  resolve hs d b =
  mkT (match d with DProxyPure => KPy | _ => match style_of b with SFunc => KDeco | _ => KBinder end end)
      (expected_recv b) (match d with DPair => expected_recv b | _ => None end).
Proof.
  assert (H : forall m o c, resolve_at d (mkDS m None) o c =
            mkT (match d with DProxyPure => KPy | _ => match m with TStaticmethod => KDeco | _ => KBinder end end)
                (py_get m o c) (match d with DPair => py_get m o c | _ => None end)).
  { intros m o c. unfold resolve_at. rewrite base_get_py. destruct d; reflexivity. }
  unfold resolve; rewrite after_hist_id; destruct b; [destruct d; reflexivity | apply H ..].
Qed.

Lemma has_async_closed hs d b : has_async hs d b = deco_has_asynq d.
Proof. unfold has_async, has_asynq_attr; rewrite resolve_closed; destruct d; try reflexivity; cbn; destruct (style_of b); reflexivity. Qed.

Lemma is_pure_closed hs d b : is_pure hs d b = negb (deco_has_asynq d).
Proof. unfold is_pure; rewrite resolve_closed; destruct d; try reflexivity; cbn; destruct (style_of b); reflexivity. Qed.

Lemma ret_kind_closed d : ret_kind d = if deco_has_asynq d then KValue else KFuture.
Proof. destruct d; reflexivity. Qed.

Lemma unbound_style b : style_of b = SFunc -> expected_recv b = None.
Proof. destruct b; (reflexivity || discriminate). Qed.

Section Proofs.
  Variable A : Type.
  Variable raises : A -> bool.
  Variables dflt_b dflt_k : A.
  Variable cx : ctx.
  Variable hs : list binding.

  Notation arg := (arg A).
  Notation kwargs := (kwargs A).
  Notation effect := (effect A).
  Notation run_fn := (run_fn A raises dflt_b dflt_k).
  Notation async_effect := (async_effect A raises dflt_b dflt_k).
  Notation own_task := (own_task A raises dflt_b dflt_k).
  Notation target_asynq := (target_asynq A raises dflt_b dflt_k hs).
  Notation target_call := (target_call A raises dflt_b dflt_k cx hs).
  Notation invoke := (invoke A raises dflt_b dflt_k cx hs).
  Notation invoke_ctx := (invoke_ctx A raises dflt_b dflt_k cx hs).
  Notation has_async := (Dispatch.has_async hs).
  Notation is_pure := (Dispatch.is_pure hs).
  Notation is_async := (Dispatch.is_async hs).
  Notation get_async_kind := (Dispatch.get_async_kind hs).
  Notation get_async_or_sync_kind := (Dispatch.get_async_or_sync_kind hs).
  Notation prepend := (prepend A).
  Notation finish := (finish A).

  (* effect of the synchronous path on the full positional list *)
  Definition direct_effect (d : deco) (st : style) (bk : bodykind) (pos : list arg) (kw : kwargs) : effect :=
    match d with
    | DPair => run_fn SyncBody st (BK BPlain RetReturn) (ctx_active cx) pos kw
    | _ => async_effect d st bk pos kw
    end.

  Definition eff (x : status * list (call A) * res A) : effect := (snd (fst x), snd x).
  Definition stat (x : status * list (call A) * res A) : status := fst (fst x).

  (* the receiver is bound exactly once: .asynq(ARGS), where the object has it, and the direct call reach the
     body (sync_fn's for a pair) with  [receiver] ++ user positionals *)
  Lemma asynq_path d b bk pos kw :
    target_asynq d b bk pos kw =
    if deco_has_asynq d then Some (async_effect d (style_of b) bk (prepend (expected_recv b) pos) kw) else None.
  Proof.
    unfold Dispatch.target_asynq; rewrite resolve_closed; cbn [t_kind t_inst].
    destruct (style_of b) eqn:E; rewrite ?(unbound_style b E); destruct d; reflexivity.
  Qed.

  Lemma call_path d b bk pos kw :
    target_call d b bk pos kw = (ret_kind d, direct_effect d (style_of b) bk (prepend (expected_recv b) pos) kw).
  Proof.
    unfold Dispatch.target_call; rewrite resolve_closed; cbn [t_kind t_inst t_sync].
    destruct (style_of b) eqn:E; rewrite ?(unbound_style b E); destruct d; reflexivity.
  Qed.

  Lemma eff_finish s e : eff (finish s e) = e.
  Proof. destruct e as [c [v|x|v]]; reflexivity. Qed.

  Lemma snd_finish s e : snd (finish s e) = snd e.
  Proof. destruct e as [c [v|x|v]]; reflexivity. Qed.

  Lemma stat_finish s e :
    stat (finish s e) = match snd e with RErr _ => SRaised | _ => s end.
  Proof. destruct e as [c [v|x|v]]; reflexivity. Qed.

  (* every form in closed form: which of the two effects it runs and with what status depends on the
     decorator (has it .asynq?) and the form only *)
  Lemma invoke_closed d b f bk pos kw :
    invoke d b f pos kw bk =
    let ae := async_effect d (style_of b) bk (prepend (expected_recv b) pos) kw in
    let de := direct_effect d (style_of b) bk (prepend (expected_recv b) pos) kw in
    if deco_has_asynq d
    then match f with
         | Sync => finish SRetValue de | YieldDirect => finish SNotAFuture de | _ => finish SRetFuture ae
         end
    else match f with
         | AsynqValue | YieldAsynq => (SNoAsynqAttr, [], RErr E_ATTR) | _ => finish SRetFuture ae
         end.
  Proof.
    unfold Dispatch.invoke, via_asynq, via_call, Dispatch.async_call_effect,
      Dispatch.get_async_kind, Dispatch.get_async_or_sync_kind.
    rewrite (has_async_closed hs), is_pure_closed, asynq_path, call_path.
    (* the decorator part is computed first: left to reflexivity, with the effects in the terms, it is very slow *)
    destruct d; cbn [deco_has_asynq negb ret_kind direct_effect]; destruct f; reflexivity.
  Qed.

  (* one run of a body: the outcome given the bound parameters, the effect given what was bound *)
  Definition body_res (t : tag) (bk : bodykind) (act : active) (a b k : arg) : res A :=
    if arg_raises A raises a then RErr (900 + tagnum t)
    else match bret bk with
         | RetReturn => ROk (VBody t a b k (extra bk act))
         | RetResult => RResult (VBody t a b k (extra bk act))
         end.
  Definition outcome (t : tag) (bk : bodykind) (act : active) (r : option arg) (b3 : option (arg * arg * arg)) : effect :=
    match b3 with
    | None => ([], RErr E_TYPEERROR)
    | Some (a, b, k) => ([CBody t r a b k], body_res t bk act a b k)
    end.

  (* which receiver and parameters a call binds depends on the style and the arguments only *)
  Lemma run_fn_shape st pos kw :
    exists r b3, forall t bk act, run_fn t st bk act pos kw = outcome t bk act r b3.
  Proof.
    destruct st; [exists None, (bind3 A dflt_b dflt_k pos kw); reflexivity | ..];
      (destruct pos as [|r rest]; [exists None, None | exists (Some r), (bind3 A dflt_b dflt_k rest kw)]; reflexivity).
  Qed.

  (* a method-style body called with the receiver in front = the function-style body on the user's
     arguments, with that receiver recorded: the receiver is consumed once and shifts nothing *)
  Definition with_recv (r : arg) (e : effect) : effect :=
    (map (fun c => match c with CBody t _ a b k => CBody t (Some r) a b k | w => w end) (fst e), snd e).

  Lemma bound_body t st bk act r pos kw :
    st <> SFunc -> run_fn t st bk act (r :: pos) kw = with_recv r (run_fn t SFunc bk act pos kw).
  Proof.
    intros Hs. destruct st; try congruence; unfold Dispatch.run_fn, with_recv;
      destruct (bind3 A dflt_b dflt_k pos kw) as [[[a b] k]|]; reflexivity.
  Qed.

  (* a function-style body run: no receiver, exactly the parameters Python's binding gives *)
  Lemma body_sees_binding t bk act pos kw :
    run_fn t SFunc bk act pos kw =
    match bind3 A dflt_b dflt_k pos kw with
    | None => ([], RErr E_TYPEERROR)
    | Some (a, b, k) => ([CBody t None a b k],
                         if arg_raises A raises a then RErr (900 + tagnum t)
                         else match bret bk with
                              | RetReturn => ROk (VBody t a b k (extra bk act))
                              | RetResult => RResult (VBody t a b k (extra bk act))
                              end)
    end.
  Proof. reflexivity. Qed.

  (* a plain body that does not look at the active task runs the same in any frame *)
  Lemma run_fn_plain_act t st r act1 act2 pos kw :
    run_fn t st (BK BPlain r) act1 pos kw = run_fn t st (BK BPlain r) act2 pos kw.
  Proof. reflexivity. Qed.

  (* result(v); return  and  return v  are the same thing for a body that runs in its own task *)
  Lemma own_task_ret st s pos kw :
    own_task st (BK s RetResult) pos kw = own_task st (BK s RetReturn) pos kw.
  Proof.
    unfold Dispatch.own_task. destruct (run_fn_shape st pos kw) as (r & [[[a b] k]|] & E); rewrite !E;
      [unfold Dispatch.task_frame, outcome, body_res; cbn [fst snd bret]; destruct (arg_raises A raises a)|]; reflexivity.
  Qed.

  Lemma async_effect_ret d st s pos kw :
    async_effect d st (BK s RetResult) pos kw = async_effect d st (BK s RetReturn) pos kw.
  Proof. unfold Dispatch.async_effect. rewrite own_task_ret. reflexivity. Qed.

  (* an AsyncTaskResult still in flight: it would finish whichever task frame it reaches next *)
  Definition res_no_escape (r : res A) : Prop := match r with RResult _ => False | _ => True end.

  Fixpoint no_future (v : rval A) : Prop :=
    match v with VFuture => False | VWrapped w => no_future w | VBody _ _ _ _ _ => True end.
  Definition res_no_future (r : res A) : Prop := match r with ROk v | RResult v => no_future v | RErr _ => True end.

  (* every value a form hands back was computed by fn's body inside a task made for fn (the body saw
     get_active_task() = its own task), or by sync_fn's plain body *)
  Fixpoint rval_own (bk : bodykind) (v : rval A) : Prop :=
    match v with
    | VBody FnBody _ _ _ x => x = extra bk AOwn
    | VBody SyncBody _ _ _ x => x = 0
    | VWrapped w => rval_own bk w
    | VFuture => True
    end.
  Definition res_own (bk : bodykind) (r : res A) : Prop :=
    match r with ROk v | RResult v => rval_own bk v | RErr _ => True end.

  (* the outcomes there are: an error, or the value of fn's body run in its own task or of sync_fn's
     body, wrapped by make_async_decorator's wrapper_fn or not; never an AsyncTaskResult, never a future *)
  Inductive delivered (bk : bodykind) : res A -> Prop :=
  | D_err x : delivered bk (RErr x)
  | D_fn a b k : delivered bk (ROk (VBody FnBody a b k (extra bk AOwn)))
  | D_sync a b k : delivered bk (ROk (VBody SyncBody a b k 0))
  | D_wrap v : delivered bk (ROk v) -> delivered bk (ROk (VWrapped v)).

  Lemma delivered_spec bk r :
    delivered bk r -> res_no_escape r /\ res_no_future r /\ res_own bk r.
  Proof. induction 1; cbn; auto. Qed.

  Lemma own_task_delivered st bk pos kw : delivered bk (snd (own_task st bk pos kw)).
  Proof.
    unfold Dispatch.own_task. destruct (run_fn_shape st pos kw) as (r & [[[a b] k]|] & ->); [|constructor].
    unfold Dispatch.task_frame, outcome, body_res; cbn [snd].
    destruct (arg_raises A raises a); [|destruct (bret bk)]; constructor.
  Qed.

  Lemma async_effect_delivered d st bk pos kw : delivered bk (snd (async_effect d st bk pos kw)).
  Proof.
    pose proof (own_task_delivered st bk pos kw) as H.
    unfold Dispatch.async_effect. destruct (own_task st bk pos kw) as [c r]. cbn [snd] in H.
    destruct d; try exact H.
    - destruct H; repeat constructor; assumption.
    - unfold dup_on_raise; cbn [fst snd]. destruct H as [x| | |]; try (constructor; assumption).
      destruct (is_verr x); constructor.
    - destruct pos as [|[o|a] p]; (exact H || constructor).
  Qed.

  Lemma direct_effect_delivered d st bk pos kw : delivered bk (snd (direct_effect d st bk pos kw)).
  Proof.
    destruct d; try apply async_effect_delivered. unfold direct_effect.
    destruct (run_fn_shape st pos kw) as (r & [[[a b] k]|] & ->); [|constructor].
    unfold outcome, body_res; cbn [snd bret]. destruct (arg_raises A raises a); constructor.
  Qed.

  Lemma invoke_delivered d b f bk pos kw : delivered bk (snd (invoke d b f pos kw bk)).
  Proof.
    rewrite invoke_closed. cbv zeta.
    destruct (deco_has_asynq d), f; try constructor; rewrite snd_finish;
      (apply async_effect_delivered || apply direct_effect_delivered).
  Qed.

  (* no AsyncTaskResult ever leaves a calling form: the task the form is executed in is never finished
     with the callee's value, and at top level no AsyncTaskResult exception comes out *)
  Lemma invoke_ctx_closed d b f bk pos kw :
    invoke_ctx d b f pos kw bk = (caller_of cx, invoke d b f pos kw bk).
  Proof.
    pose proof (proj1 (delivered_spec bk _ (invoke_delivered d b f bk pos kw))) as H.
    unfold Dispatch.invoke_ctx. destruct (invoke d b f pos kw bk) as [[s c] [v|x|v]]; (reflexivity || contradiction).
  Qed.

  Definition sync_call (c : call A) : call A :=
    match c with CBody _ r a b k => CBody SyncBody r a b k | w => w end.
  Definition sync_res (r : res A) : res A :=
    match r with
    | ROk (VBody _ a b k _) => ROk (VBody SyncBody a b k 0)
    | RErr e => if e =? 901 then RErr 902 else RErr e
    | r => r
    end.
  (* the same run with sync_fn's (plain) body in place of fn's: same receiver, same parameters *)
  Definition as_sync (e : effect) : effect := (map sync_call (fst e), sync_res (snd e)).

  Definition call_tag (c : call A) : option tag :=
    match c with CBody t _ _ _ _ => Some t | CWrap _ _ _ => None end.

  Lemma run_fn_as_sync st bk act pos kw :
    run_fn SyncBody st (BK BPlain RetReturn) act pos kw = as_sync (own_task st bk pos kw).
  Proof.
    unfold Dispatch.own_task. destruct (run_fn_shape st pos kw) as (r & [[[a b] k]|] & E); rewrite !E; [|reflexivity].
    unfold as_sync, Dispatch.task_frame, outcome, body_res; cbn [fst snd map sync_call bret].
    destruct (arg_raises A raises a); [|destruct (bret bk)]; reflexivity.
  Qed.

  Lemma run_fn_tags t st bk act pos kw :
    Forall (fun c => call_tag c = Some t) (fst (run_fn t st bk act pos kw)).
  Proof. destruct (run_fn_shape st pos kw) as (r & [[[a b] k]|] & ->); repeat constructor. Qed.

  Lemma async_effect_no_sync_body d st bk pos kw :
    Forall (fun c => call_tag c <> Some SyncBody) (fst (async_effect d st bk pos kw)).
  Proof.
    assert (H0 : Forall (fun c => call_tag c <> Some SyncBody) (fst (own_task st bk pos kw))).
    { eapply Forall_impl; [|apply (run_fn_tags FnBody)]. cbn. intros c H; rewrite H; discriminate. }
    unfold Dispatch.async_effect. destruct d; auto.
    - constructor; [destruct pos as [|[r|a] p]; cbn; discriminate | exact H0].
    - unfold dup_on_raise. destruct (snd (own_task st bk pos kw)); auto.
      destruct (is_verr e); auto. cbn. apply Forall_app; auto.
    - unfold cpi_guard. destruct pos as [|[r|a] p]; auto. constructor.
  Qed.

  Theorem conventions_agree d b bk pos kw :
    valid d b = true ->
    let inv f := invoke d b f pos kw bk in
    (has_async d b = true ->
       inv YieldAsynq = inv AsynqValue /\ inv AsyncCall = inv AsynqValue /\
       (d <> DPair -> eff (inv Sync) = eff (inv AsynqValue)) /\
       (d = DPair -> eff (inv Sync) = as_sync (eff (inv AsynqValue))) /\
       eff (inv AsynqValue) = async_effect d (style_of b) bk (prepend (expected_recv b) pos) kw) /\
    (has_async d b = false ->
       inv AsynqValue = (SNoAsynqAttr, [], RErr E_ATTR) /\ inv YieldAsynq = (SNoAsynqAttr, [], RErr E_ATTR) /\
       inv YieldDirect = inv Sync /\ inv AsyncCall = inv Sync /\
       eff (inv Sync) = async_effect d (style_of b) bk (prepend (expected_recv b) pos) kw).
  Proof.
    intros _ inv; subst inv; cbv beta. rewrite !invoke_closed, has_async_closed. cbv zeta.
    split; intros ->; rewrite ?eff_finish; repeat split.
    - intros Hd. unfold direct_effect. destruct d; try congruence; reflexivity.
    - intros ->. apply run_fn_as_sync.
  Qed.

  Theorem classify_consistent d b bk pos kw :
    valid d b = true ->
    let inv f := invoke d b f pos kw bk in
    (* has_async_fn  <->  .asynq(ARGS) exists *)
    (has_async d b = true <-> exists e, target_asynq d b bk pos kw = Some e) /\
    (* is_pure_async_fn  <->  the direct call hands back a future *)
    (is_pure d b = true <-> fst (target_call d b bk pos kw) = KFuture) /\
    (* exactly one of the two asynchronous forms exists, and is_async_fn says so *)
    has_async d b = negb (is_pure d b) /\ is_async d b = true /\
    (* get_async_fn / get_async_or_sync_fn pick that form ... *)
    get_async_kind d b = (if has_async d b then GAsynqAttr else GSelf) /\
    get_async_or_sync_kind d b = get_async_kind d b /\
    (* ... and calling what they return is the asynchronous call, always through a future *)
    inv ViaGetAsync = inv AsyncCall /\ inv ViaGetAsyncOrSync = inv AsyncCall /\
    eff (inv AsyncCall) = async_effect d (style_of b) bk (prepend (expected_recv b) pos) kw /\
    stat (inv AsyncCall) = match snd (eff (inv AsyncCall)) with RErr _ => SRaised | _ => SRetFuture end.
  Proof.
    intros _ inv; subst inv; cbv beta.
    unfold Dispatch.is_async, Dispatch.get_async_kind, Dispatch.get_async_or_sync_kind.
    rewrite !invoke_closed, call_path, asynq_path, !(has_async_closed hs), is_pure_closed, ret_kind_closed.
    cbv zeta; cbn [fst]. destruct (deco_has_asynq d); cbn [negb orb]; rewrite eff_finish, stat_finish.
    - split; [split; [eauto | reflexivity] |]. split; [split; discriminate|]. repeat split.
    - split; [split; [discriminate | intros [e He]; discriminate He] |]. repeat split.
  Qed.
End Proofs.

(* a call made through path b gives the same (status, body runs, outcome) whatever lookups of the same
   attribute (through other classes / instances of the hierarchy) were made before it *)
Lemma invoke_hist A raises db dk cx hs d b f pos kw bk :
  invoke A raises db dk cx hs d b f pos kw bk = invoke A raises db dk cx [] d b f pos kw bk.
Proof. rewrite !invoke_closed. reflexivity. Qed.

(* 98 valid decorator x binding cells, swept: the argument-free part of the classification *)
Definition cell_ok (d : deco) (b : binding) : bool :=
  negb (valid d b) ||
  (Bool.eqb (has_async [] d b) (negb (is_pure [] d b)) && is_async [] d b &&
   match get_async_kind [] d b, get_async_or_sync_kind [] d b with
   | GAsynqAttr, GAsynqAttr => has_async [] d b
   | GSelf, GSelf => is_pure [] d b
   | _, _ => false
   end).

(* non-vacuity: the hypotheses are satisfiable and the conclusions talk about real runs *)
Example agree_nonvacuous :
  valid DPair BCmInst = true /\ has_async [BCmSub] DPair BCmInst = true /\
  invoke Z (fun z => z =? 99) 20 30 CGen [BCmSub] DPair BCmInst AsynqValue [AVal 1] [(Kk, AVal 3)] (BK BBatch RetResult) =
    (SRetFuture, [CBody FnBody (Some (AObj RCls)) (AVal 1) (AVal 20) (AVal 3)], ROk (VBody FnBody (AVal 1) (AVal 20) (AVal 3) 7)) /\
  invoke Z (fun z => z =? 99) 20 30 CGen [BCmSub] DPair BCmInst Sync [AVal 1] [(Kk, AVal 3)] (BK BBatch RetResult) =
    (SRetValue, [CBody SyncBody (Some (AObj RCls)) (AVal 1) (AVal 20) (AVal 3)], ROk (VBody SyncBody (AVal 1) (AVal 20) (AVal 3) 0)) /\
  valid DPure BSub = true /\ has_async [] DPure BSub = false /\
  invoke Z (fun z => z =? 99) 20 30 CTop [] DPure BSub AsyncCall [AVal 99] [] (BK BPlain RetReturn) =
    (SRaised, [CBody FnBody (Some (AObj RSubObj)) (AVal 99) (AVal 20) (AVal 30)], RErr 901) /\
  (* a synchronous call from inside a plain-bodied task, body = plain function ending in result(v)
     that looks at get_active_task(): own task (8), value delivered, calling task goes on *)
  invoke_ctx Z (fun z => z =? 99) 20 30 CPlain [BSub2; BClass] DAsynq BInst Sync [AVal 1] [] (BK BPlainOwn RetResult) =
    (CallerOwn, (SRetValue, [CBody FnBody (Some (AObj RObj)) (AVal 1) (AVal 20) (AVal 30)],
                 ROk (VBody FnBody (AVal 1) (AVal 20) (AVal 30) 8))) /\
  (* in_ctx is not vacuous: an escaping AsyncTaskResult would finish the calling task *)
  in_ctx Z CGen (SRetValue, [], RResult (VBody FnBody (AVal 1) (AVal 20) (AVal 30) 9)) =
    (CallerHijacked, (SRetValue, [], ROk (VBody FnBody (AVal 1) (AVal 20) (AVal 30) 9))) /\
  in_ctx Z CTop (SRetValue, [], RResult (VBody FnBody (AVal 1) (AVal 20) (AVal 30) 10)) =
    (CallerNone, (SRaised, [], RErr E_TASKRESULT)).
Proof. repeat split. Qed.

(* the history scenario is not vacuous: a classmethod sync_fn pair first used through the sibling class Sub2
   (synchronously) and through the base class, then called through Sub — each call is bound to its own class *)
Example trace_nonvacuous :
  run_warm Z (fun z => z =? 99) 20 30 [] DPair (BK BPlain RetReturn) [(BCmSub2, WSync, 700); (BCmClass, WGet, 701); (BCmInst, WAsynq, 702)] =
    [Some (SRetValue, [CBody SyncBody (Some (AObj RSub2Cls)) (AVal 700) (AVal 20) (AVal 30)],
           ROk (VBody SyncBody (AVal 700) (AVal 20) (AVal 30) 0));
     None;
     Some (SRetFuture, [CBody FnBody (Some (AObj RCls)) (AVal 702) (AVal 20) (AVal 30)],
           ROk (VBody FnBody (AVal 702) (AVal 20) (AVal 30) 0))] /\
  invoke Z (fun z => z =? 99) 20 30 CTop [BCmSub2; BCmClass; BCmInst] DPair BCmSub Sync [AVal 1] [] (BK BPlain RetReturn) =
    (SRetValue, [CBody SyncBody (Some (AObj RSubCls)) (AVal 1) (AVal 20) (AVal 30)], ROk (VBody SyncBody (AVal 1) (AVal 20) (AVal 30) 0)).
Proof. split; reflexivity. Qed.
