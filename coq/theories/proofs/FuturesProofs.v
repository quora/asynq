(* C10 for a single future (Futures.v): what one operation does to the state ([step_cases]), and that the
   classes of the exceptions raised by subscribers and providers are invisible (relabellings commuting with [step]). *)
From Asynq Require Import Base Futures.

Definition is_read (o : op) : bool :=
  match o with OValue | OCall | OError | OIsComputed => true | _ => false end.
Definition is_reset (o : op) : bool := match o with OReset => true | _ => false end.
Definition report (o : op) (oc : outcome) : res :=
  match o with
  | OValue | OCall => report_value oc
  | OError => report_error oc
  | OIsComputed => RBool true
  | _ => RUnit
  end.

(* op lists: Futures.run, TaskFut.trun and BatchFut.brun are [run_with] of their step function *)
Section RunWith.
  Context {St Op Res : Type} (stp : St -> Op -> St * Res).

  Fixpoint run_with (s : St) (ops : list Op) : St * list Res :=
    match ops with
    | [] => (s, [])
    | o :: ops' =>
      let '(s1, r) := stp s o in
      let '(s2, rs) := run_with s1 ops' in (s2, r :: rs)
    end.

  Lemma run_with_inv (P : St -> Prop) : (forall s o, P s -> P (fst (stp s o))) ->
    forall ops s, P s -> P (fst (run_with s ops)).
  Proof.
    intros H ops. induction ops as [|o ops IH]; intros s Ps; cbn; auto.
    specialize (H s o Ps). destruct (stp s o) as [s1 r]. specialize (IH s1 H). now destruct (run_with s1 ops).
  Qed.

  (* a relabelling of states and ops that every step commutes with (on the states of an invariant [P]) commutes
     with op lists *)
  Lemma run_with_morph (F : St -> St) (G : Op -> Op) (P : St -> Prop) :
    (forall s o, P s -> P (fst (stp s o))) ->
    (forall s o, P s -> stp (F s) (G o) = (F (fst (stp s o)), snd (stp s o))) ->
    forall ops s, P s -> run_with (F s) (map G ops) = (F (fst (run_with s ops)), snd (run_with s ops)).
  Proof.
    intros HP HF ops. induction ops as [|o ops IH]; intros s Ps; cbn [run_with map]; auto.
    rewrite (HF s o Ps). specialize (HP s o Ps). destruct (stp s o) as [s1 r]. cbn [fst snd] in *.
    rewrite (IH s1 HP). now destruct (run_with s1 ops).
  Qed.
End RunWith.

Fixpoint all_reads_report (ops : list op) (rs : list res) (oc : outcome) : Prop :=
  match ops, rs with
  | [], [] => True
  | o :: ops', r :: rs' => (is_read o = true -> r = report o oc) /\ all_reads_report ops' rs' oc
  | _, _ => False
  end.

(* while [Q] holds no step but reset_unsafe leaves it, and reads report [oc]: so along every reset-free op list *)
Lemma run_with_reads_report {St} (stp : St -> op -> St * res) (Q : St -> Prop) oc :
  (forall s o, Q s -> is_reset o = false ->
     Q (fst (stp s o)) /\ (is_read o = true -> snd (stp s o) = report o oc)) ->
  forall ops s, Q s -> forallb (fun o => negb (is_reset o)) ops = true ->
  Q (fst (run_with stp s ops)) /\ all_reads_report ops (snd (run_with stp s ops)) oc.
Proof.
  intros H ops. induction ops as [|o ops IH]; intros s Qs Hn; cbn in *; auto.
  apply andb_true_iff in Hn as [Ho Hn]. apply negb_true_iff in Ho.
  destruct (H s o Qs Ho) as [Q1 R1]. destruct (stp s o) as [s1 r]. cbn in *.
  specialize (IH s1 Q1 Hn). destruct (run_with stp s1 ops). cbn in *. tauto.
Qed.

Lemma complete_out s o : out (complete s o) = Some o.
Proof. reflexivity. Qed.

(* the notification loop (EventHook.safe_trigger over a copy of the handler list) *)

(* the callback records produced by notifying [l] with outcome [oc] *)
Definition notes (l : list sub) (oc : outcome) : list (Z * outcome) :=
  map (fun sb => (fst sb, oc)) l.

(* the live subscription list after notifying the subscribers that were registered in [l] *)
Definition after_notify (l : list sub) : list sub := fst (notify l l).

(* the loop calls exactly the subscribers of the snapshot, each once, in order - WHATEVER the
   subscribers do to the live list meanwhile (unsubscribe themselves, a later or an earlier one,
   subscribe new ones, raise) and whatever the live list is *)
Lemma notify_snapshot snap : forall live, snd (notify snap live) = map fst snap.
Proof.
  induction snap as [|sb snap IH]; intros live; cbn; auto.
  specialize (IH (fst (run_cb (snd sb) live))).
  destruct (notify snap (fst (run_cb (snd sb) live))) as [l2 called]. cbn in *. now rewrite IH.
Qed.

Lemma complete_log s o : log (complete s o) = log s ++ notes (subs s) o.
Proof. cbn. unfold notes. now rewrite notify_snapshot, map_map. Qed.

Lemma complete_subs s o : subs (complete s o) = after_notify (subs s).
Proof. reflexivity. Qed.

Definition plain (k : cbkind) : bool := match k with CbOk | CbRaise _ | CbSet _ _ _ => true | _ => false end.

Lemma notify_plain snap : forall live,
  forallb (fun sb => plain (snd sb)) snap = true -> fst (notify snap live) = live.
Proof.
  induction snap as [|[id k] snap IH]; intros live H; cbn in *; auto.
  apply andb_true_iff in H as [Hk H].
  assert (E : fst (run_cb k live) = live) by (destruct k; cbn in *; auto; discriminate).
  rewrite E. specialize (IH live H). destruct (notify snap live). exact IH.
Qed.

(* list.remove on the handler list: it drops the first entry of that subscriber and nothing else; it fails
   exactly when no entry has that id *)
Lemma remove_first_spec t l l' : remove_first t l = Some l' ->
  exists a k b, l = a ++ (t, k) :: b /\ l' = a ++ b /\ forall x, In x a -> fst x <> t.
Proof.
  revert l'. induction l as [|[i k] r IH]; intros l' H; cbn in *; try discriminate.
  destruct (Z.eqb_spec i t) as [->|N].
  - inversion H; subst. exists [], k, l'. repeat split; auto; intros x [].
  - destruct (remove_first t r) as [r'|]; inversion H; subst.
    destruct (IH r' eq_refl) as (a & k' & b & -> & -> & E3).
    exists ((i, k) :: a), k', b. repeat split; auto. intros x [<-|Hx]; auto.
Qed.

Lemma remove_first_none t l : remove_first t l = None -> forall x, In x l -> fst x <> t.
Proof.
  induction l as [|[i k] r IH]; intros H x Hx; cbn in *; [contradiction|].
  destruct (Z.eqb_spec i t); try discriminate.
  destruct (remove_first t r); try discriminate. destruct Hx as [<-|Hx]; auto.
Qed.

(* a setter on a computed future raises FutureIsAlreadyComputed and changes nothing *)
Lemma single_assignment s oc :
  out s = Some oc ->
  (forall v, step s (OSetValue v) = (s, RRaise E_ALREADY)) /\
  (forall e, step s (OSetError e) = (s, RRaise E_ALREADY)).
Proof. intros H; split; intros; cbn; rewrite H; reflexivity. Qed.

(* on a computed future (no reset): outcome, log and run count stay, reads report the outcome *)
Lemma step_computed s oc o :
  out s = Some oc -> is_reset o = false ->
  (out (fst (step s o)) = Some oc /\ log (fst (step s o)) = log s /\ runs (fst (step s o)) = runs s) /\
  (is_read o = true -> snd (step s o) = report o oc).
Proof.
  intros H Hr. destruct o; try discriminate Hr; cbn; unfold read; rewrite ?H; cbn;
    try (repeat split; auto; discriminate).
  destruct (sinking (fkind s)); repeat split; auto; discriminate.
Qed.

(* from the first completion on, without reset_unsafe, every read reports that outcome,
   the computation never runs again and no callback fires again *)
Lemma stable ops : forall s oc,
  out s = Some oc -> forallb (fun o => negb (is_reset o)) ops = true ->
  let '(s', rs) := run s ops in
  out s' = Some oc /\ log s' = log s /\ runs s' = runs s /\ all_reads_report ops rs oc.
Proof.
  intros s oc H Hn.
  destruct (run_with_reads_report step (fun s' => out s' = Some oc /\ log s' = log s /\ runs s' = runs s) oc)
    with (ops := ops) (s := s) as [Q A]; auto.
  - intros s1 o (Q1 & Q2 & Q3) Ho. destruct (step_computed s1 oc o Q1 Ho) as ((A & B & C) & D).
    repeat split; auto; congruence.
  - change (run_with step s ops) with (run s ops) in *. destruct (run s ops). tauto.
Qed.

(* [s'] comes from the uncomputed [s] by at most one run of the provider and at most one completion, which
   notified exactly the subscribers of [s] *)
Definition advanced (s s' : fstate) : Prop :=
  (runs s' <= S (runs s))%nat /\ fkind s' = fkind s /\
  match out s' with
  | Some oc => log s' = log s ++ notes (subs s) oc /\ subs s' = after_notify (subs s)
  | None => log s' = log s /\ subs s' = subs s
  end.

Lemma advanced_complete s s0 oc :
  (runs s0 <= S (runs s))%nat -> fkind s0 = fkind s -> log s0 = log s -> subs s0 = subs s ->
  advanced s (complete s0 oc).
Proof. intros R K L S. unfold advanced. rewrite complete_log, complete_subs, L, S. cbn. auto. Qed.

(* _compute: the only place where the kind and the provider script matter *)
Lemma compute_advanced s : out s = None ->
  advanced s (fst (compute s)) /\ (snd (compute s) <> None -> out (fst (compute s)) = None).
Proof.
  intros N. assert (Z : advanced s s) by (unfold advanced; rewrite N; auto).
  unfold compute. destruct (fkind s); auto; destruct (prov s) as [|[v|c e|e|] rest]; cbn [fst snd];
    try (split; [apply advanced_complete; cbn; auto|congruence]).
  split; [unfold advanced; cbn; rewrite N; auto|auto].
Qed.

Lemma read_advanced s rep : out s = None -> advanced s (fst (read s rep)).
Proof.
  intros N. unfold read. rewrite N. destruct (compute_advanced s N) as (A & _).
  destruct (compute s) as [s' [e|]]; auto. now destruct (out s').
Qed.

(* a read that leaves the future computed reports exactly the outcome that is now stored -
   in particular the read that triggers the computation (error() on a failing provider included) *)
Lemma read_reports_out s rep oc : out (fst (read s rep)) = Some oc -> snd (read s rep) = rep oc.
Proof.
  unfold read. destruct (out s) eqn:N; cbn; [congruence|].
  destruct (compute_advanced s N) as (_ & A). destruct (compute s) as [s' [e|]]; cbn in *.
  - rewrite A; discriminate.
  - destruct (out s') eqn:E; cbn; congruence.
Qed.

(* a relabelling of states that [compute] commutes with and that leaves the outcome alone commutes with reads *)
Lemma read_morph (F : fstate -> fstate) s rep :
  (forall s', out (F s') = out s') -> compute (F s) = (F (fst (compute s)), snd (compute s)) ->
  read (F s) rep = (F (fst (read s rep)), snd (read s rep)).
Proof.
  intros O C. unfold read. rewrite O, C. destruct (out s); auto.
  destruct (compute s) as [s' [e|]]; cbn; rewrite ?O; auto. now destruct (out s').
Qed.

(* what one operation does to the state *)
Lemma step_cases s o :
  let s' := fst (step s o) in
  s' = s \/ (out s = None /\ advanced s s') \/
  s' = mk (fkind s) (prov s) None (runs s) (subs s) (log s) \/
  (exists id k, o = OSubscribe id k /\ s' = mk (fkind s) (prov s) (out s) (runs s) (subs s ++ [(id, k)]) (log s)).
Proof.
  destruct o; cbn; auto.
  1-3: unfold read at 1; destruct (out s) eqn:N; auto; right; left; split; auto; apply read_advanced, N.
  1-2: destruct (out s) eqn:N; cbn; auto; right; left; split; auto; apply advanced_complete; auto.
  destruct (sinking (fkind s)); cbn; eauto 7.
Qed.

(* one step runs the underlying computation at most once, and only on an uncomputed future *)
Lemma compute_once s o : (runs (fst (step s o)) <= S (runs s))%nat /\
  (out s <> None -> runs (fst (step s o)) = runs s).
Proof.
  destruct (step_cases s o) as [->|[(N & A & _)|[->|(id & k & _ & ->)]]]; cbn; auto. split; [exact A|congruence].
Qed.

(* the step that completes a future calls each current subscriber exactly once, with the
   outcome already visible; no other step calls anything *)
Lemma notify_once_after s o :
  let s' := fst (step s o) in
  match out s, out s' with
  | None, Some oc => log s' = log s ++ notes (subs s) oc /\ subs s' = after_notify (subs s)
  | _, _ => log s' = log s
  end.
Proof.
  cbn zeta. destruct (step_cases s o) as [->|[(-> & _ & _ & A)|[->|(id & k & _ & ->)]]]; cbn;
    try (now destruct (out s)). destruct (out (fst (step s o))); tauto.
Qed.

Lemma step_fkind s o : fkind (fst (step s o)) = fkind s.
Proof. destruct (step_cases s o) as [->|[(_ & _ & A & _)|[->|(id & k & _ & ->)]]]; auto. Qed.

(* ConstFuture / ErrorFuture are complete from construction *)
Lemma const_error_complete p v e :
  out (init KConst p (Ok v)) = Some (Ok v) /\ out (init KError p (Err e)) = Some (Err e).
Proof. split; reflexivity. Qed.

(* non-vacuity: a concrete failing-provider history meets the hypotheses *)
Example stable_nonvacuous :
  let s := fst (step (init KLazy [PRaise XAlreadyComputed 7] (Ok VNone)) OError) in
  out s = Some (Err 7) /\ snd (run s [OError; OValue; OIsComputed]) = [RErr 7; RRaise 7; RBool true].
Proof. split; reflexivity. Qed.

(* non-vacuity of the re-entrant part: a one-shot subscriber in first position, a plain one, one
   that subscribes 4 and then drops the already notified 2; everybody registered at the completion
   is called once, 4 is not; the next completion (after reset_unsafe) goes over what they left *)
Example reentrant_nonvacuous :
  run_case KLazy [PRet (VInt 42); PRaise XAssertion 9] (Ok VNone)
    [OSubscribe 1 (CbUnsub 1); OSubscribe 2 CbOk; OSubscribe 3 (CbSeq (CbSub 4 (CbRaise XKey)) (CbUnsub 2));
     OValue; OReset; OError]
  = ([RUnit; RUnit; RUnit; RVal (VInt 42); RUnit; RErr 9],
     [(1, Ok (VInt 42)); (2, Ok (VInt 42)); (3, Ok (VInt 42)); (3, Err 9); (4, Err 9)], 2, [3; 4; 4]).
Proof. reflexivity. Qed.

(* the CLASS of the Exception a subscriber raises does not matter.
   [recls f] relabels the class of every raise in a behaviour script (also in the scripts of the
   subscribers it subscribes); [f] is arbitrary, e.g. "everything becomes AssertionError" or
   "everything becomes the harness's own exception class".                                       *)
Fixpoint recls (f : xcls -> xcls) (k : cbkind) : cbkind :=
  match k with
  | CbOk => CbOk
  | CbRaise c => CbRaise (f c)
  | CbUnsub t => CbUnsub t
  | CbSub id k' => CbSub id (recls f k')
  | CbSeq a b => CbSeq (recls f a) (recls f b)
  | CbSet t o g => CbSet t o g
  end.
Definition recls_sub (f : xcls -> xcls) (sb : sub) : sub := (fst sb, recls f (snd sb)).
Definition recls_op (f : xcls -> xcls) (o : op) : op :=
  match o with OSubscribe id k => OSubscribe id (recls f k) | _ => o end.
Definition recls_state (f : xcls -> xcls) (s : fstate) : fstate :=
  mk (fkind s) (prov s) (out s) (runs s) (map (recls_sub f) (subs s)) (log s).

(* a raising subscriber does to the subscription list what a returning one does: nothing *)
Lemma run_cb_raise c live : run_cb (CbRaise c) live = (live, true).
Proof. reflexivity. Qed.

Lemma remove_first_recls f t l :
  remove_first t (map (recls_sub f) l) = option_map (map (recls_sub f)) (remove_first t l).
Proof.
  induction l as [|[i k] r IH]; cbn; auto.
  destruct (Z.eqb i t); auto. rewrite IH. destruct (remove_first t r); auto.
Qed.

Lemma run_cb_recls f k : forall live,
  run_cb (recls f k) (map (recls_sub f) live) = (map (recls_sub f) (fst (run_cb k live)), snd (run_cb k live)).
Proof.
  induction k as [|c|t|id k IH|a IHa b IHb|t o g]; intros live; cbn; auto.
  - rewrite remove_first_recls. destruct (remove_first t live); auto.
  - rewrite map_app. reflexivity.
  - rewrite IHa. destruct (run_cb a live) as [l1 r]. cbn. destruct r; auto.
Qed.

Lemma notify_recls f snap : forall live,
  notify (map (recls_sub f) snap) (map (recls_sub f) live) =
  (map (recls_sub f) (fst (notify snap live)), snd (notify snap live)).
Proof.
  induction snap as [|sb snap IH]; intros live; cbn; auto.
  rewrite run_cb_recls. cbn. rewrite IH.
  destruct (notify snap (fst (run_cb (snd sb) live))). reflexivity.
Qed.

Lemma complete_recls f s o : complete (recls_state f s) o = recls_state f (complete s o).
Proof. unfold complete, recls_state. cbn. rewrite notify_recls. reflexivity. Qed.

Lemma compute_recls f s :
  compute (recls_state f s) = (recls_state f (fst (compute s)), snd (compute s)).
Proof.
  unfold compute. change (fkind (recls_state f s)) with (fkind s).
  change (prov (recls_state f s)) with (prov s).
  destruct (fkind s); auto; destruct (prov s) as [|[v|c e|e|] rest]; cbn [fst snd];
    rewrite <- ?complete_recls; reflexivity.
Qed.

(* one operation: the relabelled history is in the relabelled state and returned the same result *)
Lemma step_recls f s o :
  step (recls_state f s) (recls_op f o) = (recls_state f (fst (step s o)), snd (step s o)).
Proof.
  destruct o; cbn [step recls_op]; rewrite ?(read_morph (recls_state f) s) by auto using compute_recls; auto;
    change (out (recls_state f s)) with (out s); change (fkind (recls_state f s)) with (fkind s).
  - destruct (out s); auto. now rewrite complete_recls.
  - destruct (out s); auto. now rewrite complete_recls.
  - destruct (sinking (fkind s)); auto. unfold recls_state. cbn. rewrite map_app. reflexivity.
Qed.

(* everything the correspondence compares - every op result, the callback log (who was called and
   what outcome they saw), the run count, the ids registered at the end - is the same whatever
   Exception classes the raising subscribers raise *)
Lemma raise_class_irrelevant f k p o ops :
  run_case k p o (map (recls_op f) ops) = run_case k p o ops.
Proof.
  unfold run_case. replace (init k p o) with (recls_state f (init k p o)) at 1 by (destruct k; reflexivity).
  change run with (run_with step). rewrite (run_with_morph step _ _ (fun _ => True)); auto using step_recls.
  destruct (run_with step (init k p o) ops) as [s rs]. cbn. now rewrite map_map.
Qed.

(* two histories that differ only in the classes raised by their subscribers are indistinguishable *)
Lemma same_shape_same_result k p o ops ops' :
  map (recls_op (fun _ => XUser)) ops = map (recls_op (fun _ => XUser)) ops' ->
  run_case k p o ops = run_case k p o ops'.
Proof.
  intros H. rewrite <- (raise_class_irrelevant (fun _ => XUser) k p o ops), H.
  apply raise_class_irrelevant.
Qed.

(* non-vacuity: an asserting subscriber, first accessor on a lazy future *)
Example raise_class_nonvacuous :
  run_case KLazy [PRet (VInt 3)] (Ok VNone)
    [OSubscribe 1 (CbRaise XAssertion); OSubscribe 2 CbOk; OValue; OError; OCall]
  = ([RUnit; RUnit; RVal (VInt 3); RNoError; RVal (VInt 3)], [(1, Ok (VInt 3)); (2, Ok (VInt 3))], 1, [1; 2]).
Proof. reflexivity. Qed.

(* the CLASS of the Exception a PROVIDER raises does not matter.
   [recls_pout f] relabels the class of every raise of a provider script.  Future(provider): any [f].
   A generator body (AsyncTask): any [f] that respects PEP 479 (StopIteration stays StopIteration,
   nothing else becomes it) - [gen_cls_ok].                                                       *)
Definition recls_pout (f : xcls -> xcls) (p : pout) : pout :=
  match p with PRaise c e => PRaise (f c) e | _ => p end.
Definition gen_cls_ok (f : xcls -> xcls) : Prop := forall c e, gen_exn (f c) e = gen_exn c e.
Definition pstate (f : xcls -> xcls) (s : fstate) : fstate :=
  mk (fkind s) (map (recls_pout f) (prov s)) (out s) (runs s) (subs s) (log s).

Lemma gen_cls_ok_id : gen_cls_ok (fun c => c).
Proof. intros c e. reflexivity. Qed.

Lemma complete_pstate f s o : complete (pstate f s) o = pstate f (complete s o).
Proof. unfold complete, pstate. cbn. destruct (fkind s); reflexivity. Qed.

Lemma with_run_pstate f s rest :
  with_run (pstate f s) (map (recls_pout f) rest) = pstate f (with_run s rest).
Proof. reflexivity. Qed.

Lemma compute_pstate f s : (fkind s = KTask -> gen_cls_ok f) ->
  compute (pstate f s) = (pstate f (fst (compute s)), snd (compute s)).
Proof.
  intros G. unfold compute. change (fkind (pstate f s)) with (fkind s).
  change (prov (pstate f s)) with (map (recls_pout f) (prov s)).
  destruct (fkind s); auto; destruct (prov s) as [|[v|c e|e|] rest]; cbn [map recls_pout fst snd];
    rewrite <- ?complete_pstate, ?(G eq_refl); reflexivity.
Qed.

Lemma step_pstate f s o : (fkind s = KTask -> gen_cls_ok f) ->
  step (pstate f s) o = (pstate f (fst (step s o)), snd (step s o)).
Proof.
  intros G. destruct o; cbn [step]; rewrite ?(read_morph (pstate f) s) by auto using compute_pstate; auto;
    change (out (pstate f s)) with (out s); change (fkind (pstate f s)) with (fkind s).
  - destruct (out s); auto. now rewrite complete_pstate.
  - destruct (out s); auto. now rewrite complete_pstate.
  - destruct (sinking (fkind s)); reflexivity.
Qed.

(* every compared observable - op results (what value()/error()/call report or raise), the callback
   log, the run count, the registrations - is the same whatever Exception classes the provider raises *)
Lemma provider_class_irrelevant f k p o ops : (k = KTask -> gen_cls_ok f) ->
  run_case k (map (recls_pout f) p) o ops = run_case k p o ops.
Proof.
  intros G. unfold run_case.
  replace (init k (map (recls_pout f) p) o) with (pstate f (init k p o)) by (destruct k, p; reflexivity).
  change run with (run_with step). rewrite <- (map_id ops) at 1.
  rewrite (run_with_morph step _ _ (fun s => fkind s = KTask -> gen_cls_ok f)).
  - now destruct (run_with step (init k p o) ops).
  - intros s o'. now rewrite step_fkind.
  - intros s o'. apply step_pstate.
  - destruct k; cbn; auto; discriminate.
Qed.

Definition is_computing_read (o : op) : bool :=
  match o with OValue | OCall | OError => true | _ => false end.

(* "after value()/error()/__call__ returned or raised the future is computed": a computing read of an
   uncomputed Future(provider) whose provider does not raise a BaseException completes it - with the
   error the provider raised, whatever its class, also a FutureIsAlreadyComputed about another future -
   having run the provider exactly once and notified exactly the registered subscribers once *)
Lemma lazy_read_completes s o :
  fkind s = KLazy -> out s = None -> is_computing_read o = true ->
  (forall e rest, prov s <> PBase e :: rest) ->
  let s' := fst (step s o) in
  exists oc, out s' = Some oc /\ runs s' = S (runs s) /\ log s' = log s ++ notes (subs s) oc /\
    snd (step s o) = report o oc /\
    match prov s with
    | PRaise _ e :: _ => oc = Err e
    | PDouble :: _ => oc = Err E_ALREADY
    | PRet v :: _ => oc = Ok v
    | _ => oc = Ok VNone
    end.
Proof.
  intros K H R NB.
  assert (C : exists oc rest, compute s = (complete (with_run s rest) oc, None) /\
    match prov s with PRaise _ e :: _ => oc = Err e | PDouble :: _ => oc = Err E_ALREADY
                 | PRet v :: _ => oc = Ok v | _ => oc = Ok VNone end).
  { unfold compute. rewrite K. destruct (prov s) as [|[v|c e|e|] rest]; eauto. now destruct (NB e rest). }
  destruct C as (oc & rest & C & P). exists oc.
  destruct o; try discriminate R; cbn; unfold read; rewrite H, C; cbn [fst snd out complete runs with_run];
    rewrite complete_log; auto.
Qed.

Example provider_class_nonvacuous :
  run_case KLazy [PRaise XAlreadyComputed 7; PDouble] (Ok VNone)
    [OSubscribe 1 CbOk; OError; OValue; OIsComputed; OReset; OCall; OError]
  = ([RUnit; RErr 7; RRaise 7; RBool true; RUnit; RRaise E_ALREADY; RErr E_ALREADY],
     [(1, Err 7); (1, Err E_ALREADY)], 2, [1]).
Proof. reflexivity. Qed.
