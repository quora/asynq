(* C07 on the scheduler machine: the notions the theorems are stated with, and their algebra.

   The ghost list [layers s] lists the contexts that are active, task by task from the bottom of the
   scheduler's task stack to its top and, inside a task, in entry order.  The invariant [vars_ok] says the
   scoped variables are the base values overridden by the layers in that order, every override layer
   remembers (ci_old) the value below it, and layer keys (task, cid) are distinct.  Every machine step
   pushes or pops layers at the END of the list only ([lifo]); VO_push / VO_pop are the two moves, resume1 /
   pause1 / enter_eff / pause_plain perform them.  [AWs] are the two facts about the depth-first pass from
   which the owners of the lower layers are seen to await the running task.
   The run-level theorems, for tree programs with synchronous calls and as a special case for yield-only tree
   programs, are in MachineC07S.v.
   The C06 event files MachineC06T.v, MachineC06S.v and MachineC06X.v import this file too: for [wn] and for the
   equations that say what the context operations do to the state (enter_ctx_eff, resume_contexts_eq,
   pause_contexts_eq, remove_ctx_last), and for plainmode. *)
From Asynq Require Import Machine proofs.ProgProofs proofs.MachineFrame proofs.MachineC05 proofs.MachineC08
  proofs.MachineCases proofs.MachineC01 proofs.MachineC04.

(* [wn op p]: with [op] the contexts currently open (entry order), every with-block of [p] is closed on
   every exit path, innermost first, and the ids of simultaneously open contexts are distinct.  This is
   what harness/lib/machprog.py emits for `with`: Enter c (... Exit c ...) on the normal, exception and
   return paths. *)
Inductive wn : list ctxk -> prog -> Prop :=
| wn_ret v : wn [] (Ret v)
| wn_result v : wn [] (Result v)
| wn_raise e : wn [] (Raise e)
| wn_yield op s k : (forall p, In (LNew (FTask p)) (leaves s) -> wn [] p) -> (forall o, wn op (k o)) -> wn op (Yield s k)
| wn_enter op c k : ~ In (cid_of c) (map cid_of op) -> wn (op ++ [c]) k -> wn op (Enter c k)
| wn_exit op c k : wn op k -> wn (op ++ [c]) (Exit c k).

Definition layer := (fid * ctxk)%type.                 (* task, context *)
Definition lkey (l : layer) : fid * Z := (fst l, cid_of (snd l)).

Definition app1 (e : Z -> val) (l : layer) : Z -> val :=
  match snd l with
  | COverride _ var v => fun x => if Z.eqb x var then v else e x
  | _ => e
  end.

Definition apply_l (base : Z -> val) (L : list layer) : Z -> val := fold_left app1 L base.

Lemma apply_l_snoc base L e : apply_l base (L ++ [e]) = app1 (apply_l base L) e.
Proof. unfold apply_l. rewrite fold_left_app. reflexivity. Qed.

Definition task_layers (s : st) (t : fid) : list layer :=
  match get t s with
  | Some (mkFut None (KTask tk)) => if tk_cact tk then map (pair t) (tk_ctxs tk) else []
  | _ => []
  end.

Definition layers (s : st) : list layer := flat_map (task_layers s) (rev (tasks s)).   (* bottom of the stack first *)

Definition lower (s : st) (ts : list fid) : list layer := flat_map (task_layers s) (rev ts).

(* the variables are the base overridden by L in order; every override remembers what was below it *)
Definition VO (base vg : Z -> val) (old : fid * Z -> val) (L : list layer) : Prop :=
  (forall x, vg x = apply_l base L x) /\
  (forall pre t cid var v post, L = pre ++ (t, COverride cid var v) :: post -> old (t, cid) = apply_l base pre var) /\
  NoDup (map lkey L).

(* VO with the variables and saved slots of a state; vars_ok is VOs at the state's own layers *)
Definition VOs (base : Z -> val) (s : st) (L : list layer) : Prop :=
  VO base (fun x => var_get x s) (fun k => ci_old (ci_get k s)) L.

Definition vars_ok (base : Z -> val) (s : st) : Prop := VOs base s (layers s).

(* push / pop at the end only *)
Definition lifo (L L' : list layer) : Prop := exists l, L' = L ++ l \/ L = L' ++ l.

Lemma lifo_same L L' : L' = L -> lifo L L'.
Proof. intros ->. exists []. left. rewrite app_nil_r. reflexivity. Qed.

Lemma split_snoc {A} (pre : list A) e post L n :
  pre ++ e :: post = L ++ [n] ->
  (post = [] /\ pre = L /\ e = n) \/ (exists post', post = post' ++ [n] /\ L = pre ++ e :: post').
Proof.
  destruct post as [|y post0] using rev_ind; intros H.
  - left. apply app_inj_tail in H as [H1 H2]. auto.
  - right. clear IHpost0. exists post0.
    assert (E : pre ++ e :: post0 ++ [y] = (pre ++ e :: post0) ++ [y]) by (rewrite <- app_assoc; reflexivity).
    rewrite E in H. apply app_inj_tail in H as [H1 H2]. subst. auto.
Qed.

Lemma filter_all {A} (f : A -> bool) l : (forall x, In x l -> f x = true) -> filter f l = l.
Proof.
  induction l as [|a l IH]; intros H; [reflexivity|]. cbn. rewrite (H a (or_introl eq_refl)). f_equal.
  apply IH. intros x Hx. apply H. right. exact Hx.
Qed.

Lemma NoDup_snoc {A} (l : list A) a : NoDup (l ++ [a]) -> NoDup l /\ ~ In a l.
Proof.
  intros H. split; [apply NoDup_remove_1 in H; rewrite app_nil_r in H; exact H|].
  apply NoDup_remove_2 in H. rewrite app_nil_r in H. exact H.
Qed.

Lemma remove_ctx_last op c : NoDup (map cid_of (op ++ [c])) -> remove_ctx c (op ++ [c]) = op.
Proof.
  rewrite map_app. cbn [map]. intros H. apply NoDup_snoc in H as [_ H].
  unfold remove_ctx. rewrite filter_app. cbn [filter]. rewrite Z.eqb_refl. cbn [negb]. rewrite app_nil_r.
  apply filter_all. intros x Hx. apply negb_true_iff. apply Z.eqb_neq. intros E. apply H. rewrite <- E. apply in_map. exact Hx.
Qed.

Lemma VO_ext base vg old vg' old' L :
  VO base vg old L -> (forall x, vg' x = vg x) -> (forall k, In k (map lkey L) -> old' k = old k) -> VO base vg' old' L.
Proof.
  intros (A & B & C) Hv Ho. split; [|split]; [| |exact C].
  - intros x. rewrite Hv. apply A.
  - intros pre t cid var v post E. rewrite Ho; [apply (B pre t cid var v post E)|].
    rewrite E, map_app. apply in_or_app. right. left. reflexivity.
Qed.

Lemma VO_push base vg old vg' old' L t c :
  VO base vg old L -> ~ In (t, cid_of c) (map lkey L) ->
  (forall x, vg' x = app1 vg (t, c) x) ->
  (forall k, In k (map lkey L) -> old' k = old k) ->
  (forall cid var v, c = COverride cid var v -> old' (t, cid) = vg var) ->
  VO base vg' old' (L ++ [(t, c)]).
Proof.
  intros (A & B & C) Hfresh Hv Ho Hn. split; [|split].
  - intros x. rewrite Hv, apply_l_snoc. unfold app1. cbn [snd]. destruct c as [cid f|cid|cid var v]; try apply A.
    rewrite A. reflexivity.
  - intros pre t0 cid var v post E. destruct (split_snoc _ _ _ _ _ (eq_sym E)) as [(-> & <- & Ee)|(post' & -> & ->)].
    + inversion Ee; subst. rewrite (Hn cid var v eq_refl). apply A.
    + rewrite Ho; [apply (B pre t0 cid var v post' eq_refl)|].
      rewrite map_app. apply in_or_app. right. left. reflexivity.
  - rewrite map_app. apply NoDup_app_intro; [exact C|constructor; [intros []|constructor]|].
    intros k Hk [<-|[]]. apply Hfresh. exact Hk.
Qed.

Lemma VO_pop base vg old vg' L t c :
  VO base vg old (L ++ [(t, c)]) ->
  (forall x, vg' x = match c with COverride cid var _ => if Z.eqb x var then old (t, cid) else vg x | _ => vg x end) ->
  VO base vg' old L.
Proof.
  intros (A & B & C) Hv. split; [|split].
  - intros x. rewrite Hv. pose proof (A x) as Ax. rewrite apply_l_snoc in Ax. unfold app1 in Ax. cbn [snd] in Ax.
    destruct c as [cid f|cid|cid var v]; try exact Ax.
    destruct (Z.eqb_spec x var) as [E|_]; [subst x|exact Ax]. apply (B L t cid var v [] eq_refl).
  - intros pre t0 cid var v post E. apply (B pre t0 cid var v (post ++ [(t, c)])). rewrite E, <- app_assoc. reflexivity.
  - rewrite map_app in C. apply NoDup_remove_1 in C. rewrite app_nil_r in C. exact C.
Qed.

(* reads: the innermost layer for a variable wins *)
Definition ovar (c : ctxk) : option Z := match c with COverride _ var _ => Some var | _ => None end.

Lemma apply_l_skip base x : forall post L, (forall l, In l post -> ovar (snd l) <> Some x) ->
  apply_l base (L ++ post) x = apply_l base L x.
Proof.
  induction post as [|e post IH] using rev_ind; intros L H; [rewrite app_nil_r; reflexivity|].
  rewrite app_assoc, apply_l_snoc. unfold app1.
  assert (He : ovar (snd e) <> Some x) by (apply H; apply in_or_app; right; left; reflexivity).
  destruct (snd e) as [cid f|cid|cid var v]; try (apply IH; intros l Hl; apply H; apply in_or_app; left; exact Hl).
  destruct (Z.eqb_spec x var) as [->|_]; [cbn in He; congruence|].
  apply IH. intros l Hl. apply H. apply in_or_app. left. exact Hl.
Qed.

Lemma apply_l_innermost base L x :
  (forall pre t cid v post, L = pre ++ (t, COverride cid x v) :: post ->
     (forall l, In l post -> ovar (snd l) <> Some x) -> apply_l base L x = v) /\
  ((forall l, In l L -> ovar (snd l) <> Some x) -> apply_l base L x = base x).
Proof.
  split.
  - intros pre t cid v post -> H.
    assert (E : pre ++ (t, COverride cid x v) :: post = (pre ++ [(t, COverride cid x v)]) ++ post) by (rewrite <- app_assoc; reflexivity).
    rewrite E, (apply_l_skip base x post _ H), apply_l_snoc. unfold app1. cbn [snd]. rewrite Z.eqb_refl. reflexivity.
  - intros H. apply (apply_l_skip base x L [] H).
Qed.

Lemma var_get_set x var v s : var_get x (var_set var v s) = if Z.eqb x var then v else var_get x s.
Proof.
  unfold var_get, var_set. cbn [vars with_vars]. destruct (Z.eqb_spec x var) as [->|N].
  - rewrite (find_upd_same Z.eqb Z.eqb_eq). reflexivity.
  - rewrite (find_upd_other Z.eqb Z.eqb_eq) by exact N. reflexivity.
Qed.

Lemma ckey_eqb_eq a b : ckey_eqb a b = true <-> a = b.
Proof.
  destruct a as [a1 a2], b as [b1 b2]. unfold ckey_eqb. cbn. rewrite andb_true_iff, fid_eqb_eq, Z.eqb_eq.
  split; [intros [-> ->]; reflexivity|intros H; inversion H; auto].
Qed.

Lemma ci_get_put_same k c s : ci_get k (ci_put k c s) = c.
Proof. unfold ci_get, ci_put. cbn [cis with_cis]. rewrite (find_upd_same ckey_eqb ckey_eqb_eq). reflexivity. Qed.

Lemma ci_get_put_other k k2 c s : k2 <> k -> ci_get k2 (ci_put k c s) = ci_get k2 s.
Proof. intros N. unfold ci_get, ci_put. cbn [cis with_cis]. rewrite (find_upd_other ckey_eqb ckey_eqb_eq) by exact N. reflexivity. Qed.

(* vc: the two components only context operations write *)
Definition vc (s : st) : list (Z * val) * list ((fid * Z) * cinst) := (vars s, cis s).
Arguments vc : simpl never.

(* it is MachineCases.scoped: what is proved there about [scoped] is used here for [vc] *)
Lemma vc_scoped s : vc s = scoped s. Proof. reflexivity. Qed.

Lemma vc_var_get s s' x : vc s' = vc s -> var_get x s' = var_get x s.
Proof. unfold vc, var_get. intros H. inversion H. reflexivity. Qed.
Lemma vc_ci_get s s' k : vc s' = vc s -> ci_get k s' = ci_get k s.
Proof. unfold vc, ci_get. intros H. inversion H. reflexivity. Qed.

Lemma VOs_vc base s s' L : vc s' = vc s -> VOs base s L -> VOs base s' L.
Proof.
  intros H HV. apply (VO_ext _ _ _ _ _ _ HV); [intros x; apply vc_var_get; exact H|].
  intros k _. rewrite (vc_ci_get s s' k H). reflexivity.
Qed.

Lemma vc_with_heap s h : vc (with_heap s h) = vc s. Proof. reflexivity. Qed.
Lemma vc_with_batches s h : vc (with_batches s h) = vc s. Proof. reflexivity. Qed.
Lemma vc_with_cur s h : vc (with_cur s h) = vc s. Proof. reflexivity. Qed.
Lemma vc_with_tasks s h : vc (with_tasks s h) = vc s. Proof. reflexivity. Qed.
Lemma vc_with_active s h : vc (with_active s h) = vc s. Proof. reflexivity. Qed.
Lemma vc_with_oracle s h : vc (with_oracle s h) = vc s. Proof. reflexivity. Qed.
Lemma vc_with_top_next s h : vc (with_top_next s h) = vc s. Proof. reflexivity. Qed.
Lemma vc_pop_task s : vc (pop_task s) = vc s. Proof. reflexivity. Qed.

Lemma vc_schedule_batch k s : vc (schedule_batch k s) = vc s.
Proof. unfold schedule_batch. destruct (b_done _); [reflexivity|]. destruct (existsb _ _); reflexivity. Qed.

(* an instance rewritten with its own saved value: no saved value changes *)
Lemma old_put_keep k t cid s n1 n2 :
  ci_old (ci_get k (ci_put (t, cid) (mkCI (ci_old (ci_get (t, cid) s)) n1 n2) s)) = ci_old (ci_get k s).
Proof.
  destruct (ckey_eqb k (t, cid)) eqn:E; [apply ckey_eqb_eq in E; subst k; rewrite ci_get_put_same; reflexivity|].
  rewrite ci_get_put_other; [reflexivity|]. intros ->. rewrite (proj2 (ckey_eqb_eq _ _) eq_refl) in E. discriminate.
Qed.

Lemma resume1_VOs base t c s L :
  plain_ctx c = true -> VOs base s L -> ~ In (t, cid_of c) (map lkey L) ->
  VOs base (fst (resume1 t c s)) (L ++ [(t, c)]).
Proof.
  intros Hp HV Hf. destruct c as [cid [| |]|cid|cid var v]; try discriminate; cbn [resume1 fst].
  - apply (VO_push _ _ _ _ _ _ _ _ HV Hf).
    + intros x. reflexivity.
    + intros k _. change (ci_get k (emit ?e ?z)) with (ci_get k z). apply old_put_keep.
    + intros cid' var v E. discriminate.
  - apply (VO_push _ _ _ _ _ _ _ _ HV Hf).
    + intros x. unfold app1. cbn [snd]. rewrite var_get_set. reflexivity.
    + intros k Hk. change (ci_get k (var_set ?a ?b ?z)) with (ci_get k z). rewrite ci_get_put_other; [reflexivity|].
      intros ->. apply Hf. exact Hk.
    + intros cid' var' v' E. inversion E; subst. change (ci_get ?k (var_set ?a ?b ?z)) with (ci_get k z).
      rewrite ci_get_put_same. reflexivity.
Qed.

Lemma pause1_VOs base t c s L :
  plain_ctx c = true -> VOs base s (L ++ [(t, c)]) -> VOs base (fst (pause1 t c s)) L.
Proof.
  intros Hp HV. destruct c as [cid [| |]|cid|cid var v]; try discriminate; cbn [pause1 fst].
  - apply (VO_ext base (fun x => var_get x s) (fun k => ci_old (ci_get k s))).
    + apply (VO_pop _ _ _ _ _ _ _ HV). intros x. reflexivity.
    + intros x. reflexivity.
    + intros k _. change (ci_get k (emit ?e ?z)) with (ci_get k z). apply old_put_keep.
  - apply (VO_ext base (fun x => var_get x (var_set var (ci_old (ci_get (t, cid) s)) s)) (fun k => ci_old (ci_get k s))).
    + apply (VO_pop _ _ _ _ _ _ _ HV). intros x. rewrite var_get_set. reflexivity.
    + intros x. reflexivity.
    + intros k _. reflexivity.
Qed.

(* what __enter__ / __exit__ do to variables and instances, after the task entry has been updated *)
Definition enter_eff (t : fid) (c : ctxk) (s1 : st) : st :=
  match c with
  | CAsync cid _ => emit (EvResume t cid) s1
  | CNonAsync _ => s1
  | COverride cid var v =>
    let ci := ci_get (t, cid) s1 in
    var_set var v (ci_put (t, cid) (mkCI (var_get var s1) (ci_nres ci) (ci_npause ci)) s1)
  end.

Lemma enter_eff_VOs base t c s L :
  plain_ctx c = true -> VOs base s L -> ~ In (t, cid_of c) (map lkey L) -> VOs base (enter_eff t c s) (L ++ [(t, c)]).
Proof.
  intros Hp HV Hf. destruct c as [cid f|cid|cid var v]; try discriminate.
  - apply (VO_push _ _ _ _ _ _ _ _ HV Hf).
    + intros x. reflexivity.
    + intros k _. reflexivity.
    + intros cid' var v E. discriminate.
  - exact (resume1_VOs base t (COverride cid var v) s L eq_refl HV Hf).
Qed.

Lemma pause_plain_VOs base t c s L :
  plain_ctx c = true -> VOs base s (L ++ [(t, c)]) -> VOs base (pause_plain t c s) L.
Proof.
  intros Hp HV. destruct c as [cid f|cid|cid var v]; try discriminate.
  - apply (VO_ext base (fun x => var_get x s) (fun k => ci_old (ci_get k s))).
    + apply (VO_pop _ _ _ _ _ _ _ HV). intros x. reflexivity.
    + intros x. reflexivity.
    + intros k _. reflexivity.
  - exact (pause1_VOs base t (COverride cid var v) s L eq_refl HV).
Qed.

(* a sweep in which no context raises is the fold of the state components *)
Lemma sweep_fst (step1 : ctxk -> st -> st * option exn) (merge : option exn -> option exn -> option exn) l :
  (forall c, In c l -> forall s, snd (step1 c s) = None) -> merge None None = None -> forall s0,
  fold_left (fun acc c => let '(s, err) := acc in let '(s', e) := step1 c s in (s', merge err e)) l (s0, None) =
  (fold_left (fun s c => fst (step1 c s)) l s0, None).
Proof.
  intros Hn Hm. induction l as [|c l IH]; intros s0; cbn [fold_left]; [reflexivity|].
  pose proof (Hn c (or_introl eq_refl) s0) as E. destruct (step1 c s0) as [s1 e]. cbn [fst snd] in *. subst e. rewrite Hm.
  apply IH. intros c' H. apply Hn. right. exact H.
Qed.

Lemma resume_contexts_eq x s out tk :
  get x s = Some (mkFut out (KTask tk)) -> forallb plain_ctx (tk_ctxs tk) = true -> tk_cact tk = false ->
  resume_contexts x s =
  fold_left (fun s c => fst (resume1 x c s)) (tk_ctxs tk) (set_task x (tk_with_ctxs tk (tk_ctxs tk) true) s).
Proof.
  intros Hg Hp Hc. unfold resume_contexts, get_task. rewrite Hg, Hc.
  rewrite (sweep_fst (resume1 x) (fun err e => match err with Some _ => err | None => e end) (tk_ctxs tk)
             (fun c H s0 => proj1 (plain_noraise _ Hp c H x s0)) eq_refl). reflexivity.
Qed.

Lemma pause_contexts_eq x s out tk :
  get x s = Some (mkFut out (KTask tk)) -> forallb plain_ctx (tk_ctxs tk) = true -> tk_cact tk = true ->
  pause_contexts x s =
  fold_left (fun s c => fst (pause1 x c s)) (rev (tk_ctxs tk)) (set_task x (tk_with_ctxs tk (tk_ctxs tk) false) s).
Proof.
  intros Hg Hp Hc. unfold pause_contexts, get_task. rewrite Hg, Hc. cbn [negb].
  rewrite (sweep_fst (pause1 x) (fun err e => match e with Some _ => e | None => err end) (rev (tk_ctxs tk))
             (fun c H s0 => proj2 (plain_noraise _ Hp c (proj2 (in_rev _ c) H) x s0)) eq_refl). reflexivity.
Qed.

Lemma fold_resume_VOs base t : forall cs s L,
  forallb plain_ctx cs = true -> VOs base s L -> NoDup (map cid_of cs) ->
  (forall c, In c cs -> ~ In (t, cid_of c) (map lkey L)) ->
  VOs base (fold_left (fun s c => fst (resume1 t c s)) cs s) (L ++ map (pair t) cs).
Proof.
  induction cs as [|c cs IH]; intros s L Hp HV Hn Hf; cbn [fold_left map]; [rewrite app_nil_r; exact HV|].
  cbn [forallb] in Hp. apply andb_true_iff in Hp as [Hc Hl]. cbn [map] in Hn. inversion Hn as [|a l Hnin Hn']; subst.
  assert (E : L ++ (t, c) :: map (pair t) cs = (L ++ [(t, c)]) ++ map (pair t) cs) by (rewrite <- app_assoc; reflexivity).
  rewrite E. apply IH; [exact Hl| |exact Hn'|].
  - apply resume1_VOs; [exact Hc|exact HV|apply Hf; left; reflexivity].
  - intros c' Hc'. rewrite map_app. intros Hin. apply in_app_or in Hin as [Hin|Hin].
    + apply (Hf c' (or_intror Hc') Hin).
    + cbn in Hin. destruct Hin as [Hin|[]]. inversion Hin as [Hcid]. apply Hnin. rewrite Hcid. apply in_map. exact Hc'.
Qed.

Lemma fold_pause_VOs base t : forall cs s L,
  forallb plain_ctx cs = true -> VOs base s (L ++ map (pair t) cs) ->
  VOs base (fold_left (fun s c => fst (pause1 t c s)) (rev cs) s) L.
Proof.
  induction cs as [|c cs IH] using rev_ind; intros s L Hp HV; [cbn in *; rewrite app_nil_r in HV; exact HV|].
  rewrite rev_app_distr. cbn [rev app fold_left].
  rewrite forallb_app in Hp. apply andb_true_iff in Hp as [Hl Hc]. cbn in Hc. rewrite andb_true_r in Hc.
  apply IH; [exact Hl|]. apply pause1_VOs; [exact Hc|]. rewrite map_app, app_assoc in HV. exact HV.
Qed.

Lemma task_layers_get s s' t : get t s' = get t s -> task_layers s' t = task_layers s t.
Proof. unfold task_layers. intros ->. reflexivity. Qed.

Lemma lower_ext s s' ts : (forall h, In h ts -> task_layers s' h = task_layers s h) -> lower s' ts = lower s ts.
Proof.
  intros H. unfold lower.
  assert (H' : forall h, In h (rev ts) -> task_layers s' h = task_layers s h) by (intros h Hh; apply H, in_rev, Hh).
  induction (rev ts) as [|a l IH]; cbn [flat_map]; [reflexivity|].
  rewrite (H' a (or_introl eq_refl)), IH; [reflexivity|]. intros h Hh. apply H'. right. exact Hh.
Qed.

Lemma layers_cons s x ts : tasks s = x :: ts -> layers s = lower s ts ++ task_layers s x.
Proof. unfold layers, lower. intros ->. cbn [rev]. rewrite flat_map_app. cbn [flat_map]. rewrite app_nil_r. reflexivity. Qed.

Lemma layers_lower s : layers s = lower s (tasks s). Proof. reflexivity. Qed.

Lemma layers_view s s' : heap s' = heap s -> tasks s' = tasks s -> layers s' = layers s.
Proof.
  intros Hh Ht. rewrite !layers_lower, Ht. apply lower_ext. intros h _. apply task_layers_get. unfold get. rewrite Hh. reflexivity.
Qed.

Lemma task_layers_all_nil s l : (forall d, In d l -> task_layers s d = []) -> flat_map (task_layers s) l = [].
Proof.
  induction l as [|a l IH]; intros H; cbn [flat_map]; [reflexivity|].
  rewrite (H a (or_introl eq_refl)), IH; [reflexivity|]. intros d Hd. apply H. right. exact Hd.
Qed.

Lemma lower_in s ts u c : In (u, c) (lower s ts) ->
  In u ts /\ exists tk, get u s = Some (mkFut None (KTask tk)) /\ tk_cact tk = true /\ In c (tk_ctxs tk).
Proof.
  unfold lower. intros H. apply in_flat_map in H as (w & Hw & Hl). apply in_rev in Hw.
  unfold task_layers in Hl. destruct (get w s) as [[[o|] [tk|k1 k2 k3 k4|o'|]]|] eqn:Hg; try (now destruct Hl).
  destruct (tk_cact tk) eqn:Hc; [|now destruct Hl]. apply in_map_iff in Hl as (c' & E & Hc'). inversion E; subst.
  split; [exact Hw|]. exists tk. auto.
Qed.

Lemma lower_keys s ts k : In k (map lkey (lower s ts)) -> In (fst k) ts.
Proof.
  intros H. apply in_map_iff in H as ([u c] & <- & Hl). apply lower_in in Hl as [Hu _]. exact Hu.
Qed.

Lemma task_layers_inactive s d : (forall tk, get d s = Some (mkFut None (KTask tk)) -> tk_cact tk = false) -> task_layers s d = [].
Proof.
  intros H. unfold task_layers. destruct (get d s) as [[[o|] [tk|k1 k2 k3 k4|o'|]]|]; try reflexivity.
  rewrite (H tk eq_refl). reflexivity.
Qed.

Lemma task_layers_active s t tk : get t s = Some (mkFut None (KTask tk)) -> tk_cact tk = true ->
  task_layers s t = map (pair t) (tk_ctxs tk).
Proof. intros Hg Hc. unfold task_layers. rewrite Hg, Hc. reflexivity. Qed.

Lemma lower_intro s ts u c tk :
  In u ts -> get u s = Some (mkFut None (KTask tk)) -> tk_cact tk = true -> In c (tk_ctxs tk) -> In (u, c) (lower s ts).
Proof.
  intros Hu Hg Hc Hin. unfold lower. apply in_flat_map. exists u. split; [apply in_rev in Hu; exact Hu|].
  rewrite (task_layers_active s u tk Hg Hc). apply in_map. exact Hin.
Qed.

(* replacing the entry of x by a task entry with the same contexts and flag *)
Lemma task_layers_same s s' t out tk tk' :
  get t s = Some (mkFut out (KTask tk)) -> get t s' = Some (mkFut out (KTask tk')) ->
  tk_ctxs tk' = tk_ctxs tk -> tk_cact tk' = tk_cact tk -> task_layers s' t = task_layers s t.
Proof. intros Hg Hg' E1 E2. unfold task_layers. rewrite Hg, Hg', E1, E2. reflexivity. Qed.

(* one entry changes without changing its layers (entries that are not on the stack may change or appear) *)
Lemma layers_entry s s' x : tasks s' = tasks s -> (forall h, h <> x -> In h (tasks s) -> get h s' = get h s) ->
  task_layers s' x = task_layers s x -> layers s' = layers s.
Proof.
  intros Ht Ho Hx. rewrite !layers_lower, Ht. apply lower_ext. intros h Hh.
  destruct (fid_eqb_spec h x) as [->|N]; [exact Hx|].
  apply task_layers_get, Ho; [exact N|exact Hh].
Qed.

Lemma layers_tupd s s' x o tk : tupd s s' x o tk -> task_layers s' x = task_layers s x -> layers s' = layers s.
Proof. intros U. apply (layers_entry s s' x (tupd_tasks _ _ _ _ _ U)). intros h N _. apply (tupd_other _ _ _ _ _ U h N). Qed.

Lemma create_task_entry parent f s o tk :
  get (fst (create parent f s)) (snd (create parent f s)) = Some (mkFut o (KTask tk)) ->
  exists q, f = FTask q /\ o = None /\ tk = fresh_task q.
Proof.
  unfold create, alloc. destruct f; cbn [fst snd]; try change (get ?h (put_batch ?k ?b ?z)) with (get h z);
    rewrite get_put_same; intros H; inversion H. eauto.
Qed.

(* no task body is running and the computation has not ended *)
Definition plainmode (m : mode) : Prop :=
  match m with MRun _ _ | MDone _ | MUnwind _ | MStuck => False | _ => True end.

Lemma layers_drop_sb s : layers (drop_sb s) = layers s.
Proof. destruct (drop_sb_cases s) as [E|E]; rewrite E; reflexivity. Qed.
Lemma vc_drop_sb s : vc (drop_sb s) = vc s.
Proof. destruct (drop_sb_cases s) as [E|E]; rewrite E; reflexivity. Qed.

Lemma vars_ok_same base s s' : vc s' = vc s -> layers s' = layers s -> vars_ok base s -> vars_ok base s'.
Proof. intros Hv Hl H. unfold vars_ok. rewrite Hl. apply (VOs_vc base s s' _ Hv H). Qed.

Lemma layers_push s l : (forall d, In d l -> task_layers s d = []) -> layers (with_tasks s (rev l ++ tasks s)) = layers s.
Proof.
  intros H. unfold layers. cbn [tasks with_tasks]. rewrite rev_app_distr, rev_involutive, flat_map_app.
  change (task_layers (with_tasks s (rev l ++ tasks s))) with (task_layers s).
  rewrite (task_layers_all_nil s l H), app_nil_r. reflexivity.
Qed.

Lemma enter_ctx_eff t c s out tk : get t s = Some (mkFut out (KTask tk)) ->
  enter_ctx t c s = enter_eff t c (set_task t (tk_with_ctxs tk (tk_ctxs tk ++ [c]) (tk_cact tk)) s).
Proof. intros Hg. unfold enter_ctx, get_task, enter_eff. rewrite Hg. reflexivity. Qed.

(* the entry of the top x of the stack changes: the layers below it stay *)
Lemma layers_top s s' x ts : ~ In x ts -> tasks s' = x :: ts -> (forall h, h <> x -> get h s' = get h s) ->
  layers s' = lower s ts ++ task_layers s' x.
Proof.
  intros Hnd Ht' Hoth. rewrite (layers_cons s' x ts Ht'). f_equal.
  apply lower_ext. intros h Hh. apply task_layers_get, Hoth. intros ->. contradiction.
Qed.

(* the top entry is popped (possibly after its own entry changed) and had no layer *)
Lemma layers_pop s s2 x ts : tasks s = x :: ts -> ~ In x ts -> tasks s2 = x :: ts ->
  (forall h, h <> x -> get h s2 = get h s) -> task_layers s x = [] -> layers (pop_task s2) = layers s.
Proof.
  intros Hts Hnd Ht2 Hoth Hx0. rewrite (layers_cons s x ts Hts), Hx0, app_nil_r, layers_lower.
  unfold pop_task. cbn [tasks with_tasks]. rewrite Ht2. cbn [tl]. change (lower (with_tasks s2 ts) ts) with (lower s2 ts).
  apply lower_ext. intros h Hh. apply task_layers_get, Hoth. intros ->. contradiction.
Qed.

(* an entry is replaced by one with the same contexts and flag *)
Lemma vars_ok_set_task base s x out tk tk' : get x s = Some (mkFut out (KTask tk)) ->
  tk_ctxs tk' = tk_ctxs tk -> tk_cact tk' = tk_cact tk -> vars_ok base s ->
  let sA := set_task x tk' s in
  tasks sA = tasks s /\ get x sA = Some (mkFut out (KTask tk')) /\ layers sA = layers s /\ vars_ok base sA.
Proof.
  intros Hg E1 E2 HV sA. pose proof (set_task_tupd x s out tk tk' Hg) as U. fold sA in U.
  assert (Hl : layers sA = layers s) by (apply (layers_tupd _ _ x out tk' U), (task_layers_same s _ x out tk tk' Hg (tupd_get _ _ _ _ _ U) E1 E2)).
  split; [exact (tupd_tasks _ _ _ _ _ U)|]. split; [exact (tupd_get _ _ _ _ _ U)|]. split; [exact Hl|].
  apply (vars_ok_same base s); [apply scoped_set_task|exact Hl|exact HV].
Qed.

Section TopTask.
  Variables (base : Z -> val) (s : st) (t : fid) (rest : list fid) (tk : task) (c : ctxk).
  Hypothesis Hts : tasks s = t :: rest.
  Hypothesis Hnt : ~ In t rest.
  Hypothesis Hg : get t s = Some (mkFut None (KTask tk)).
  Hypothesis Hcact : tk_cact tk = true.
  Hypothesis Hc : plain_ctx c = true.
  Hypothesis HV : vars_ok base s.

  Lemma top_layers : layers s = lower s rest ++ map (pair t) (tk_ctxs tk).
  Proof. rewrite (layers_cons s t rest Hts), (task_layers_active s t tk Hg Hcact). reflexivity. Qed.

  (* the open list of the running task is replaced by cs: its layers are replaced, the variables stay *)
  Lemma top_set_ctxs cs L : let sA := set_task t (tk_with_ctxs tk cs (tk_cact tk)) s in
    VOs base s L -> VOs base sA L /\ layers sA = lower s rest ++ map (pair t) cs.
  Proof.
    intros sA HL. split; [apply (VOs_vc base s); [apply scoped_set_task|exact HL]|].
    pose proof (set_task_tupd t s None tk (tk_with_ctxs tk cs (tk_cact tk)) Hg) as U. fold sA in U.
    rewrite (layers_top s sA t rest Hnt); [|rewrite (tupd_tasks _ _ _ _ _ U); exact Hts|exact (tupd_other _ _ _ _ _ U)].
    rewrite (task_layers_active sA t _ (tupd_get _ _ _ _ _ U) Hcact). reflexivity.
  Qed.

  (* the task whose code runs enters a with-block: one layer more *)
  Lemma enter_top : ~ In (cid_of c) (map cid_of (tk_ctxs tk)) ->
    vars_ok base (enter_ctx t c s) /\ layers (enter_ctx t c s) = layers s ++ [(t, c)].
  Proof.
    intros Hfc. rewrite (enter_ctx_eff t c s None tk Hg).
    destruct (top_set_ctxs (tk_ctxs tk ++ [c]) (layers s) HV) as [HVA HlA].
    set (sA := set_task _ _ s) in *.
    assert (HlA' : layers sA = layers s ++ [(t, c)]) by (rewrite HlA, top_layers, map_app, app_assoc; reflexivity).
    assert (Hfresh : ~ In (t, cid_of c) (map lkey (layers s))).
    { rewrite top_layers, map_app. intros Hin. apply in_app_or in Hin as [Hin|Hin]; [apply lower_keys in Hin; contradiction|].
      rewrite map_map in Hin. apply in_map_iff in Hin as (c' & E & Hc'). inversion E as [E']. apply Hfc. rewrite <- E'. apply in_map. exact Hc'. }
    assert (HlE : layers (enter_eff t c sA) = layers s ++ [(t, c)]) by (rewrite <- HlA'; apply layers_view; destruct c; reflexivity).
    split; [|exact HlE]. unfold vars_ok. rewrite HlE. exact (enter_eff_VOs base t c sA (layers s) Hc HVA Hfresh).
  Qed.

  (* ... and leaves its innermost with-block: that layer goes *)
  Lemma exit_top op : tk_ctxs tk = op ++ [c] -> NoDup (map cid_of (tk_ctxs tk)) ->
    vars_ok base (exit_ctx t c s) /\ layers s = layers (exit_ctx t c s) ++ [(t, c)].
  Proof.
    intros Eop Hnd. rewrite (exit_ctx_active t c s None tk Hg Hcact).
    replace (remove_ctx c (tk_ctxs tk)) with op by (rewrite Eop; symmetry; apply remove_ctx_last; rewrite <- Eop; exact Hnd).
    destruct (top_set_ctxs op (layers s) HV) as [HVA HlA]. set (sA := set_task _ _ s) in *.
    assert (Hls : layers s = layers sA ++ [(t, c)]) by (rewrite HlA, top_layers, Eop, map_app, app_assoc; reflexivity).
    assert (HlE : layers (pause_plain t c sA) = layers sA) by (apply layers_view; destruct c; reflexivity).
    split; [|rewrite HlE; exact Hls].
    unfold vars_ok. rewrite HlE. apply (pause_plain_VOs base t c sA (layers sA) Hc). exact (eq_ind _ (VOs base sA) HVA _ Hls).
  Qed.
End TopTask.

(* Two more facts about the depth-first pass: every stack entry except the bottom one was pushed as a
   dependency of the nearest "grey" task (dependencies scheduled) below it, and a task whose contexts are
   active and which is not on top of the stack is grey.  Hence every task that owns a layer below the
   running task t reaches t through the dependency lists of uncompleted tasks. *)
Definition grey (s : st) (w : fid) : Prop := exists tk, get w s = Some (mkFut None (KTask tk)) /\ tk_ds tk = true.

Definition par_ok (s : st) : Prop :=
  forall above y below, tasks s = above ++ y :: below -> below <> [] ->
    exists b1 w b2 tk, below = b1 ++ w :: b2 /\ get w s = Some (mkFut None (KTask tk)) /\ tk_ds tk = true /\
      In y (tk_deps tk) /\ (forall v, In v b1 -> ~ grey s v).

Definition ag_ok (s : st) : Prop :=
  forall above u below tk, tasks s = above ++ u :: below -> above <> [] ->
    get u s = Some (mkFut None (KTask tk)) -> tk_cact tk = true -> tk_ds tk = true.

Definition AWs (s : st) : Prop := par_ok s /\ ag_ok s.

Lemma in_tl_below {A} (l above : list A) y below h : l = above ++ y :: below -> In h below -> In h (tl l).
Proof. intros -> H. destruct above; cbn; [exact H|]. apply in_or_app. right. right. exact H. Qed.

Lemma in_tl_nontop {A} (l above : list A) u below : l = above ++ u :: below -> above <> [] -> In u (tl l).
Proof. intros -> H. destruct above; [contradiction|]. cbn. apply in_or_app. right. left. reflexivity. Qed.

Lemma aw_short s : (length (tasks s) <= 1)%nat -> AWs s.
Proof.
  intros Hl. split.
  - intros above y below E Hb. rewrite E, app_length in Hl. cbn in Hl. destruct below; [contradiction|cbn in Hl; lia].
  - intros above u below tk E Hab. rewrite E, app_length in Hl. cbn in Hl. destruct above; [contradiction|cbn in Hl; lia].
Qed.

(* a grey task reaches everything above it on the stack.  Induction on a bound n of the distance from y down to u: y was
   pushed by the nearest grey entry w below it, and w is u or lies above u (u is grey) *)
Lemma par_reach s : par_ok s -> forall n above u below tku, tasks s = above ++ u :: below ->
  get u s = Some (mkFut None (KTask tku)) -> tk_ds tku = true ->
  forall a1 y a2, above = a1 ++ y :: a2 -> (length a2 < n)%nat -> reach s u y.
Proof.
  intros Hp. induction n as [|n IH]; intros above u below tku E Hgu Hdu a1 y a2 Ea Hlen; [lia|]. subst above.
  assert (E2 : tasks s = a1 ++ y :: (a2 ++ u :: below)) by (rewrite E, <- app_assoc; reflexivity).
  destruct (Hp _ _ _ E2) as (b1 & w & b2 & tkw & Eb & Hw & Hdw & Hy & Hb1); [destruct a2; discriminate|].
  destruct (split_app _ _ _ _ _ Eb) as [(above' & -> & Hold)|(p1 & p2 & Hp1 & -> & ->)].
  - destruct above' as [|a a']; cbn in Hold; injection Hold as E3 E4.
    + subst w. apply (reach_dep s u u tkw y); [apply reach_refl|exact Hw|exact Hy].
    + subst a. exfalso. apply (Hb1 u); [apply in_or_app; right; left; reflexivity|]. exists tku. auto.
  - apply (reach_dep s u w tkw y); [|exact Hw|exact Hy].
    apply (IH (a1 ++ y :: a2) u below tku E Hgu Hdu (a1 ++ y :: p1) w p2).
    + rewrite Hp1, <- app_assoc. reflexivity.
    + rewrite Hp1, app_length in Hlen. cbn in Hlen. lia.
Qed.

Lemma in_tl {A} (l : list A) x : In x (tl l) -> In x l.
Proof. destruct l; cbn; auto. Qed.

Definition c07_fin (o : outcome) : prog := match o with Ok v => Ret v | Err e => Raise e end.
Definition c07_child : prog :=
  Enter (COverride 1 0 (VInt 30))
    (Yield (YLeaf (LNew (FItem 0 1 (ASet (VInt 5)))))
       (fun o => Exit (COverride 1 0 (VInt 30)) (c07_fin o))).
Definition c07_sibling : prog :=
  Enter (CAsync 7 NoFault) (Enter (COverride 3 0 (VInt 40))
    (Exit (COverride 3 0 (VInt 40)) (Exit (CAsync 7 NoFault) (Ret (VInt 1))))).
Definition c07_demo : prog :=
  Enter (COverride 1 0 (VInt 10)) (Enter (COverride 2 0 (VInt 20))
    (Yield (YTuple [YLeaf (LNew (FTask c07_child)); YLeaf (LNew (FTask c07_sibling))])
       (fun o => Exit (COverride 2 0 (VInt 20)) (Exit (COverride 1 0 (VInt 10)) (c07_fin o))))).

Lemma c07_child_ok : tree c07_child /\ wn [] c07_child.
Proof.
  unfold c07_child. split.
  - apply tree_enter; [reflexivity|]. apply tree_yield; [intros l [<-|[]]; repeat constructor|].
    intros o. apply tree_exit; [reflexivity|]. destruct o; constructor.
  - apply wn_enter; [intros []|]. cbn [app]. apply wn_yield; [intros q [E|[]]; discriminate|].
    intros o. apply (wn_exit [] (COverride 1 0 (VInt 30))). destruct o; constructor.
Qed.

Lemma c07_sibling_ok : tree c07_sibling /\ wn [] c07_sibling.
Proof.
  unfold c07_sibling. split.
  - repeat (first [apply tree_enter; [reflexivity|] | apply tree_exit; [reflexivity|]]). constructor.
  - apply wn_enter; [intros []|]. cbn [app]. apply wn_enter; [cbn; intros [E|[]]; discriminate|]. cbn [app].
    apply (wn_exit [CAsync 7 NoFault] (COverride 3 0 (VInt 40))). apply (wn_exit [] (CAsync 7 NoFault)). constructor.
Qed.

Lemma c07_demo_ok : tree c07_demo /\ wn [] c07_demo.
Proof.
  unfold c07_demo. split.
  - apply tree_enter; [reflexivity|]. apply tree_enter; [reflexivity|]. apply tree_yield.
    + intros l Hl. cbn in Hl. destruct Hl as [<-|[<-|[]]]; constructor; constructor; [apply c07_child_ok|apply c07_sibling_ok].
    + intros o. apply tree_exit; [reflexivity|]. apply tree_exit; [reflexivity|]. destruct o; constructor.
  - apply wn_enter; [intros []|]. cbn [app]. apply wn_enter; [cbn; intros [E|[]]; discriminate|]. cbn [app]. apply wn_yield.
    + intros q Hq. cbn in Hq. destruct Hq as [E|[E|[]]]; inversion E; subst; [apply c07_child_ok|apply c07_sibling_ok].
    + intros o. apply (wn_exit [COverride 1 0 (VInt 10)] (COverride 2 0 (VInt 20))).
      apply (wn_exit [] (COverride 1 0 (VInt 10))). destruct o; constructor.
Qed.

Lemma c07_demo_runs :
  let P := mkP [] 1000 false [] in
  let h := fst (create [] (FTask c07_demo) (st0 P)) in
  let s1 := snd (create [] (FTask c07_demo) (st0 P)) in
  let st_at k := c_st (run P k (start h s1)) in
  let keys k := map lkey (layers (st_at k)) in
  tree c07_demo /\ wn [] c07_demo /\ no_unwind_b P 100 (start h s1) = true /\
  c_mode (run P 100 (start h s1)) = MDone (Ok (VTuple [VInt 5; VInt 1])) /\
  (* the child runs *)
  (exists q, c_mode (run P 12 (start h s1)) = MRun [1] q) /\
  keys 12%nat = [([0], 1); ([0], 2); ([1], 1)] /\ var_get 0 (st_at 12%nat) = VInt 30 /\
  (* the sibling runs while the child is blocked on its batch item *)
  (exists q, c_mode (run P 21 (start h s1)) = MRun [2] q) /\
  keys 21%nat = [([0], 1); ([0], 2); ([2], 7); ([2], 3)] /\ var_get 0 (st_at 21%nat) = VInt 40 /\
  computed [1] (st_at 21%nat) = false /\
  (* a flush point with open with-blocks in suspended tasks *)
  c_mode (run P 28 (start h s1)) = MAfterExec /\ computed h (st_at 28%nat) = false /\
  var_get 0 (st_at 28%nat) = var_get 0 s1 /\
  var_get 0 (st_at 100%nat) = var_get 0 s1.
Proof.
  split; [apply c07_demo_ok|]. split; [apply c07_demo_ok|]. cbv zeta. rewrite no_unwind_b_traj. vm_compute.
  repeat match goal with |- _ /\ _ => split end; try reflexivity; eexists; reflexivity.
Qed.
