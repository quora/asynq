(* The theorems [..._guard] of props/C01.v .. C07.v are the theorems of the same name without the suffix with the
   hypothesis [no_unwind P n c0] ("no exception unwinds through asynq's frames in the first n steps") exchanged for
   a condition that can be checked on the run, "the MAX_TASK_STACK_SIZE guard has not fired so far",

       forall k, k < n -> guard_fires P (run P k c0) = false

   ([guard_fires]: the boolean test at the head of the _execute loop, MachineNoUnwind.v).  For a run started by a
   fresh task of a tree or stree program on the empty scheduler state under a pointwise service this gives
   [no_unwind P n c0] (MachineNoUnwind.tree_no_unwind_iff_guard_silent, stree_no_unwind_iff_guard_silent):
   FutureIsAlreadyComputed, the only other exception that asynq raises through its own frames, is unreachable.
   Here is what the other two readings need: [..._unless_guard], "the conclusion holds, or the guard fired at an
   earlier step", rests on the search for a firing step being decidable; the liveness fragments speak about all n
   and ask that the guard never fires.
   Not restated in the [_guard] form: the refutations ([..._is_false]) and the theorems on a state left behind by
   earlier computations ([..._after_history]; stree_no_unwind_iff_guard_silent speaks about the empty state st0 P). *)
From Asynq Require Import Machine proofs.MachineC08 proofs.MachineC01 proofs.MachineNoUnwind.

Lemma guard_silent_or_fired P n c :
  (forall k, (k < n)%nat -> guard_fires P (run P k c) = false) \/
  (exists k, (k < n)%nat /\ guard_fires P (run P k c) = true).
Proof.
  destruct (bounded_search (fun k => guard_fires P (run P k c)) n) as [H|H]; [right|left]; exact H.
Qed.

Lemma tree_never_unwinds_if_guard_never_fires P (HP : pointwise P) p (Ht : tree p) :
  let h := fst (create [] (FTask p) (st0 P)) in
  let s1 := snd (create [] (FTask p) (st0 P)) in
  (forall n, guard_fires P (run P n (start h s1)) = false) -> forall n, no_unwind P n (start h s1).
Proof.
  intros h s1 Hg n. apply (tree_no_unwind_iff_guard_silent P HP p Ht n). intros k _. apply Hg.
Qed.
