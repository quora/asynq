(* Proofs about BatchFut.v: a batch and its items as futures, with callbacks that complete OTHER
   futures of the case from inside a notification (C10). *)
From Asynq Require Import Base Futures BatchFut proofs.FuturesProofs.

(* the callback records of future [t] *)
Definition plog (t : nat) (l : list blogrec) : list blogrec :=
  filter (fun r => Z.eqb (fst (fst r)) (Z.of_nat t)) l.

(* the records produced by notifying the subscribers [l] of future [t] with outcome [oc] *)
Definition tnotes (t : nat) (l : list sub) (oc : outcome) : list blogrec :=
  map (fun sb => (Z.of_nat t, fst sb, oc)) l.

Definition allcomp (s : bstate) : Prop :=
  forall i, (i < length (bitems s))%nat -> item_out s i <> None.

(* once the batch is computed every item is *)
Definition all_items_computed (s : bstate) : Prop := bout s = None \/ allcomp s.

(* what an observer of ONE future [u] can tell between two states *)
Definition same_fut (s s' : bstate) (u : nat) : Prop :=
  fout s' u = fout s u /\ plog u (blog s') = plog u (blog s) /\ fsubs s' u = fsubs s u.

(* C10 for future [u] between [s] and [s']: a computed future keeps its outcome, is not notified
   again and keeps its subscription list; an uncomputed one is either untouched, or was completed
   ONCE: it holds an outcome [oc] and exactly the subscribers it had in [s] were called, each once,
   in order, each seeing [oc] *)
Definition ext_at (s s' : bstate) (u : nat) : Prop :=
  match fout s u with
  | Some _ => same_fut s s' u
  | None => same_fut s s' u \/
            exists oc, fout s' u = Some oc /\ plog u (blog s') = plog u (blog s) ++ tnotes u (fsubs s u) oc
  end.

Definition frame (s s' : bstate) : Prop :=
  length (bitems s') = length (bitems s) /\ bruns s' = bruns s.

Definition ext (s s' : bstate) : Prop := frame s s' /\ forall u, ext_at s s' u.

(* the same while future [t] (computed) is being notified: its own log and list are its business *)
Definition ext_but (t : nat) (s s' : bstate) : Prop :=
  frame s s' /\ fout s' t = fout s t /\ forall u, u <> t -> ext_at s s' u.

Lemma frame_refl s : frame s s.
Proof. split; reflexivity. Qed.
Lemma frame_trans a b c : frame a b -> frame b c -> frame a c.
Proof. intros (A & B) (C & D). split; congruence. Qed.
#[global] Hint Resolve frame_refl : core.

Lemma same_fut_refl s u : same_fut s s u.
Proof. repeat split. Qed.

Lemma same_fut_trans a b c u : same_fut a b u -> same_fut b c u -> same_fut a c u.
Proof. intros (A1 & A2 & A3) (B1 & B2 & B3). repeat split; congruence. Qed.

Lemma ext_at_refl s u : ext_at s s u.
Proof. unfold ext_at. destruct (fout s u); [|left]; apply same_fut_refl. Qed.

Lemma ext_at_trans a b c u : ext_at a b u -> ext_at b c u -> ext_at a c u.
Proof.
  unfold ext_at. intros H1 H2. destruct (fout a u) eqn:Ea.
  - destruct H1 as (A1 & A2 & A3). rewrite A1, Ea in H2. eapply same_fut_trans; [|exact H2].
    repeat split; auto; congruence.
  - destruct H1 as [(A1 & A2 & A3) | (oc & A1 & A2)].
    + rewrite A1, Ea in H2. destruct H2 as [S2 | (oc & B1 & B2)].
      * left. eapply same_fut_trans; [|exact S2]. repeat split; auto; congruence.
      * right. exists oc. split; auto. rewrite B2, A2, A3. reflexivity.
    + rewrite A1 in H2. destruct H2 as (B1 & B2 & B3). right. exists oc. split; [congruence|].
      rewrite B2, A2. reflexivity.
Qed.

Lemma ext_refl s : ext s s.
Proof. split; auto. intros u. apply ext_at_refl. Qed.

Lemma ext_len s s' : ext s s' -> length (bitems s') = length (bitems s).
Proof. intros ((L & _) & _). exact L. Qed.

Lemma ext_trans a b c : ext a b -> ext b c -> ext a c.
Proof.
  intros (L1 & H1) (L2 & H2). split; [eapply frame_trans; eauto|]. intros u. eapply ext_at_trans; eauto.
Qed.

Lemma ext_but_refl t s : ext_but t s s.
Proof. split; auto. split; auto. intros u _. apply ext_at_refl. Qed.

Lemma ext_but_trans t a b c : ext_but t a b -> ext_but t b c -> ext_but t a c.
Proof.
  intros (L1 & F1 & H1) (L2 & F2 & H2). split; [eapply frame_trans; eauto|]. split; [congruence|].
  intros u N. eapply ext_at_trans; eauto.
Qed.

(* a computed future is left alone *)
Lemma ext_same s s' u oc : ext s s' -> fout s u = Some oc -> same_fut s s' u.
Proof. intros (_ & H) F. specialize (H u). unfold ext_at in H. now rewrite F in H. Qed.

Lemma ext_ext_but t s s' oc : fout s t = Some oc -> ext s s' -> ext_but t s s'.
Proof. intros F E. split; [apply E|]. split; [apply (ext_same s s' t oc E F) | intros u _; apply E]. Qed.

Lemma ext_computed s s' u oc : ext s s' -> fout s u = Some oc -> fout s' u = Some oc.
Proof. intros E F. destruct (ext_same s s' u oc E F) as (H & _). congruence. Qed.

Lemma ext_allcomp s s' : ext s s' -> allcomp s -> allcomp s'.
Proof.
  intros E A i Hi. rewrite (ext_len _ _ E) in Hi. specialize (A i Hi).
  destruct (item_out s i) as [oc|] eqn:F; [|congruence].
  pose proof (ext_computed s s' (S i) oc E F) as X. cbn in X. congruence.
Qed.

Lemma plog_app t a b : plog t (a ++ b) = plog t a ++ plog t b.
Proof. apply filter_app. Qed.

Lemma plog_one_same t id o : plog t [(Z.of_nat t, id, o)] = [(Z.of_nat t, id, o)].
Proof. unfold plog. cbn. now rewrite Z.eqb_refl. Qed.

Lemma plog_one_other t u id o : u <> t -> plog u [(Z.of_nat t, id, o)] = [].
Proof.
  intros N. unfold plog. cbn. destruct (Z.eqb (Z.of_nat t) (Z.of_nat u)) eqn:E; auto.
  apply Z.eqb_eq, Nat2Z.inj in E. congruence.
Qed.

Lemma nth_upd_same i f : forall l x, nth_error l i = Some x -> nth_error (upd_nth i f l) i = Some (f x).
Proof. induction i; intros [|y r] x H; cbn in *; try discriminate; [now inversion H|auto]. Qed.

Lemma nth_upd_none i f : forall l, nth_error l i = None -> upd_nth i f l = l.
Proof. induction i; intros [|y r] H; cbn in *; try discriminate; auto. now rewrite IHi. Qed.

Lemma nth_upd_other i j f : i <> j -> forall l, nth_error (upd_nth i f l) j = nth_error l j.
Proof.
  revert j. induction i; intros [|j] N [|y r]; cbn; auto; try congruence; try (apply IHi; congruence).
Qed.

Lemma length_upd i f : forall l, length (upd_nth i f l) = length l.
Proof. induction i; intros [|y r]; cbn; auto. Qed.

Lemma nth_error_lt {A} (l : list A) i : (i < length l)%nat -> exists x, nth_error l i = Some x.
Proof. intros H. destruct (nth_error l i) eqn:E; eauto. apply nth_error_None in E. lia. Qed.

(* the primitive state changes, seen from each future *)
Lemma add_log_same s t u id o : u <> t -> same_fut s (add_log s (Z.of_nat t, id, o)) u.
Proof.
  intros N. repeat split; try (destruct u; reflexivity).
  unfold add_log; cbn [blog]. rewrite plog_app, plog_one_other, app_nil_r; auto.
Qed.

Lemma add_log_self s t id o :
  fout (add_log s (Z.of_nat t, id, o)) t = fout s t /\
  plog t (blog (add_log s (Z.of_nat t, id, o))) = plog t (blog s) ++ [(Z.of_nat t, id, o)] /\
  fsubs (add_log s (Z.of_nat t, id, o)) t = fsubs s t /\
  length (bitems (add_log s (Z.of_nat t, id, o))) = length (bitems s).
Proof. repeat split; try (destruct t; reflexivity). unfold add_log; cbn [blog]. now rewrite plog_app, plog_one_same. Qed.

(* rewriting item number i+1 is invisible to every other future *)
Lemma upd_item_other s i g u : u <> S i -> same_fut s (with_items s (upd_nth i g (bitems s))) u.
Proof.
  intros N. destruct u as [|j]; [repeat split|]. assert (i <> j) by congruence.
  repeat split; cbn; unfold item_out; cbn; now rewrite nth_upd_other.
Qed.

Lemma upd_item_frame s i g : frame s (with_items s (upd_nth i g (bitems s))).
Proof. split; cbn; auto. apply length_upd. Qed.

Lemma set_fsubs_other s t l u : u <> t -> same_fut s (set_fsubs s t l) u.
Proof. intros N. destruct t; [|now apply upd_item_other]. destruct u; [congruence|repeat split]. Qed.

Lemma set_fsubs_self s t l :
  fout (set_fsubs s t l) t = fout s t /\ blog (set_fsubs s t l) = blog s /\
  length (bitems (set_fsubs s t l)) = length (bitems s).
Proof.
  destruct t as [|i]; [repeat split|]. repeat split; [|apply length_upd].
  cbn. unfold item_out. cbn. destruct (nth_error (bitems s) i) eqn:E.
  - now rewrite (nth_upd_same _ _ _ _ E).
  - now rewrite nth_upd_none, E.
Qed.

Lemma store_other s t o u : u <> t -> same_fut s (store s t o) u.
Proof. intros N. destruct t; [|now apply upd_item_other]. destruct u; [congruence|repeat split]. Qed.

Lemma store_self s t o : fexists s t = true ->
  fout (store s t o) t = Some o /\ blog (store s t o) = blog s /\ fsubs (store s t o) t = fsubs s t /\
  length (bitems (store s t o)) = length (bitems s).
Proof.
  intros X. destruct t as [|i]; [repeat split|]. cbn in X. apply Nat.ltb_lt in X.
  destruct (nth_error_lt _ _ X) as (it & E).
  repeat split; [| |apply length_upd]; cbn; unfold item_out; cbn; rewrite ?(nth_upd_same _ _ _ _ E), ?E; reflexivity.
Qed.

Lemma store_frame s t o : frame s (store s t o).
Proof. destruct t; [split; reflexivity | apply upd_item_frame]. Qed.

Lemma push_binner_same s r u : same_fut s (push_binner s r) u.
Proof. repeat split; destruct u; reflexivity. Qed.

Lemma same_ext_at s s' u : same_fut s s' u -> ext_at s s' u.
Proof. intros H. unfold ext_at. destruct (fout s u); auto. Qed.

(* [s'] extends [s] in the sense of C10 and keeps "batch computed => all items computed" *)
Definition mono (s s' : bstate) : Prop := ext s s' /\ (all_items_computed s -> all_items_computed s').

Lemma mono_refl s : mono s s.
Proof. split; [apply ext_refl|auto]. Qed.

Lemma mono_trans a b c : mono a b -> mono b c -> mono a c.
Proof. intros (E1 & I1) (E2 & I2). split; [eapply ext_trans; eauto|auto]. Qed.

Lemma push_binner_mono s r : mono s (push_binner s r).
Proof. split; [|auto]. split; [split; reflexivity|]. intros u. apply same_ext_at, push_binner_same. Qed.

(* one level of nesting.  [wb rec] ("well-behaved"): the function [rec] that callbacks use to set futures is [mono] at
   every argument (written out) *)
Definition wb (rec : bstate -> nat -> outcome -> bstate * res) : Prop :=
  forall s t o, ext s (fst (rec s t o)) /\ (all_items_computed s -> all_items_computed (fst (rec s t o))).

Lemma wb_no_rec : wb no_rec.
Proof. intros s t o. split; [apply ext_refl|auto]. Qed.

Lemma all_items_computed_by_same s s' :
  bout s' = bout s -> length (bitems s') = length (bitems s) -> (forall i, item_out s' i = item_out s i) ->
  all_items_computed s -> all_items_computed s'.
Proof.
  intros B L I [H|H]; [left; congruence|right]. intros i Hi. rewrite I. apply H. congruence.
Qed.

Lemma set_fsubs_frame s t l : frame s (set_fsubs s t l).
Proof. destruct t; [split; reflexivity | apply upd_item_frame]. Qed.

(* what happens while the (computed) future [t] is being notified: every other future as in [ext], [t]
   keeps its outcome, its callback records grow by [l], "batch computed => all items computed" is kept *)
Definition notifying (t : nat) (l : list blogrec) (s s' : bstate) : Prop :=
  ext_but t s s' /\ plog t (blog s') = plog t (blog s) ++ l /\
  (all_items_computed s -> all_items_computed s').

Lemma notifying_refl t s : notifying t [] s s.
Proof. split; [apply ext_but_refl|]. rewrite app_nil_r. auto. Qed.

Lemma notifying_trans t l1 l2 a b c : notifying t l1 a b -> notifying t l2 b c -> notifying t (l1 ++ l2) a c.
Proof.
  intros (E1 & P1 & I1) (E2 & P2 & I2). split; [eapply ext_but_trans; eauto|].
  split; [rewrite P2, P1, app_assoc; reflexivity | auto].
Qed.

Lemma notifying_fout t l s s' : notifying t l s s' -> fout s' t = fout s t.
Proof. intros ((_ & F & _) & _). exact F. Qed.

Lemma set_fsubs_notifying s t l : notifying t [] s (set_fsubs s t l).
Proof.
  destruct (set_fsubs_self s t l) as (A1 & A2 & A3). split; [|split].
  - split; [apply set_fsubs_frame|]. split; auto. intros u N. apply same_ext_at, set_fsubs_other; auto.
  - rewrite app_nil_r. congruence.
  - apply all_items_computed_by_same; auto. { destruct t; reflexivity. }
    intros i. destruct (Nat.eq_dec (S i) t) as [<-|N]; [exact A1|].
    destruct (set_fsubs_other s t l (S i) N) as (X & _). exact X.
Qed.

Lemma add_log_notifying s t id o : notifying t [(Z.of_nat t, id, o)] s (add_log s (Z.of_nat t, id, o)).
Proof.
  destruct (add_log_self s t id o) as (A1 & A2 & A3 & A4). split; [|split; [exact A2|]].
  - split; [split; auto|]. split; auto. intros u N. apply same_ext_at, add_log_same. exact N.
  - apply all_items_computed_by_same; auto.
Qed.

Section LevelProofs.
  Variable rec : bstate -> nat -> outcome -> bstate * res.
  Hypothesis W : wb rec.

  (* one callback of future t (computed, being notified) *)
  Lemma run_bcb_spec t k : forall s oc0, fout s t = Some oc0 -> notifying t [] s (fst (run_bcb rec t k s)).
  Proof.
    induction k as [|c|x|id k IH|a IHa b IHb|x o g]; intros s oc0 F; cbn.
    - apply notifying_refl.
    - apply notifying_refl.
    - destruct (remove_first x (fsubs s t)) as [l|]; cbn; [apply set_fsubs_notifying|apply notifying_refl].
    - apply set_fsubs_notifying.
    - specialize (IHa s oc0 F). destruct (run_bcb rec t a s) as [s1 r]. cbn in IHa.
      destruct r; cbn; [exact IHa|].
      apply (notifying_trans t [] [] s s1); [exact IHa|]. apply (IHb s1 oc0).
      rewrite (notifying_fout _ _ _ _ IHa). exact F.
    - destruct (fout s (Z.to_nat x)) eqn:Fx; cbn; [apply notifying_refl|].
      destruct (W s (Z.to_nat x) o) as (E & I). destruct (rec s (Z.to_nat x) o) as [s' r]. cbn in *.
      split; [eapply ext_ext_but; eauto|]. split; [|exact I].
      rewrite app_nil_r. apply (ext_same _ _ t oc0 E F).
  Qed.

  Lemma bnotify_spec t o snap : forall s oc0, fout s t = Some oc0 ->
    notifying t (tnotes t snap o) s (bnotify rec t o snap s).
  Proof.
    induction snap as [|sb rest IH]; intros s oc0 F; cbn [bnotify tnotes map]; [apply notifying_refl|].
    pose proof (add_log_notifying s t (fst sb) o) as N1.
    set (s1 := add_log s (Z.of_nat t, fst sb, o)) in *.
    assert (F1 : fout s1 t = Some oc0) by (rewrite (notifying_fout _ _ _ _ N1); exact F).
    pose proof (run_bcb_spec t (snd sb) s1 oc0 F1) as N2.
    set (s2 := fst (run_bcb rec t (snd sb) s1)) in *.
    assert (F2 : fout s2 t = Some oc0) by (rewrite (notifying_fout _ _ _ _ N2); exact F1).
    exact (notifying_trans _ _ _ _ _ _ N1 (notifying_trans _ [] _ _ _ _ N2 (IH s2 oc0 F2))).
  Qed.

  (* storing an outcome on an existing uncomputed future, then notifying it *)
  Lemma complete_spec s t o s2 :
    fout s t = None -> fexists s t = true ->
    ext (store s t o) s2 -> fout s2 t = Some o ->
    let s' := bnotify rec t o (fsubs s2 t) s2 in
    ext s s' /\ fout s' t = Some o.
  Proof.
    intros F X E12 F2. destruct (store_self s t o X) as (S1 & S2 & S3 & S4).
    destruct (bnotify_spec t o (fsubs s2 t) s2 o F2) as (E3 & P3 & _). cbn.
    assert (Ft : fout (bnotify rec t o (fsubs s2 t) s2) t = Some o)
      by (destruct E3 as (_ & X3 & _); congruence).
    split; auto. split.
    - destruct E3 as (L3 & _). destruct E12 as (L2 & _).
      eapply frame_trans; [apply store_frame|]. eapply frame_trans; eauto.
    - intros u. destruct (Nat.eq_dec u t) as [->|N].
      + unfold ext_at. rewrite F. right. exists o. split; auto.
        destruct (ext_same _ _ t o E12 S1) as (_ & H2 & H3). rewrite P3, H2, H3, S2, S3. reflexivity.
      + eapply ext_at_trans; [apply same_ext_at, store_other; exact N|].
        eapply ext_at_trans; [destruct E12 as (_ & H); apply H|].
        destruct E3 as (_ & _ & H). apply H. exact N.
  Qed.

  Lemma iset_spec s i o :
    let s' := fst (iset rec s i o) in
    ext s s' /\
    (all_items_computed s -> all_items_computed s') /\
    (item_out s i = None -> (i < length (bitems s))%nat -> item_out s' i = Some o /\ snd (iset rec s i o) = RUnit) /\
    (forall oc, item_out s i = Some oc -> iset rec s i o = (s, RRaise E_ALREADY)).
  Proof.
    unfold iset. destruct (item_out s i) as [oc|] eqn:F; cbn [fst snd].
    - split; [apply ext_refl|]. split; [auto|]. split; [discriminate|auto].
    - destruct (Nat.ltb i (length (bitems s))) eqn:X; cbn [fst snd].
      2: { apply Nat.ltb_ge in X. split; [apply ext_refl|]. split; [auto|]. split; [intros; lia|discriminate]. }
      assert (X' : fexists s (S i) = true) by exact X.
      destruct (store_self s (S i) o X') as (S1 & S2 & S3 & S4).
      destruct (complete_spec s (S i) o (store s (S i) o) F X' (ext_refl _) S1) as (E & Fo).
      split; [exact E|]. split; [|split; [auto|discriminate]].
      intros I.
      destruct (bnotify_spec (S i) o (fsubs (store s (S i) o) (S i)) (store s (S i) o) o S1) as (_ & _ & I3).
      apply I3. destruct I as [B|A]; [left; exact B|right].
      intros j Hj. rewrite S4 in Hj. destruct (Nat.eq_dec j i) as [->|N].
      + cbn [fout] in S1. congruence.
      + destruct (store_other s (S i) o (S j)) as (Y & _); [congruence|]. cbn [fout] in Y. rewrite Y. auto.
  Qed.

  (* `if not item.is_computed(): item.set_*(o)`, as the _cancel() override and the item loop do it *)
  Lemma set_if_uncomputed s i o :
    let s1 := match item_out s i with Some _ => s | None => fst (iset rec s i o) end in
    ext s s1 /\ ((i < length (bitems s))%nat -> item_out s1 i <> None).
  Proof.
    cbn zeta. destruct (item_out s i) eqn:F; [split; [apply ext_refl | congruence]|].
    destruct (iset_spec s i o) as (E & _ & X & _). split; [exact E|]. intros L. destruct (X F L) as (Y & _). congruence.
  Qed.

  Lemma cancel_sets_spec l : forall s, ext s (cancel_sets rec l s).
  Proof.
    induction l as [|[i o] r IH]; intros s; cbn; [apply ext_refl|].
    eapply ext_trans; [apply set_if_uncomputed | apply IH].
  Qed.

  (* the item loop: monotone, and every item of its range is computed afterwards *)
  Lemma fill_loop_spec e n : forall i s,
    (i + n <= length (bitems s))%nat ->
    let s' := fill_loop rec i n e s in
    ext s s' /\ forall j, (i <= j < i + n)%nat -> item_out s' j <> None.
  Proof.
    induction n as [|n IH]; intros i s H; cbn; [split; [apply ext_refl | intros j Hj; lia]|].
    destruct (set_if_uncomputed s i (Err e)) as (E1 & C1).
    set (s1 := match item_out s i with Some _ => s | None => fst (iset rec s i (Err e)) end) in *.
    destruct (IH (S i) s1) as (E2 & C2); [rewrite (ext_len _ _ E1); lia|]. split; [eapply ext_trans; eauto|].
    intros j Hj. destruct (Nat.eq_dec j i) as [->|N]; [|apply C2; lia].
    destruct (item_out s1 i) as [oc|] eqn:F; [|exfalso; apply C1; [lia | reflexivity]].
    pose proof (ext_computed _ _ (S i) oc E2 F) as X. cbn [fout] in X. congruence.
  Qed.

  (* set_value / set_error on the batch *)
  Lemma bset0_spec s o :
    let s' := fst (bset0 rec s o) in
    ext s s' /\ (all_items_computed s -> all_items_computed s') /\
    (bout s = None -> bout s' = Some o /\ allcomp s' /\ snd (bset0 rec s o) = RUnit) /\
    (forall oc, bout s = Some oc -> bset0 rec s o = (s, RRaise E_ALREADY)).
  Proof.
    unfold bset0. destruct (bout s) as [oc|] eqn:F; cbn [fst snd].
    - split; [apply ext_refl|]. split; [auto|]. split; [discriminate|auto].
    - set (s1 := store s 0 o).
      set (s2 := match o with Err _ => cancel_sets rec (bcancel s1) s1 | Ok _ => s1 end).
      set (s3 := fill_loop rec 0 (length (bitems s2)) (fill_error o) s2).
      assert (E12 : ext s1 s2) by (unfold s2; destruct o; [apply ext_refl|apply cancel_sets_spec]).
      destruct (fill_loop_spec (fill_error o) (length (bitems s2)) 0 s2) as (E23 & C3); [lia|].
      fold s3 in E23, C3.
      assert (E13 : ext s1 s3) by (eapply ext_trans; eauto).
      assert (F1 : fout s1 0 = Some o) by reflexivity.
      assert (F3 : fout s3 0 = Some o) by (eapply ext_computed; eauto).
      destruct (complete_spec s 0 o s3 F eq_refl E13 F3) as (E & Fo).
      assert (A3 : allcomp s3).
      { intros j Hj. apply C3. rewrite (ext_len _ _ E23) in Hj. lia. }
      assert (A : allcomp (bnotify rec 0 o (fsubs s3 0) s3)).
      { destruct (bnotify_spec 0 o (fsubs s3 0) s3 o F3) as (_ & _ & I).
        destruct (I (or_intror A3)) as [B|A]; auto. cbn [fout] in Fo. congruence. }
      split; [exact E|]. split; [intros _; right; exact A|]. split; [|discriminate].
      intros _. split; [exact Fo|]. split; [exact A|reflexivity].
  Qed.

  (* set_value / set_error on any future of the case, one level: C10 for every future; on an existing
     uncomputed future it stores exactly that outcome and returns; on a computed one it raises
     FutureIsAlreadyComputed, changes nothing, calls nobody *)
  Lemma bset_level_spec s t o :
    let r := bset_level rec s t o in
    mono s (fst r) /\
    (fout s t = None -> fexists s t = true -> fout (fst r) t = Some o /\ snd r = RUnit) /\
    (forall oc, fout s t = Some oc -> r = (s, RRaise E_ALREADY)).
  Proof.
    destruct t as [|i]; cbn [bset_level fout fexists].
    - destruct (bset0_spec s o) as (E & I & N & C). split; [split; assumption|]. split; [|exact C].
      intros F _. destruct (N F) as (A & _ & B). auto.
    - destruct (iset_spec s i o) as (E & I & N & C). split; [split; assumption|]. split; [|exact C].
      intros F X. apply Nat.ltb_lt in X. exact (N F X).
  Qed.

  Lemma bset_level_wb : wb (bset_level rec).
  Proof. intros s t o. apply bset_level_spec. Qed.

  (* the flush body *)
  Lemma body_item_spec i os : forall s, mono s (fst (body_item rec i os s)).
  Proof.
    induction os as [|o r IH]; intros s; cbn [body_item]; [apply mono_refl|].
    destruct (iset_spec s i o) as (E & I & _). destruct (iset rec s i o) as [s1 x]. cbn [fst snd] in *.
    assert (M1 : mono s (push_binner s1 x)) by (eapply mono_trans; [split; eassumption | apply push_binner_mono]).
    destruct x; cbn [fst]; auto; exact (mono_trans _ _ _ M1 (IH _)).
  Qed.

  Lemma flush_body_spec acts : forall i s, mono s (fst (flush_body rec i acts s)).
  Proof.
    induction acts as [|os r IH]; intros i s; cbn [flush_body]; [apply mono_refl|].
    pose proof (body_item_spec i os s) as M1. destruct (body_item rec i os s) as [s1 f]. cbn [fst] in *.
    destruct f; cbn [fst]; auto. eapply mono_trans; [exact M1 | apply IH].
  Qed.

  (* BatchBase._compute: afterwards the batch is computed and every item is; every future: C10 *)
  Lemma bcompute_spec s : all_items_computed s ->
    let s' := bcompute rec s in
    (forall u, ext_at s s' u) /\ bout s' <> None /\ allcomp s' /\ bruns s' = S (bruns s) /\
    length (bitems s') = length (bitems s).
  Proof.
    intros I. unfold bcompute.
    set (s0 := bmk (bitems s) (bfin s) (bcancel s) (bout s) (S (bruns s)) (bsubs s) (blog s) (binner s)).
    assert (E0 : forall u, ext_at s s0 u) by (intros u; apply same_ext_at; repeat split; destruct u; reflexivity).
    assert (I0 : all_items_computed s0) by exact I.
    destruct (flush_body_spec (map iact (bitems s0)) 0 s0) as (E1 & I1).
    destruct (flush_body rec 0 (map iact (bitems s0)) s0) as [s1 f] eqn:Fb. cbn [fst] in E1, I1.
    match goal with |- context [bset0 rec s1 ?o] => set (oo := o) end.
    destruct (bset0_spec s1 oo) as (E2 & I2 & N2 & C2).
    assert (E : ext s0 (fst (bset0 rec s1 oo))) by (eapply ext_trans; eauto).
    split; [intros u; eapply ext_at_trans; [apply E0|apply E]|].
    destruct E as ((L & R) & _). split; [|split; [|split; [exact R|exact L]]].
    - destruct (bout s1) eqn:B1.
      + rewrite (C2 _ eq_refl). cbn [fst]. congruence.
      + destruct (N2 eq_refl) as (X & _). congruence.
    - destruct (bout s1) eqn:B1.
      + rewrite (C2 _ eq_refl). cbn [fst]. destruct (I1 I0) as [X|X]; [congruence|exact X].
      + destruct (N2 eq_refl) as (_ & X & _). exact X.
  Qed.
End LevelProofs.

Lemma bset_at_wb d : wb (bset_at d).
Proof. induction d; cbn; apply bset_level_wb; [apply wb_no_rec|exact IHd]. Qed.

(* single assignment, for the batch and for every item, at every depth (also from inside callbacks):
   a set on a computed future raises FutureIsAlreadyComputed, changes nothing, calls nobody *)
Lemma bset_at_single d s t oc o : fout s t = Some oc -> bset_at (S d) s t o = (s, RRaise E_ALREADY).
Proof. intros F. exact (proj2 (proj2 (bset_level_spec (bset_at d) (bset_at_wb d) s t o)) oc F). Qed.

Definition is_subscribe (o : bop) : bool :=
  match o with BOn _ (OSubscribe _ _) => true | _ => false end.

Lemma bcompute_top_spec s : all_items_computed s ->
  let s' := bcompute_top s in
  (forall u, ext_at s s' u) /\ bout s' <> None /\ allcomp s' /\ bruns s' = S (bruns s) /\
  length (bitems s') = length (bitems s).
Proof. apply bcompute_spec, bset_at_wb. Qed.

(* one operation that is not a subscription: C10 for every future of the case; "batch computed =>
   all items computed"; _flush ran at most once more *)
Definition step_ok (s s' : bstate) : Prop :=
  all_items_computed s' /\ (forall u, ext_at s s' u) /\ (bruns s' <= S (bruns s))%nat.

Lemma bstep_spec s o : all_items_computed s -> is_subscribe o = false -> step_ok s (fst (bstep s o)).
Proof.
  intros I NS.
  assert (R : step_ok s s) by (split; [exact I|split; [intros u; apply ext_at_refl|lia]]).
  assert (CT : step_ok s (bcompute_top s)).
  { destruct (bcompute_top_spec s I) as (E & _ & A & Rn & _). split; [right; exact A|]. split; [exact E|]. lia. }
  assert (BS : forall t oc, step_ok s (fst (bset s t oc))).
  { intros t oc. unfold bset. destruct (bset_at_wb (S (depth_of s)) s t oc) as (((L & Rn) & E) & I2). split; [auto|]. split; [exact E|]. rewrite Rn. lia. }
  assert (BR : forall rep, step_ok s (fst (bread s rep))).
  { intros rep. unfold bread. destruct (bout s); cbn [fst]; auto. }
  assert (IR : forall i rep, step_ok s (fst (iread s i rep))).
  { intros i rep. unfold iread. destruct (item_out s i); cbn [fst]; auto. destruct (bout s); cbn [fst]; auto. }
  destruct o as [t x| |]; cbn [bstep].
  - destruct x; try discriminate NS; destruct t as [|i]; cbn [fst]; auto.
  - destruct (bout s); cbn [fst]; auto.
  - destruct (bout s); cbn [fst]; auto.
Qed.

(* a subscription only appends the new subscriber to that future's list *)
Lemma bstep_subscribe s t id k : all_items_computed s ->
  let s' := fst (bstep s (BOn t (OSubscribe id k))) in
  all_items_computed s' /\ (s' = s \/ s' = set_fsubs s t (fsubs s t ++ [(id, k)])).
Proof.
  intros I. destruct (set_fsubs_notifying s t (fsubs s t ++ [(id, k)])) as (_ & _ & X).
  destruct t; cbn [bstep]; match goal with |- context [fexists s ?t] => destruct (fexists s t) end; cbn [fst]; auto.
Qed.

Lemma bstep_inv s o : all_items_computed s -> all_items_computed (fst (bstep s o)).
Proof.
  intros I. destruct (is_subscribe o) eqn:S.
  - destruct o as [t [| | | | | | |id k]| |]; try discriminate S. apply bstep_subscribe, I.
  - apply bstep_spec; auto.
Qed.

(* every reachable state: batch computed => all items computed *)
Lemma brun_inv ops s : all_items_computed s -> all_items_computed (fst (brun s ops)).
Proof. exact (run_with_inv bstep all_items_computed bstep_inv ops s). Qed.

(* a computed batch (hence all items computed): no operation changes anything but subscription lists;
   setters raise FutureIsAlreadyComputed, flush raises BatchingError, cancel does nothing *)
Lemma bstep_all_computed s oc o : bout s = Some oc -> allcomp s -> is_subscribe o = false ->
  fst (bstep s o) = s.
Proof.
  intros B A NS.
  assert (F : forall t, fexists s t = true -> fout s t <> None).
  { intros [|i] X; cbn in *; [congruence|]. apply A, Nat.ltb_lt, X. }
  assert (BS : forall t o', fst (bset s t o') = s).
  { intros t o'. destruct (fout s t) eqn:E; [unfold bset; now rewrite (bset_at_single _ s t _ o' E)|].
    destruct (fexists s t) eqn:X; [now apply F in X|].
    destruct t as [|i]; [discriminate X|]. unfold bset. cbn [bset_at bset_level]. unfold iset.
    cbn [fout] in E. rewrite E. cbn [fexists] in X. rewrite X. reflexivity. }
  destruct o as [t x| |]; cbn [bstep]; [|now rewrite B|now rewrite B].
  destruct x; try discriminate NS; destruct t as [|i]; cbn [fst]; auto; unfold bread, iread; rewrite ?B; auto;
    destruct (item_out s i); auto.
Qed.

(* state morphisms: relabelling that the model cannot see.
   [F] maps states, [K] maps behaviour scripts (G = K on every subscriber of a list); whatever [F]
   and [K] are, if they commute with the primitive state changes then they commute with every
   operation - used twice below: the Exception classes subscribers raise, the class the flush body
   raises *)
(* how the flush body's own end becomes the batch's outcome (BatchBase._compute): the value it returns is
   dropped, whatever it raises is the error.  Not TaskFut.outcome_of_pout: no PEP 479 step, no value *)
Definition fin_outcome (p : pout) : outcome :=
  match p with PRet _ => Ok VNone | PRaise _ e | PBase e => Err e | PDouble => Err E_ALREADY end.
Definition bstart (s : bstate) : bstate :=
  bmk (bitems s) (bfin s) (bcancel s) (bout s) (S (bruns s)) (bsubs s) (blog s) (binner s).

Definition Gm (K : cbkind -> cbkind) (l : list sub) : list sub := map (fun sb => (fst sb, K (snd sb))) l.
Section Relabel.
  Variable K : cbkind -> cbkind.
  Definition Kop (o : bop) : bop :=
    match o with BOn t (OSubscribe id k) => BOn t (OSubscribe id (K k)) | _ => o end.
End Relabel.

(* [K] keeps the shape of every script; [F] commutes with the primitive state changes *)
Record bmorph (F : bstate -> bstate) (K : cbkind -> cbkind) : Prop := {
  bm_ok : K CbOk = CbOk;
  bm_raise : forall c, exists c', K (CbRaise c) = CbRaise c';
  bm_unsub : forall x, K (CbUnsub x) = CbUnsub x;
  bm_sub : forall id k, K (CbSub id k) = CbSub id (K k);
  bm_seq : forall a b, K (CbSeq a b) = CbSeq (K a) (K b);
  bm_set : forall x o g, K (CbSet x o g) = CbSet x o g;
  bm_out : forall s t, fout (F s) t = fout s t;
  bm_subs : forall s t, fsubs (F s) t = Gm K (fsubs s t);
  bm_set_fsubs : forall s t l, F (set_fsubs s t l) = set_fsubs (F s) t (Gm K l);
  bm_store : forall s t o, F (store s t o) = store (F s) t o;
  bm_log : forall s r, F (add_log s r) = add_log (F s) r;
  bm_push : forall s r, F (push_binner s r) = push_binner (F s) r;
  bm_len : forall s, length (bitems (F s)) = length (bitems s);
  bm_cancel : forall s, bcancel (F s) = bcancel s;
  bm_acts : forall s, map iact (bitems (F s)) = map iact (bitems s);
  bm_start : forall s, F (bstart s) = bstart (F s);
  bm_fin : forall s, fin_outcome (bfin (F s)) = fin_outcome (bfin s)
}.

Section Morphism.
  Variable F : bstate -> bstate.
  Variable K : cbkind -> cbkind.
  Hypothesis M : bmorph F K.

  Lemma F_iout s i : item_out (F s) i = item_out s i.
  Proof. exact ((bm_out _ _ M) s (S i)). Qed.
  Lemma F_bout s : bout (F s) = bout s.
  Proof. exact ((bm_out _ _ M) s 0). Qed.

  Lemma Gm_remove x l : remove_first x (Gm K l) = option_map (Gm K) (remove_first x l).
  Proof.
    induction l as [|[i k] r IH]; cbn; auto. destruct (Z.eqb i x); auto.
    unfold Gm in IH. rewrite IH. destruct (remove_first x r); auto.
  Qed.

  Definition commutes (rec : bstate -> nat -> outcome -> bstate * res) : Prop :=
    forall s t o, rec (F s) t o = (F (fst (rec s t o)), snd (rec s t o)).

  Section WithRec.
    Variable rec : bstate -> nat -> outcome -> bstate * res.
    Hypothesis C : commutes rec.

    Lemma run_bcb_F t k : forall s,
      run_bcb rec t (K k) (F s) = (F (fst (run_bcb rec t k s)), snd (run_bcb rec t k s)).
    Proof.
      induction k as [|c|x|id k IH|a IHa b IHb|x o g]; intros s.
      - rewrite (bm_ok _ _ M). reflexivity.
      - destruct ((bm_raise _ _ M) c) as (c' & ->). reflexivity.
      - rewrite (bm_unsub _ _ M). cbn [run_bcb]. rewrite (bm_subs _ _ M), Gm_remove.
        destruct (remove_first x (fsubs s t)); cbn; [now rewrite (bm_set_fsubs _ _ M)|reflexivity].
      - rewrite (bm_sub _ _ M). cbn [run_bcb fst snd]. rewrite (bm_subs _ _ M), (bm_set_fsubs _ _ M). unfold Gm. rewrite map_app. reflexivity.
      - rewrite (bm_seq _ _ M). cbn [run_bcb]. rewrite IHa. destruct (run_bcb rec t a s) as [s1 r]. cbn [fst snd].
        destruct r; auto.
      - rewrite (bm_set _ _ M). cbn [run_bcb]. rewrite (bm_out _ _ M). destruct (fout s (Z.to_nat x)); auto.
        rewrite C. destruct (rec s (Z.to_nat x) o) as [s' r]. reflexivity.
    Qed.

    Lemma bnotify_F t o snap : forall s, bnotify rec t o (Gm K snap) (F s) = F (bnotify rec t o snap s).
    Proof.
      induction snap as [|sb rest IH]; intros s; cbn [bnotify Gm map]; auto.
      cbn [fst snd]. rewrite <- (bm_log _ _ M), run_bcb_F. cbn [fst]. apply IH.
    Qed.

    Lemma iset_F s i o : iset rec (F s) i o = (F (fst (iset rec s i o)), snd (iset rec s i o)).
    Proof.
      unfold iset. rewrite F_iout, (bm_len _ _ M). destruct (item_out s i); auto.
      destruct (Nat.ltb i (length (bitems s))); auto. cbn [fst snd].
      rewrite <- (bm_store _ _ M), (bm_subs _ _ M), bnotify_F. reflexivity.
    Qed.

    Lemma cancel_sets_F l : forall s, cancel_sets rec l (F s) = F (cancel_sets rec l s).
    Proof.
      induction l as [|[i o] r IH]; intros s; cbn [cancel_sets]; auto.
      rewrite F_iout. destruct (item_out s i); [apply IH|]. rewrite iset_F. cbn [fst]. apply IH.
    Qed.

    Lemma fill_loop_F e n : forall i s, fill_loop rec i n e (F s) = F (fill_loop rec i n e s).
    Proof.
      induction n as [|n IH]; intros i s; cbn [fill_loop]; auto.
      rewrite F_iout. destruct (item_out s i); [apply IH|]. rewrite iset_F. cbn [fst]. apply IH.
    Qed.

    Lemma bset0_F s o : bset0 rec (F s) o = (F (fst (bset0 rec s o)), snd (bset0 rec s o)).
    Proof.
      unfold bset0. rewrite F_bout. destruct (bout s); auto. cbn [fst snd].
      rewrite <- (bm_store _ _ M).
      assert (E : match o with Err _ => cancel_sets rec (bcancel (F (store s 0 o))) (F (store s 0 o)) | Ok _ => F (store s 0 o) end
                  = F (match o with Err _ => cancel_sets rec (bcancel (store s 0 o)) (store s 0 o) | Ok _ => store s 0 o end)).
      { destruct o; auto. rewrite (bm_cancel _ _ M). apply cancel_sets_F. }
      rewrite E, (bm_len _ _ M), fill_loop_F.
      match goal with |- (bnotify rec 0 o (bsubs (F ?x)) _, _) = _ =>
        change (bsubs (F x)) with (fsubs (F x) 0); rewrite (bm_subs _ _ M) end.
      rewrite bnotify_F. reflexivity.
    Qed.

    Lemma bset_level_F : commutes (bset_level rec).
    Proof. intros s [|i] o; cbn [bset_level]; [apply bset0_F|apply iset_F]. Qed.

    Lemma body_item_F i os : forall s,
      body_item rec i os (F s) = (F (fst (body_item rec i os s)), snd (body_item rec i os s)).
    Proof.
      induction os as [|o r IH]; intros s; cbn [body_item]; auto.
      rewrite iset_F. destruct (iset rec s i o) as [s1 x]. cbn [fst snd].
      destruct x; rewrite <- ?(bm_push _ _ M); auto.
    Qed.

    Lemma flush_body_F acts : forall i s,
      flush_body rec i acts (F s) = (F (fst (flush_body rec i acts s)), snd (flush_body rec i acts s)).
    Proof.
      induction acts as [|os r IH]; intros i s; cbn [flush_body]; auto.
      rewrite body_item_F. destruct (body_item rec i os s) as [s1 f]. cbn [fst snd]. destruct f; auto.
    Qed.

    Lemma bcompute_F s : bcompute rec (F s) = F (bcompute rec s).
    Proof.
      unfold bcompute. fold (bstart (F s)) (bstart s) (fin_outcome (bfin (F s))) (fin_outcome (bfin s)).
      rewrite <- (bm_start _ _ M), (bm_acts _ _ M), flush_body_F, (bm_fin _ _ M).
      destruct (flush_body rec 0 (map iact (bitems (bstart s))) (bstart s)) as [s1 f]. cbn [fst snd].
      rewrite bset0_F. reflexivity.
    Qed.
  End WithRec.

  Lemma bset_at_F d : commutes (bset_at d).
  Proof. induction d; cbn [bset_at]; apply bset_level_F; [intros s t o; reflexivity|exact IHd]. Qed.

  Lemma depth_F s : depth_of (F s) = depth_of s.
  Proof. unfold depth_of. now rewrite (bm_len _ _ M). Qed.

  Lemma bset_F s t o : bset (F s) t o = (F (fst (bset s t o)), snd (bset s t o)).
  Proof. unfold bset. rewrite depth_F. apply bset_at_F. Qed.

  Lemma bcompute_top_F s : bcompute_top (F s) = F (bcompute_top s).
  Proof. unfold bcompute_top. rewrite depth_F. apply bcompute_F, bset_at_F. Qed.

  Lemma fexists_F s t : fexists (F s) t = fexists s t.
  Proof. destruct t; cbn; auto. now rewrite (bm_len _ _ M). Qed.

  Lemma bread_F s rep : bread (F s) rep = (F (fst (bread s rep)), snd (bread s rep)).
  Proof. unfold bread. rewrite F_bout. destruct (bout s); auto. now rewrite bcompute_top_F, F_bout. Qed.

  Lemma iread_F s i rep : iread (F s) i rep = (F (fst (iread s i rep)), snd (iread s i rep)).
  Proof.
    unfold iread. rewrite F_iout, F_bout. destruct (item_out s i); auto. destruct (bout s); auto.
    now rewrite bcompute_top_F, F_iout.
  Qed.

  Lemma bstep_F s o : bstep (F s) (Kop K o) = (F (fst (bstep s o)), snd (bstep s o)).
  Proof.
    destruct o as [t x| |]; cbn [Kop bstep].
    - destruct x, t; cbn [bstep]; auto using bread_F, iread_F, bset_F; rewrite ?(bm_out _ _ M), ?fexists_F; auto;
        destruct (fexists s _); auto; cbn [fst snd]; rewrite (bm_subs _ _ M), (bm_set_fsubs _ _ M); unfold Gm; now rewrite map_app.
    - rewrite F_bout. destruct (bout s); auto. now rewrite bcompute_top_F.
    - rewrite F_bout. destruct (bout s); auto. now rewrite bset_F.
  Qed.

  Lemma brun_F ops s : brun (F s) (map (Kop K) ops) = (F (fst (brun s ops)), snd (brun s ops)).
  Proof. exact (run_with_morph bstep F (Kop K) (fun _ => True) (fun _ _ _ => I) (fun s o _ => bstep_F s o) ops s I). Qed.
End Morphism.

Lemma map_upd_nth (g : item -> item) (h h' : item -> item) i :
  (forall x, g (h x) = h' (g x)) -> forall l, map g (upd_nth i h l) = upd_nth i h' (map g l).
Proof.
  intros H. induction i; intros [|x r]; cbn; auto; [now rewrite H|now rewrite IHi].
Qed.

(* the CLASS of the Exception a subscriber raises does not matter *)
Definition recls_item (f : xcls -> xcls) (it : item) : item :=
  imk (iout it) (map (recls_sub f) (isubs it)) (iact it).
Definition recls_bstate (f : xcls -> xcls) (s : bstate) : bstate :=
  bmk (map (recls_item f) (bitems s)) (bfin s) (bcancel s) (bout s) (bruns s)
      (map (recls_sub f) (bsubs s)) (blog s) (binner s).
Definition recls_bop (f : xcls -> xcls) (o : bop) : bop := Kop (recls f) o.
Definition recls_ispec (f : xcls -> xcls) (sp : ispec) : ispec := (map (recls_sub f) (fst sp), snd sp).

Lemma recls_bmorph f : bmorph (recls_bstate f) (recls f).
Proof.
  split; try reflexivity.
  - (* bm_raise *) intros c. eexists. reflexivity.
  - (* bm_out *) intros s0 [|i]; cbn; auto. unfold item_out. cbn. rewrite nth_error_map.
    destruct (nth_error (bitems s0) i); reflexivity.
  - (* bm_subs *) intros s0 [|i]; cbn; auto. rewrite nth_error_map. destruct (nth_error (bitems s0) i); reflexivity.
  - (* bm_set_fsubs *) intros s0 [|i] l; cbn; auto. unfold recls_bstate, with_items. cbn. f_equal. apply map_upd_nth. reflexivity.
  - (* bm_store *) intros s0 [|i] o; cbn; auto. unfold recls_bstate, with_items. cbn. f_equal. apply map_upd_nth. reflexivity.
  - (* bm_len *) intros s0. cbn. apply map_length.
  - (* bm_acts *) intros s0. cbn. rewrite map_map. reflexivity.
Qed.

Lemma batch_raise_class_irrelevant f its fin cs ops :
  run_batch (map (recls_ispec f) its) fin cs (map (recls_bop f) ops) = run_batch its fin cs ops.
Proof.
  unfold run_batch.
  assert (E : binit (map (recls_ispec f) its) fin cs = recls_bstate f (binit its fin cs)).
  { unfold binit, recls_bstate. cbn. rewrite !map_map. reflexivity. }
  rewrite E. unfold recls_bop. rewrite (brun_F _ _ (recls_bmorph f)). destruct (brun (binit its fin cs) ops) as [s rs]. cbn.
  rewrite !map_map. cbn. f_equal. apply map_ext. intros it. cbn. now rewrite map_map.
Qed.

(* the CLASS of the Exception the flush body raises does not matter *)
Definition bpstate (f : xcls -> xcls) (s : bstate) : bstate :=
  bmk (bitems s) (recls_pout f (bfin s)) (bcancel s) (bout s) (bruns s) (bsubs s) (blog s) (binner s).

Lemma Gm_id l : Gm (fun k => k) l = l.
Proof. unfold Gm. induction l as [|[i k] r IH]; cbn; auto. now rewrite IH. Qed.

Lemma Kop_id ops : map (Kop (fun k => k)) ops = ops.
Proof.
  induction ops as [|o r IH]; cbn; auto. rewrite IH. f_equal.
  destruct o as [t x| |]; auto. destruct x; reflexivity.
Qed.

Lemma bpstate_bmorph f : bmorph (bpstate f) (fun k => k).
Proof.
  split; try reflexivity.
  - (* bm_raise *) intros c. eexists. reflexivity.
  - (* bm_subs *) intros s0 t. rewrite Gm_id. destruct t; reflexivity.
  - (* bm_set_fsubs *) intros s0 t l. rewrite Gm_id. destruct t; reflexivity.
  - (* bm_store *) intros s0 t o. destruct t; reflexivity.
  - (* bm_fin *) intros s0. cbn. destruct (bfin s0); reflexivity.
Qed.

Lemma batch_provider_class_irrelevant f its fin cs ops :
  run_batch its (recls_pout f fin) cs ops = run_batch its fin cs ops.
Proof.
  unfold run_batch. change (binit its (recls_pout f fin) cs) with (bpstate f (binit its fin cs)).
  rewrite <- (Kop_id ops) at 1. rewrite (brun_F _ _ (bpstate_bmorph f)).
  destruct (brun (binit its fin cs) ops) as [s rs]. reflexivity.
Qed.

(* cancel() of a pending batch of three items; a guarded subscriber on item 1 completes item 2 with a
   fallback value: item 2 keeps it, item 3 still gets the cancel error, the batch's subscriber is
   notified once, last *)
Example cross_cancel_nonvacuous :
  run_batch [([(1, CbOk); (11, CbSet 2 (Ok (VInt 7)) true)], []); ([(2, CbOk)], []); ([(3, CbOk)], [])]
            (PRet VNone) []
            [BOn 0 (OSubscribe 20 CbOk); BCancel; BOn 3 OError; BOn 2 OValue; BOn 1 OError; BOn 0 OError]
  = ([RUnit; RUnit; RErr E_CANCELLED; RVal (VInt 7); RErr E_CANCELLED; RErr E_CANCELLED], [],
     [(1, 1, Err E_CANCELLED); (1, 11, Err E_CANCELLED); (2, 2, Ok (VInt 7)); (3, 3, Err E_CANCELLED);
      (0, 20, Err E_CANCELLED)], 0, [20],
     [(Some (Err E_CANCELLED), [1; 11]); (Some (Ok (VInt 7)), [2]); (Some (Err E_CANCELLED), [3])]).
Proof. reflexivity. Qed.

(* an item subscriber cancels the BATCH from inside the flush body: the nested completion fills the
   remaining items, the body's next set raises FutureIsAlreadyComputed and is swallowed by _compute *)
Example cross_batch_from_item_nonvacuous :
  run_batch [([(1, CbSet 0 (Err 9) false)], [Ok (VInt 5)]); ([(2, CbOk)], [Ok (VInt 6)])]
            (PRet VNone) [] [BOn 0 (OSubscribe 20 CbOk); BOn 2 OValue; BOn 0 OError]
  = ([RUnit; RRaise 9; RErr 9], [RUnit; RRaise E_ALREADY],
     [(1, 1, Ok (VInt 5)); (2, 2, Err 9); (0, 20, Err 9)], 1, [20],
     [(Some (Ok (VInt 5)), [1]); (Some (Err 9), [2])]).
Proof. reflexivity. Qed.

Example batch_nonvacuous :
  run_batch [([(1, CbRaise XAssertion)], [Ok (VInt 5)]); ([(2, CbOk)], [Ok (VInt 6)]); ([(3, CbRaise XKey)], [])]
            (PRet VNone) [] [BOn 0 (OSubscribe 9 CbOk); BOn 2 OValue; BOn 3 OError; BOn 0 OError; BFlush]
  = ([RUnit; RVal (VInt 6); RErr E_NOTSET; RNoError; RRaise E_BATCHING], [RUnit; RUnit],
     [(1, 1, Ok (VInt 5)); (2, 2, Ok (VInt 6)); (3, 3, Err E_NOTSET); (0, 9, Ok VNone)], 1, [9],
     [(Some (Ok (VInt 5)), [1]); (Some (Ok (VInt 6)), [2]); (Some (Err E_NOTSET), [3])]).
Proof. reflexivity. Qed.
