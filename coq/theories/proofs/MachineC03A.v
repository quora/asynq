(* C03, liveness of tree programs: the machine preserves the allocation invariant of MachineC03N, so a run creates
   at most 1 + nf p futures; with pass termination (MachineC03T, MachineC03P) and the count of flushes (MachineC03L)
   this gives termination.  Transitions other than a yield, a creation and the resume of a generator keep the id
   counter and, for every uncomputed task, its generator and what it yielded (relation gq); the resume uses
   look_agree; a yield moves the futures of its expression from the running task's share of the sum to the id
   counter (inst_W). *)
From Asynq Require Import Machine Seq proofs.ProgProofs proofs.MachineFrame proofs.MachineC05 proofs.MachineC08 proofs.MachineC01
  proofs.MachineDFS proofs.MachineC03T proofs.MachineC03L proofs.MachineC03P proofs.MachineNoUnwind proofs.MachineC03N
  proofs.MachineHelpers proofs.MachineCases.

(* the id counter is kept; an uncomputed task entry of s' is an uncomputed task entry of s with the same generator
   and the same yielded structure, or its generator is closed *)
Definition gq (s s' : st) : Prop :=
  top_next s' = top_next s /\
  forall u tk', get u s' = Some (mkFut None (KTask tk')) ->
    tk_gen tk' = None \/
    exists tk, get u s = Some (mkFut None (KTask tk)) /\ tk_gen tk' = tk_gen tk /\ tk_last tk' = tk_last tk.

Lemma gq_refl s : gq s s.
Proof. split; [reflexivity|]. intros u tk' H. right. exists tk'. auto. Qed.

Lemma gq_trans a b c : gq a b -> gq b c -> gq a c.
Proof.
  intros (A1 & A2) (B1 & B2). split; [congruence|]. intros u tk2 H.
  destruct (B2 u tk2 H) as [E|(tk1 & H1 & E1 & E2)]; [left; exact E|].
  destruct (A2 u tk1 H1) as [E|(tk0 & H0 & F1 & F2)]; [left; congruence|].
  right. exists tk0. split; [exact H0|]. split; congruence.
Qed.

Lemma gq_view s s' : heap s' = heap s -> top_next s' = top_next s -> gq s s'.
Proof. intros Hh Ht. split; [exact Ht|]. intros u tk' H. right. exists tk'. unfold get in *. rewrite Hh in H. auto. Qed.

Lemma gq_put u f s :
  (forall tk', f = mkFut None (KTask tk') -> tk_gen tk' = None \/
     exists tk, get u s = Some (mkFut None (KTask tk)) /\ tk_gen tk' = tk_gen tk /\ tk_last tk' = tk_last tk) ->
  gq s (put u f s).
Proof.
  intros Hf. split; [reflexivity|]. intros u0 tk' H. destruct (fid_eqb_spec u0 u) as [->|N].
  - rewrite get_put_same in H. inversion H as [H']. apply (Hf tk'). exact H'.
  - rewrite get_put_other in H by exact N. right. exists tk'. auto.
Qed.

Lemma gq_set_task t o tk tk' s : get t s = Some (mkFut o (KTask tk)) ->
  (tk_gen tk' = tk_gen tk /\ tk_last tk' = tk_last tk) \/ tk_gen tk' = None -> gq s (set_task t tk' s).
Proof.
  intros Hg E. unfold set_task. rewrite Hg. cbn [f_out]. apply gq_put. intros tk2 E2. inversion E2; subst o tk2.
  destruct E as [(E1 & E3)|E]; [right; exists tk; auto|left; exact E].
Qed.

Lemma gq_set_task_gt t tk tk' s : get_task t s = Some tk ->
  (tk_gen tk' = tk_gen tk /\ tk_last tk' = tk_last tk) \/ tk_gen tk' = None -> gq s (set_task t tk' s).
Proof. intros Hg. apply get_task_some in Hg as (o & Hg). apply (gq_set_task t o tk tk' s Hg). Qed.

(* gq contains the primitive writes of the helpers that create nothing - rewriting the contexts of a task
   (gq_set_task_gt), completing a task (gq_done) or an item (gq_item), writes outside the heap (gq_view) - hence
   (MachineHelpers, Section Closure) the helpers *)
Lemma gq_done t tk o s : gq s (emit (EvDone t o) (put t (mkFut (Some o) (KTask (closed_task tk))) s)).
Proof. eapply gq_trans; [|apply gq_view; reflexivity]. apply gq_put. intros tk' E. discriminate. Qed.

Lemma gq_item h f o s : gq s (emit (EvItemDone h o) (put h (mkFut (Some o) (f_kind f)) s)).
Proof. eapply gq_trans; [|apply gq_view; reflexivity]. apply gq_put. intros tk' E. discriminate. Qed.

(* closes the hypotheses of a rel_* lemma for gq with the four facts above *)
Ltac gq_prim :=
  intros; first [apply gq_refl | eapply gq_trans; eassumption | apply gq_view; reflexivity | apply gq_done | apply gq_item
                | eapply gq_set_task_gt; [eassumption|left; split; reflexivity]].

Lemma gq_complete_task x o s : computed x s = false -> gq s (complete_task x o s). Proof. apply rel_complete_task; gq_prim. Qed.
Lemma gq_accept_error x e s : gq s (accept_error x e s). Proof. apply rel_accept_error; gq_prim. Qed.
Lemma gq_flush_batch P k s : gq s (flush_batch P k s). Proof. apply rel_flush_batch; gq_prim. Qed.
Lemma gq_cwb P s : gq s (continue_with_batch P s). Proof. apply rel_continue_with_batch; gq_prim. Qed.
Lemma gq_schedule_batch k s : gq s (schedule_batch k s). Proof. apply rel_schedule_batch; gq_prim. Qed.

Lemma rem_gq spec s s' k : gq s s' -> (rem spec None s' k <= rem spec None s k)%nat.
Proof.
  intros (_ & G). unfold rem. destruct (get [Z.of_nat k] s') as [[[o|] [tk'| | |]]|] eqn:H; try lia.
  destruct (G _ tk' H) as [E|(tk & H0 & E1 & E2)]; [rewrite E; lia|]. rewrite H0, E1, E2. lia.
Qed.

Lemma rem_rn_other spec t p s k : fid_eqb t [Z.of_nat k] = false -> rem spec (Some (t, p)) s k = rem spec None s k.
Proof. intros E. unfold rem. destruct (get [Z.of_nat k] s) as [[[o|] [tk| | |]]|]; try reflexivity. rewrite E. reflexivity. Qed.

Lemma sum_point_l (f g : nat -> nat) l k0 : NoDup l -> In k0 l -> (forall k, k <> k0 -> f k = g k) ->
  (list_sum (map f l) + g k0 = list_sum (map g l) + f k0)%nat.
Proof.
  induction l as [|a l IH]; intros Hnd Hin H; [destruct Hin|]. inversion Hnd as [|a' l' Hna Hnd']; subst a' l'. simpl.
  destruct Hin as [->|Hin].
  - assert (E : list_sum (map f l) = list_sum (map g l)).
    { f_equal. apply map_ext_in. intros k Hk. apply H. intros ->. contradiction. }
    lia.
  - specialize (IH Hnd' Hin H). rewrite (H a) by (intros ->; contradiction). lia.
Qed.

(* the weight bounded by alloc_inv: futures created so far + futures the uncomputed tasks will still create *)
Definition W (spec : specmap) (rn : option (fid * prog)) (s : st) : nat := (Z.to_nat (top_next s) + pot spec rn s)%nat.

Definition rn_ok (rn : option (fid * prog)) (s : st) : Prop := match rn with Some (t, _) => get t s <> None | None => True end.

(* going from s to s' adds n to the weight; stated with what the computation of the sum needs before and gives
   back after: the ids from top_next on are free, the counter is not negative, the running task exists *)
Definition wst (spec : specmap) (rn : option (fid * prog)) (s s' : st) (n : nat) : Prop :=
  above_free s -> (0 <= top_next s)%Z -> rn_ok rn s ->
  above_free s' /\ (0 <= top_next s')%Z /\ rn_ok rn s' /\ W spec rn s' = (W spec rn s + n)%nat.

Lemma wst_refl spec rn s : wst spec rn s s 0.
Proof. intros A B C. split; [exact A|]. split; [exact B|]. split; [exact C|lia]. Qed.

Lemma wst_trans spec rn a b c n m : wst spec rn a b n -> wst spec rn b c m -> wst spec rn a c (n + m).
Proof. intros H1 H2 A B C. destruct (H1 A B C) as (A1 & B1 & C1 & E1). destruct (H2 A1 B1 C1) as (A2 & B2 & C2 & E2). split; [exact A2|]. split; [exact B2|]. split; [exact C2|lia]. Qed.

(* the remaining allocation of a new entry *)
Definition remv (spec : specmap) (e : fut) : nat :=
  match e with
  | mkFut None (KTask tk) => match tk_gen tk with Some g => nf (g (unwrap (look_spec spec) (tk_last tk))) | None => O end
  | _ => O
  end.

Lemma putnew_W spec rn s s1 e n :
  top_next s1 = (top_next s + 1)%Z ->
  (forall u, get u s1 = if fid_eqb u [top_next s] then Some e else get u s) ->
  n = (1 + remv spec e)%nat -> wst spec rn s s1 n.
Proof.
  intros Et Hget -> A B C.
  assert (Hnone : get [top_next s] s = None) by (apply A; lia).
  split; [|split; [lia|split]].
  - intros n Hn. rewrite Hget. destruct (fid_eqb_spec [n] [top_next s]) as [E|_]; [inversion E; lia|]. apply A. lia.
  - destruct rn as [[t p]|]; [|exact I]. cbn in *. rewrite Hget. destruct (fid_eqb t [top_next s]); [discriminate|exact C].
  - unfold W, pot. rewrite Et. replace (Z.to_nat (top_next s + 1)) with (S (Z.to_nat (top_next s))) by lia.
    rewrite seq_S, map_app, list_sum_app. cbn [Nat.add map list_sum fold_right].
    assert (E1 : map (rem spec rn s1) (seq 0 (Z.to_nat (top_next s))) = map (rem spec rn s) (seq 0 (Z.to_nat (top_next s)))).
    { apply map_ext_in. intros k Hk. apply in_seq in Hk. unfold rem. rewrite Hget.
      destruct (fid_eqb_spec [Z.of_nat k] [top_next s]) as [E|_]; [inversion E; lia|reflexivity]. }
    assert (E2 : rem spec rn s1 (Z.to_nat (top_next s)) = remv spec e).
    { unfold rem. rewrite Z2Nat.id by lia. rewrite Hget, fid_eqb_refl. unfold remv.
      destruct e as [[o|] [tk| | |]]; try reflexivity. destruct rn as [[t p]|]; [|reflexivity].
      destruct (fid_eqb_spec t [top_next s]) as [->|_]; [|reflexivity]. cbn in C. contradiction. }
    rewrite E1, E2. lia.
Qed.

Lemma create_W spec rn parent f s : wst spec rn s (snd (create parent f s)) (nff f).
Proof.
  unfold create, alloc. cbn zeta.
  destruct f as [q|kind key a|v|e|o]; cbn [snd];
    (eapply (putnew_W spec rn s);
     [reflexivity|intros u; try change (get u (put_batch ?k ?b ?z)) with (get u z); rewrite get_put; reflexivity|reflexivity]).
Qed.

Lemma inst_W spec rn parent y s : wst spec rn s (snd (inst parent y s)) (ysum nfl y).
Proof.
  rewrite inst_snd, ysum_leaves. generalize (leaves y). intros l. revert s.
  induction l as [|a l IH]; intros s; [apply wst_refl|]. cbn [fold_left map list_sum fold_right].
  eapply wst_trans; [|apply IH]. destruct a as [f| |]; [apply create_W|apply wst_refl|apply wst_refl].
Qed.

Lemma W_le spec rn s rn' s' : top_next s' = top_next s ->
  (forall k, (rem spec rn' s' k <= rem spec rn s k)%nat) -> (W spec rn' s' <= W spec rn s)%nat.
Proof.
  intros Et H. unfold W, pot. rewrite Et.
  pose proof (list_sum_le (rem spec rn' s') (rem spec rn s) (seq 0 (Z.to_nat (top_next s))) (fun k _ => H k)). lia.
Qed.

Lemma W_gq spec s s' : gq s s' -> (W spec None s' <= W spec None s)%nat.
Proof. intros G. apply W_le; [apply G|]. intros k. apply rem_gq. exact G. Qed.

Lemma rem_computed spec rn s k : computed [Z.of_nat k] s = true -> rem spec rn s k = O.
Proof. unfold rem, computed. destruct (get [Z.of_nat k] s) as [[[o|] [tk| | |]]|]; try reflexivity; discriminate. Qed.

Lemma rem_rn_self_le spec t p s k : fid_eqb t [Z.of_nat k] = true -> (rem spec (Some (t, p)) s k <= nf p)%nat.
Proof. intros E. unfold rem. destruct (get [Z.of_nat k] s) as [[[o|] [tk| | |]]|]; try lia. rewrite E. lia. Qed.

Lemma rem_rn_self_eq spec t p s k tk : get [Z.of_nat k] s = Some (mkFut None (KTask tk)) -> fid_eqb t [Z.of_nat k] = true ->
  rem spec (Some (t, p)) s k = nf p.
Proof. intros G E. unfold rem. rewrite G, E. reflexivity. Qed.

Lemma rem_none_eq spec s k tk g : get [Z.of_nat k] s = Some (mkFut None (KTask tk)) -> tk_gen tk = Some g ->
  rem spec None s k = nf (g (unwrap (look_spec spec) (tk_last tk))).
Proof. intros G E. unfold rem. rewrite G, E. reflexivity. Qed.

Lemma rem_get_eq spec rn s s' k : get [Z.of_nat k] s' = get [Z.of_nat k] s -> rem spec rn s' k = rem spec rn s k.
Proof. intros E. unfold rem. rewrite E. reflexivity. Qed.

Lemma gq_hstep P A s s' : ~ A TStep -> ~ A TNew -> (forall t, ~ A (TYield t)) -> hstep P A s s' -> gq s s'.
Proof.
  intros NS NN NY H.
  induction H as [s|a b c _ IH1 _ IH2|s s' Hh _ _ _ _ Ht _|v x s|k c s|e s _|t tk tk' s G B|t tk o s _ _|x out o s _ _
                 |p f s N|k s|k s _|s _|t tk o d s N _ _|t tk k y' F s N _].
  - apply gq_refl.
  - exact (gq_trans _ _ _ IH1 IH2).
  - apply gq_view; assumption.
  - apply gq_view; reflexivity.
  - apply gq_view; reflexivity.
  - apply gq_view; reflexivity.
  - destruct B as (E1 & _ & _ & _ & E2). apply (gq_set_task_gt t tk); [exact G|].
    destruct E2 as [E2|E2]; [left; split; assumption|right; exact E2].
  - apply gq_done.
  - apply gq_put. intros tk' E. discriminate.
  - destruct (NN N).
  - apply gq_schedule_batch.
  - apply gq_flush_batch.
  - apply gq_cwb.
  - destruct (NS N).
  - destruct (NY t N).
Qed.

Lemma gq_step P c : (forall t, c_mode c <> MResume t) -> (forall t y k, c_mode c <> MRun t (Yield y k)) ->
  (forall t f k, c_mode c <> MRun t (Let f k)) -> gq (c_st c) (c_st (step P c)).
Proof.
  intros H1 H2 H3. apply (gq_hstep P (tag_of_cfg c)); [| | |apply step_hstep].
  - intros (t & tk & k & E & _). exact (H1 t E).
  - intros (t & [(y & k & E)|(f & k & E)]); [exact (H2 _ _ _ E)|exact (H3 _ _ _ E)].
  - intros t (y & k & E). exact (H2 _ _ _ E).
Qed.

Section AllocStep.
  Variable P : params.
  Hypothesis HP : pointwise P.
  Variable root : fid.
  Variable res : outcome.
  Variable p0 : prog.

  (* alloc_inv p0 spec c reads W spec (rn_of (c_mode c)) (c_st c) <= 1 + nf p0 *)
  Definition J (c : cfg) : Prop := exists spec, CInv root res spec c /\ alloc_inv p0 spec c.

  Lemma J_intro spec c : CInv root res spec c -> alloc_inv p0 spec c -> J c.
  Proof. intros A B. exists spec. auto. Qed.

  (* outside the body of a task only the resume of a generator enters one: there is no frame of a synchronous call *)
  Lemma rn_step_none spec m fr s : (forall t, m <> MResume t) -> (forall t p, m <> MRun t p) -> is_unwind m = false ->
    CInv root res spec (mkC m fr s) -> rn_of (c_mode (step P (mkC m fr s))) = None.
  Proof.
    intros H1 H2 Hu (_ & HC).
    destruct m; try discriminate Hu; try (exfalso; eapply H1; reflexivity); try (exfalso; eapply H2; reflexivity);
      cbn [c_mode c_frames c_st] in HC.
    4: { destruct HC as ((i & ->) & HS & _).
         destruct (step_MExecLoop P i [FWait root; FTop] s (fun t out tk => SInv_noraise _ _ _ t out tk HS)); reflexivity. }
    all: cbn [step c_mode c_frames c_st]; try (destr_eq; reflexivity).
    destruct HC as (Hf & _). cbn in Hf. subst fr. reflexivity.
  Qed.

  Lemma j_quiet spec m fr s : (forall t p, m <> MRun t p) -> is_unwind m = false ->
    CInv root res spec (mkC m fr s) -> alloc_inv p0 spec (mkC m fr s) -> alloc_inv p0 spec (step P (mkC m fr s)).
  Proof.
    intros Hm Hu HC HW. unfold alloc_inv in *. fold (W spec (rn_of (c_mode (mkC m fr s))) (c_st (mkC m fr s))) in HW.
    cbn [c_mode c_st] in HW.
    assert (Hrn : rn_of m = None) by (destruct m; try reflexivity; exfalso; eapply Hm; reflexivity). rewrite Hrn in HW.
    assert (Q : (forall t, m <> MResume t) ->
                (W spec (rn_of (c_mode (step P (mkC m fr s)))) (c_st (step P (mkC m fr s))) <= 1 + nf p0)%nat).
    { intros Hr. rewrite (rn_step_none spec m fr s Hr Hm Hu HC).
      eapply Nat.le_trans; [apply W_gq, (gq_step P (mkC m fr s)); cbn [c_mode]; intros; auto|exact HW]. }
    destruct m as [h| | | |t|t p| |o|e|o|]; try (apply Q; intros; discriminate).
    destruct HC as (Hr & Hf & HS & Ht & (tk & Hg & Hcomp)). cbn [c_mode c_frames c_st running_of] in *.
    cbn [step c_mode c_frames c_st]. unfold get_task. rewrite Hg. destruct (tk_gen tk) as [k|] eqn:Ek.
    - (* the generator continues with the outcomes of what it yielded: look_agree *)
      cbn [c_mode c_st rn_of]. eapply Nat.le_trans; [|exact HW].
      apply W_le; [unfold set_task; rewrite Hg; reflexivity|]. intros k0.
      destruct (fid_eqb t [Z.of_nat k0]) eqn:E.
      + apply fid_eqb_eq in E. subst t.
        rewrite (rem_none_eq spec s k0 tk k Hg Ek).
        rewrite <- (look_agree spec None s (tk_last tk) HS Hcomp).
        apply rem_rn_self_le. apply fid_eqb_refl.
      + rewrite (rem_rn_other _ _ _ _ _ E). apply Nat.eq_le_incl. apply rem_get_eq.
        rewrite get_emit. apply get_set_task_other. intros E'. rewrite <- E', fid_eqb_refl in E. discriminate.
    - destruct (unwrap _ _); [destruct (computed t s) eqn:Hc|]; cbn [c_mode c_st rn_of];
        (eapply Nat.le_trans; [apply W_gq|exact HW]);
        [apply gq_refl|apply gq_complete_task; exact Hc|apply gq_accept_error].
  Qed.

  Lemma W_run_le spec t p tk s rn' s' :
    get t s = Some (mkFut None (KTask tk)) -> top_next s' = top_next s ->
    (forall k, fid_eqb t [Z.of_nat k] = false -> (rem spec rn' s' k <= rem spec None s k)%nat) ->
    (forall k, fid_eqb t [Z.of_nat k] = true -> (rem spec rn' s' k <= nf p)%nat) ->
    (W spec rn' s' <= W spec (Some (t, p)) s)%nat.
  Proof.
    intros Hg Et H1 H2. apply W_le; [exact Et|]. intros k. destruct (fid_eqb t [Z.of_nat k]) eqn:E.
    - pose proof E as E'. apply fid_eqb_eq in E'. subst t. rewrite (rem_rn_self_eq spec _ p s k tk Hg E). apply H2. exact E.
    - rewrite (rem_rn_other _ _ _ _ _ E). apply H1. exact E.
  Qed.

  Lemma W_run_gq spec t p tk s rn' s' :
    get t s = Some (mkFut None (KTask tk)) -> gq s s' ->
    match rn' with None => computed t s' = true | Some (t', p') => t' = t /\ (nf p' <= nf p)%nat end ->
    (W spec rn' s' <= W spec (Some (t, p)) s)%nat.
  Proof.
    intros Hg G Hrn. apply (W_run_le spec t p tk s); [exact Hg|apply G| |]; intros k E.
    - destruct rn' as [[t' p']|]; [destruct Hrn as (-> & _); rewrite (rem_rn_other _ _ _ _ _ E)|]; apply rem_gq; exact G.
    - destruct rn' as [[t' p']|].
      + destruct Hrn as (-> & L). eapply Nat.le_trans; [apply (rem_rn_self_le spec t p' s' k E)|exact L].
      + apply fid_eqb_eq in E. subst t. rewrite rem_computed; [lia|exact Hrn].
  Qed.

  (* the running task's share of the sum is nf of its program, whatever the program *)
  Lemma W_rn_swap spec t p q tk s : SInv spec (Some t) s -> get t s = Some (mkFut None (KTask tk)) ->
    (W spec (Some (t, p)) s + nf q = W spec (Some (t, q)) s + nf p)%nat.
  Proof.
    intros HS Hg. destruct (SInv_entry _ _ _ _ _ HS Hg) as ((a & Ea & Ha) & _).
    assert (Eid : t = [Z.of_nat (Z.to_nat a)]) by (rewrite Z2Nat.id by lia; exact Ea).
    assert (Hself : fid_eqb t [Z.of_nat (Z.to_nat a)] = true) by (rewrite <- Eid; apply fid_eqb_refl).
    assert (Hg' : get [Z.of_nat (Z.to_nat a)] s = Some (mkFut None (KTask tk))) by (rewrite <- Eid; exact Hg).
    pose proof (sum_point_l (rem spec (Some (t, p)) s) (rem spec (Some (t, q)) s)
                  (seq 0 (Z.to_nat (top_next s))) (Z.to_nat a) (seq_NoDup _ _)) as Hsp.
    rewrite (rem_rn_self_eq spec t _ s _ tk Hg' Hself), (rem_rn_self_eq spec t _ s _ tk Hg' Hself) in Hsp.
    unfold W, pot. rewrite <- !Nat.add_assoc. f_equal. apply Hsp; [apply in_seq; lia|]. intros k1 N1.
    assert (Ef : fid_eqb t [Z.of_nat k1] = false).
    { destruct (fid_eqb_spec t [Z.of_nat k1]) as [E|_]; [|reflexivity]. rewrite Ea in E. inversion E. lia. }
    rewrite !(rem_rn_other _ _ _ _ _ Ef). reflexivity.
  Qed.

  (* a suspended task's share does not depend on how the ghost map is extended to new futures *)
  Lemma W_ext spec spec' t p s : SInv spec (Some t) s -> ext_spec s spec spec' ->
    W spec' (Some (t, p)) s = W spec (Some (t, p)) s.
  Proof.
    intros HS Ext. unfold W, pot. f_equal. f_equal. apply map_ext. intros k1. unfold rem.
    destruct (get [Z.of_nat k1] s) as [[[o1|] [tk0| | |]]|] eqn:G0; try reflexivity.
    destruct (fid_eqb_spec t [Z.of_nat k1]) as [_|N]; [reflexivity|].
    destruct (tk_gen tk0) as [g0|] eqn:Eg; [|reflexivity]. f_equal. f_equal.
    destruct (SInv_entry _ _ _ _ _ HS G0) as (_ & o0 & _ & _ & _ & Hk0). cbn in Hk0.
    destruct (Hk0 eq_refl) as (g' & _ & _ & _ & K4 & _).
    { intros E'. apply N. congruence. }
    apply (unwrap_look_ext spec spec' s _ Ext K4).
  Qed.

  (* the body of t takes a step.  Outside a yield the transition is in gq and the program left is no dearer; a yield
     moves the futures of its expression from the running task's share to the id counter (inst_W) *)
  Lemma j_run spec t p fr s : CInv root res spec (mkC (MRun t p) fr s) -> alloc_inv p0 spec (mkC (MRun t p) fr s) ->
    J (step P (mkC (MRun t p) fr s)).
  Proof.
    intros HC HW. destruct (c01_MRun_ext P root res spec t p fr s HC) as (spec' & HC' & HE).
    exists spec'. split; [exact HC'|]. clear HC'.
    destruct HC as (_ & _ & HS & _ & (Htree & _ & (tk & Hg))). cbn [c_mode c_st running_of] in HS, Hg.
    unfold alloc_inv in *. fold (W spec (rn_of (c_mode (mkC (MRun t p) fr s))) (c_st (mkC (MRun t p) fr s))) in HW.
    cbn [c_mode c_st rn_of] in HW.
    match goal with |- (?a + pot ?sp ?rn ?st <= _)%nat => fold (W sp rn st) end.
    assert (G : (forall y k, p <> Yield y k) -> gq s (c_st (step P (mkC (MRun t p) fr s)))).
    { intros N. apply (gq_step P (mkC (MRun t p) fr s)); cbn [c_mode]; intros; intros E; inversion E; subst.
      - eapply N; reflexivity.
      - inversion Htree. }
    inversion Htree as [v Ev|v Ev|e Ev|y k Hl Hk Ev|c k Hc Hk Ev|c k Hc Hk Ev]; subst p; try subst spec'.
    1-3: specialize (G ltac:(intros; discriminate));
         match type of G with context [MRun _ ?p] => destruct (step_run_finish P t fr s tk Hg p _ ltac:(constructor)) as (s2 & E & U & _) end;
         rewrite E in *;
         cbn [c_mode c_st rn_of] in *; (eapply Nat.le_trans; [|exact HW]);
         apply (W_run_gq spec t _ tk s None s2 Hg G); rewrite (computed_get _ _ _ (tupd_get _ _ _ _ _ U)); reflexivity.
    - destruct HE as ((Ext & HS1 & Old) & U & A).
      set (K := k (unwrap leaf_out y)).
      assert (Hrn : rn_ok (Some (t, K)) s) by (cbn; rewrite Hg; discriminate).
      destruct (inst_W spec' (Some (t, K)) t y s (SInv_above_free spec (Some t) s HS) (proj2 (proj2 HS)) Hrn) as (_ & _ & _ & EW).
      pose proof (W_rn_swap spec t (Yield y k) K tk s HS Hg) as E2. change (nf (Yield y k)) with (ysum nfl y + nf K)%nat in E2.
      pose proof (W_ext spec spec' t K s HS Ext) as E1.
      destruct (step_run_yield P t fr s tk Hg y k (SInv_above_free spec (Some t) s HS)) as (s2 & E & Hg1 & U2). cbn zeta in *.
      rewrite E. destruct (inst t y s) as [y' s1]. cbn [fst snd] in *.
      assert (HW2 : (W spec' None s2 <= 1 + nf p0)%nat).
      { eapply Nat.le_trans; [|exact HW]. replace (W spec (Some (t, Yield y k)) s) with (W spec' (Some (t, K)) s1) by lia.
        destruct U2 as (G2 & Uo & Us). destruct (sched_parts _ _ Us) as (_ & _ & _ & _ & _ & Ut & _).
        apply (W_run_le spec' t K tk s1); [exact Hg1|exact Ut| |].
        - intros k1 E0. apply Nat.eq_le_incl. apply rem_get_eq. apply Uo. intros E'. rewrite <- E', fid_eqb_refl in E0. discriminate.
        - intros k1 E0. apply fid_eqb_eq in E0. rewrite E0 in G2.
          rewrite (rem_none_eq spec' _ k1 _ k G2 eq_refl). cbn [tk_last]. rewrite U. apply Nat.le_refl. }
      destruct (futs (extract y')); exact HW2.
    - specialize (G ltac:(intros; discriminate)). destruct (step_run_enter P t fr s tk Hg c k) as (s2 & E & _). rewrite E in *.
      cbn [c_mode c_st rn_of] in *. eapply Nat.le_trans; [|exact HW].
      apply (W_run_gq spec t _ tk s (Some (t, k)) s2 Hg G). split; [reflexivity|apply Nat.le_refl].
    - specialize (G ltac:(intros; discriminate)). destruct (step_run_exit P t fr s tk Hg c k) as (s2 & E & _). rewrite E in *.
      cbn [c_mode c_st rn_of] in *. eapply Nat.le_trans; [|exact HW].
      apply (W_run_gq spec t _ tk s (Some (t, k)) s2 Hg G). split; [reflexivity|apply Nat.le_refl].
  Qed.

  Theorem j_step c : is_unwind (c_mode c) = false -> J c -> J (step P c).
  Proof.
    intros Hu (spec & HC & HW). destruct c as [m fr s]. cbn [c_mode] in Hu.
    destruct m as [h| | | |t|t p| |o|e|o|]; try discriminate Hu;
      [| | | | |exact (j_run spec t p fr s HC HW)| | |exact (J_intro spec _ HC HW)|exact (J_intro spec _ HC HW)];
      (apply (J_intro spec); [|apply j_quiet; [intros; discriminate|reflexivity|exact HC|exact HW]]).
    - apply c01_MValue; exact HC.
    - apply c01_MWaitHead; exact HC.
    - apply (c01_MAfterExec P HP); exact HC.
    - apply c01_MExecLoop; exact HC.
    - apply c01_MResume; exact HC.
    - apply c01_MContRet; exact HC.
    - apply c01_MDeliver; exact HC.
  Qed.
End AllocStep.

(* the allocation bound: as long as the run has not unwound, it has created at most 1 + nf p futures *)
Theorem alloc_bound_tree P p n :
  pointwise P -> tree p ->
  let h := fst (create [] (FTask p) (st0 P)) in
  let s1 := snd (create [] (FTask p) (st0 P)) in
  (forall k, (k < n)%nat -> is_unwind (c_mode (run P k (start h s1))) = false) ->
  (top_next (c_st (run P n (start h s1))) <= Z.of_nat (1 + nf p))%Z.
Proof.
  intros HP Ht. cbn zeta. intros Hn.
  destruct (c01_reach P (fun _ => None) (st0 P) p 0 HP Ht (SInv_empty P)) as (spec0 & HC0);
    [intros k Hk; replace k with O by lia; reflexivity|].
  destruct (run_invariant P (J _ (eval p) p) (j_step P HP _ _ p) n _ (J_intro _ _ p spec0 _ HC0 (alloc_inv_start P p spec0)) Hn)
    as (spec & HC & HW).
  unfold alloc_inv in HW. cbn [run] in HW. lia.
Qed.

(* termination of tree programs, provided the guard does not fire *)
Theorem terminates_tree P p :
  pointwise P -> tree p ->
  let h := fst (create [] (FTask p) (st0 P)) in
  let s1 := snd (create [] (FTask p) (st0 P)) in
  (forall n, no_unwind P n (start h s1)) ->
  exists n, c_mode (run P n (start h s1)) = MDone (eval p).
Proof.
  intros HP Ht. cbn zeta. intros Hnu. apply (terminates_if_allocation_bounded_tree P p (1 + nf p) HP Ht Hnu).
  intros n. apply (alloc_bound_tree P p n HP Ht). intros k Hk. apply (Hnu k k). lia.
Qed.

(* when MAX_TASK_STACK_SIZE is at least 1 + nf p the guard cannot fire: no hypothesis about the run is left *)
Theorem small_never_unwinds P p :
  pointwise P -> tree p -> (Z.of_nat (1 + nf p) <= p_maxstack P)%Z ->
  forall n, no_unwind P n (start (fst (create [] (FTask p) (st0 P))) (snd (create [] (FTask p) (st0 P)))).
Proof.
  intros HP Ht Hsmall n. induction n as [n IH] using lt_wf_ind.
  apply (tree_guard_silent_while_few_futures P HP p Ht n). intros k Hk.
  pose proof (alloc_bound_tree P p k HP Ht) as B. cbn zeta in B. etransitivity; [apply B|exact Hsmall].
  intros j Hj. exact (IH j ltac:(lia) j (Nat.le_refl j)).
Qed.

Theorem terminates_tree_small P p :
  pointwise P -> tree p -> (Z.of_nat (1 + nf p) <= p_maxstack P)%Z ->
  exists n, c_mode (run P n (start (fst (create [] (FTask p) (st0 P))) (snd (create [] (FTask p) (st0 P))))) = MDone (eval p).
Proof. intros HP Ht Hsmall. exact (terminates_tree P p HP Ht (small_never_unwinds P p HP Ht Hsmall)). Qed.

(* special cases: the first pass; termination when no flush is needed; termination of item-free programs *)
Theorem first_pass_terminates_tree P p :
  pointwise P -> tree p ->
  let h := fst (create [] (FTask p) (st0 P)) in
  let s1 := snd (create [] (FTask p) (st0 P)) in
  (forall n, no_unwind P n (start h s1)) ->
  exists n, c_mode (run P n (start h s1)) = MAfterExec /\ tasks (c_st (run P n (start h s1))) = [].
Proof.
  intros HP Ht h s1 Hnu. destruct (pass_terminates P HP p Ht Hnu 1) as (m & H); [reflexivity|reflexivity|].
  exists (1 + m)%nat. exact H.
Qed.

Theorem terminates_without_flush_tree P p :
  pointwise P -> tree p ->
  let h := fst (create [] (FTask p) (st0 P)) in
  let s1 := snd (create [] (FTask p) (st0 P)) in
  (forall n, no_unwind P n (start h s1)) ->
  (forall n, c_mode (run P n (start h s1)) = MAfterExec -> computed h (c_st (run P n (start h s1))) = true) ->
  exists n o, c_mode (run P n (start h s1)) = MDone o /\ o = eval p.
Proof. intros HP Ht h s1 Hnu _. destruct (terminates_tree P p HP Ht Hnu) as (n & Hn). exists n, (eval p). auto. Qed.

Theorem noitem_terminates P p :
  pointwise P -> noitem p ->
  let h := fst (create [] (FTask p) (st0 P)) in
  let s1 := snd (create [] (FTask p) (st0 P)) in
  (forall n, no_unwind P n (start h s1)) ->
  exists n, c_mode (run P n (start h s1)) = MDone (eval p).
Proof. intros HP Hp. exact (terminates_tree P p HP (noitem_tree p Hp)). Qed.
