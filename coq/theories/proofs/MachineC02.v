(* Corollaries of the C01 invariant for C02 and C03 (tree programs, pointwise service, no unwinding):
   a task is resumed only when every future it yielded is computed, and what it receives is
   [unwrap] of their outcomes - the first failing future's own exception, else the values in shape. *)
From Asynq Require Import Machine Seq proofs.MachineC08 proofs.MachineC01.

Section Corollaries.
  Variable P : params.
  Hypothesis HP : pointwise P.
  Variable p : prog.
  Hypothesis Ht : tree p.

  Let h := fst (create [] (FTask p) (st0 P)).
  Let s1 := snd (create [] (FTask p) (st0 P)).

  (* C03/C02: whenever the scheduler is about to resume task t, t is uncomputed and every future in the
     structure it last yielded is computed *)
  Theorem resume_guard_tree n t :
    no_unwind P n (start h s1) -> c_mode (run P n (start h s1)) = MResume t ->
    exists tk, get t (c_st (run P n (start h s1))) = Some (mkFut None (KTask tk)) /\
      forall x, In (RFut x) (leaves (tk_last tk)) -> computed x (c_st (run P n (start h s1))) = true.
  Proof.
    intros Hn Hm. destruct (c01_reach P _ (st0 P) p n HP Ht (SInv_empty P) Hn) as (spec & HI).
    exact (proj2 (CInv_MResume _ _ _ _ _ HI Hm)).
  Qed.

  (* C02: what the resumed body receives is unwrap of the outcomes of the yielded futures, i.e. (by
     ProgProofs.unwrap_first_error) the exception of the first failing one in structure order, else
     the structure of values; and the body then runs the continuation on it, whose sequential value is
     the task's *)
  Theorem delivered_is_unwrap_tree n t :
    no_unwind P n (start h s1) -> c_mode (run P n (start h s1)) = MResume t ->
    exists tk k spec, get t (c_st (run P n (start h s1))) = Some (mkFut None (KTask tk)) /\
      tk_gen tk = Some k /\
      c_mode (step P (run P n (start h s1))) =
        MRun t (k (unwrap (look (c_st (run P n (start h s1)))) (tk_last tk))) /\
      unwrap (look (c_st (run P n (start h s1)))) (tk_last tk) = unwrap (look_spec spec) (tk_last tk) /\
      spec t = Some (eval (k (unwrap (look_spec spec) (tk_last tk)))).
  Proof.
    intros Hn Hm. destruct (c01_reach P _ (st0 P) p n HP Ht (SInv_empty P) Hn) as (spec & HI).
    destruct (CInv_MResume _ _ _ _ _ HI Hm) as (HS & tk & Hg & Hc). fold h s1 in Hg, Hc, HS. clear HI.
    destruct (run P n (start h s1)) as [m fr s]. cbn in Hm. subst m. cbn [c_mode c_frames c_st] in *.
    destruct (SInv_entry _ _ _ _ _ HS Hg) as (_ & ot & Hst & _ & Hp & Hk). cbn in Hp, Hk.
    destruct (Hk eq_refl ltac:(discriminate)) as (k & K1 & K2 & K3 & K4 & K5).
    exists tk, k, spec. split; [exact Hg|]. split; [exact K1|]. split.
    - cbn [step c_mode c_frames c_st]. unfold get_task. rewrite Hg, K1. reflexivity.
    - split; [apply (look_agree spec None s _ HS Hc)|]. rewrite K3. exact Hst.
  Qed.
End Corollaries.
