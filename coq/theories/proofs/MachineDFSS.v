(* C06 on the scheduler machine for tree programs WITH SYNCHRONOUS CALLS (MachineC01S.stree): which tasks have
   their contexts active (_contexts_active) while a task body runs, inside the synchronous calls it makes, and
   at the moment a batch is flushed - by the outermost scheduler loop or by a loop NESTED below a caller that is
   inside value().  Generalises MachineDFS.v (yield-only tree programs, invariant FL over MachineC01.CInv) to
   the invariant FLS over MachineC01S.CI.

   What changes with nested loops:
   - the relation between Python frames and the scheduler's task stack becomes recursive ([stk]): every level
     FValue t k :: FCont t old :: FExec i :: FWait r of a suspended caller t owns the stack segment  t :: rest
     above height i; the nested loop entered below it works strictly above that segment and leaves it alone;
   - when a nested loop ends an _execute pass (MAfterExec: the point where it flushes a batch) the stack is back
     to the height it had when the synchronous call was made - it is NOT empty - and the callers suspended in
     value() (the owners of the FValue frames) as well as the tasks that had scheduled their dependencies
     (_dependencies_scheduled: they are awaiting the caller, directly or transitively) still have their
     contexts active.  The statement "no uncompleted task has active contexts at a flush" is therefore FALSE
     for stree programs, even when the suspended callers themselves are excepted (refuted below by vm_compute);
     the true statement says exactly which tasks may be active (flush_stree).

   Invariant, per configuration (on top of CI):
     fl  s F E : every uncompleted task u that is flagged (tk_ds or tk_cact) is on the task stack; tk_ds implies
                 tk_cact; and if tk_cact is set then tk_ds is set, or u is in F (the task whose body is running /
                 whose _continue frame is live, and the callers suspended in value()), or E u (at the head of the
                 _execute loop: u is the top of the current level's segment);
     own s F   : every member of F is an uncompleted task whose contexts are active;
     stk ts vs : the task stack ts decomposes along the FValue levels of the frames vs.

   That a task with scheduled dependencies on the stack AWAITS the running task is MachineC04S.v / MachineC07S.v;
   the alternation of the resume/pause events is MachineC06S.v. *)
From Asynq Require Import Machine proofs.ProgProofs proofs.MachineFrame proofs.MachineC05 proofs.MachineC08
  proofs.MachineHelpers proofs.MachineCases proofs.MachineC01 proofs.MachineC01S proofs.MachineDFS proofs.MachineC06T.

Definition flagged (tk : task) : Prop := tk_ds tk = true \/ tk_cact tk = true.

Definition efl (ts F : list fid) (E : fid -> Prop) (u : fid) (tk : task) : Prop :=
  (flagged tk -> In u ts) /\ (tk_ds tk = true -> tk_cact tk = true) /\
  (tk_cact tk = true -> tk_ds tk = true \/ In u F \/ E u).

Definition fl (s : st) (F : list fid) (E : fid -> Prop) : Prop :=
  forall u tk, get u s = Some (mkFut None (KTask tk)) -> efl (tasks s) F E u tk.

Definition own (s : st) (F : list fid) : Prop :=
  forall t, In t F -> exists tk, get t s = Some (mkFut None (KTask tk)) /\ tk_cact tk = true.

Definition nobody : fid -> Prop := fun _ => False.

(* an entry without flags satisfies everything *)
Lemma efl_unflagged ts F E u tk : tk_ds tk = false -> tk_cact tk = false -> efl ts F E u tk.
Proof. intros E1 E2. unfold efl, flagged. rewrite E1, E2. intuition discriminate. Qed.

Lemma efl_mono ts ts' F F' (E E' : fid -> Prop) u tk :
  (In u ts -> In u ts') -> (In u F \/ E u -> In u F' \/ E' u) -> efl ts F E u tk -> efl ts' F' E' u tk.
Proof.
  intros Hts HFE (A & B & C). split; [auto|]. split; [exact B|].
  intros Hc. destruct (C Hc) as [D|D]; auto.
Qed.

(* the same heap; the stack, F and E may grow *)
Lemma fl_view s s' F F' (E E' : fid -> Prop) :
  fl s F E -> heap s' = heap s -> (forall u, In u (tasks s) -> In u (tasks s')) ->
  (forall u, In u F \/ E u -> In u F' \/ E' u) -> fl s' F' E'.
Proof.
  intros H Hh Hts HFE u tk Hg. rewrite (get_view s s' Hh u) in Hg.
  exact (efl_mono _ _ _ _ _ _ u tk (Hts u) (HFE u) (H u tk Hg)).
Qed.

Lemma own_view s s' F : own s F -> heap s' = heap s -> own s' F.
Proof. intros H Hh t Ht. rewrite (get_view s s' Hh t). exact (H t Ht). Qed.

(* The entry of x, the task the scheduler is working on, is replaced.  Before, x was the one task allowed to have
   active contexts without being in F; afterwards its new entry answers for itself.  Nobody in O is touched. *)
Lemma head_step s s' x F F' (E' : fid -> Prop) O :
  fl s F (fun u => u = x) -> own s O -> ~ In x O ->
  (forall u, u <> x -> get u s' = get u s) ->
  (forall tk', get x s' = Some (mkFut None (KTask tk')) -> efl (tasks s') F' E' x tk') ->
  (forall u, u <> x -> In u (tasks s) -> In u (tasks s')) -> incl F F' ->
  fl s' F' E' /\ own s' O.
Proof.
  intros Hfl Hown HxO Hoth Hx Hts HF. split.
  - intros u tk Hg. destruct (fid_eqb_spec u x) as [->|N]; [exact (Hx tk Hg)|]. rewrite (Hoth u N) in Hg.
    apply (efl_mono _ _ _ _ _ _ u tk (Hts u N)) with (2 := Hfl u tk Hg). intros [H|H]; [left; exact (HF u H)|destruct (N H)].
  - intros u Hu. rewrite Hoth; [exact (Hown u Hu)|]. intros ->. exact (HxO Hu).
Qed.

(* with an empty stack nobody carries a flag *)
Lemma fl_empty s F E : fl s F E -> tasks s = [] ->
  forall u tk, get u s = Some (mkFut None (KTask tk)) -> tk_cact tk = false /\ tk_ds tk = false.
Proof.
  intros H Hts u tk Hg. destruct (H u tk Hg) as (A & _). rewrite Hts in A.
  destruct (tk_cact tk) eqn:E1; [destruct (A (or_intror E1))|]. destruct (tk_ds tk) eqn:E2; [destruct (A (or_introl E2))|]. auto.
Qed.

(* x, the running task of F, as the task at work *)
Lemma fl_head s x F : fl s (x :: F) nobody -> fl s F (fun u => u = x).
Proof. intros H. apply (fl_view s _ _ _ _ _ H); [reflexivity|auto|]. intros u [[<-|Hu]|[]]; auto. Qed.

(* the two flags of an uncompleted task; fl and own see the heap through them *)
Definition flags (s : st) (u : fid) : bool * bool :=
  match get u s with Some (mkFut None (KTask tk)) => (tk_ds tk, tk_cact tk) | _ => (false, false) end.

Definition same_flags (s s' : st) : Prop := tasks s' = tasks s /\ forall u, flags s' u = flags s u.

Lemma same_flags_fl s s' F E : same_flags s s' -> fl s F E -> fl s' F E.
Proof.
  intros (Et & Hf) H u tk' Hg. specialize (Hf u). unfold flags in Hf. rewrite Hg in Hf. rewrite Et.
  destruct (get u s) as [[[o|] [tk| | |]]|] eqn:G; injection Hf as D1 D2; try (apply efl_unflagged; assumption).
  unfold efl, flagged. rewrite D1, D2. exact (H u tk G).
Qed.

Lemma same_flags_own s s' O : same_flags s s' -> own s O -> own s' O.
Proof.
  intros (_ & Hf) H t Ht. destruct (H t Ht) as (tk & Hg & Hc). specialize (Hf t). unfold flags in Hf. rewrite Hg, Hc in Hf.
  destruct (get t s') as [[[o|] [tk'| | |]]|]; inversion Hf. eauto.
Qed.

Lemma same_flags_trans a b c : same_flags a b -> same_flags b c -> same_flags a c.
Proof. intros (E1 & H1) (E2 & H2). split; [congruence|]. intros u. rewrite H2. apply H1. Qed.

Lemma same_flags_view s s' : heap s' = heap s -> tasks s' = tasks s -> same_flags s s'.
Proof. intros Hh Et. split; [exact Et|]. intros u. unfold flags, get. rewrite Hh. reflexivity. Qed.

(* a flush completes batch items *)
Lemma same_flags_item_steps s s' : item_steps s s' -> tasks s' = tasks s -> same_flags s s'.
Proof.
  intros (_ & _ & H) Et. split; [exact Et|]. intros u. unfold flags.
  destruct (H u) as [E|(? & ? & ? & ? & G & G')]; [rewrite E|rewrite G, G']; reflexivity.
Qed.

(* the entry of an uncompleted task is replaced by one with the same flags *)
Lemma same_flags_tupd s s' x tk tk' : get x s = Some (mkFut None (KTask tk)) -> tupd s s' x None tk' ->
  tk_ds tk' = tk_ds tk -> tk_cact tk' = tk_cact tk -> same_flags s s'.
Proof.
  intros Hg U D1 D2. split; [exact (tupd_tasks _ _ _ _ _ U)|]. destruct U as (A & B & _). intros u. unfold flags.
  destruct (fid_eqb_spec u x) as [->|N]; [rewrite A, Hg, D1, D2|rewrite (B u N)]; reflexivity.
Qed.

Lemma create_entries p f s :
  exists e, get [top_next s] (snd (create p f s)) = Some e /\
    (forall tk, e = mkFut None (KTask tk) -> tk_ds tk = false /\ tk_cact tk = false) /\
    (forall x, x <> [top_next s] -> get x (snd (create p f s)) = get x s).
Proof.
  destruct (create_spec p f s) as (_ & _ & Hoth & Hnew & _). exists (new_entry f s). split; [exact Hnew|]. split; [|exact Hoth].
  intros tk E. destruct f; inversion E. auto.
Qed.

(* new futures carry no flag *)
Lemma same_flags_create p f s : above_free s -> same_flags s (snd (create p f s)).
Proof.
  intros Hf. split; [exact (tasks_of_regs _ _ (regs_create p f s))|]. intros u. unfold flags.
  destruct (create_entries p f s) as (e & Hnew & He & Hoth).
  destruct (fid_eqb_spec u [top_next s]) as [->|N]; [|rewrite (Hoth u N); reflexivity]. rewrite Hnew, (Hf _ (Z.le_refl _)).
  destruct e as [[o|] [tk| | |]]; try reflexivity. destruct (He tk eq_refl) as [-> ->]. reflexivity.
Qed.

Lemma same_flags_inst p y s : above_free s -> same_flags s (snd (inst p y s)).
Proof.
  intros Hf. apply (inst_pres (fun s' => above_free s' /\ same_flags s s')); [|split; [exact Hf|split; reflexivity]].
  intros p0 f s0 (F0 & H0). split; [apply create_old; exact F0|exact (same_flags_trans _ _ _ H0 (same_flags_create p0 f s0 F0))].
Qed.

Lemma SI_noraise spec R s t out tk : SI spec R s -> get t s = Some (mkFut out (KTask tk)) -> noraise (tk_ctxs tk).
Proof. intros HS Hg. apply plain_noraise. exact (SI_plain _ _ _ _ _ _ HS Hg). Qed.

Lemma SI_above_free spec R s : SI spec R s -> above_free s.
Proof.
  intros HS n Hn. destruct (get [n] s) as [f|] eqn:E; [|reflexivity]. exfalso.
  pose proof (SI_fnum_lt _ _ _ _ _ HS E) as H. cbn in H. lia.
Qed.

(* the task at work in the loop of a level is younger than the callers suspended below that level *)
Lemma caller_older res spec ts i r vs t : lv_ok res spec ts i r vs -> (fnum r <= fnum t)%Z -> ~ In t (fvals vs).
Proof. intros Hlv Hrt Hin. pose proof (wt_ok_fvals _ _ _ _ _ (proj2 Hlv) t Hin). lia. Qed.

Lemma top_younger res spec x ts i r vs : lv_ok res spec (x :: ts) i r vs -> (i < length (x :: ts))%nat -> ~ In x (fvals vs).
Proof. intros Hlv Hlt. apply (caller_older _ _ _ _ _ _ _ Hlv), (proj1 Hlv), hi_top. cbn [length] in Hlt. lia. Qed.

(* [stk ts fr]: fr is a stack of frames to which a value() call will return, ts the scheduler's task stack at
   that moment.  At the outermost call the stack is empty; a caller t suspended in value() inside the loop of
   level i sits on top of that level's segment, which lies on a stack of height i belonging to the levels below *)
Inductive stk : list fid -> list frame -> Prop :=
| stk_top : stk [] [FTop]
| stk_val t k old i r vs rest below :
    length below = i -> stk below vs ->
    stk (t :: rest ++ below) (FValue t k :: FCont t old :: FExec i :: FWait r :: vs).

(* a flush issued by the outermost loop sees an empty stack *)
Lemma stk_outer ts vs : stk ts vs -> fvals vs = [] -> ts = [].
Proof. intros H. destruct H; [reflexivity|cbn; discriminate]. Qed.

(* the suspended callers are on the stack *)
Lemma stk_fvals ts vs : stk ts vs -> forall t, In t (fvals vs) -> In t ts.
Proof.
  intros H. induction H as [|t k old i r vs rest below Hl Hb IH]; intros x Hx; [destruct Hx|].
  cbn [fvals] in Hx. destruct Hx as [<-|Hx]; [left; reflexivity|]. right. apply in_or_app. right. apply IH. exact Hx.
Qed.

Definition stackS (m : mode) (fr : list frame) (s : st) : Prop :=
  match m with
  | MValue _ | MDeliver _ => stk (tasks s) fr /\ fl s (fvals fr) nobody /\ own s (fvals fr)
  | MWaitHead | MAfterExec =>
    exists r vs, fr = FWait r :: vs /\ stk (tasks s) vs /\ fl s (fvals vs) nobody /\ own s (fvals vs)
  | MExecLoop =>
    exists i r vs seg below, fr = FExec i :: FWait r :: vs /\ tasks s = seg ++ below /\ length below = i /\
      stk below vs /\ fl s (fvals vs) (fun u => exists seg', seg = u :: seg') /\ own s (fvals vs)
  | MResume t | MRun t _ =>
    exists old i r vs rest below, fr = FCont t old :: FExec i :: FWait r :: vs /\
      tasks s = t :: rest ++ below /\ length below = i /\ stk below vs /\
      fl s (t :: fvals vs) nobody /\ own s (t :: fvals vs)
  | MContRet =>
    exists t old i r vs rest below, fr = FCont t old :: FExec i :: FWait r :: vs /\
      tasks s = t :: rest ++ below /\ length below = i /\ stk below vs /\
      fl s (t :: fvals vs) nobody /\ own s (fvals vs)
  | MDone _ => tasks s = [] /\ fl s [] nobody
  | MUnwind _ | MStuck => True
  end.

Definition stackC (c : cfg) : Prop := stackS (c_mode c) (c_frames c) (c_st c).

Lemma own_tl s t F : own s (t :: F) -> own s F.
Proof. intros H u Hu. apply H. right. exact Hu. Qed.

(* in every mode the callers suspended in value() have their contexts active *)
Lemma stackS_own m fr s : is_final m = false -> is_unwind m = false -> stackS m fr s -> own s (fvals fr).
Proof.
  destruct m; cbn [stackS is_unwind is_final]; intros Hf Hu HK; try discriminate; decompose [ex and] HK; subst; cbn [fvals];
    eauto using own_tl.
Qed.

(* the running task has its contexts active *)
Lemma stackS_running t p fr s : stackS (MRun t p) fr s ->
  exists tk, get t s = Some (mkFut None (KTask tk)) /\ tk_cact tk = true.
Proof. intros (old & i & r & vs & rest & below & _ & _ & _ & _ & _ & Hown). exact (Hown t (or_introl eq_refl)). Qed.

Lemma ex_mono {A} (P Q : A -> Prop) : (forall x, P x -> Q x) -> ex P -> ex Q.
Proof. intros H (x & Hx). exists x. auto. Qed.

(* stackS looks at the state through its stack and the flags *)
Lemma stackS_flags m fr s s' : same_flags s s' -> stackS m fr s -> stackS m fr s'.
Proof.
  intros H. pose proof (same_flags_fl s s') as Tf. pose proof (same_flags_own s s') as To.
  destruct m; cbn [stackS]; rewrite ?(proj1 H); repeat (apply ex_mono; intro); intuition auto.
Qed.

(* popping the top x of the current segment once x is no longer a flagged uncompleted task *)
Lemma stackS_pop s s' x seg below i r vs :
  length below = i -> stk below vs -> tasks s = x :: seg ++ below -> fl s (fvals vs) (fun u => u = x) -> own s (fvals vs) ->
  ~ In x (fvals vs) -> (forall u, u <> x -> get u s' = get u s) ->
  (forall tk, get x s' = Some (mkFut None (KTask tk)) -> tk_ds tk = false /\ tk_cact tk = false) ->
  tasks s' = tasks s -> stackS MExecLoop (FExec i :: FWait r :: vs) (pop_task s').
Proof.
  intros Hl Hstk Hts Hfl Hown HxO Hoth Hx Hts'. exists i, r, vs, seg, below. cbn [pop_task tasks with_tasks]. rewrite Hts', Hts.
  split; [reflexivity|]. split; [reflexivity|]. split; [exact Hl|]. split; [exact Hstk|].
  apply (head_step s (pop_task s') x _ _ _ _ Hfl Hown HxO Hoth); [|cbn; rewrite Hts', Hts; intros u N [E|H]; [destruct (N (eq_sym E))|exact H]|apply incl_refl].
  intros tk Hg. destruct (Hx tk Hg). apply efl_unflagged; assumption.
Qed.

Lemma schedule_batch_view k s : (forall u, get u (schedule_batch k s) = get u s) /\ tasks (schedule_batch k s) = tasks s.
Proof. destruct (schedule_batch_cases k s) as [E|E]; rewrite E; auto. Qed.

(* an uncompleted task whose generator is not executing is suspended *)
Lemma SI_gen spec (R : fid -> Prop) s t tk : SI spec R s -> get t s = Some (mkFut None (KTask tk)) -> ~ R t ->
  exists k, tk_gen tk = Some k.
Proof.
  intros HS Hg Hr. destruct (SI_entry _ _ _ _ _ HS Hg) as (_ & o & _ & _ & _ & _ & Hk).
  destruct (Hk eq_refl Hr) as (k & K1 & _). eauto.
Qed.

Section FlagsS.
  Variable P : params.
  Hypothesis HP : pointwise P.
  Variable res : outcome.

  Definition FLS (spec : specmap) (c : cfg) : Prop := CI res spec c /\ stackC c.

  Lemma fls_MValue spec h fr s : FLS spec (mkC (MValue h) fr s) -> FLS spec (step P (mkC (MValue h) fr s)).
  Proof.
    intros (HC & HK). split; [apply (s01_MValue P res); exact HC|].
    destruct HC as (_ & _ & Ht). cbn [c_mode c_frames c_st mode_ok] in Ht. cbn [step c_mode c_frames c_st].
    destruct (computed h s); [exact HK|]. destruct Ht as (out & tk & Hg). rewrite Hg.
    exists h, fr. split; [reflexivity|exact HK].
  Qed.

  (* value() returns from wait_for: only the set of scheduled batches may change *)
  Lemma stackS_deliver o vs s : stackS (MDeliver o) vs s -> stackC (mkC (MDeliver o) vs (drop_sb s)).
  Proof. apply stackS_flags, same_flags_view; [apply heap_drop_sb|apply tasks_drop_sb]. Qed.

  Lemma fls_MWaitHead spec fr s : FLS spec (mkC MWaitHead fr s) -> FLS spec (step P (mkC MWaitHead fr s)).
  Proof.
    intros (HC & HK). split; [apply (s01_MWaitHead P res); exact HC|].
    change (stackS MWaitHead fr s) in HK. destruct HK as (r & vs & -> & H). cbn [step c_mode c_frames c_st].
    destruct (computed r s); [exact (stackS_deliver _ vs s H)|]. destruct H as (Hstk & Hfl & Hown).
    exists (length (tasks s)), r, vs, [r], (tasks s). do 3 (split; [reflexivity|]). split; [exact Hstk|].
    split; [|exact (own_view s _ _ Hown eq_refl)].
    apply (fl_view s _ _ _ _ _ Hfl); [reflexivity|intros u Hu; right; exact Hu|]. intros u [Hu|[]]. left. exact Hu.
  Qed.

  Lemma fls_MAfterExec spec fr s : FLS spec (mkC MAfterExec fr s) -> FLS spec (step P (mkC MAfterExec fr s)).
  Proof.
    intros (HC & HK). split; [apply (s01_MAfterExec P HP res); exact HC|].
    destruct HC as (_ & HS & _). cbn [c_mode c_frames c_st] in HS.
    change (stackS MAfterExec fr s) in HK. pose proof HK as (r & vs & -> & H). cbn [step c_mode c_frames c_st].
    destruct (computed r s); [exact (stackS_deliver _ vs s H)|].
    apply (stackS_flags MAfterExec _ s); [|exact HK].
    apply (same_flags_item_steps _ _ (continue_with_batch_item_steps P s HP (SI_items _ _ _ HS))).
    exact (tasks_of_regs _ _ (regs_continue_with_batch P s)).
  Qed.

  Lemma fls_MExecLoop spec fr s : FLS spec (mkC MExecLoop fr s) -> FLS spec (step P (mkC MExecLoop fr s)).
  Proof.
    intros (HC & HK). split; [apply (s01_MExecLoop P res); exact HC|]. change (stackS MExecLoop fr s) in HK.
    destruct HK as (init & r & vs & seg & below & -> & Hts & Hlen & Hstk & Hfl & Hown).
    destruct HC as (Hf & HS & _). cbn [c_mode c_frames c_st] in *. destruct Hf as (i' & r' & vs' & E & Hlv). injection E as <- <- <-.
    cbn [R_of fvals] in HS.
    (* the top of the stack heads the segment of this level; it is younger than every suspended caller *)
    assert (Htop : forall x ts, tasks s = x :: ts -> (init < length (tasks s))%nat ->
              exists seg', seg = x :: seg' /\ ts = seg' ++ below /\ fl s (fvals vs) (fun u => u = x) /\ ~ In x (fvals vs)).
    { intros x ts Hts0 Hlt. destruct seg as [|y seg']; cbn [app] in Hts; [rewrite Hts, Hlen in Hlt; lia|].
      rewrite Hts0 in Hlv, Hlt, Hts. injection Hts as -> ->. exists seg'. do 2 (split; [reflexivity|]). split; [|exact (top_younger _ _ _ _ _ _ _ Hlv Hlt)].
      apply (fl_view s _ _ _ _ _ Hfl); [reflexivity|auto|]. intros u [H|(sg & H)]; [left; exact H|right]. inversion H. reflexivity. }
    destruct (step_MExecLoop P init (FWait r :: vs) s (fun t out tk => SI_noraise _ _ _ t out tk HS))
      as [Hle| |x ts Hts0 Hlt Hx|x ts kind idx key a Hts0 Hlt Hg|x ts o Hts0 Hlt Hg|x ts tk s2 Hts0 Hlt Hg Hb Hds U|x ts tk s2 Hts0 Hlt Hg Hb Hds U|x ts tk s2 Hts0 Hlt Hg Hb U];
      try (destruct (Htop x ts Hts0 Hlt) as (seg' & -> & -> & Hfl' & HxR); clear Htop Hfl Hts; rename Hts0 into Hts;
           pose proof (fun s' => stackS_pop s s' x seg' below init r vs Hlen Hstk Hts Hfl' Hown HxR) as Hpop);
      try (pose proof (tupd_tasks _ _ _ _ _ U) as Et; destruct U as (A & B & _)); unfold stackC; cbn [c_mode c_frames c_st].
    - assert (seg = []) as -> by (rewrite Hts, app_length, Hlen in Hle; destruct seg; [reflexivity|cbn in Hle; lia]).
      exists r, vs. split; [reflexivity|]. rewrite Hts. split; [exact Hstk|]. split; [|exact Hown].
      apply (fl_view s _ _ _ _ _ Hfl); [reflexivity|auto|]. intros u [H|(sg & H)]; [left; exact H|discriminate].
    - exact I.
    - apply Hpop; [reflexivity| |reflexivity].
      intros tk Hg. destruct Hx as [Hx|[Hx|(o & Hx)]]; [unfold computed in Hx; rewrite Hg in Hx|rewrite Hg in Hx|rewrite Hg in Hx]; discriminate.
    - (* a batch item: its batch is scheduled *)
      destruct (schedule_batch_view (kind, idx) s) as (Vg & Vt). apply Hpop; [intros u _; apply Vg| |exact Vt].
      intros tk Hg'. rewrite Vg in Hg'. congruence.
    - (* a lazy future: computed inline *)
      apply Hpop; [intros u N; apply get_put_other; exact N| |reflexivity].
      intros tk' Hg'. rewrite get_put_same in Hg'. discriminate.
    - (* settled: both flags cleared, popped *)
      apply (Hpop s2 B); [|exact Et]. intros tk' Hg'. rewrite A in Hg'. inversion Hg'. auto.
    - (* first visit: both flags set, the uncomputed dependencies pushed *)
      eexists init, r, vs, (_ ++ x :: seg'), below. cbn [tasks with_tasks]. split; [reflexivity|]. split; [exact (app_assoc _ (x :: seg') below)|]. split; [exact Hlen|]. split; [exact Hstk|].
      apply (head_step s (with_tasks s2 _) x _ _ _ _ Hfl' Hown HxR B); [|intros u N Hu; apply in_or_app; right; rewrite <- Hts; exact Hu|apply incl_refl].
      intros tk' Hg'. change (get x s2 = Some (mkFut None (KTask tk'))) in Hg'. rewrite A in Hg'. inversion Hg'.
      split; [intros _; apply in_or_app; right; left; reflexivity|]. split; [reflexivity|]. left. reflexivity.
    - (* not blocked: _continue_with_task *)
      exists (active s), init, r, vs, seg', below. cbn [tasks with_active]. rewrite Et. do 4 (split; [assumption||reflexivity|]).
      destruct (head_step s (with_active s2 (Some x)) x _ (x :: fvals vs) nobody _ Hfl' Hown HxR B) as (F1 & O1);
        [|cbn; rewrite Et; auto|apply incl_tl, incl_refl|].
      { intros tk' Hg'. change (get x s2 = Some (mkFut None (KTask tk'))) in Hg'. rewrite A in Hg'. inversion Hg'.
        split; [intros _; cbn; rewrite Et, Hts; left; reflexivity|]. split; [reflexivity|]. right. left. left. reflexivity. }
      split; [exact F1|]. intros u [<-|Hu]; [|exact (O1 u Hu)]. eexists. split; [exact A|reflexivity].
  Qed.

  Lemma fls_MResume spec t fr s : FLS spec (mkC (MResume t) fr s) -> FLS spec (step P (mkC (MResume t) fr s)).
  Proof.
    intros (HC & HK). split; [apply (s01_MResume P res); exact HC|].
    destruct HC as (Hf & HS & (tk & Hg & _)). cbn [c_mode c_frames c_st] in *.
    destruct Hf as (old & i & r & vs & -> & Hrt & Hlv). cbn [R_of fvals] in HS.
    destruct (SI_gen _ _ _ _ _ HS Hg (caller_older _ _ _ _ _ _ _ Hlv Hrt)) as (k & K1).
    destruct (step_MResume P t (FCont t old :: FExec i :: FWait r :: vs) s tk k Hg K1) as (s2 & -> & U & _).
    exact (stackS_flags (MResume t) _ s s2 (same_flags_tupd s s2 t tk _ Hg U eq_refl eq_refl) HK).
  Qed.

  Lemma fls_MContRet spec fr s : FLS spec (mkC MContRet fr s) -> FLS spec (step P (mkC MContRet fr s)).
  Proof.
    intros (HC & HK). split; [apply (s01_MContRet P res); exact HC|]. change (stackS MContRet fr s) in HK.
    destruct HK as (t & old & i & r & vs & rest & below & -> & Hts & Hlen & Hstk & Hfl & Hown). apply fl_head in Hfl.
    destruct HC as (Hf & _). cbn [c_mode c_frames c_st] in *. destruct Hf as (t' & old' & i' & r' & vs' & E & Hrt & Hlv).
    injection E as <- <- <- <- <-.
    destruct (step_MContRet_cases P t old (FExec i :: FWait r :: vs) s) as (s2 & -> & [(-> & _)|(out & tk & Hg & U)]);
      exists i, r, vs, (t :: rest), below; cbn [c_st].
    - do 4 (split; [assumption||reflexivity|]). split; [|exact Hown].
      apply (fl_view s _ _ _ _ _ Hfl); [reflexivity|auto|]. intros u [H| ->]; [left; exact H|right; exists rest; reflexivity].
    - (* t is an ordinary stack entry again: top of the segment, dependencies not scheduled *)
      pose proof (tupd_tasks _ _ _ _ _ U : tasks s2 = tasks s) as Et. destruct U as (A & B & _). rewrite Et.
      do 4 (split; [assumption||reflexivity|]).
      apply (head_step s s2 t _ _ _ _ Hfl Hown (caller_older _ _ _ _ _ _ _ Hlv Hrt) B); [|rewrite Et; auto|apply incl_refl].
      intros tk' Hg'. rewrite A in Hg'. inversion Hg'; subst out tk'. rewrite Et, Hts.
      split; [intros _; left; reflexivity|]. split; [discriminate|]. right. right. exists rest. reflexivity.
  Qed.

  Lemma fls_MDeliver spec o fr s : FLS spec (mkC (MDeliver o) fr s) -> FLS spec (step P (mkC (MDeliver o) fr s)).
  Proof.
    intros (HC & HK). split; [apply (s01_MDeliver P res); exact HC|]. clear HC.
    change (stackS (MDeliver o) fr s) in HK. destruct HK as (Hstk & Hfl & Hown).
    inversion Hstk as [E1 E2|t k old i r vs rest below Hlen Hbel E1 E2]; subst fr; cbn [step c_mode c_frames c_st].
    - (* the outermost call returns: the stack is empty, nobody is left resumed *)
      split; [symmetry; exact E1|exact Hfl].
    - exists old, i, r, vs, rest, below. cbn [c_st tasks emit]. do 4 (split; [assumption||auto|]).
      split; [exact (fl_view s _ _ _ _ _ Hfl eq_refl (fun u H => H) (fun u H => H))|exact (own_view s _ _ Hown eq_refl)].
  Qed.

  Lemma fls_MRun spec t p fr s : FLS spec (mkC (MRun t p) fr s) -> exists spec', FLS spec' (step P (mkC (MRun t p) fr s)).
  Proof.
    intros (HC & HK). destruct (s01_MRun P res spec t p fr s HC) as (spec' & HC'). exists spec'. split; [exact HC'|].
    clear HC' spec'. change (stackS (MRun t p) fr s) in HK.
    pose proof HK as (old & i & r & vs & rest & below & -> & Hts & Hlen & Hstk & Hfl & Hown).
    destruct HC as (Hf & HS & Hm). cbn [c_mode c_frames c_st] in *. destruct Hf as (old' & i' & r' & vs' & E & Hrt & Hlv).
    injection E as <- <- <- <-. cbn [R_of fvals] in HS. pose proof (SI_above_free _ _ _ HS) as Hfree.
    set (fr := FCont t old :: FExec i :: FWait r :: vs) in *. destruct (Hown t (or_introl eq_refl)) as (tk & Hg & _).
    (* most steps of the body leave the stack and every flag as they are *)
    assert (Hsame : forall s2 q, same_flags s s2 -> stackS (MRun t q) fr s2) by (intros s2 q H2; exact (stackS_flags _ _ s s2 H2 HK)).
    (* otherwise the frames and the stack stay and t stops running *)
    assert (Hcont : forall s2, tasks s2 = tasks s -> fl s2 (t :: fvals vs) nobody -> own s2 (fvals vs) -> stackS MContRet fr s2).
    { intros s2 Et F2 O2. exists t, old, i, r, vs, rest, below. rewrite Et. auto 7. }
    destruct Hm as [(Htree & Hst)|(h & k & oh & -> & _)].
    2:{ (* the synchronous call proper: the caller becomes the owner of a new FValue frame *)
      cbn [step c_mode c_frames c_st]. split; [|split; assumption]. cbn [c_st]. rewrite Hts. apply stk_val; assumption. }
    (* the body finishes: the entry becomes computed *)
    assert (Hfin : forall q o, finishes q o -> stackC (step P (mkC (MRun t q) fr s))).
    { intros q o Hq. destruct (step_run_finish P t fr s tk Hg q o Hq) as (s2 & -> & U & _).
      pose proof (tupd_tasks _ _ _ _ _ U) as Et. destruct U as (A & B & _).
      destruct (head_step s s2 t _ (t :: fvals vs) nobody _ (fl_head _ _ _ Hfl) (own_tl _ _ _ Hown) (caller_older _ _ _ _ _ _ _ Hlv Hrt) B)
        as (F2 & O2); [intros tk' Hg'; rewrite A in Hg'; discriminate|rewrite Et; auto|apply incl_tl, incl_refl|exact (Hcont s2 Et F2 O2)]. }
    inversion Htree as [v Ev|v Ev|e Ev|y k Hl Hk Ev|c k Hc Hk Ev|c k Hc Hk Ev|q k Hq Hk Ev]; subst p.
    - exact (Hfin _ _ (fin_ret v)).
    - exact (Hfin _ _ (fin_result v)).
    - exact (Hfin _ _ (fin_raise e)).
    - (* Yield: the new entries carry no flags *)
      destruct (step_run_yield P t fr s tk Hg y k Hfree) as (s2 & -> & Hg1 & U).
      pose proof (same_flags_trans _ _ _ (same_flags_inst t y s Hfree) (same_flags_tupd _ s2 t tk _ Hg1 U eq_refl eq_refl)) as S2.
      destruct (futs (extract (fst (inst t y s)))); [exact (Hsame s2 (Ret VNone) S2)|].
      exact (Hcont s2 (proj1 S2) (same_flags_fl _ _ _ _ S2 Hfl) (same_flags_own _ _ _ S2 (own_tl _ _ _ Hown))).
    - destruct (step_run_enter P t fr s tk Hg c k) as (s2 & -> & U). exact (Hsame s2 k (same_flags_tupd s s2 t tk _ Hg U eq_refl eq_refl)).
    - destruct (step_run_exit P t fr s tk Hg c k) as (s2 & -> & U). exact (Hsame s2 k (same_flags_tupd s s2 t tk _ Hg U eq_refl eq_refl)).
    - (* a synchronous call: the callee task is created (no flags) *)
      rewrite step_run_let. exact (Hsame _ _ (same_flags_create t (FTask q) s Hfree)).
  Qed.

  Theorem fls_step spec c : is_unwind (c_mode c) = false -> FLS spec c -> exists spec', FLS spec' (step P c).
  Proof.
    destruct c as [m fr s]. destruct m; cbn [c_mode is_unwind]; intros Hu HI; try discriminate;
      eauto using fls_MValue, fls_MWaitHead, fls_MAfterExec, fls_MExecLoop, fls_MResume, fls_MRun, fls_MContRet, fls_MDeliver;
      exists spec; exact HI.
  Qed.

  Theorem fls_run n spec c : FLS spec c -> no_unwind P n c -> exists spec', FLS spec' (run P n c).
  Proof.
    intros HI Hn. apply (run_invariant P (fun c => exists spec, FLS spec c)); [|eauto|intros k Hk; apply Hn; lia].
    intros c0 Hu (spec0 & H0). exact (fls_step spec0 c0 Hu H0).
  Qed.
End FlagsS.

Section C06S.
  Variable P : params.
  Hypothesis HP : pointwise P.
  Variable p : prog.
  Hypothesis Hp : stree p.

  Let h := fst (create [] (FTask p) (st0 P)).
  Let s1 := snd (create [] (FTask p) (st0 P)).

  Lemma fls_start : exists spec, FLS (evals p) spec (start h s1).
  Proof.
    eexists. split; [exact (CI_start _ (st0 P) p Hp (SI_empty P))|].
    assert (H0 : stackS (MValue h) [FTop] (st0 P)) by (split; [exact stk_top|]; split; [intros u tk Hg|intros t []]; discriminate Hg).
    exact (stackS_flags _ _ _ _ (same_flags_create [] (FTask p) (st0 P) (fun n _ => eq_refl)) H0).
  Qed.

  Lemma fls_reach n : no_unwind P n (start h s1) -> exists spec, FLS (evals p) spec (run P n (start h s1)).
  Proof. intros Hn. destruct fls_start as (spec & H). exact (fls_run P HP (evals p) n spec _ H Hn). Qed.

  Lemma stack_reach n m : no_unwind P n (start h s1) -> c_mode (run P n (start h s1)) = m ->
    stackS m (c_frames (run P n (start h s1))) (c_st (run P n (start h s1))).
  Proof. intros Hn <-. destruct (fls_reach n Hn) as (spec & _ & HK). exact HK. Qed.

  (* At the end of every _execute pass - the point where the loop, outermost or nested below callers that are
     inside value(), flushes a batch -
     - the task stack is exactly what the enclosing levels own: empty for the outermost loop, and for a loop nested
       in a synchronous call made by t it is  t :: rest ++ below  with below of the height recorded in t's level
       (stk; the segment of the finished pass itself is empty);
     - the callers suspended in value() all have their contexts active: they are not paused around the flush;
     - every other uncompleted task that has active contexts (or its dependencies marked scheduled) is on that
       stack, i.e. at or below the innermost suspended caller, has its contexts active and HAS SCHEDULED ITS
       DEPENDENCIES (it is suspended at a yield, waiting); every task that is not on the stack is paused *)
  Theorem flush_stree n :
    no_unwind P n (start h s1) -> c_mode (run P n (start h s1)) = MAfterExec ->
    let c := run P n (start h s1) in
    exists r vs, c_frames c = FWait r :: vs /\ stk (tasks (c_st c)) vs /\
      (forall t, In t (fvals vs) -> exists tk, get t (c_st c) = Some (mkFut None (KTask tk)) /\ tk_cact tk = true) /\
      (forall u tk, get u (c_st c) = Some (mkFut None (KTask tk)) -> tk_cact tk = true \/ tk_ds tk = true ->
         In u (tasks (c_st c)) /\ tk_cact tk = true /\ (In u (fvals vs) \/ tk_ds tk = true)).
  Proof.
    intros Hn Hm. cbn zeta. destruct (stack_reach n _ Hn Hm) as (r & vs & Efr & Hstk & Hfl & Hown).
    exists r, vs. split; [exact Efr|]. split; [exact Hstk|]. split; [exact Hown|].
    intros u tk Hg Hf. destruct (Hfl u tk Hg) as (A & B & C).
    assert (Hc : tk_cact tk = true) by (destruct Hf as [Hf|Hf]; [exact Hf|apply B; exact Hf]).
    split; [apply A; destruct Hf as [Hf|Hf]; [right|left]; exact Hf|]. split; [exact Hc|].
    destruct (C Hc) as [D|[D|[]]]; [right; exact D|left; exact D].
  Qed.

  (* A flush issued by the outermost loop (no caller is inside value()): the stack is empty and no uncompleted
     task has active contexts or scheduled dependencies - the statement of MachineDFS.contexts_paused_at_flush_tree,
     for every stree program *)
  Theorem outer_flush_stree n :
    no_unwind P n (start h s1) -> c_mode (run P n (start h s1)) = MAfterExec ->
    fvals (c_frames (run P n (start h s1))) = [] ->
    tasks (c_st (run P n (start h s1))) = [] /\
    forall u tk, get u (c_st (run P n (start h s1))) = Some (mkFut None (KTask tk)) ->
      tk_cact tk = false /\ tk_ds tk = false.
  Proof.
    intros Hn Hm Hfv. destruct (stack_reach n _ Hn Hm) as (r & vs & Efr & Hstk & Hfl & _).
    rewrite Efr in Hfv. pose proof (stk_outer _ _ Hstk Hfv) as Hts. split; [exact Hts|exact (fl_empty _ _ _ Hfl Hts)].
  Qed.

  (* flush_stree for a nested flush, spelled out: when the loop that waits for r below the caller t (frames
     FWait r :: FValue t k :: ...) ends a pass, the caller's level is  FCont t old :: FExec i :: FWait r' :: vs,
     the stack is  t :: rest ++ below  with t on top and  length below = i  as recorded by the caller's _execute
     frame, t's contexts are active, and every flagged uncompleted task is t or lies below t on that stack *)
  Theorem nested_flush_stree n r t k fr' :
    no_unwind P n (start h s1) -> c_mode (run P n (start h s1)) = MAfterExec ->
    c_frames (run P n (start h s1)) = FWait r :: FValue t k :: fr' ->
    let s := c_st (run P n (start h s1)) in
    exists old i r' vs rest below,
      fr' = FCont t old :: FExec i :: FWait r' :: vs /\ tasks s = t :: rest ++ below /\ length below = i /\
      stk below vs /\
      (exists tk, get t s = Some (mkFut None (KTask tk)) /\ tk_cact tk = true) /\
      (forall u tk, get u s = Some (mkFut None (KTask tk)) -> tk_cact tk = true \/ tk_ds tk = true ->
         (u = t \/ In u (rest ++ below)) /\ tk_cact tk = true /\ (u = t \/ In u (fvals vs) \/ tk_ds tk = true)).
  Proof.
    intros Hn Hm Hfr. cbn zeta. destruct (flush_stree n Hn Hm) as (r0 & vs0 & Efr & Hstk & Hown & Hall). cbn zeta in *.
    rewrite Efr in Hfr. injection Hfr as E1 E2. subst r0 vs0.
    inversion Hstk as [|t' k' old i r' vs rest below Hlen Hbel Ets]. subst.
    exists old, (length below), r', vs, rest, below.
    split; [reflexivity|]. split; [reflexivity|]. split; [reflexivity|]. split; [exact Hbel|].
    split; [apply Hown; left; reflexivity|].
    intros u tk Hg Hf. destruct (Hall u tk Hg Hf) as (A & B & C).
    rewrite <- Ets in A.
    split; [destruct A as [A|A]; [left; symmetry; exact A|right; exact A]|]. split; [exact B|].
    cbn [fvals] in C. destruct C as [[C|C]|C]; [left; symmetry; exact C|right; left; exact C|right; right; exact C].
  Qed.

  (* when the outermost call has returned the task stack is empty and no uncompleted task (one that was left
     blocked for ever) has active contexts or scheduled dependencies *)
  Theorem end_stree n o :
    no_unwind P n (start h s1) -> c_mode (run P n (start h s1)) = MDone o ->
    tasks (c_st (run P n (start h s1))) = [] /\
    forall u tk, get u (c_st (run P n (start h s1))) = Some (mkFut None (KTask tk)) ->
      tk_cact tk = false /\ tk_ds tk = false.
  Proof.
    intros Hn Hm. destruct (stack_reach n _ Hn Hm) as (Hts & Hfl). split; [exact Hts|exact (fl_empty _ _ _ Hfl Hts)].
  Qed.

  (* While the body of t runs: t is on top of the task stack and its contexts are active; so are the contexts
     of every caller suspended in a synchronous call that (transitively) led to t's code being run; every other
     uncompleted task whose contexts are active is on the task stack and has scheduled its dependencies (it is
     suspended at a yield, waiting for them) - no task is left behind resumed *)
  Theorem running_stree n t q :
    no_unwind P n (start h s1) -> c_mode (run P n (start h s1)) = MRun t q ->
    let c := run P n (start h s1) in
    (exists rest, tasks (c_st c) = t :: rest) /\
    (forall x, x = t \/ In x (fvals (c_frames c)) ->
       exists tk, get x (c_st c) = Some (mkFut None (KTask tk)) /\ tk_cact tk = true) /\
    (forall u tk, get u (c_st c) = Some (mkFut None (KTask tk)) -> tk_cact tk = true ->
       In u (tasks (c_st c)) /\ (u = t \/ In u (fvals (c_frames c)) \/ tk_ds tk = true)).
  Proof.
    intros Hn Hm. cbn zeta. destruct (stack_reach n _ Hn Hm) as (old & i & r & vs & rest & below & -> & Hts & Hlen & Hstk & Hfl & Hown).
    cbn [fvals]. split; [exists (rest ++ below); exact Hts|]. split.
    - intros x Hx. apply Hown. destruct Hx as [->|Hx]; [left; reflexivity|right; exact Hx].
    - intros u tk Hg Hc. destruct (Hfl u tk Hg) as (A & _ & C). split; [apply A; right; exact Hc|].
      destruct (C Hc) as [D|[[D|D]|[]]]; [right; right; exact D|left; symmetry; exact D|right; left; exact D].
  Qed.

  (* "including synchronous calls it makes": at every point of a run - in particular while the nested loops of a
     synchronous call run other tasks and flush batches - every caller that is inside value() has its contexts
     active *)
  Theorem callers_stay_resumed n t :
    no_unwind P n (start h s1) -> is_final (c_mode (run P n (start h s1))) = false ->
    In t (fvals (c_frames (run P n (start h s1)))) ->
    exists tk, get t (c_st (run P n (start h s1))) = Some (mkFut None (KTask tk)) /\ tk_cact tk = true.
  Proof.
    intros Hn Hm Hin. destruct (fls_reach n Hn) as (spec & (_ & HK)).
    exact (stackS_own _ _ _ Hm (Hn n (le_n n)) HK t Hin).
  Qed.
End C06S.

Theorem contexts_paused_at_flush_tree_again P p n :
  pointwise P -> tree p ->
  let h := fst (create [] (FTask p) (st0 P)) in
  let s1 := snd (create [] (FTask p) (st0 P)) in
  no_unwind P n (start h s1) -> c_mode (run P n (start h s1)) = MAfterExec ->
  forall u tk, get u (c_st (run P n (start h s1))) = Some (mkFut None (KTask tk)) ->
    tk_cact tk = false /\ tk_ds tk = false.
Proof. intros HP Ht. exact (contexts_paused_at_flush_tree P HP p Ht n). Qed.

(* "At every scheduler flush no uncompleted task - other than the callers that are inside value() at that
   moment - has active contexts": true for yield-only tree programs (no caller is ever inside value()), false
   once synchronous calls are allowed.  (The still stronger statement without the exception for the callers
   is contradicted by the property itself: "including synchronous calls it makes".) *)
Definition contexts_paused_at_every_flush_stree_statement : Prop :=
  forall P, pointwise P -> forall p, stree p -> forall n,
  let h := fst (create [] (FTask p) (st0 P)) in
  let s1 := snd (create [] (FTask p) (st0 P)) in
  no_unwind P n (start h s1) -> c_mode (run P n (start h s1)) = MAfterExec ->
  forall u tk, get u (c_st (run P n (start h s1))) = Some (mkFut None (KTask tk)) ->
    ~ In u (fvals (c_frames (run P n (start h s1)))) -> tk_cact tk = false /\ tk_ds tk = false.

(* root [0]:    with ctx0:  a, b = yield sib.asynq(), caller.asynq()
   sib [1]:     with ctx2:  v = yield item(kind 0);  return v           - blocks on the batch: paused
   caller [2]:  with ctx1:  v = callee();            return v           - synchronous call
   callee [4]:  v = yield item(kind 0); return v                        - blocks: the NESTED loop flushes the batch
   At the nested flush the caller [2] is inside value() with ctx1 resumed, the root [0] is suspended at its yield
   with ctx0 resumed (it awaits [2], whose code is running), the sibling [1] is paused. *)
Definition c06s_ctx (i : Z) : ctxk := CAsync i NoFault.

Definition c06s_sib : prog :=
  Enter (c06s_ctx 2) (Yield (YLeaf (LNew (FItem 0 1 (ASet (VInt 5)))))
                            (fun o => Exit (c06s_ctx 2) (ret_or_raise (fun v => v) o))).
Definition c06s_callee : prog :=
  Yield (YLeaf (LNew (FItem 0 2 (ASet (VInt 7))))) (ret_or_raise (fun v => v)).
Definition c06s_caller : prog :=
  Enter (c06s_ctx 1) (Let (FTask c06s_callee)
                          (fun h => Sync h (fun o => Exit (c06s_ctx 1) (ret_or_raise (fun v => v) o)))).
Definition c06s_demo : prog :=
  Enter (c06s_ctx 0) (Yield (YTuple [YLeaf (LNew (FTask c06s_sib)); YLeaf (LNew (FTask c06s_caller))])
                            (fun o => Exit (c06s_ctx 0) (ret_or_raise (fun v => v) o))).

Lemma c06s_demo_stree : stree c06s_demo.
Proof.
  unfold c06s_demo. apply st_enter; [reflexivity|]. apply st_yield.
  - intros l Hl. cbn in Hl. destruct Hl as [<-|[<-|[]]]; constructor; constructor.
    + unfold c06s_sib. apply st_enter; [reflexivity|]. apply st_yield.
      * intros l [<-|[]]. repeat constructor.
      * intros o. apply st_exit; [reflexivity|apply ret_or_raise_stree].
    + unfold c06s_caller. apply st_enter; [reflexivity|]. apply st_call.
      * unfold c06s_callee. apply st_yield; [|apply ret_or_raise_stree]. intros l [<-|[]]. repeat constructor.
      * intros o. apply st_exit; [reflexivity|apply ret_or_raise_stree].
  - intros o. apply st_exit; [reflexivity|apply ret_or_raise_stree].
Qed.

Definition c06s_P : params := mkP [] 1000 false [].

Lemma c06s_P_pointwise : pointwise c06s_P.
Proof. intros kind. reflexivity. Qed.

Theorem contexts_paused_at_every_flush_stree_is_false : ~ contexts_paused_at_every_flush_stree_statement.
Proof.
  intros H.
  specialize (H c06s_P c06s_P_pointwise c06s_demo c06s_demo_stree 31%nat). cbn zeta in H.
  assert (Hn : no_unwind c06s_P 31 (start (fst (create [] (FTask c06s_demo) (st0 c06s_P))) (snd (create [] (FTask c06s_demo) (st0 c06s_P)))))
    by (apply no_unwind_b_sound; rewrite no_unwind_b_traj; vm_compute; reflexivity).
  specialize (H Hn ltac:(vm_compute; reflexivity) [0%Z]).
  match type of H with forall tk, ?g = _ -> _ => assert (Hg : exists tk, g = Some (mkFut None (KTask tk)) /\ tk_cact tk = true) end.
  { vm_compute. eexists. split; reflexivity. }
  destruct Hg as (tk & Hg & Hc). destruct (H tk Hg) as (E & _); [|congruence].
  vm_compute. intros [E|[]]. discriminate E.
Qed.

(* the uncompleted tasks of a state with (_contexts_active, _dependencies_scheduled) *)
Definition uflags (s : st) : list (fid * (bool * bool)) :=
  flat_map (fun kv => match snd kv with
                      | mkFut None (KTask tk) => [(fst kv, (tk_cact tk, tk_ds tk))]
                      | _ => []
                      end) (heap s).

Definition is_rp (e : event) : bool :=
  match e with EvResume _ _ | EvPause _ _ | EvBefore _ _ | EvAfter _ _ => true | _ => false end.

(* step 31 is the end of the _execute pass of the loop nested below caller [2]; step 32 is after its flush *)
Example c06s_demo_runs :
  let P := c06s_P in
  let h := fst (create [] (FTask c06s_demo) (st0 P)) in
  let s1 := snd (create [] (FTask c06s_demo) (st0 P)) in
  let c k := run P k (start h s1) in
  no_unwind_b P 100 (start h s1) = true /\
  c_mode (c 100%nat) = MDone (Ok (VTuple [VInt 5; VInt 7])) /\ evals c06s_demo = Ok (VTuple [VInt 5; VInt 7]) /\
  c_mode (c 31%nat) = MAfterExec /\ fvals (c_frames (c 31%nat)) = [[2%Z]] /\ tasks (c_st (c 31%nat)) = [[2%Z]; [0%Z]] /\
  uflags (c_st (c 31%nat)) = [([0%Z], (true, true)); ([1%Z], (false, false)); ([2%Z], (true, false)); ([4%Z], (false, false))] /\
  (* resume/pause events and flush brackets up to the end of the nested flush: the caller's context 1 and the
     root's context 0 are NOT paused around the flush, the sibling's context 2 is *)
  filter is_rp (rev (trace (c_st (c 32%nat)))) =
    [EvResume [0%Z] 0; EvResume [1%Z] 2; EvPause [1%Z] 2; EvResume [2%Z] 1; EvBefore 0 0; EvAfter 0 0] /\
  (* the whole run *)
  rev (trace (c_st (c 100%nat))) =
    [EvStep [0%Z] 0 (Ok VNone); EvResume [0%Z] 0;
     EvStep [1%Z] 0 (Ok VNone); EvResume [1%Z] 2; EvPause [1%Z] 2;
     EvStep [2%Z] 0 (Ok VNone); EvResume [2%Z] 1;
     EvStep [4%Z] 0 (Ok VNone);
     EvBefore 0 0; EvFlush 0 0 [[3%Z]; [5%Z]]; EvItemDone [3%Z] (Ok (VInt 5)); EvItemDone [5%Z] (Ok (VInt 7)); EvAfter 0 0;
     EvStep [4%Z] 1 (Ok (VInt 7)); EvDone [4%Z] (Ok (VInt 7)); EvGot [2%Z] (Ok (VInt 7));
     EvPause [2%Z] 1; EvDone [2%Z] (Ok (VInt 7));
     EvPause [0%Z] 0; EvResume [0%Z] 0; EvResume [1%Z] 2;
     EvStep [1%Z] 1 (Ok (VInt 5)); EvPause [1%Z] 2; EvDone [1%Z] (Ok (VInt 5));
     EvStep [0%Z] 1 (Ok (VTuple [VInt 5; VInt 7])); EvPause [0%Z] 0; EvDone [0%Z] (Ok (VTuple [VInt 5; VInt 7]))].
Proof. cbv zeta. split; [rewrite no_unwind_b_traj|]; vm_compute; repeat split. Qed.

(* [cevt t s]: the resume()/pause() events of the contexts of task t in the trace of s (newest first).  While t is
   inside value() no step of the machine adds one: neither the nested loops nor the flushes pause or resume a
   caller's contexts.  (Every helper emits context events only for the task it is applied to.) *)
Definition ctxof (t : fid) (e : event) : bool :=
  match e with EvResume x _ | EvPause x _ => fid_eqb x t | _ => false end.
Definition cevt (t : fid) (s : st) : list event := filter (ctxof t) (trace s).

Lemma cevt_view t s s' : trace s' = trace s -> cevt t s' = cevt t s.
Proof. unfold cevt. intros ->. reflexivity. Qed.

Lemma cevt_set_task t u tk s : cevt t (set_task u tk s) = cevt t s.
Proof. unfold set_task. destruct (get u s); reflexivity. Qed.

Lemma trace_create p f s : trace (snd (create p f s)) = trace s.
Proof. unfold create, alloc. destruct f; reflexivity. Qed.

Lemma trace_inst p y s : trace (snd (inst p y s)) = trace s.
Proof. apply (inst_rel (fun a b => trace b = trace a)); [reflexivity|intros a b c; congruence|intros; apply trace_create]. Qed.

Lemma cevt_cev t s : cevt t s = filter (ctxof t) (cev s).
Proof. unfold cevt, cev. induction (trace s) as [|e l IH]; [reflexivity|]. destruct e; cbn; rewrite IH; reflexivity. Qed.

Lemma cevt_same t s s' : cev s' = cev s -> cevt t s' = cevt t s.
Proof. intros E. rewrite !cevt_cev, E. reflexivity. Qed.

(* resume/pause events of another task x *)
Lemma cevt_other t x b cids s s' : x <> t -> cev s' = rev (map (cev_of b x) cids) ++ cev s -> cevt t s' = cevt t s.
Proof.
  intros N E. rewrite !cevt_cev, E, filter_app, <- map_rev. induction (rev cids) as [|c l IH]; [reflexivity|].
  cbn [map filter app]. replace (ctxof t (cev_of b x c)) with (fid_eqb x t) by (destruct b; reflexivity).
  destruct (fid_eqb_spec x t); [contradiction|exact IH].
Qed.

Lemma cevt_toggle b t x s tk : x <> t -> get x s = Some (mkFut None (KTask tk)) -> forallb plain_ctx (tk_ctxs tk) = true ->
  cevt t (toggle b x s) = cevt t s.
Proof. intros N Hg Hp. exact (cevt_other t x b _ _ _ N (cev_toggle b x s None tk Hp Hg)). Qed.

Section QuietStep.
  Variable P : params.
  Hypothesis HP : pointwise P.
  Variable res : outcome.

  (* one step of the machine adds no resume/pause event of a task that is inside value(): the task the step works
     on is younger *)
  Theorem step_quiet spec c t :
    CI res spec c -> In t (fvals (c_frames c)) -> cevt t (c_st (step P c)) = cevt t (c_st c).
  Proof.
    destruct c as [m fr s]. destruct m as [h| | | |t0|t0 p| |o|e|o|]; intros HC Hin; cbn [c_mode c_frames c_st] in *.
    - cbn [step c_mode c_frames c_st]. destruct (computed h s); [reflexivity|].
      destruct (get h s) as [[out [tk|kind idx key a|o|]]|]; cbn [c_st]; try reflexivity. apply cevt_same, cev_flush_batch.
    - cbn [step c_mode c_frames c_st]. destruct fr as [|[ |t0 k|root|i|t0 old] fr']; try reflexivity.
      destruct (computed root s); cbn [c_st]; [apply cevt_view, trace_drop_sb|reflexivity].
    - cbn [step c_mode c_frames c_st]. destruct fr as [|[ |t0 k|root|i|t0 old] fr']; try reflexivity.
      destruct (computed root s); cbn [c_st]; [apply cevt_view, trace_drop_sb|apply cevt_same, cev_continue_with_batch].
    - destruct HC as (Hf & HS & _). cbn [c_mode c_frames c_st] in Hf, HS. destruct Hf as (init & r & vs & -> & Hlv).
      cbn [fvals] in Hin.
      destruct (step_MExecLoop P init (FWait r :: vs) s (fun u out tk => SI_noraise _ _ _ u out tk HS))
        as [Hle| |x ts Hts Hlt _|x ts kind idx key a Hts Hlt _|x ts o Hts Hlt _|x ts tk s2 Hts Hlt Hg _ _ _ Es2
           |x ts tk s2 Hts Hlt Hg _ _ _ Es2|x ts tk s2 Hts Hlt Hg _ _ Es2];
        cbn [c_st]; try reflexivity; try subst s2;
        try (assert (N : x <> t) by (intros ->; rewrite Hts in Hlv, Hlt; exact (top_younger _ _ _ _ _ _ _ Hlv Hlt Hin));
             pose proof (SI_plain _ _ _ _ _ _ HS Hg) as Hp).
      + exact (cevt_same t _ _ (cev_schedule_batch (kind, idx) s)).
      + exact (eq_trans (cevt_toggle false t x _ _ N (proj1 (set_task_tupd x s None tk (tk_set_ds tk false) Hg)) Hp) (cevt_set_task t x _ s)).
      + exact (eq_trans (cevt_toggle true t x _ _ N (proj1 (set_task_tupd x s None tk (tk_set_ds tk true) Hg)) Hp) (cevt_set_task t x _ s)).
      + exact (cevt_toggle true t x s tk N Hg Hp).
    - destruct HC as (Hf & HS & (tk & Hg & _)). cbn [c_mode c_frames c_st] in *.
      destruct Hf as (old & i & r & vs & -> & Hrt & Hlv). cbn [R_of fvals] in *.
      destruct (SI_gen _ _ _ _ _ HS Hg (caller_older _ _ _ _ _ _ _ Hlv Hrt)) as (k & K1).
      destruct (step_MResume P t0 (FCont t0 old :: FExec i :: FWait r :: vs) s tk k Hg K1) as (s2 & -> & _ & Htr).
      unfold cevt. cbn [c_st]. rewrite Htr. reflexivity.
    - destruct HC as (Hf & HS & Hm). cbn [c_mode c_frames c_st] in *.
      destruct Hf as (old & i & r & vs & -> & Hrt & Hlv). cbn [R_of fvals] in *.
      assert (N : t0 <> t) by (intros ->; exact (caller_older _ _ _ _ _ _ _ Hlv Hrt Hin)).
      destruct (SI_utask _ _ _ t0 HS (or_introl eq_refl)) as (tk & Hg).
      destruct Hm as [(Htree & _)|(h & k & oh & -> & _)]; [|reflexivity].
      set (fr := FCont t0 old :: FExec i :: FWait r :: vs).
      assert (Hfin : forall q o, finishes q o -> cevt t (c_st (step P (mkC (MRun t0 q) fr s))) = cevt t s).
      { intros q o Hq. destruct (step_run_finish P t0 fr s tk Hg q o Hq) as (s2 & -> & _ & Htr). unfold cevt. cbn [c_st]. rewrite Htr. reflexivity. }
      inversion Htree as [v Ev|v Ev|e Ev|y k Hl Hk Ev|c k Hc Hk Ev|c k Hc Hk Ev|q k Hq Hk Ev]; subst p;
        [exact (Hfin _ _ (fin_ret v))|exact (Hfin _ _ (fin_result v))|exact (Hfin _ _ (fin_raise e))|..]; cbn [step c_mode c_frames c_st].
      + pose proof (trace_inst t0 y s) as Htr. destruct (inst t0 y s) as [y' s1]. cbn [snd] in Htr.
        destruct (get_task t0 s1) as [tk1|]; [destruct (futs (extract y'))|]; cbn [c_st]; rewrite ?cevt_set_task;
          apply cevt_view; exact Htr.
      + exact (cevt_other t t0 true _ _ _ N (cev_enter_ctx t0 c s None tk Hg Hc)).
      + exact (cevt_other t t0 false _ _ _ N (cev_exit_ctx t0 c s None tk Hg Hc)).
      + pose proof (trace_create t0 (FTask q) s) as Htr. destruct (create t0 (FTask q) s) as [h s1]. apply cevt_view. exact Htr.
    - cbn [step c_mode c_frames c_st]. destruct fr as [|[ |t0 k|root|i|t0 old] fr']; try reflexivity.
      cbn [c_st]. destruct (get_task t0 (with_active s old)); [rewrite cevt_set_task|]; reflexivity.
    - cbn [step c_mode c_frames c_st]. destruct fr as [|[ |t0 k|root|i|t0 old] fr']; reflexivity.
    - cbn [step c_mode c_frames c_st]. destruct fr as [|[ |t0 k|root|i|t0 old] fr']; reflexivity.
    - reflexivity.
    - reflexivity.
  Qed.

  (* hence none over any stretch of a run during which t stays inside value() *)
  Theorem run_quiet spec c n t : forall m,
    CI res spec c -> no_unwind P (n + m) c ->
    (forall k, (n <= k < n + m)%nat -> In t (fvals (c_frames (run P k c)))) ->
    cevt t (c_st (run P (n + m) c)) = cevt t (c_st (run P n c)).
  Proof.
    induction m as [|m IH]; intros HC Hn Hin; [rewrite Nat.add_0_r; reflexivity|].
    rewrite Nat.add_succ_r, run_step.
    assert (Hn' : no_unwind P (n + m) c) by (intros k Hk; apply Hn; lia).
    destruct (s01_run P HP res (n + m) spec c HC Hn') as (spec' & HC').
    rewrite (step_quiet spec' _ t HC' (Hin (n + m)%nat ltac:(lia))).
    apply IH; [exact HC|exact Hn'|]. intros k Hk. apply Hin. lia.
  Qed.
End QuietStep.

(* On the trace.  Over any stretch of a run during which task t is inside value() - from the synchronous call to
   its return, whatever the nested loops run and flush in between - the trace gains no resume()/pause() event of
   any context of t: the caller's contexts are left exactly as they were when it made the call (resumed, by
   running_stree) *)
Theorem contexts_untouched_inside_value P p n m t :
  pointwise P -> stree p ->
  let h := fst (create [] (FTask p) (st0 P)) in
  let s1 := snd (create [] (FTask p) (st0 P)) in
  no_unwind P (n + m) (start h s1) ->
  (forall k, (n <= k < n + m)%nat -> In t (fvals (c_frames (run P k (start h s1))))) ->
  cevt t (c_st (run P (n + m) (start h s1))) = cevt t (c_st (run P n (start h s1))).
Proof.
  intros HP Hp. cbn zeta. intros Hn Hin.
  destruct (fls_start P p Hp) as (spec & (HC & _)). apply (run_quiet P HP (evals p) spec _ n t m HC Hn Hin).
Qed.

(* in the demo the caller [2] is inside value() from step 21 to step 40; the nested flush happens at step 31 *)
Example c06s_demo_quiet :
  let P := c06s_P in
  let h := fst (create [] (FTask c06s_demo) (st0 P)) in
  let s1 := snd (create [] (FTask c06s_demo) (st0 P)) in
  let c k := run P k (start h s1) in
  forallb (fun k => existsb (fid_eqb [2%Z]) (fvals (c_frames (c k)))) (seq 21 20) = true /\
  cevt [2%Z] (c_st (c 21%nat)) = [EvResume [2%Z] 1] /\ cevt [2%Z] (c_st (c 41%nat)) = [EvResume [2%Z] 1] /\
  cevt [2%Z] (c_st (c 42%nat)) = [EvPause [2%Z] 1; EvResume [2%Z] 1].
Proof.
  cbv zeta. split; [rewrite (forallb_run_from c06s_P (fun c => existsb (fid_eqb [2%Z]) (fvals (c_frames c))))|]; vm_compute; repeat split.
Qed.
