(* C18 (Diag.v): filter_traceback against its reading [rewrites]; the frames an error carries up a chain of tasks
   ([expected], [glued]) and what each observer of a failed task sees ([views]); the creator chain of
   format_asynq_stack; str / repr / dump are total on the objects the library can build ([wf]). *)
From Asynq Require Import Base Diag.
From Coq Require Import String Ascii List Lia ZArith Bool.
Import ListNotations.
Open Scope list_scope.
Open Scope nat_scope.

(* Python's [needle in hay] *)
Definition contains (n h : string) : Prop := exists a b, h = (a ++ n ++ b)%string.

Lemma prefixb_spec : forall n s, prefixb n s = true <-> exists b, s = (n ++ b)%string.
Proof.
  induction n as [|a n IH]; intros s; simpl.
  - split; [intros _; exists s; reflexivity | reflexivity].
  - destruct s as [|b s].
    + split; [discriminate | intros [x Hx]; discriminate].
    + destruct (Ascii.eqb a b) eqn:E.
      * apply Ascii.eqb_eq in E; subst b. rewrite IH. split.
        -- intros [x ->]. exists x. reflexivity.
        -- intros [x Hx]. inversion Hx. exists x. reflexivity.
      * split; [discriminate|]. intros [x Hx]. inversion Hx. subst.
        rewrite Ascii.eqb_refl in E. discriminate.
Qed.

Lemma containsb_unfold : forall n h,
  containsb n h = if prefixb n h then true
                  else match h with EmptyString => false | String _ h' => containsb n h' end.
Proof. intros n h. destruct h; reflexivity. Qed.

Theorem containsb_spec : forall n h, containsb n h = true <-> contains n h.
Proof.
  intros n h. split.
  - induction h as [|c h IH]; rewrite containsb_unfold.
    + destruct (prefixb n "") eqn:E; [|discriminate]. intros _.
      apply prefixb_spec in E. destruct E as [b Hb]. exists ""%string, b. exact Hb.
    + destruct (prefixb n (String c h)) eqn:E.
      * intros _. apply prefixb_spec in E. destruct E as [b Hb]. exists ""%string, b. exact Hb.
      * intros H. destruct (IH H) as [a [b Hab]]. exists (String c a), b. simpl. now rewrite Hab.
  - intros [a [b ->]]. induction a as [|c a IH].
    + simpl. rewrite containsb_unfold.
      replace (prefixb n (n ++ b)) with true; [reflexivity|].
      symmetry. apply prefixb_spec. exists b. reflexivity.
    + change (containsb n (String c (a ++ n ++ b)) = true).
      rewrite (containsb_unfold n (String c (a ++ n ++ b))).
      destruct (prefixb n (String c (a ++ n ++ b))); [reflexivity | exact IH].
Qed.

(* a complete run of a pattern: as many lines as the pattern has elements, the k-th line contains
   the k-th element *)
Definition complete_run (pat ls : list string) : Prop := Forall2 contains pat ls.
(* the lines start with a complete run of the pattern *)
Definition starts_run (pat lines : list string) : Prop :=
  exists ls rest, lines = ls ++ rest /\ complete_run pat ls.

Theorem run_at_spec : forall pat lines, run_at pat lines = true <-> starts_run pat lines.
Proof.
  induction pat as [|p pat IH]; intros lines.
  - split; [intros _; exists [], lines; split; [reflexivity|constructor] | reflexivity].
  - destruct lines as [|l lines]; simpl.
    + split; [discriminate|]. intros (ls & rest & E & Hr). inversion Hr; subst. discriminate E.
    + destruct (containsb p l) eqn:E.
      * rewrite IH. split; intros (ls & rest & El & Hr).
        -- exists (l :: ls), rest. subst. split; [reflexivity|]. constructor; [apply containsb_spec|]; assumption.
        -- inversion Hr as [|? ? ? ls' Hc Hr']; subst. inversion El; subst. exists ls', rest. split; [reflexivity|exact Hr'].
      * split; [discriminate|]. intros (ls & rest & El & Hr). inversion Hr as [|? l' ? ? Hc]; subst. inversion El; subst.
        apply containsb_spec in Hc. congruence.
Qed.

Lemma complete_run_length : forall pat ls, complete_run pat ls -> List.length ls = List.length pat.
Proof. intros pat ls H. induction H; simpl; auto. Qed.

Lemma first_match_some : forall reps lines r, first_match reps lines = Some r ->
  exists pre post, reps = pre ++ r :: post /\ run_at (fst r) lines = true /\
                   forall r', In r' pre -> run_at (fst r') lines = false.
Proof.
  induction reps as [|r0 reps IH]; intros lines r H; simpl in H; [discriminate|].
  destruct (run_at (fst r0) lines) eqn:E.
  - inversion H; subst. exists [], reps. repeat split; auto. intros r' [].
  - destruct (IH _ _ H) as [pre [post [-> [Hr Hn]]]].
    exists (r0 :: pre), post. repeat split; auto.
    intros r' [<-|Hin]; auto.
Qed.

Lemma first_match_none : forall reps lines, first_match reps lines = None ->
  forall r, In r reps -> run_at (fst r) lines = false.
Proof.
  induction reps as [|r0 reps IH]; intros lines H r Hin; [destruct Hin|].
  simpl in H. destruct (run_at (fst r0) lines) eqn:E; [discriminate|].
  destruct Hin as [<-|Hin]; auto.
Qed.

Lemma filter_go_skip : forall reps ls rest,
  filter_go reps (ls ++ rest) (List.length ls) = filter_go reps rest 0.
Proof. induction ls as [|l ls IH]; intros rest; simpl; auto. Qed.

(* The statement's reading of "only collapses complete runs of boilerplate lines into one marker
   each and leaves every other line untouched and in order" (leftmost, first pattern wins):
   [rewrites reps input output]. *)
Inductive rewrites (reps : list (list string * string)) : list string -> list string -> Prop :=
| RW_nil : rewrites reps [] []
| RW_keep : forall l rest out,
    (* no pattern has a complete run starting at this line: the line is kept as it is *)
    (forall r, In r reps -> ~ starts_run (fst r) (l :: rest)) ->
    rewrites reps rest out ->
    rewrites reps (l :: rest) (l :: out)
| RW_collapse : forall pre r post ls rest out,
    reps = pre ++ r :: post ->
    complete_run (fst r) ls ->                                   (* the whole pattern, line by line *)
    (forall r', In r' pre -> ~ starts_run (fst r') (ls ++ rest)) ->  (* earlier patterns do not match here *)
    rewrites reps rest out ->
    rewrites reps (ls ++ rest) (marker_line (snd r) :: out).    (* one marker for the run *)

Theorem filter_go_rewrites : forall reps, Forall (fun r => fst r <> []) reps ->
  forall lines, rewrites reps lines (filter_go reps lines 0).
Proof.
  intros reps Hne lines.
  remember (List.length lines) as n eqn:Hn.
  assert (Hle : List.length lines <= n) by lia. clear Hn.
  revert lines Hle. induction n as [|n IH]; intros lines Hle.
  - destruct lines; [constructor | simpl in Hle; lia].
  - destruct lines as [|l tl]; [constructor|].
    simpl. destruct (first_match reps (l :: tl)) as [r|] eqn:E.
    + destruct (first_match_some _ _ _ E) as [pre [post [Hreps [Hrun Hpre]]]].
      apply run_at_spec in Hrun as (ls & rest & Hsplit & Hcr). pose proof (complete_run_length _ _ Hcr) as Hlen.
      assert (Hr : fst r <> []).
      { rewrite Forall_forall in Hne. apply Hne. rewrite Hreps. apply in_or_app. right. left. reflexivity. }
      destruct ls as [|l' ls'].
      { simpl in Hlen. destruct (fst r); [congruence | discriminate]. }
      simpl in Hsplit. inversion Hsplit; subst l' tl.
      simpl in Hlen. replace (pred (List.length (fst r))) with (List.length ls') by lia.
      rewrite filter_go_skip.
      change (l :: ls' ++ rest) with ((l :: ls') ++ rest).
      eapply RW_collapse; eauto.
      * intros r' Hin Hs. apply run_at_spec in Hs.
        change ((l :: ls') ++ rest) with (l :: ls' ++ rest) in Hs.
        rewrite (Hpre _ Hin) in Hs. discriminate.
      * apply IH. simpl in Hle. rewrite app_length in Hle. lia.
    + apply RW_keep.
      * intros r Hin Hs. apply run_at_spec in Hs.
        rewrite (first_match_none _ _ E _ Hin) in Hs. discriminate.
      * apply IH. simpl in Hle. lia.
Qed.

Lemma starts_run_prefix : forall pat ls rest, complete_run pat ls -> starts_run pat (ls ++ rest).
Proof. intros. exists ls, rest. auto. Qed.

Lemma first_match_at : forall pre r post lines,
  run_at (fst r) lines = true -> (forall r', In r' pre -> run_at (fst r') lines = false) ->
  first_match (pre ++ r :: post) lines = Some r.
Proof.
  induction pre as [|a pre IH]; intros r post lines Hr Hp; simpl.
  - now rewrite Hr.
  - rewrite (Hp a (or_introl eq_refl)). apply IH; auto. intros; apply Hp; now right.
Qed.

Lemma first_match_nowhere : forall reps lines,
  (forall r, In r reps -> run_at (fst r) lines = false) -> first_match reps lines = None.
Proof.
  induction reps as [|a reps IH]; intros lines H; simpl; auto.
  rewrite (H a (or_introl eq_refl)). apply IH. intros; apply H; now right.
Qed.

Lemma no_run_at : forall pat lines, ~ starts_run pat lines -> run_at pat lines = false.
Proof. intros pat lines H. destruct (run_at pat lines) eqn:E; auto. destruct H. apply run_at_spec, E. Qed.

(* the reading pins the output down: any output it allows is the one the loop computes, because at
   every position the reading says which branch of the loop is taken *)
Theorem rewrites_is_filter : forall reps, Forall (fun r => fst r <> []) reps ->
  forall i o, rewrites reps i o -> o = filter_go reps i 0.
Proof.
  intros reps Hne i o H.
  induction H as [|l rest out Hno H IH|pre r post ls rest out Hreps Hcr Hpre H IH].
  - reflexivity.
  - simpl. rewrite first_match_nowhere, IH; [reflexivity|]. intros r Hr. apply no_run_at, Hno, Hr.
  - assert (Hr : fst r <> []).
    { rewrite Forall_forall in Hne. apply Hne. rewrite Hreps. apply in_or_app. right. left. reflexivity. }
    pose proof (complete_run_length _ _ Hcr) as Hlen.
    destruct ls as [|x ls]; [destruct (fst r); [congruence|discriminate]|].
    simpl. change (x :: ls ++ rest) with ((x :: ls) ++ rest). rewrite Hreps at 1. rewrite first_match_at.
    + simpl in Hlen. rewrite <- Hlen. simpl. rewrite filter_go_skip, IH. reflexivity.
    + apply run_at_spec, starts_run_prefix, Hcr.
    + intros r' Hr'. apply no_run_at, Hpre, Hr'.
Qed.

Lemma REPLACEMENTS_nonempty : Forall (fun r : list string * string => fst r <> []) REPLACEMENTS.
Proof. repeat constructor; discriminate. Qed.

Theorem only_complete_runs : forall lines, rewrites REPLACEMENTS lines (filter_traceback lines).
Proof. intros. apply filter_go_rewrites. exact REPLACEMENTS_nonempty. Qed.

Lemma pushes_tb : forall fs e, tb (pushes fs e) = rev fs ++ tb e.
Proof.
  unfold pushes. induction fs as [|f fs IH]; intros e; simpl; [reflexivity|].
  rewrite IH. simpl. rewrite <- app_assoc. reflexivity.
Qed.

Lemma pushes_pr : forall fs e, pr (pushes fs e) = pr e.
Proof. unfold pushes. induction fs as [|f fs IH]; intros e; simpl; [reflexivity|]. rewrite IH. reflexivity. Qed.

Lemma user_frames_app : forall a b, user_frames (a ++ b) = user_frames a ++ user_frames b.
Proof. intros. unfold user_frames. apply filter_app. Qed.

Lemma user_frames_cons : forall f l,
  user_frames (f :: l) = if hidden f then user_frames l else f :: user_frames l.
Proof. intros f l. unfold user_frames. simpl. destruct (hidden f); reflexivity. Qed.

Lemma user_helper_frames : forall k j, user_frames (helper_frames k j) = helper_frames k j.
Proof. induction k as [|k IH]; intros j; cbn [helper_frames]; [reflexivity|]. now rewrite user_frames_cons, IH. Qed.

(* how many entries a level contributes: the raise statement of "raise e" repeats the frame, as
   it does in plain Python *)
Definition mult (m : mode) : nat := match m with MRaiseE | MLater => 2 | _ => 1 end.

Definition bottom_user (b : bottom) : list frame :=
  match b with
  | BRaise k => helper_frames k 1%Z
  | BErrorFuture => []
  | BPrepared k => helper_frames k 1%Z ++ [PREP_SITE]
  end.

(* the reading of the statement: user frames of the error stored on the task at level i *)
Fixpoint expected (i : Z) (ms : list (mode * how)) (b : bottom) : option (list frame) :=
  match ms with
  | [] => Some (FTask i :: bottom_user b)
  | (m, _) :: ms' =>
    match expected (i + 1)%Z ms' b with
    | None => None
    | Some fs =>
      match m with
      | MSwallow => None
      | MNew => Some [FTask i]
      | _ => Some (repeat (FTask i) (mult m) ++ fs)
      end
    end
  end.

(* invariant of an error stored on a task: its _traceback is the traceback it was caught with *)
Definition glued (e : exn_st) : Prop := pr e = Prepared (tb e) true.

(* _accept_error stores the traceback the error was caught with, whatever it carried before *)
Lemma leave_task_glued : forall e,
  glued (leave_task e) /\ user_frames (tb (leave_task e)) = user_frames (tb e).
Proof.
  intros e. unfold leave_task, accept_error, glued. rewrite pushes_pr.
  destruct (pr e) as [|s []]; simpl; auto.
Qed.

Lemma arrive_spec : forall i h e, glued e ->
  user_frames (tb (arrive i h e)) = FTask i :: user_frames (tb e).
Proof.
  intros i h [t p] G. unfold glued in G. simpl in G. subst p.
  destruct h; unfold arrive, value_raises, reraise, throw_into, pushes, push, user_frames; simpl; auto.
Qed.

(* k nested helper calls below the body of the task at level i, the innermost raising e0 *)
Lemma raise_site : forall i k e0,
  user_frames (tb (push (FTask i) (pushes (rev (helper_frames k 1%Z)) e0)))
  = FTask i :: helper_frames k 1%Z ++ user_frames (tb e0).
Proof.
  intros. cbn [push tb]. rewrite pushes_tb, rev_involutive, user_frames_cons, user_frames_app, user_helper_frames.
  reflexivity.
Qed.

Lemma bottom_result_spec : forall i b,
  glued (bottom_result i b) /\ user_frames (tb (bottom_result i b)) = FTask i :: bottom_user b.
Proof.
  intros i b. unfold bottom_result.
  destruct b as [k| |k]; (split; [apply leave_task_glued|]); rewrite (proj2 (leave_task_glued _)).
  - rewrite raise_site. simpl. now rewrite app_nil_r.
  - reflexivity.
  - apply raise_site.
Qed.

Theorem task_result_spec : forall ms i b,
  match task_result i ms b, expected i ms b with
  | Some e, Some fs => glued e /\ user_frames (tb e) = fs
  | None, None => True
  | _, _ => False
  end.
Proof.
  induction ms as [|[m h] ms IH]; intros i b.
  - simpl. apply bottom_result_spec.
  - simpl. specialize (IH (i + 1)%Z b).
    destruct (task_result (i + 1)%Z ms b) as [e|]; destruct (expected (i + 1)%Z ms b) as [fs|]; try contradiction; auto.
    destruct IH as [G U]. pose proof (arrive_spec i h e G) as At.
    (* whatever the body does with the error, what leaves the task is glued; the frames are the
       level's own, once or (raise e) twice, on top of the child's *)
    destruct m; cbn [in_frame mult repeat app]; try exact I; (split; [apply leave_task_glued|]);
      rewrite (proj2 (leave_task_glued _)); cbn [push tb]; rewrite ?user_frames_cons; cbn [hidden];
      rewrite ?At, ?U; reflexivity.
Qed.

(* what the synchronous caller sees *)
Definition caller_user (ms : list (mode * how)) (b : bottom) : option (list frame) :=
  option_map user_frames (caller_sees ms b).

Theorem caller_sees_expected : forall ms b,
  caller_user ms b = option_map (cons FCaller) (expected 0%Z ms b).
Proof.
  intros ms b. unfold caller_user, caller_sees.
  generalize (task_result_spec ms 0%Z b).
  destruct (task_result 0%Z ms b) as [e|]; destruct (expected 0%Z ms b) as [fs|]; try contradiction; auto.
  intros [G U]. destruct e as [t p]. unfold glued in G. simpl in G, U. subst p.
  unfold value_raises, reraise, pushes, push, user_frames in *. simpl in *. now rewrite U.
Qed.

(* levels i, i+1, ..., i+n-1 *)
Fixpoint task_frames (i : Z) (n : nat) : list frame :=
  match n with O => [] | S n' => FTask i :: task_frames (i + 1)%Z n' end.

Definition plain (mh : mode * how) : bool :=
  match fst mh with MPass | MReraise => true | _ => false end.

Lemma expected_plain : forall ms i b, forallb plain ms = true ->
  expected i ms b = Some (task_frames i (S (List.length ms)) ++ bottom_user b).
Proof.
  induction ms as [|[m h] ms IH]; intros i b H; simpl.
  - reflexivity.
  - simpl in H. apply andb_true_iff in H. destruct H as [Hm H].
    rewrite (IH (i + 1)%Z b H). unfold plain in Hm. simpl in Hm.
    destruct m; try discriminate; reflexivity.
Qed.

(* "one frame per task level in call order ending at the raising frame": no handler, or handlers
   that re-raise with a bare raise, at any of the d levels, awaited or called synchronously *)
Theorem one_frame_per_level : forall ms b, forallb plain ms = true ->
  caller_user ms b = Some (FCaller :: task_frames 0%Z (S (List.length ms)) ++ bottom_user b).
Proof. intros ms b H. rewrite caller_sees_expected, (expected_plain ms 0%Z b H). reflexivity. Qed.

(* general form: every level on the way up contributes its own frame(s), in call order; a level that
   raises a new exception becomes the raising frame; a level that swallows ends the propagation *)
Theorem frames_in_call_order : forall ms b fs, caller_user ms b = Some fs ->
  exists fs', fs = FCaller :: fs' /\ expected 0%Z ms b = Some fs'.
Proof.
  intros ms b fs H. rewrite caller_sees_expected in H.
  destruct (expected 0%Z ms b) as [fs'|]; [|discriminate]. inversion H. eauto.
Qed.

Example chain_example :
  caller_user [(MPass, HAwait); (MLater, HAwait); (MPass, HSync); (MReraise, HAwait)] (BRaise 1)
  = Some [FCaller; FTask 0; FTask 1; FTask 1; FTask 2; FTask 3; FTask 4; FHelper 1]%Z.
Proof. reflexivity. Qed.

(* the statement's reading of one observer: the error is handled by the innermost reader level that
   has a handler, else it reaches the driver; whoever catches it sees one frame per reader level
   from itself down, in call order, followed by the frames [fs] of the failed task -- and nothing
   of any other observer.  (handled at or below level j?, frames from level j down) *)
Fixpoint reader_view (k j : Z) (rs : observer) (fs : list frame) : bool * list frame :=
  match rs with
  | [] => (false, fs)
  | (_, c) :: rs' =>
    let (hd, v) := reader_view k (j + 1)%Z rs' fs in
    if hd then (true, v) else (c, FReader k j :: v)
  end.

Definition observer_view (k : Z) (rs : observer) (fs : list frame) : list frame :=
  let (hd, v) := reader_view k 0%Z rs fs in if hd then v else FCaller :: v.

Fixpoint views (k : Z) (os : list observer) (fs : list frame) : list (list frame) :=
  match os with [] => [] | o :: os' => observer_view k o fs :: views (k + 1)%Z os' fs end.

(* reader levels j, j+1, ..., j+n-1 of observer k *)
Fixpoint reader_frames (k j : Z) (n : nat) : list frame :=
  match n with O => [] | S n' => FReader k j :: reader_frames k (j + 1)%Z n' end.

Definition no_handler (rs : observer) : bool := forallb (fun r => negb (snd r)) rs.

Lemma reader_view_plain : forall k rs j fs, no_handler rs = true ->
  reader_view k j rs fs = (false, reader_frames k j (List.length rs) ++ fs).
Proof.
  induction rs as [|[h c] rs IH]; intros j fs H; simpl; [reflexivity|].
  unfold no_handler in H. simpl in H. apply andb_true_iff in H. destruct H as [Hc H].
  rewrite (IH (j + 1)%Z fs H). destruct c; [discriminate | reflexivity].
Qed.

(* the innermost reader handles it: it sees its own frame and the failed task's, whatever is above *)
Theorem observer_view_innermost : forall k j h fs, reader_view k j [(h, true)] fs = (true, FReader k j :: fs).
Proof. reflexivity. Qed.

(* the exception object went through a task: _task is set *)
Definition task_set (e : exn_st) : Prop := exists s, pr e = Prepared s true.

Lemma glued_task_set : forall e, glued e -> task_set e.
Proof. intros e G. exists (tb e). exact G. Qed.

Lemma glued_saved : forall e, glued e -> saved_tb e = Some (tb e).
Proof. intros e G. unfold saved_tb. rewrite G. reflexivity. Qed.

(* observed right after it failed (every level of a chain is), the repaired value() is the old one *)
Lemma value_raises_of_glued : forall rep e, glued e -> value_raises_of rep (saved_tb e) e = value_raises e.
Proof.
  intros rep [t p] G. unfold glued in G. simpl in G. subst p. destruct rep; reflexivity.
Qed.

Lemma value_raises_of_rep : forall s0 e, task_set e ->
  value_raises_of true (Some s0) e
  = mkE (FInt I_value :: FInt I_raise_if_error :: FInt I_reraise :: s0) (Prepared s0 true).
Proof. intros s0 [t p] [s H]. simpl in H. subst p. reflexivity. Qed.

Lemma arrive_of_rep : forall f h d s0 e, task_set e -> hidden f = false ->
  pr (arrive_of true f h d (Some s0) e) = Prepared s0 true /\
  user_frames (tb (arrive_of true f h d (Some s0) e)) = f :: user_frames s0.
Proof.
  intros f h d s0 e He Hf. unfold arrive_of. rewrite (value_raises_of_rep s0 e He).
  destruct h, d; simpl; unfold user_frames; simpl; rewrite Hf; simpl; auto.
Qed.

(* what is known when the readers below a level have let the error through: nothing has touched the
   object yet (no reader below), or the reader just below stored its glued traceback, whose user
   frames are the view v so far *)
Definition below (rs : observer) (e e1 : exn_st) (s0 : list frame) (v : list frame) : Prop :=
  match rs with
  | [] => e1 = e /\ v = user_frames s0
  | _ => glued e1 /\ user_frames (tb e1) = v
  end.

(* the next frame up, a reader or the driver, catches it with its own frame in front of that view *)
Lemma arrive_above : forall f h rs e e1 s0 v, task_set e -> hidden f = false -> below rs e e1 s0 v ->
  let direct := match rs with [] => true | _ => false end in
  let a := arrive_of true f h direct (if direct then Some s0 else saved_tb e1) e1 in
  task_set a /\ user_frames (tb a) = f :: v.
Proof.
  intros f h rs e e1 s0 v He Hf H. destruct rs; cbv zeta.
  - destruct H as [-> ->]. destruct (arrive_of_rep f h true s0 e He Hf) as [Hp Hu].
    split; [eexists; exact Hp | exact Hu].
  - destruct H as [G U]. rewrite (glued_saved e1 G).
    destruct (arrive_of_rep f h false (tb e1) e1 (glued_task_set e1 G) Hf) as [Hp Hu].
    split; [eexists; exact Hp | rewrite Hu, U; reflexivity].
Qed.

Lemma readers_spec : forall k rs j e s0, task_set e ->
  match readers true k j rs (Some s0) e, reader_view k j rs (user_frames s0) with
  | Handled seen e1, (true, v) => user_frames seen = v /\ task_set e1
  | Failed e1, (false, v) => below rs e e1 s0 v
  | _, _ => False
  end.
Proof.
  induction rs as [|[h c] rs IH]; intros j e s0 He; [simpl; auto|].
  specialize (IH (j + 1)%Z e s0 He). cbn [readers reader_view].
  destruct (readers true k (j + 1)%Z rs (Some s0) e) as [e1|seen e1];
    destruct (reader_view k (j + 1)%Z rs (user_frames s0)) as [[|] v]; try contradiction; [|exact IH].
  destruct (arrive_above (FReader k j) h rs e e1 s0 v He eq_refl IH) as [T U].
  destruct c; [split; [exact U | exact T]|].
  split; [apply leave_task_glued | rewrite (proj2 (leave_task_glued _)); exact U].
Qed.

Lemma observe1_spec : forall drv k rs e s0, task_set e ->
  user_frames (fst (observe1 true drv k rs (Some s0) e)) = observer_view k rs (user_frames s0) /\
  task_set (snd (observe1 true drv k rs (Some s0) e)).
Proof.
  intros drv k rs e s0 He. unfold observe1, observer_view.
  generalize (readers_spec k rs 0%Z e s0 He).
  destruct (readers true k 0%Z rs (Some s0) e) as [e1|seen e1];
    destruct (reader_view k 0%Z rs (user_frames s0)) as [[|] v]; try contradiction.
  - intros B. destruct (arrive_above FCaller drv rs e e1 s0 v He eq_refl B) as [T U]. split; assumption.
  - intros [U T]. split; assumption.
Qed.

Lemma observe_seq_spec : forall drv os k e s0, task_set e ->
  map user_frames (observe_seq true drv k os (Some s0) e) = views k os (user_frames s0).
Proof.
  induction os as [|o os IH]; intros k e s0 He; simpl; [reflexivity|].
  destruct (observe1_spec drv k o e s0 He) as [U T].
  destruct (observe1 true drv k o (Some s0) e) as [seen e']. simpl in *.
  rewrite U, (IH (k + 1)%Z e' s0 T). reflexivity.
Qed.

(* every observer of the failed task lvl_0 -- the first and every later one, reader tasks that let
   the error propagate or that handle it, awaiting or asking synchronously, run from a plain caller
   or from a task -- sees its own chain in call order followed by the failed task's frames *)
Theorem every_observer_sees_its_own_chain : forall ms b drv os,
  map (option_map user_frames) (observations ms b drv os) =
  match expected 0%Z ms b with
  | None => map (fun _ => None) os
  | Some fs => map Some (views 0%Z os fs)
  end.
Proof.
  intros ms b drv os. unfold observations, observations_with.
  generalize (task_result_spec ms 0%Z b).
  destruct (task_result 0%Z ms b) as [e|]; destruct (expected 0%Z ms b) as [fs|]; try contradiction.
  - intros [G U]. rewrite (glued_saved e G), map_map.
    rewrite <- U, <- (observe_seq_spec drv os 0%Z e (tb e) (glued_task_set e G)).
    rewrite !map_map. reflexivity.
  - intros _. rewrite map_map. reflexivity.
Qed.

(* The code as found restores nothing in raise_if_error.  As long as no reader task fails with the error
   (each observer is the driver itself or has a handler in its innermost reader) it behaves like the
   repaired one *)
Fixpoint innermost_catches (rs : observer) : bool :=
  match rs with
  | [] => true
  | (_, c) :: rs' => match rs' with [] => c | _ => innermost_catches rs' end
  end.

Lemma restore_same : forall s0 t e, pr e = Prepared s0 t -> restore true (Some s0) e = e.
Proof. intros s0 t [tb0 p] H. simpl in H. subst p. reflexivity. Qed.

Lemma arrive_of_pr_found : forall f h d sv e, pr (arrive_of false f h d sv e) = pr e.
Proof.
  intros f h d sv [t p]. unfold arrive_of, value_raises_of, restore, reraise.
  destruct h, d, p as [|s [|]]; reflexivity.
Qed.

Lemma arrive_of_same : forall f h d s0 t e, pr e = Prepared s0 t ->
  arrive_of false f h d (Some s0) e = arrive_of true f h d (Some s0) e.
Proof.
  intros f h d s0 t e H. unfold arrive_of, value_raises_of.
  rewrite (restore_same s0 t e H). reflexivity.
Qed.

Lemma readers_cons : forall rep k j h c rs sF e,
  readers rep k j ((h, c) :: rs) sF e =
  match readers rep k (j + 1)%Z rs sF e with
  | Handled s e1 => Handled s e1
  | Failed e1 =>
    let direct := match rs with [] => true | _ => false end in
    let a := arrive_of rep (FReader k j) h direct (if direct then sF else saved_tb e1) e1 in
    if c then Handled (tb a) a else Failed (leave_task a)
  end.
Proof. reflexivity. Qed.

Lemma readers_same : forall k rs j s0 t e, pr e = Prepared s0 t -> innermost_catches rs = true ->
  readers false k j rs (Some s0) e = readers true k j rs (Some s0) e /\
  match readers false k j rs (Some s0) e with
  | Failed e1 => rs = [] /\ e1 = e
  | Handled _ e1 => pr e1 = Prepared s0 t
  end.
Proof.
  induction rs as [|[h c] rs IH]; intros j s0 t e H C.
  - simpl. auto.
  - destruct rs as [|r rs'].
    + simpl in C. subst c. simpl.
      rewrite (arrive_of_same (FReader k j) h true s0 t e H). split; [reflexivity|].
      rewrite <- (arrive_of_same (FReader k j) h true s0 t e H), arrive_of_pr_found. exact H.
    + assert (C' : innermost_catches (r :: rs') = true) by exact C.
      destruct (IH (j + 1)%Z s0 t e H C') as [E M].
      rewrite (readers_cons false), (readers_cons true). rewrite <- E.
      destruct (readers false k (j + 1)%Z (r :: rs') (Some s0) e) as [e1|seen e1].
      * destruct M as [M _]. discriminate.
      * split; [reflexivity | exact M].
Qed.

Lemma observe_seq_same : forall drv os k s0 t e, pr e = Prepared s0 t ->
  forallb innermost_catches os = true ->
  observe_seq false drv k os (Some s0) e = observe_seq true drv k os (Some s0) e.
Proof.
  induction os as [|o os IH]; intros k s0 t e H C; [reflexivity|].
  simpl in C. apply andb_true_iff in C. destruct C as [Co C].
  destruct (readers_same k o 0%Z s0 t e H Co) as [E M].
  cbn [observe_seq]. unfold observe1. rewrite <- E.
  destruct (readers false k 0%Z o (Some s0) e) as [e1|seen e1].
  - destruct M as [Mo Me]. subst o e1.
    rewrite <- (arrive_of_same FCaller drv true s0 t e H).
    rewrite (IH (k + 1)%Z s0 t (arrive_of false FCaller drv true (Some s0) e)); [reflexivity | | exact C].
    rewrite arrive_of_pr_found. exact H.
  - rewrite (IH (k + 1)%Z s0 t e1 M C). reflexivity.
Qed.

Example observe_example :
  map (option_map user_frames)
      (observations [(MPass, HAwait)] (BRaise 1) HSync
                    [[(HAwait, false)]; [(HSync, false); (HAwait, true)]; []; [(HAwait, false); (HSync, false)]])
  = [Some [FCaller; FReader 0 0; FTask 0; FTask 1; FHelper 1];
     Some [FReader 1 1; FTask 0; FTask 1; FHelper 1];
     Some [FCaller; FTask 0; FTask 1; FHelper 1];
     Some [FCaller; FReader 3 0; FReader 3 1; FTask 0; FTask 1; FHelper 1]]%Z.
Proof. reflexivity. Qed.

(* ... a lazy Future whose provider raises the object: the provider's frame is on __traceback__ only *)
Example shared_lazy_example :
  map (option_map user_frames)
      (shared_observations KLazy (EOfTask [(MPass, HAwait)] (BRaise 1)) HSync
                           [[(HAwait, false)]; [(HSync, false); (HAwait, true)]; []])
  = [Some [FCaller; FReader 0 0; FTask 0; FTask 1; FHelper 1];
     Some [FReader 1 1; FTask 0; FTask 1; FHelper 1];
     Some [FCaller; FTask 0; FTask 1; FHelper 1]]%Z.
Proof. reflexivity. Qed.

Lemma task_ind' : forall P : task -> Prop,
  (forall n s f, P (Task n s f None)) -> (forall n s f c, P c -> P (Task n s f (Some c))) -> forall t, P t.
Proof. intros P H0 H1. fix IH 1. intros [n s f [c|]]; [apply H1, IH | apply H0]. Qed.

(* the task and each task that created it, outermost first *)
Fixpoint ancestors (t : task) : list task :=
  match t with
  | Task _ _ _ None => [t]
  | Task _ _ _ (Some c) => ancestors c ++ [t]
  end.

Fixpoint depth (t : task) : nat :=
  match t with Task _ _ _ None => O | Task _ _ _ (Some c) => S (depth c) end.

(* every entry is the creator of the next one *)
Fixpoint linked (l : list task) : Prop :=
  match l with
  | a :: ((b :: _) as l') => tk_creator b = Some a /\ linked l'
  | _ => True
  end.

Lemma traceback_step : forall n s f c,
  traceback (Task n s f (Some c)) = traceback c ++ [entry_of (Task n s f (Some c))].
Proof. intros. unfold traceback. simpl. reflexivity. Qed.

Lemma traceback_is_rec : forall t, traceback t = traceback_rec t.
Proof.
  induction t as [n s f|n s f c IH] using task_ind'; [reflexivity|].
  rewrite traceback_step, IH. reflexivity.
Qed.

Lemma linked_app_one : forall l t d, l <> [] -> linked l -> tk_creator t = Some (last l d) -> linked (l ++ [t]).
Proof.
  induction l as [|a l IH]; intros t d Hne Hl Hc; [congruence|].
  destruct l as [|b l].
  - simpl in *. auto.
  - change ((a :: b :: l) ++ [t]) with (a :: ((b :: l) ++ [t])).
    simpl in Hl. destruct Hl as [Hab Hl]. simpl. split; [exact Hab|].
    apply (IH t d); [discriminate | exact Hl | exact Hc].
Qed.

Lemma ancestors_nonempty : forall t, ancestors t <> [].
Proof. intros [n s f [c|]]; simpl; [destruct (ancestors c); discriminate | discriminate]. Qed.

Lemma ancestors_last : forall t d, last (ancestors t) d = t.
Proof. intros [n s f [c|]] d; simpl; [apply last_last | reflexivity]. Qed.

(* what one entry looks like: the "File .. in <function>" form exactly when the task has a frame
   whose source line can be found; the str(task) form otherwise -- also when _traceback_line
   raises.  Either way the entry is the one of this task. *)
Theorem entry_of_spec : forall t,
  entry_name (entry_of t) = tk_name t /\
  (entry_of t = EFrame (tk_name t) <-> tk_frame t <> FrGone /\ tk_src t = SrcFile) /\
  (entry_of t = EStr (tk_name t) <-> tk_frame t = FrGone \/ tk_src t = SrcNone) /\
  (traceback_line t = None <-> tk_frame t <> FrGone /\ tk_src t = SrcNone).
Proof.
  intros [n s f c]. unfold entry_of, traceback_line. destruct f, s; cbn; intuition (discriminate || congruence).
Qed.

(* format_asynq_stack() lists the active task and each task that created it, outermost first --
   whatever the frame state and source kind of every task on the chain *)
Theorem creator_chain : forall t,
  traceback t = map entry_of (ancestors t) /\                  (* one entry per task of the chain ... *)
  map entry_name (traceback t) = map tk_name (ancestors t) /\  (* ... each naming its task ...        *)
  last (ancestors t) t = t /\                                  (* ... ending with the task itself     *)
  (exists r rest, ancestors t = r :: rest /\ tk_creator r = None) /\  (* starting at a task nobody created *)
  linked (ancestors t) /\                                      (* each one created the next           *)
  List.length (traceback t) = S (depth t).
Proof.
  assert (Hmain : forall t,
    traceback t = map entry_of (ancestors t) /\
    (exists r rest, ancestors t = r :: rest /\ tk_creator r = None) /\
    linked (ancestors t) /\
    List.length (traceback t) = S (depth t)).
  { induction t as [n s f|n s f c IH] using task_ind'.
    - simpl. repeat split; eauto.
    - destruct IH as [Htb [[r [rest [Hanc Hroot]]] [Hlink Hlen]]].
      rewrite traceback_step. simpl ancestors. simpl depth. repeat split.
      + rewrite map_app, Htb. reflexivity.
      + rewrite Hanc. exists r, (rest ++ [Task n s f (Some c)]). split; [reflexivity | exact Hroot].
      + apply (linked_app_one _ _ c); [apply ancestors_nonempty | exact Hlink |].
        simpl. now rewrite ancestors_last.
      + rewrite app_length, Hlen. simpl. lia. }
  intros t. destruct (Hmain t) as [Htb [Hroot [Hlink Hlen]]].
  repeat split; try assumption; [|apply ancestors_last].
  rewrite Htb, map_map. apply map_ext. intros a. apply (entry_of_spec a).
Qed.

(* the code as first found: recursion, one interpreter frame per creator; with a stack budget it
   fails exactly on chains that are too long (the finding), and agrees with the loop otherwise *)
Theorem traceback_rec_budget_spec : forall b t,
  traceback_rec_budget b t = if Nat.ltb (depth t) b then Some (traceback t) else None.
Proof.
  induction b as [|b IH]; intros t.
  - reflexivity.
  - destruct t as [n s f [c|]]; simpl.
    + rewrite IH. change (Nat.ltb (S (depth c)) (S b)) with (Nat.ltb (depth c) b).
      destruct (Nat.ltb (depth c) b); [rewrite traceback_step; reflexivity | reflexivity].
    + reflexivity.
Qed.

Fixpoint level_names (i : Z) (n : nat) : list tname :=
  match n with O => [] | S n' => TL i :: level_names (i + 1)%Z n' end.

Definition by_parent (c : created) : bool := match c with ByParent | BySync => true | _ => false end.

(* the statement's reading of "that task and each task that created it" for a chain description:
   [acc] = the names for level i, outermost first *)
Fixpoint expected_names (i : Z) (acc : list tname) (cs : list (created * src)) : list tname :=
  match cs with
  | [] => acc
  | (c, _) :: cs' =>
    expected_names (i + 1)%Z
      (match c with
       | ByParent | BySync => acc ++ [TL (i + 1)%Z]
       | Pre => [TL (i + 1)%Z]
       | ByHelper | ByFailedHelper _ => acc ++ [TH (i + 1)%Z; TL (i + 1)%Z]
       end) cs'
  end.

Definition names (t : task) : list tname := map entry_name (traceback t).

Lemma names_step : forall n s f c, names (Task n s f (Some c)) = names c ++ [n].
Proof.
  intros. unfold names. rewrite traceback_step, map_app. simpl.
  now rewrite (proj1 (entry_of_spec (Task n s f (Some c)))).
Qed.

Lemma names_root : forall n s f, names (Task n s f None) = [n].
Proof. intros. unfold names, traceback. simpl. now rewrite (proj1 (entry_of_spec (Task n s f None))). Qed.

Lemma deepest_names : forall cs i t,
  names (deepest i t cs) = expected_names i (names t) cs.
Proof.
  induction cs as [|[c s] cs IH]; intros i t; simpl; [reflexivity|].
  rewrite IH. f_equal.
  destruct c; simpl; rewrite ?names_step, ?names_root, <- ?app_assoc; reflexivity.
Qed.

(* every creation kind, every source kind at every level: the entries name exactly the tasks the
   statement asks for, outermost first; no entry is lost or added because some task's source line
   cannot be found *)
Theorem stack_names : forall s0 cs,
  map entry_name (stack_in_deepest s0 cs) = expected_names 0%Z [TL 0%Z] cs.
Proof.
  intros. unfold stack_in_deepest. change (names (deepest 0 (Task (TL 0) s0 FrLive None) cs) = expected_names 0 [TL 0%Z] cs).
  rewrite deepest_names, names_root. reflexivity.
Qed.

Lemma expected_by_parent : forall cs i acc, forallb by_parent (map fst cs) = true ->
  expected_names i acc cs = acc ++ level_names (i + 1)%Z (List.length cs).
Proof.
  induction cs as [|[c s] cs IH]; intros i acc H; simpl.
  - now rewrite app_nil_r.
  - simpl in H. apply andb_true_iff in H. destruct H as [Hc H].
    destruct c; try discriminate; rewrite (IH _ _ H), <- app_assoc; reflexivity.
Qed.

(* the form of each entry in such a chain: the levels are all suspended or running, so an entry
   is the "File .." line iff that level's source can be found *)
Fixpoint level_entries (i : Z) (ss : list src) : list entry :=
  match ss with
  | [] => []
  | s :: ss' => (match s with SrcFile => EFrame (TL i) | SrcNone => EStr (TL i) end) :: level_entries (i + 1)%Z ss'
  end.

Lemma deepest_by_parent_entries : forall cs i t, forallb by_parent (map fst cs) = true ->
  traceback (deepest i t cs) = traceback t ++ level_entries (i + 1)%Z (map snd cs).
Proof.
  induction cs as [|[c s] cs IH]; intros i t H; simpl.
  - now rewrite app_nil_r.
  - simpl in H. apply andb_true_iff in H. destruct H as [Hc H].
    rewrite (IH _ _ H). destruct c; try discriminate; simpl; rewrite traceback_step, <- app_assoc;
      destruct s; reflexivity.
Qed.

Example stack_example :
  stack_in_deepest SrcFile [(ByParent, SrcFile); (ByHelper, SrcFile); (BySync, SrcFile); (Pre, SrcFile); (ByParent, SrcFile)]
    = [EFrame (TL 4); EFrame (TL 5)]%Z /\
  stack_in_deepest SrcFile [(ByParent, SrcFile); (ByHelper, SrcFile)]
    = [EFrame (TL 0); EFrame (TL 1); EStr (TH 2); EFrame (TL 2)]%Z /\
  (* a source-less task in the middle of the chain, and a failed source-less helper *)
  stack_in_deepest SrcFile [(ByParent, SrcFile); (ByParent, SrcNone); (ByFailedHelper SrcNone, SrcFile)]
    = [EFrame (TL 0); EFrame (TL 1); EStr (TL 2); EStr (TH 3); EFrame (TL 3)]%Z.
Proof. repeat split; reflexivity. Qed.

Definition is_future_cls (c : cls) : bool :=
  match c with
  | CFutureBase | CFuture | CConstFuture | CErrorFuture | CBatchItem | CDebugBatchItem => true
  | _ => false
  end.
Definition is_batch_cls (c : cls) : bool := match c with CBatch | CDebugBatch => true | _ => false end.
Definition is_scoped_cls (c : cls) : bool :=
  match c with CScopedValue | CSVOverride | CPropOverride => true | _ => false end.
Definition is_task (o : obj) : bool := match o with OTask _ _ _ _ => true | _ => false end.

(* object trees that the library can build: class tags fit the constructor, the scheduler's
   active_task is a task (scheduler.pxd types it as AsyncTask); payloads are arbitrary *)
Fixpoint wf (o : obj) : bool :=
  match o with
  | OFut c _ => is_future_cls c
  | OTask _ _ _ ds => forallb wf ds
  | OBatch c _ its => is_batch_cls c && forallb wf its
  | OSched ts bs act =>
    forallb wf ts && forallb wf bs &&
    match act with None => true | Some t => is_task t && wf t end
  | OScoped c _ => is_scoped_cls c
  | OAGen _ | OValue _ => true
  end.

Definition fut_like (c : cls) : Prop := is_future_cls c = true \/ is_batch_cls c = true \/ c = CAsyncTask.

(* FutureBase.__repr__, every class that inherits it, every state, every payload: which text *)
Lemma repr_future_spec : forall c o, fut_like c ->
  repr_future c o = Some (SFuture match o with Unc => FNot | OkV p => FOk p | OkSelf => FSelf | ErrV p => FErr p end).
Proof.
  intros c o H. destruct H as [H|[H|H]]; destruct c; try discriminate; destruct o; reflexivity.
Qed.

Lemma repr_future_total : forall c o, fut_like c -> repr_future c o <> None.
Proof. intros c o H. rewrite (repr_future_spec c o H). discriminate. Qed.

Lemma str_task_total : forall o it g ds, str_task o it g ds <> None.
Proof.
  intros o it g ds. unfold str_task. simpl.
  destruct o; simpl; try discriminate.
  destruct (existsb _ ds); discriminate.
Qed.

Lemma str_batch_total : forall c o its, is_batch_cls c = true -> str_batch c o its <> None.
Proof. intros c o its H. destruct c; try discriminate; destruct o; simpl; discriminate. Qed.

(* "%": a tuple operand is the argument list *)
Lemma pct1_spec : forall p,
  (forall l, p <> PTuple l) -> pct1 p = Some p.
Proof. intros p H. destruct p; try reflexivity. exfalso. apply (H l). reflexivity. Qed.

Lemma pct1_tuple : forall l,
  pct1 (PTuple l) = match l with [x] => Some x | _ => None end.
Proof. intros [|x [|y l]]; reflexivity. Qed.

Lemma pct1_wrapped : forall p, pct1 (PTuple [p]) = Some p.
Proof. reflexivity. Qed.

Theorem str_total : forall o, wf o = true -> str_obj o <> None.
Proof.
  intros o H. destruct o as [c f|f it g ds|c f its|ts bs act|c p|st|p]; simpl in *.
  - apply repr_future_total. left. exact H.
  - apply str_task_total.
  - apply andb_true_iff in H. apply str_batch_total. tauto.
  - destruct act as [t|]; [|discriminate].
    apply andb_true_iff in H. destruct H as [_ H]. apply andb_true_iff in H. destruct H as [Ht _].
    destruct t; try discriminate. simpl.
    generalize (str_task_total o iter gen_open deps). unfold str_obj, str_obj_with, str_obj_gen.
    destruct (str_task o iter gen_open deps); [discriminate | congruence].
  - destruct c; try discriminate; simpl; discriminate.
  - discriminate.
  - discriminate.
Qed.

Theorem repr_total_repr : forall o, wf o = true -> repr_obj o <> None.
Proof.
  intros o H. destruct o as [c f|f it g ds|c f its|ts bs act|c p|st|p];
    try (apply (str_total _ H)).
  - apply repr_future_total. right. right. reflexivity.
  - simpl in H. apply andb_true_iff in H. apply repr_future_total. right. left. tauto.
Qed.

Definition line_ok (l : Z * dline) : Prop := forall s, snd l = DObj s -> s <> None.

Lemma marker_ok : forall i d, match d with DObj _ => False | _ => True end -> line_ok (i, d).
Proof. intros i d H s E. simpl in E. subst d. destruct H. Qed.

Lemma debug_str_ok : forall i s, s <> None -> line_ok (i, debug_str s).
Proof.
  intros i s H t Ht. simpl in Ht. unfold debug_str in Ht. destruct s as [x|]; [|congruence].
  destruct (DEBUG_STR_REPR_MAX_LENGTH <? summary_len x)%Z; [discriminate|]. inversion Ht. discriminate.
Qed.

(* every line a dump writes for a nested object is a successfully printed object (or its cut text) *)
Theorem dump_total : forall o i, wf o = true -> Forall line_ok (dump_obj o i).
Proof.
  (* every line is the object's own text (Hstr), a marker, or a line of the dump of a nested object (Hlist) *)
  fix IH 1. intros o i H.
  assert (Hstr : line_ok (i, debug_str (str_obj o))).
  { apply debug_str_ok. apply str_total. exact H. }
  assert (Hlist : forall l k, forallb wf l = true -> Forall line_ok (flat_map (fun d => dump_obj d k) l)).
  { intros l k Hl. apply Forall_flat_map. induction l as [|a l IHl]; [constructor|].
    simpl in Hl. apply andb_true_iff in Hl. destruct Hl as [Ha Hl].
    constructor; [apply IH; exact Ha | apply IHl; exact Hl]. }
  destruct o as [c f|f it g ds|c f its|ts bs act|c p|st|p]; simpl in *; rewrite ?andb_true_iff in H;
    [|destruct (MAX_DUMP_INDENT <? i)%Z, ds | destruct its | destruct ts, bs | ..];
    repeat first [ apply Forall_nil | apply Hlist; tauto | apply Forall_app; split
                 | apply Forall_cons; [first [exact Hstr | apply marker_ok; exact I]|] ].
Qed.

(* the three calls of the statement, for every object kind in every state, whatever the payloads *)
Theorem repr_total : forall o, wf o = true ->
  str_obj o <> None /\ repr_obj o <> None /\ Forall line_ok (dump_obj o 0%Z).
Proof. intros o H. split; [apply str_total | split; [apply repr_total_repr | apply dump_total]]; exact H. Qed.

Example repr_total_example :
  wf (OSched [OTask Unc 2 true [OFut CBatchItem Unc; OFut CConstFuture (OkV (PTuple [PInt 1; PStr "%s"]))]]
             [OBatch CBatch Unc [OFut CBatchItem Unc]]
             (Some (OTask (OkV (PTuple [])) 1 true []))) = true.
Proof. reflexivity. Qed.

Example value_repr_as_found_example :
  repr_obj_gen AGEN_REPR_ATTR VALUE_OPERAND_AS_FOUND (OValue (PTuple [PInt 1; PInt 2])) = None /\
  repr_obj_gen AGEN_REPR_ATTR VALUE_OPERAND_AS_FOUND (OValue (PTuple [PInt 7])) = Some (SValue (PInt 7)) /\
  repr_obj (OValue (PTuple [PInt 7])) = Some (SValue (PTuple [PInt 7])).
Proof. repeat split; reflexivity. Qed.
