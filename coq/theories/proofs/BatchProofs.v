(* C11 for the Batch model: an invariant of the worlds ([inv]: the event log agrees with the state of every batch
   and item), kept by every primitive, and what an operation never changes ([mono], [ext]).
   A primitive that logs one event and moves the state by what the event announces keeps [inv] by [inv_event];
   those that create a batch or an item or move between the phases of _computed have a lemma each.  From
   [keeps] on, invariant and extension travel together, one statement per operation. *)
From Asynq Require Import Base Batch.
Local Open Scope nat_scope.

Fixpoint item_evs (i : nat) (l : list event) : list outcome :=
  match l with
  | [] => []
  | EItem j o :: r => if Nat.eqb j i then o :: item_evs i r else item_evs i r
  | _ :: r => item_evs i r
  end.

Fixpoint batch_evs (b : nat) (l : list event) : list outcome :=
  match l with
  | [] => []
  | EBatch j o :: r => if Nat.eqb j b then o :: batch_evs b r else batch_evs b r
  | _ :: r => batch_evs b r
  end.

Fixpoint body_evs (b : nat) (l : list event) : list nat :=
  match l with
  | [] => []
  | EBody j a :: r => if Nat.eqb j b then a :: body_evs b r else body_evs b r
  | _ :: r => body_evs b r
  end.

Lemma item_evs_app i l1 l2 : item_evs i (l1 ++ l2) = item_evs i l1 ++ item_evs i l2.
Proof. induction l1 as [|e l1 IH]; cbn; auto. destruct e; auto. destruct (Nat.eqb i0 i); cbn; congruence. Qed.
Lemma batch_evs_app b l1 l2 : batch_evs b (l1 ++ l2) = batch_evs b l1 ++ batch_evs b l2.
Proof. induction l1 as [|e l1 IH]; cbn; auto. destruct e; auto. destruct (Nat.eqb b0 b); cbn; congruence. Qed.
Lemma body_evs_app b l1 l2 : body_evs b (l1 ++ l2) = body_evs b l1 ++ body_evs b l2.
Proof. induction l1 as [|e l1 IH]; cbn; auto. destruct e; auto. destruct (Nat.eqb b0 b); cbn; congruence. Qed.

Definition obs_item (w : world) (i : nat) : list outcome :=
  match iout (itm w i) with Some o => [o] | None => [] end.
Definition obs_batch (w : world) (b : nat) : list outcome :=
  match bout (bat w b) with Some o => [o] | None => [] end.

Lemma snoc_split {A} (l : list A) e l1 y l2 :
  l ++ [e] = l1 ++ y :: l2 ->
  (l = l1 /\ e = y /\ l2 = []) \/ (exists l2', l = l1 ++ y :: l2' /\ l2 = l2' ++ [e]).
Proof.
  destruct l2 as [|z l2 _] using rev_ind; intros H.
  - apply app_inj_tail in H as [-> ->]. auto.
  - change (l1 ++ y :: l2 ++ [z]) with (l1 ++ (y :: l2) ++ [z]) in H. rewrite app_assoc in H.
    apply app_inj_tail in H as [-> ->]. eauto.
Qed.

(* an observation [g] of the entries of a table that the new entry shares with the old one is not changed by the update *)
Lemma upd_obs {A B} (g : A -> B) (f : nat -> A) k x j : g x = g (f k) -> g (upd f k x j) = g (f j).
Proof. unfold upd. destruct (Nat.eqb_spec j k); subst; auto. Qed.
Lemma upd_same {A} (f : nat -> A) k x : upd f k x k = x.
Proof. unfold upd. now rewrite Nat.eqb_refl. Qed.
Lemma upd_other {A} (f : nat -> A) k x j : j <> k -> upd f k x j = f j.
Proof. unfold upd. intros H. now destruct (Nat.eqb_spec j k). Qed.

Ltac upd :=
  cbn [bat itm nb ni active log set_bat set_itm emit] in *; unfold upd in *; cbv beta in *;
  repeat match goal with
  | |- context [Nat.eqb ?a ?b] => destruct (Nat.eqb_spec a b); subst
  | H : context [Nat.eqb ?a ?b] |- _ => destruct (Nat.eqb_spec a b); subst
  end.

(* what a logged re-entrant request may have got: an item asked for its value()/error() while the body of
   its batch runs reports its outcome or gets BatchingError - never the "not computed" marker, never a
   nested flush; flush() called by the body gets BatchingError *)
Definition read_ok (e : event) : Prop :=
  match e with
  | ERead _ _ r => r <> RNotComputed /\ r <> RSkip
  | EReflush _ r => r = RRaise E_BATCHING
  | EBRead _ r => r <> RNotComputed /\ r <> RSkip
  | _ => True
  end.

(* the invariant; [x = Some b] means: batch b has just stored its outcome and is inside _computed (its leftover
   items are being completed, its own on_computed has not fired yet).
   State: the registry names an existing batch, pending unless it is the exempted one ([i_act_pend]; _computed
   switches the registry only after storing the outcome); [bitems] lists exactly the pending items constructed on the
   batch, plus complete ones until flush() clears the list ([i_listed], [i_pend]); a finished batch has no pending
   item, except the exempted one whose item loop is still running ([i_done]).
   Log: the on_computed events of an item or batch are its stored outcome, at most one ([i_ilog], [i_blog]); the
   exempted batch has an outcome and no event yet ([i_blog_x]); the body was entered [bruns] times, each time with
   the registry pointing at another batch ([i_body]); before a batch announces itself every item constructed on
   it has announced itself ([i_order]).  The clauses ending in 2 say that ids not yet given out have no events. *)
Record inv (x : option nat) (w : world) : Prop := mkInv {
  i_act_lt : active w < nb w;
  i_act_pend : Some (active w) <> x -> bout (bat w (active w)) = None;
  i_ib : forall i, i < ni w -> ibatch (itm w i) < nb w;
  i_listed : forall b i, b < nb w -> In i (bitems (bat w b)) -> i < ni w /\ ibatch (itm w i) = b;
  i_pend : forall i, i < ni w -> iout (itm w i) = None -> In i (bitems (bat w (ibatch (itm w i))));
  i_done : forall i, i < ni w -> Some (ibatch (itm w i)) <> x ->
                     bout (bat w (ibatch (itm w i))) <> None -> iout (itm w i) <> None;
  i_ilog : forall i, i < ni w -> item_evs i (log w) = obs_item w i;
  i_ilog2 : forall i, ni w <= i -> item_evs i (log w) = [];
  i_blog : forall b, b < nb w -> Some b <> x -> batch_evs b (log w) = obs_batch w b;
  i_blog_x : forall b, x = Some b -> batch_evs b (log w) = [] /\ bout (bat w b) <> None /\ b < nb w;
  i_blog2 : forall b, nb w <= b -> batch_evs b (log w) = [];
  i_body : forall b, b < nb w -> length (body_evs b (log w)) = bruns (bat w b) /\ Forall (fun a => a <> b) (body_evs b (log w));
  i_body2 : forall b, nb w <= b -> body_evs b (log w) = [];
  i_order : forall l1 l2 b o i, log w = l1 ++ EBatch b o :: l2 -> i < ni w -> ibatch (itm w i) = b ->
                                item_evs i l1 <> [];
  i_reads : Forall read_ok (log w)
}.

Lemma inv_init : inv None init.
Proof.
  constructor; cbn; intros; try lia; auto; try discriminate.
Qed.

(* no on_computed event of a pending batch is in the log *)
Lemma no_batch_event w b l1 o l2 :
  inv None w -> bout (bat w b) = None -> log w <> l1 ++ EBatch b o :: l2.
Proof.
  intros I P E. assert (H : batch_evs b (log w) = []).
  { destruct (Nat.lt_ge_cases b (nb w)) as [L|L]; [|now apply (i_blog2 _ _ I)].
    rewrite (i_blog _ _ I b L) by discriminate. unfold obs_batch. now rewrite P. }
  rewrite E, batch_evs_app in H. cbn in H. rewrite Nat.eqb_refl in H. now destruct (batch_evs b l1).
Qed.

(* [i_order] when one event is logged.  An announcement already in the log has its prefix there, and [i_order] of
   the old world speaks of it; if the new event is itself the announcement of b, its prefix is the whole old log,
   in which every complete item has logged ([i_ilog]) - so the items of b have to be complete by then. *)
Lemma order_snoc x w e l1 l2 b o i : inv x w ->
  log w ++ [e] = l1 ++ EBatch b o :: l2 -> i < ni w -> ibatch (itm w i) = b ->
  (e = EBatch b o -> iout (itm w i) <> None) -> item_evs i l1 <> [].
Proof.
  intros I H L B D. apply snoc_split in H as [(<- & E & _)|(l2' & H & _)]; [|eapply (i_order _ _ I); eauto].
  rewrite (i_ilog _ _ I i L). unfold obs_item. now destruct (iout (itm w i)); [|destruct (D E)].
Qed.

Lemma reads_snoc l e : Forall read_ok l -> read_ok e -> Forall read_ok (l ++ [e]).
Proof. intros. apply Forall_app. auto. Qed.

(* The primitives that create a batch or an item, open or close the phase [x], or clear an items list each rewrite
   one entry of a table and / or log one event.  [inv_fields I] opens the fields of the invariant for such a world and closes
   those that read only what the update left alone, by the same field of [I] (named Hact .. Hreads); what remains
   are the fields the primitive is about, in the order of the record; the bullets below name them.  The premises
   of a remaining field are introduced under Coq's names: its bound variables as in the record (i, b; b0, i0 if taken),
   its hypotheses H, H0, H1 from left to right - so in [i_done] H1 is `bout .. <> None`, in [i_order] H is the
   splitting of the log. *)
Ltac inv_fields I :=
  destruct I as [Hact Hactp Hib Hlisted Hpend Hdone Hilog Hilog2 Hblog Hblogx Hblog2 Hbody Hbody2 Horder Hreads];
  constructor; unfold obs_item, obs_batch in *; cbn [bat itm nb ni active log set_bat set_itm emit]; try assumption; intros;
  repeat match goal with H : context [upd] |- _ =>
    first [rewrite (upd_obs bitems) in H by reflexivity | rewrite (upd_obs bout) in H by reflexivity
          | rewrite (upd_obs ibatch) in H by reflexivity] end;
  try match goal with |- context [upd] =>
    rewrite ?(upd_obs bitems), ?(upd_obs bout), ?(upd_obs bruns), ?(upd_obs ibatch) by reflexivity end;
  try match goal with |- context [log _ ++ _] =>
    try first [rewrite item_evs_app | rewrite batch_evs_app | rewrite body_evs_app];
    cbn [item_evs batch_evs body_evs]; rewrite ?app_nil_r end;
  auto; try (apply reads_snoc; cbn; now auto).

(* One event is logged, and the state moves by what the event announces: the outcome of an item and the run count
   of a batch are those of [w] followed by the event's own projection; no batch is announced.  Both sides of every
   log clause of [inv] grow by the same list. *)
Lemma inv_event x w bat' itm' e :
  inv x w ->
  (forall i, ibatch (itm' i) = ibatch (itm w i)) ->
  (forall b, bitems (bat' b) = bitems (bat w b)) ->
  (forall b, bout (bat' b) = bout (bat w b)) ->
  (forall i, match iout (itm' i) with Some o => [o] | None => [] end = obs_item w i ++ item_evs i [e]) ->
  (forall i, ni w <= i -> item_evs i [e] = []) ->
  (forall b, batch_evs b [e] = []) ->
  (forall b, bruns (bat' b) = bruns (bat w b) + length (body_evs b [e])) ->
  (forall b, Forall (fun a => a <> b) (body_evs b [e])) ->
  (forall b, nb w <= b -> body_evs b [e] = []) ->
  read_ok e -> inv x (mkW bat' itm' (nb w) (ni w) (active w) (log w ++ [e])).
Proof.
  intros I Eib Eit Ebo Oi Oi2 Ob Or Of Or2 RO.
  assert (P : forall i, iout (itm' i) = None -> iout (itm w i) = None).
  { intros i Q. specialize (Oi i). unfold obs_item in Oi. rewrite Q in Oi. now destruct (iout (itm w i)). }
  constructor; unfold obs_item, obs_batch; cbn [bat itm nb ni active log]; intros.
  - apply I.
  - rewrite Ebo. now apply I.
  - rewrite Eib. now apply I.
  - rewrite Eib. rewrite Eit in H0. now apply I.
  - rewrite Eib, Eit. apply I; auto.
  - rewrite Eib in H0, H1. rewrite Ebo in H1. intros Q. apply (i_done _ _ I i); auto.
  - rewrite item_evs_app, Oi. f_equal. now apply I.
  - rewrite item_evs_app, Oi2, app_nil_r by auto. now apply (i_ilog2 _ _ I).
  - rewrite batch_evs_app, Ob, app_nil_r, Ebo. now apply (i_blog _ _ I).
  - rewrite batch_evs_app, Ob, app_nil_r, Ebo. now apply (i_blog_x _ _ I).
  - rewrite batch_evs_app, Ob, app_nil_r. now apply (i_blog2 _ _ I).
  - rewrite body_evs_app, app_length, Forall_app, Or. destruct (i_body _ _ I b) as (-> & F); auto.
  - rewrite body_evs_app, Or2, app_nil_r by auto. now apply (i_body2 _ _ I).
  - rewrite Eib in H1. apply (order_snoc x w e l1 l2 b o i I H H0 H1).
    intros ->. specialize (Ob b). cbn in Ob. now rewrite Nat.eqb_refl in Ob.
  - apply Forall_app. split; [apply I|auto].
Qed.

Lemma inv_complete_item x w i o :
  inv x w -> i < ni w -> iout (itm w i) = None -> inv x (complete_item w i o).
Proof.
  intros I L P. apply (inv_event x w _ _ (EItem i o)); cbn; auto; intros.
  - apply (upd_obs ibatch). reflexivity.
  - unfold obs_item. destruct (Nat.eqb_spec i i0) as [<-|N].
    + now rewrite upd_same, P.
    + now rewrite upd_other, app_nil_r by auto.
  - destruct (Nat.eqb_spec i i0); [lia|reflexivity].
Qed.

Lemma finish_items_frame w l o :
  let w' := finish_items w l o in
  bat w' = bat w /\ nb w' = nb w /\ ni w' = ni w /\ active w' = active w /\
  (forall i, ibatch (itm w' i) = ibatch (itm w i)) /\
  (forall i oc, iout (itm w i) = Some oc -> iout (itm w' i) = Some oc) /\
  (forall i, iout (itm w i) = None -> In i l -> iout (itm w' i) = Some o) /\
  (forall i, iout (itm w i) = None -> ~ In i l -> iout (itm w' i) = None).
Proof.
  revert w. induction l as [|j l IH]; intros w; cbn.
  - repeat split; auto. intros; tauto.
  - destruct (iout (itm w j)) eqn:E.
    + destruct (IH w) as (A1 & A2 & A3 & A4 & A5 & A6 & A7 & A8). repeat split; auto;
        try (intros i Hi [->|Hl]; [congruence|auto]); try (intros i Hi Hn; apply A8; auto; tauto).
    + destruct (IH (complete_item w j o)) as (A1 & A2 & A3 & A4 & A5 & A6 & A7 & A8). cbn in *.
      assert (Sj : iout (upd (itm w) j (mkI (ibatch (itm w j)) (iresult (itm w j)) (Some o)) j) = Some o)
        by now rewrite upd_same.
      repeat split; auto.
      * intros i. now rewrite A5, (upd_obs ibatch).
      * intros i oc Hi. apply A6. destruct (Nat.eq_dec i j) as [->|N]; [congruence|now rewrite upd_other].
      * intros i Hi [->|Hl]; [now apply A6|].
        destruct (Nat.eq_dec i j) as [->|N]; [now apply A6|]. apply A7; auto. now rewrite upd_other.
      * intros i Hi Hn. apply A8; [|tauto]. rewrite upd_other; auto.
Qed.

Lemma inv_finish_items x l o : forall w,
  inv x w -> (forall i, In i l -> i < ni w) -> inv x (finish_items w l o).
Proof.
  induction l as [|j l IH]; intros w I H; cbn; auto.
  destruct (iout (itm w j)) eqn:E; apply IH; cbn; auto using in_cons, in_eq, inv_complete_item.
Qed.

Lemma inv_cancel_hook x w b : inv x w -> inv x (call_cancel_hook w b).
Proof.
  intros I. apply (inv_event x w _ _ (ECancel b) I); cbn; intros; rewrite ?app_nil_r, ?Nat.add_0_r; auto; now apply upd_obs.
Qed.

(* the body of b is entered, with the registry pointing elsewhere *)
Lemma inv_body_entry x w b : inv x w -> b < nb w -> active w <> b ->
  inv x (emit (set_bat w b (mkB (bitems (bat w b)) (bout (bat w b)) (S (bruns (bat w b))) (bcancels (bat w b))))
              (EBody b (active w))).
Proof.
  intros I L A. apply (inv_event x w _ _ (EBody b (active w)) I); cbn; intros; rewrite ?app_nil_r, ?Nat.add_0_r; auto.
  - now apply upd_obs.
  - now apply upd_obs.
  - destruct (Nat.eqb_spec b b0) as [<-|N]; [rewrite upd_same|rewrite upd_other by auto]; cbn; lia.
  - destruct (Nat.eqb_spec b b0) as [<-|N]; auto.
  - destruct (Nat.eqb_spec b b0); [lia|reflexivity].
Qed.

Lemma inv_switch x w b : inv x w -> inv x (switch w b) /\ (b < nb w -> active (switch w b) <> b).
Proof.
  intros I. unfold switch. destruct (Nat.eqb_spec (active w) b) as [E|E]; [|now split].
  split; [|cbn; lia].
  assert (F : forall j, j < nb w -> upd (bat w) (nb w) empty_batch j = bat w j) by (intros; apply upd_other; lia).
  assert (B : forall i, i < ni w -> ibatch (itm w i) < nb w) by apply I.
  inv_fields I.
  - (* i_act_pend *) now rewrite upd_same.
  - (* i_ib *) specialize (B i H). lia.
  - (* i_listed *) destruct (Nat.eq_dec b0 (nb w)) as [->|N]; [now rewrite upd_same in H0|]. rewrite F in H0 by lia. apply Hlisted; auto; lia.
  - (* i_pend *) rewrite F; auto.
  - (* i_done *) rewrite F in H1; auto.
  - (* i_blog *) destruct (Nat.eq_dec b0 (nb w)) as [->|N]; [rewrite upd_same; now apply Hblog2|]. rewrite F by lia. apply Hblog; auto; lia.
  - (* i_blog_x *) destruct (Hblogx b0 H) as (A1 & A2 & A3). rewrite F; auto.
  - (* i_blog2 *) apply Hblog2; lia.
  - (* i_body *) destruct (Nat.eq_dec b0 (nb w)) as [->|N]; [rewrite upd_same, Hbody2; cbn; auto|]. rewrite F by lia. apply Hbody; lia.
  - (* i_body2 *) apply Hbody2; lia.
Qed.

(* storing the outcome of a pending batch opens the exempted phase *)
Lemma inv_store w b o :
  inv None w -> b < nb w -> bout (bat w b) = None ->
  inv (Some b) (set_bat w b (mkB (bitems (bat w b)) (Some o) (bruns (bat w b)) (bcancels (bat w b)))).
Proof.
  intros I L P.
  assert (F : forall j, j <> b -> upd (bat w) b (mkB (bitems (bat w b)) (Some o) (bruns (bat w b)) (bcancels (bat w b))) j = bat w j)
    by (intros; now apply upd_other).
  inv_fields I.
  - (* i_act_pend *) rewrite F by congruence. apply Hactp. discriminate.
  - (* i_done *) rewrite F in H1 by congruence. apply Hdone; auto. discriminate.
  - (* i_blog *) rewrite F by congruence. apply Hblog; auto. discriminate.
  - (* i_blog_x *) injection H as <-. rewrite upd_same. cbn. rewrite Hblog, P by (auto; discriminate). repeat split; auto. discriminate.
Qed.

(* the batch's own on_computed closes the phase, once every item of the batch is complete *)
Lemma inv_announce w b o :
  inv (Some b) w -> bout (bat w b) = Some o -> active w <> b ->
  (forall i, i < ni w -> ibatch (itm w i) = b -> iout (itm w i) <> None) ->
  inv None (emit w (EBatch b o)).
Proof.
  intros I P A D. destruct (i_blog_x _ _ I b eq_refl) as (X1 & X2 & X3). pose proof I as I'. inv_fields I.
  - (* i_act_pend *) apply Hactp. congruence.
  - (* i_done *) destruct (Nat.eq_dec (ibatch (itm w i)) b) as [E|E]; auto. apply Hdone; auto. congruence.
  - (* i_blog *) destruct (Nat.eqb_spec b b0) as [<-|N].
    + now rewrite X1, P.
    + rewrite app_nil_r. apply Hblog; auto. congruence.
  - (* i_blog_x *) discriminate.
  - (* i_blog2 *) destruct (Nat.eqb_spec b b0); [lia|]. rewrite app_nil_r. auto.
  - (* i_order *) apply (order_snoc (Some b) w (EBatch b o) l1 l2 b0 o0 i I' H H0 H1). intros [= <- <-]. auto.
Qed.

(* the world in which BatchBase._computed starts its item loop: outcome stored, registry switched, _cancel
   hook called *)
Definition pre_finish (w : world) (b : nat) (o : outcome) : world :=
  let B := bat w b in
  let w2 := switch (set_bat w b (mkB (bitems B) (Some o) (bruns B) (bcancels B))) b in
  match o with Err _ => call_cancel_hook w2 b | Ok _ => w2 end.

Lemma batch_computed_eq w b o :
  batch_computed w b o =
  emit (finish_items (pre_finish w b o) (bitems (bat (pre_finish w b o) b)) (leftover o)) (EBatch b o).
Proof. reflexivity. Qed.

Lemma pre_finish_frame w b o : b < nb w ->
  itm (pre_finish w b o) = itm w /\ bitems (bat (pre_finish w b o) b) = bitems (bat w b) /\
  bout (bat (pre_finish w b o) b) = Some o.
Proof.
  intros L. assert (N : b <> nb w) by lia. unfold pre_finish, switch. cbn [active set_bat].
  destruct (Nat.eqb (active w) b), o; cbn; rewrite ?upd_same, ?(upd_other _ (nb w) _ b N), ?upd_same; auto.
Qed.

Lemma pre_finish_active w b o : active w <> b -> active (pre_finish w b o) = active w.
Proof.
  intros A. unfold pre_finish, switch. cbn [active set_bat]. destruct (Nat.eqb_spec (active w) b); [easy|now destruct o].
Qed.

Lemma batch_computed_out w b o : b < nb w -> bout (bat (batch_computed w b o) b) = Some o.
Proof.
  intros L. rewrite batch_computed_eq. cbn [bat emit].
  destruct (finish_items_frame (pre_finish w b o) (bitems (bat (pre_finish w b o) b)) (leftover o)) as (-> & _).
  now apply pre_finish_frame.
Qed.

Lemma inv_pre_finish w b o : inv None w -> b < nb w -> bout (bat w b) = None ->
  inv (Some b) (pre_finish w b o) /\ active (pre_finish w b o) <> b /\ b < nb (pre_finish w b o).
Proof.
  intros I L P. unfold pre_finish.
  set (w1 := set_bat w b _). destruct (inv_switch (Some b) w1 b (inv_store w b o I L P)) as (I2 & A2).
  specialize (A2 L). assert (L2 : b < nb (switch w1 b)) by (unfold switch; destruct (Nat.eqb (active w1) b); cbn; lia).
  destruct o; auto using inv_cancel_hook.
Qed.

Lemma inv_batch_computed w b o :
  inv None w -> b < nb w -> bout (bat w b) = None -> inv None (batch_computed w b o).
Proof.
  intros I L P. rewrite batch_computed_eq.
  destruct (inv_pre_finish w b o I L P) as (I3 & A3 & L3). destruct (pre_finish_frame w b o L) as (_ & _ & B3).
  set (w3 := pre_finish w b o) in *.
  destruct (finish_items_frame w3 (bitems (bat w3 b)) (leftover o)) as (G1 & G2 & G3 & G4 & G5 & G6 & G7 & _).
  assert (I4 : inv (Some b) (finish_items w3 (bitems (bat w3 b)) (leftover o))).
  { apply inv_finish_items; auto. intros i Hi. now apply (i_listed _ _ I3 b i). }
  apply inv_announce; auto; rewrite ?G1, ?G4; auto.
  (* every item of b is complete after the loop: it was complete before, or pending and hence listed *)
  intros i Li Bi. rewrite G3 in Li. rewrite G5 in Bi.
  destruct (iout (itm w3 i)) eqn:E; [rewrite (G6 _ _ E); discriminate|].
  pose proof (i_pend _ _ I3 i Li E) as Q. rewrite Bi in Q. rewrite (G7 _ E Q). discriminate.
Qed.

Record mono (w w' : world) : Prop := mkMono {
  m_nb : nb w <= nb w';
  m_ni : ni w <= ni w';
  m_bout : forall b o, b < nb w -> bout (bat w b) = Some o -> bout (bat w' b) = Some o;
  m_iout : forall i o, i < ni w -> iout (itm w i) = Some o -> iout (itm w' i) = Some o;
  m_ibatch : forall i, i < ni w -> ibatch (itm w' i) = ibatch (itm w i);
  m_runs : forall b, b < nb w -> bruns (bat w b) <= bruns (bat w' b);
  m_log : exists l, log w' = log w ++ l
}.

Lemma mono_refl w : mono w w.
Proof. constructor; auto. exists []. now rewrite app_nil_r. Qed.

Lemma mono_trans w1 w2 w3 : mono w1 w2 -> mono w2 w3 -> mono w1 w3.
Proof.
  intros A B. pose proof (m_nb _ _ A). pose proof (m_ni _ _ A). constructor; intros.
  - pose proof (m_nb _ _ B); lia.
  - pose proof (m_ni _ _ B); lia.
  - apply (m_bout _ _ B); [lia|]. apply (m_bout _ _ A); auto.
  - apply (m_iout _ _ B); [lia|]. apply (m_iout _ _ A); auto.
  - rewrite (m_ibatch _ _ B) by lia. apply (m_ibatch _ _ A); auto.
  - pose proof (m_runs _ _ A b H1). pose proof (m_runs _ _ B b). lia.
  - destruct (m_log _ _ A) as (l1 & E1). destruct (m_log _ _ B) as (l2 & E2).
    exists (l1 ++ l2). rewrite E2, E1. now rewrite app_assoc.
Qed.

(* [mono], and no flush body is entered ([x = Some b]: except that of b) *)
Record ext (x : option nat) (w w' : world) : Prop := mkExt {
  e_mono : mono w w';
  e_runs : forall b, b < nb w -> Some b <> x -> bruns (bat w' b) = bruns (bat w b);
  e_newruns : forall b, nb w <= b -> b < nb w' -> bruns (bat w' b) = 0
}.

Lemma ext_refl x w : ext x w w.
Proof. constructor; auto using mono_refl. intros; lia. Qed.

Lemma ext_trans x w1 w2 w3 : ext x w1 w2 -> ext None w2 w3 -> ext x w1 w3.
Proof.
  intros A B. pose proof (m_nb _ _ (e_mono _ _ _ A)). constructor; intros.
  - eapply mono_trans; eapply e_mono; eauto.
  - rewrite (e_runs _ _ _ B) by (try lia; discriminate). apply (e_runs _ _ _ A); auto.
  - destruct (Nat.lt_ge_cases b (nb w2)); [|apply (e_newruns _ _ _ B); auto].
    rewrite (e_runs _ _ _ B) by (auto; discriminate). apply (e_newruns _ _ _ A); auto.
Qed.

Ltac ext_base :=
  constructor; [constructor|..]; cbn; intros; auto;
  try (upd; cbn in *; auto; try congruence; try lia; fail);
  try (eexists; reflexivity); try (exists []; now rewrite app_nil_r).

Lemma ext_complete_item w i o : iout (itm w i) = None -> ext None w (complete_item w i o).
Proof. intros P. unfold complete_item. ext_base. Qed.

Lemma ext_finish_items l o : forall w, ext None w (finish_items w l o).
Proof.
  induction l as [|j l IH]; intros w; cbn; [apply ext_refl|].
  destruct (iout (itm w j)) eqn:E; [apply IH|].
  eapply ext_trans; [apply (ext_complete_item w j o E)|apply IH].
Qed.

Lemma ext_switch w b : ext None w (switch w b).
Proof. unfold switch. destruct (Nat.eqb (active w) b); [ext_base|apply ext_refl]. Qed.

Lemma ext_emit w e : ext None w (emit w e).
Proof. ext_base. Qed.

Lemma ext_batch_computed w b o : bout (bat w b) = None -> ext None w (batch_computed w b o).
Proof.
  intros P. rewrite batch_computed_eq.
  eapply ext_trans; [|apply ext_emit]. eapply ext_trans; [|apply ext_finish_items].
  unfold pre_finish. set (w1 := set_bat w b _).
  assert (X : ext None w (switch w1 b)) by (apply (ext_trans None w w1); [unfold w1; ext_base|apply ext_switch]).
  destruct o; [exact X|]. eapply ext_trans; [exact X|]. unfold call_cancel_hook. ext_base.
Qed.

Definition keeps (w w' : world) : Prop := inv None w' /\ ext None w w'.

Lemma keeps_refl w : inv None w -> keeps w w.
Proof. split; auto using ext_refl. Qed.

Lemma keeps_trans w1 w2 w3 : keeps w1 w2 -> keeps w2 w3 -> keeps w1 w3.
Proof. intros (_ & A) (I & B). split; eauto using ext_trans. Qed.

Lemma keeps_nb w w' b : keeps w w' -> b < nb w -> b < nb w'.
Proof. intros (_ & X) L. pose proof (m_nb _ _ (e_mono _ _ _ X)). lia. Qed.

Lemma keeps_ni w w' i : keeps w w' -> i < ni w -> i < ni w'.
Proof. intros (_ & X) L. pose proof (m_ni _ _ (e_mono _ _ _ X)). lia. Qed.

Lemma keeps_new_item w b v : inv None w -> b < nb w -> keeps w (fst (new_item w b v)).
Proof.
  intros I L. unfold new_item. destruct (bout (bat w b)) eqn:P; cbn; [now apply keeps_refl|].
  split; [|ext_base].
  set (It := mkI b v None).
  assert (Fi : forall i, i < ni w -> upd (itm w) (ni w) It i = itm w i) by (intros; apply upd_other; lia).
  assert (Fo : forall B c, bout B = None -> bout (upd (bat w) b B c) = bout (bat w c))
    by (intros; apply upd_obs; congruence).
  assert (C : forall i, i < S (ni w) -> i < ni w \/ i = ni w) by (intros; lia).
  pose proof I as I'. inv_fields I.
  - (* i_act_pend *) rewrite Fo; auto.
  - (* i_ib *) destruct (C i H) as [Li| ->]; [rewrite Fi; auto|rewrite upd_same; exact L].
  - (* i_listed *) destruct (Nat.eq_dec b0 b) as [->|N].
    + rewrite upd_same in H0. apply in_app_or in H0 as [H0|[<-|[]]]; [|rewrite upd_same; auto].
      destruct (Hlisted b i) as (A1 & A2); auto. rewrite Fi; auto.
    + rewrite upd_other in H0 by auto. destruct (Hlisted b0 i) as (A1 & A2); auto. rewrite Fi; auto.
  - (* i_pend *) destruct (C i H) as [Li| ->].
    + rewrite Fi in * by auto. destruct (Nat.eq_dec (ibatch (itm w i)) b) as [E|E].
      * rewrite E, upd_same. apply in_or_app; left. rewrite <- E. auto.
      * rewrite upd_other; auto.
    + rewrite upd_same. cbn. rewrite upd_same. apply in_or_app; right; cbn; auto.
  - (* i_done *) rewrite Fo in H1 by auto. destruct (C i H) as [Li| ->]; [rewrite Fi in * by auto; auto|].
    rewrite upd_same in H1. cbn in H1. congruence.
  - (* i_ilog *) destruct (C i H) as [Li| ->]; [rewrite Fi; auto|rewrite upd_same; now apply Hilog2].
  - (* i_ilog2 *) apply Hilog2; lia.
  - (* i_blog *) rewrite Fo; auto.
  - (* i_blog_x *) discriminate.
  - (* i_order: the batch of the new item is pending, so no announcement of it is in the log *) apply snoc_split in H as [(_ & E & _)|(l2' & H & _)]; [discriminate|].
    destruct (C i H0) as [Li| ->]; [rewrite Fi in H1 by auto; eauto|].
    rewrite upd_same in H1. cbn in H1. subst b0. now destruct (no_batch_event _ _ _ _ _ I' P H).
Qed.

Lemma keeps_item_set w i o : inv None w -> i < ni w -> keeps w (fst (item_set w i o)).
Proof.
  intros I L. unfold item_set. destruct (iout (itm w i)) eqn:P; cbn; [now apply keeps_refl|].
  split; [now apply inv_complete_item|now apply ext_complete_item].
Qed.

(* the events that log a re-entrant request of the body *)
Definition neutral (e : event) : Prop :=
  match e with ERead _ _ _ | EReflush _ _ | EBRead _ _ => True | _ => False end.

Lemma keeps_emit w e : inv None w -> neutral e -> read_ok e -> keeps w (emit w e).
Proof.
  intros I N RO. split; [|apply ext_emit]. destruct e; try contradiction;
    (apply (inv_event None w (bat w) (itm w)); cbn; intros; rewrite ?app_nil_r, ?Nat.add_0_r; auto).
Qed.

Lemma keeps_batch_computed w b o : inv None w -> b < nb w -> bout (bat w b) = None -> keeps w (batch_computed w b o).
Proof. intros I L P. split; [now apply inv_batch_computed|now apply ext_batch_computed]. Qed.

Lemma keeps_cancel w b oe : inv None w -> b < nb w -> keeps w (cancel w b oe).
Proof.
  intros I L. unfold cancel. destruct (bout (bat w b)) eqn:P; auto using keeps_refl, keeps_batch_computed.
Qed.

(* the end of _compute: set_value / set_error unless the body has finished the batch itself *)
Lemma keeps_settle w b o : inv None w -> b < nb w ->
  let w' := match bout (bat w b) with Some _ => w | None => batch_computed w b o end in
  keeps w w' /\ bout (bat w' b) <> None.
Proof.
  intros I L. cbn zeta. destruct (bout (bat w b)) eqn:Q; [split; [now apply keeps_refl|congruence]|].
  split; [now apply keeps_batch_computed|]. rewrite batch_computed_out by auto. discriminate.
Qed.

(* the items of a batch are items of the world *)
Lemma listed_lt w b i : inv None w -> b < nb w -> In i (bitems (bat w b)) -> i < ni w.
Proof. intros I L H. now apply (i_listed _ _ I b i). Qed.

Lemma keeps_set_all l : forall w, inv None w -> (forall i, In i l -> i < ni w) -> keeps w (fst (set_all w l)).
Proof.
  induction l as [|i l IH]; intros w I H; cbn; [now apply keeps_refl|].
  pose proof (keeps_item_set w i (Ok (iresult (itm w i))) I (H i (or_introl eq_refl))) as K.
  destruct (item_set w i (Ok (iresult (itm w i)))) as [w1 [e|]]; cbn in *; auto.
  eapply keeps_trans; [exact K|]. apply IH; [apply K|]. intros j Hj. eapply keeps_ni; eauto using in_cons.
Qed.

(* a request for value()/error() of an item of the batch whose body is running *)
Lemma sibling_read_spec w b i kd :
  inv None w -> b < nb w -> In i (bitems (bat w b)) ->
  let r := sibling_read w b i kd in
  r <> RNotComputed /\ r <> RSkip /\
  (iout (itm w i) = None -> bout (bat w b) = None /\ r = RRaise E_BATCHING) /\
  (forall o, iout (itm w i) = Some o -> r = rep_of kd (Some o)).
Proof.
  intros I L H. cbn zeta. destruct (i_listed _ _ I b i L H) as (Li & Bi).
  unfold sibling_read. rewrite Bi. destruct (iout (itm w i)) as [o|] eqn:E.
  - repeat split; try discriminate; [destruct kd, o; discriminate..|].
    intros o' [= <-]. reflexivity.
  - assert (P : bout (bat w b) = None).
    { destruct (bout (bat w b)) eqn:Q; auto. exfalso.
      apply (i_done _ _ I i Li); try discriminate; rewrite ?Bi; congruence. }
    rewrite P, Nat.eqb_refl. repeat split; try discriminate; auto.
Qed.

Lemma batch_reread_ok w b kd : batch_reread w b kd <> RNotComputed /\ batch_reread w b kd <> RSkip.
Proof. unfold batch_reread. destruct (bout (bat w b)) as [[?|?]|], kd; cbn; split; discriminate. Qed.

Lemma keeps_exec1 w b a : inv None w -> b < nb w -> keeps w (fst (exec1 w b a)).
Proof.
  intros I L. pose proof (listed_lt w b) as Li. pose proof (keeps_refl w I) as R.
  destruct a; cbn; auto.
  - apply keeps_set_all; auto.
  - destruct (nth_error _ k) eqn:E; cbn; auto. apply keeps_item_set; eauto using nth_error_In.
  - destruct (nth_error _ k) eqn:E; cbn; auto. apply keeps_item_set; eauto using nth_error_In.
  - apply keeps_new_item; auto. apply I.
  - now apply keeps_cancel.
  - destruct (nth_error _ k) eqn:E; cbn; auto. apply nth_error_In in E.
    apply keeps_emit; cbn; auto. destruct (sibling_read_spec w b n kd I L E) as (A1 & A2 & _). auto.
  - apply keeps_emit; cbn; auto.
  - destruct (nth_error _ k) eqn:E; cbn; auto.
    pose proof (keeps_item_set w n (Ok v) I ltac:(eauto using nth_error_In)) as K.
    destruct (item_set w n (Ok v)) as [w1 [e|]]; cbn in *; auto.
    destruct (nth_error _ j) eqn:E2; cbn; auto. apply nth_error_In in E2.
    eapply keeps_trans; [exact K|]. destruct K as (I1 & X).
    apply keeps_emit; cbn; auto.
    destruct (sibling_read_spec w1 b n0 kd I1 (keeps_nb _ _ _ (conj I1 X) L) E2) as (A1 & A2 & _). auto.
  - apply keeps_emit; cbn; auto. apply batch_reread_ok.
Qed.

Lemma keeps_exec b acts : forall w, inv None w -> b < nb w -> keeps w (fst (exec w b acts)).
Proof.
  induction acts as [|a acts IH]; intros w I L; cbn; [now apply keeps_refl|].
  pose proof (keeps_exec1 w b a I L) as K.
  destruct (exec1 w b a) as [w1 [e|]]; cbn in *; auto.
  eapply keeps_trans; [exact K|]. apply IH; [apply K|]. eapply keeps_nb; eauto.
Qed.

(* entry of _compute: the registry is switched away from b, then the body of b starts *)
Lemma ext_enter w b : b < nb w -> ext (Some b) w (enter w b) /\ bruns (bat (enter w b) b) = S (bruns (bat w b)).
Proof.
  intros L. unfold enter, switch. destruct (Nat.eqb (active w) b); (split; [ext_base|]); cbn;
    rewrite upd_same; cbn; rewrite ?upd_other by lia; auto.
Qed.

Lemma inv_enter w b :
  inv None w -> b < nb w -> inv None (enter w b) /\ active (enter w b) <> b.
Proof.
  intros I L. unfold enter. destruct (inv_switch None w b I) as (I1 & A1). specialize (A1 L).
  pose proof (m_nb _ _ (e_mono _ _ _ (ext_switch w b))). split; [apply inv_body_entry; auto; lia|exact A1].
Qed.

Lemma inv_compute sc w b :
  inv None w -> b < nb w -> bout (bat w b) = None ->
  let w' := compute sc w b in
  inv None w' /\ bout (bat w' b) <> None /\ bruns (bat w' b) = S (bruns (bat w b)) /\ ext (Some b) w w'.
Proof.
  intros I L P. cbn zeta. unfold compute.
  destruct (inv_enter w b I L) as (I1 & _). destruct (ext_enter w b L) as (X1 & R1).
  assert (L1 : b < nb (enter w b)) by (pose proof (m_nb _ _ (e_mono _ _ _ X1)); lia).
  pose proof (keeps_exec b (script_of sc b) (enter w b) I1 L1) as K.
  destruct (exec (enter w b) b (script_of sc b)) as [w3 r]; cbn [fst] in K.
  destruct (keeps_settle w3 b (match r with None => Ok VNone | Some e => Err e end) (proj1 K) (keeps_nb _ _ _ K L1))
    as (K' & D).
  destruct (keeps_trans _ _ _ K K') as (I' & X').
  split; [exact I'|]. split; [exact D|]. split; [|eapply ext_trans; eauto].
  rewrite (e_runs _ _ _ X') by (auto; discriminate). exact R1.
Qed.

Definition runs_ok (w : world) : Prop :=
  forall b, b < nb w -> bruns (bat w b) <= 1 /\ (bout (bat w b) = None -> bruns (bat w b) = 0).

Definition good (w : world) : Prop := inv None w /\ runs_ok w.

(* [good] along an extension; the exempted batch, if any, has just run its body for the first time and is finished *)
Lemma good_ext x w w' : good w -> inv None w' -> ext x w w' ->
  (forall b, x = Some b -> bruns (bat w' b) = 1 /\ bout (bat w' b) <> None) -> good w' /\ mono w w'.
Proof.
  intros (I & R) I' X Hx. split; [split; auto|apply X].
  intros b Hb. destruct (Nat.lt_ge_cases b (nb w)) as [L|L]; [|rewrite (e_newruns _ _ _ X) by auto; auto].
  destruct x as [c|]; [destruct (Nat.eq_dec b c) as [->|N]|].
  1: destruct (Hx c eq_refl) as (-> & D); split; [auto|intros; contradiction].
  all: rewrite (e_runs _ _ _ X) by (auto; congruence); destruct (R b L) as (R1 & R2); split; auto;
    intros Q; apply R2; destruct (bout (bat w b)) eqn:Q'; auto;
    rewrite (m_bout _ _ (e_mono _ _ _ X) b o L Q') in Q; discriminate.
Qed.

Lemma good_keeps w w' : good w -> keeps w w' -> good w' /\ mono w w'.
Proof. intros G (I & X). apply (good_ext None); auto. discriminate. Qed.

Lemma good_compute sc w b :
  good w -> b < nb w -> bout (bat w b) = None -> good (compute sc w b) /\ mono w (compute sc w b).
Proof.
  intros G L P. destruct (inv_compute sc w b (proj1 G) L P) as (I' & D & R & X).
  apply (good_ext (Some b)); auto. intros c [= <-]. rewrite R, (proj2 (proj2 G b L) P). auto.
Qed.

Lemma inv_clear_items w b :
  inv None w -> b < nb w -> bout (bat w b) <> None -> inv None (clear_items w b).
Proof.
  intros I L D. unfold clear_items. inv_fields I.
  - (* i_listed *) destruct (Nat.eq_dec b0 b) as [->|N]; [now rewrite upd_same in H0|]. rewrite upd_other in H0; auto.
  - (* i_pend: a pending item of b would contradict i_done *) destruct (Nat.eq_dec (ibatch (itm w i)) b) as [E|N]; [|rewrite upd_other; auto].
    destruct (Hdone i H); auto; [discriminate|congruence].
Qed.

Lemma good_flush sc w b :
  good w -> b < nb w -> good (fst (flush sc w b)) /\ mono w (fst (flush sc w b)).
Proof.
  intros G L. unfold flush. destruct (bout (bat w b)) eqn:P; cbn; [auto using mono_refl|].
  destruct (good_compute sc w b G L P) as (G1 & M1).
  destruct (inv_compute sc w b (proj1 G) L P) as (_ & D & _ & _).
  destruct (good_keeps (compute sc w b) (clear_items (compute sc w b) b) G1) as (G2 & M2); [|eauto using mono_trans].
  split; [apply inv_clear_items; auto; [apply G1|pose proof (m_nb _ _ M1); lia]|unfold clear_items; ext_base].
Qed.

Lemma good_step sc w o : good w -> good (fst (step sc w o)) /\ mono w (fst (step sc w o)).
Proof.
  intros G. pose proof G as (I & R).
  assert (Z : good w /\ mono w w) by (split; auto; apply mono_refl).
  assert (OR : forall (x : world * option exn) ok, good (fst x) /\ mono w (fst x) ->
                 good (fst (of_raise x ok)) /\ mono w (fst (of_raise x ok)))
    by (intros [w' [e|]] ok; auto).
  assert (IR : forall i rep, i < ni w -> good (fst (item_read sc w i rep)) /\ mono w (fst (item_read sc w i rep))).
  { intros i rep Li. unfold item_read. destruct (iout (itm w i)); cbn [fst]; auto. apply OR.
    unfold item_compute. destruct (bout (bat w (ibatch (itm w i)))); cbn [fst]; auto.
    apply good_flush; auto. now apply (i_ib _ _ I). }
  assert (BR : forall b rep, b < nb w -> good (fst (batch_read sc w b rep)) /\ mono w (fst (batch_read sc w b rep))).
  { intros b rep Lb. unfold batch_read. destruct (bout (bat w b)) eqn:P; cbn [fst]; auto using good_compute. }
  assert (BS : forall b oc, b < nb w -> good (fst (batch_set w b oc)) /\ mono w (fst (batch_set w b oc))).
  { intros b oc Lb. unfold batch_set. destruct (bout (bat w b)) eqn:P; cbn [fst]; auto.
    apply good_keeps; auto using keeps_batch_computed. }
  destruct o; cbn [step];
    try (destruct (Nat.ltb_spec b (nb w)); cbn [fst]; auto);
    try (destruct (Nat.ltb_spec i (ni w)); cbn [fst]; auto);
    try apply OR; auto using good_flush;
    apply good_keeps; auto using keeps_new_item, keeps_cancel, keeps_item_set. apply keeps_new_item; auto. apply I.
Qed.

Lemma good_run sc ops : forall w, good w -> good (fst (run sc w ops)) /\ mono w (fst (run sc w ops)).
Proof.
  induction ops as [|o ops IH]; intros w G; cbn.
  - split; auto. apply mono_refl.
  - destruct (good_step sc w o G) as (G1 & M1).
    destruct (step sc w o) as [w1 r]. cbn [fst] in *.
    destruct (IH w1 G1) as (G2 & M2).
    destruct (run sc w1 ops) as [w2 rs]. cbn [fst] in *.
    split; auto. eapply mono_trans; eauto.
Qed.

Lemma good_init : good init.
Proof. split; [apply inv_init|]. intros b Hb. cbn. auto. Qed.

Lemma item_evs_In i l : item_evs i l <> [] -> exists o, In (EItem i o) l.
Proof.
  induction l as [|e l IH]; cbn; try congruence.
  destruct e; try (intros H; destruct (IH H) as (o' & Ho); exists o'; auto; fail).
  destruct (Nat.eqb_spec i0 i) as [->|N]; [eauto|].
  intros H; destruct (IH H) as (o' & Ho); eauto.
Qed.

(* flush() on a pending batch: returns normally whatever the body does, runs the body exactly once,
   leaves the batch finished and its items list cleared *)
Lemma flush_pending sc w b : good w -> b < nb w -> bout (bat w b) = None ->
  exists w', step sc w (OFlush b) = (w', RUnit) /\ bout (bat w' b) <> None /\
             bruns (bat w' b) = 1 /\ bitems (bat w' b) = [] /\ good w'.
Proof.
  intros G L P. pose proof (good_flush sc w b G L) as (G' & _).
  destruct (inv_compute sc w b (proj1 G) L P) as (_ & D & R1 & _).
  rewrite (proj2 (proj2 G b L) P) in R1.
  cbn [step]. destruct (Nat.ltb_spec b (nb w)); try lia.
  unfold flush in *. rewrite P in *. cbn in *. eexists; split; [reflexivity|].
  unfold clear_items at 1 2 3. cbn. rewrite upd_same. cbn. auto.
Qed.

(* event-log order: every item of a batch announced its completion before the batch did *)
Lemma items_before_announce w l1 l2 b o i : good w ->
  log w = l1 ++ EBatch b o :: l2 -> i < ni w -> ibatch (itm w i) = b ->
  exists oi, In (EItem i oi) l1.
Proof. intros (I & _) E L B. apply item_evs_In. eapply (i_order _ _ I); eauto. Qed.

(* asking a pending item for its value flushes its pending batch (body entered exactly once) and
   reports the item's outcome - never the "not computed" marker *)
Lemma item_value_flushes sc w i : good w -> i < ni w -> iout (itm w i) = None ->
  let b := ibatch (itm w i) in
  let w' := fst (step sc w (OItemValue i)) in
  bout (bat w b) = None /\ bout (bat w' b) <> None /\ bruns (bat w' b) = 1 /\
  exists o, iout (itm w' i) = Some o /\ snd (step sc w (OItemValue i)) = report_value (Some o).
Proof.
  intros G L P. cbn zeta. pose proof (i_ib _ _ (proj1 G) i L) as LB.
  assert (PB : bout (bat w (ibatch (itm w i))) = None).
  { destruct (bout (bat w (ibatch (itm w i)))) eqn:Q; auto.
    destruct (i_done _ _ (proj1 G) i L); try discriminate; congruence. }
  destruct (flush_pending sc w _ G LB PB) as (w' & E & D & R1 & _ & G').
  pose proof (good_flush sc w _ G LB) as (_ & M).
  cbn [step] in *. destruct (Nat.ltb_spec (ibatch (itm w i)) (nb w)); try lia.
  destruct (Nat.ltb_spec i (ni w)); try lia.
  unfold item_read, item_compute. rewrite P, PB.
  unfold of_raise in *. destruct (flush sc w (ibatch (itm w i))) as [w'' [e|]]; cbn [fst snd] in *; try discriminate.
  injection E as ->.
  assert (D' : iout (itm w' i) <> None).
  { apply (i_done _ _ (proj1 G')); [pose proof (m_ni _ _ M); lia|discriminate|]. now rewrite (m_ibatch _ _ M). }
  repeat split; auto. destruct (iout (itm w' i)) as [o|]; [eauto|congruence].
Qed.

(* single assignment for batches and items (C10's clause for these futures) *)
Lemma single_assignment sc w :
  (forall i o v, i < ni w -> iout (itm w i) = Some o -> step sc w (OItemSet i v) = (w, RRaise E_ALREADY)) /\
  (forall i o e, i < ni w -> iout (itm w i) = Some o -> step sc w (OItemSetErr i e) = (w, RRaise E_ALREADY)) /\
  (forall b o v, b < nb w -> bout (bat w b) = Some o -> step sc w (OBatchSet b v) = (w, RRaise E_ALREADY)) /\
  (forall b o e, b < nb w -> bout (bat w b) = Some o -> step sc w (OBatchSetErr b e) = (w, RRaise E_ALREADY)).
Proof.
  repeat split; intros; cbn [step];
    try (destruct (Nat.ltb_spec i (ni w)); try lia); try (destruct (Nat.ltb_spec b (nb w)); try lia);
    unfold item_set, batch_set; rewrite H0; reflexivity.
Qed.

(* the registry: always points at a pending batch; it is switched before the body runs and stays
   away from the flushing batch for the whole body, so a request created while flushing (ANew = new_item on
   the registry's batch) joins that fresh batch *)
Lemma item_set_active w i o : active (fst (item_set w i o)) = active w.
Proof. unfold item_set. now destruct (iout (itm w i)). Qed.

Lemma set_all_active l : forall w, active (fst (set_all w l)) = active w.
Proof.
  induction l as [|i l IH]; intros w; cbn; auto.
  pose proof (item_set_active w i (Ok (iresult (itm w i)))) as A.
  destruct (item_set w i (Ok (iresult (itm w i)))) as [w1 [e|]]; cbn [fst] in *; auto. now rewrite IH.
Qed.

Lemma batch_computed_active w b o : active w <> b -> active (batch_computed w b o) = active w.
Proof.
  intros A. rewrite batch_computed_eq. cbn [active emit].
  destruct (finish_items_frame (pre_finish w b o) (bitems (bat (pre_finish w b o) b)) (leftover o))
    as (_ & _ & _ & -> & _).
  now apply pre_finish_active.
Qed.

Lemma exec1_active w b a : active w <> b -> active (fst (exec1 w b a)) = active w.
Proof.
  intros H. destruct a; cbn [exec1 fst]; auto using set_all_active.
  - destruct (nth_error _ k); auto using item_set_active.
  - destruct (nth_error _ k); auto using item_set_active.
  - unfold new_item. now destruct (bout (bat w (active w))).
  - unfold cancel. destruct (bout (bat w b)); auto using batch_computed_active.
  - now destruct (nth_error _ k).
  - destruct (nth_error _ k); auto. pose proof (item_set_active w n (Ok v)) as A.
    destruct (item_set w n (Ok v)) as [w1 [e|]]; cbn [fst] in *; auto. now destruct (nth_error _ j).
Qed.

Lemma exec_active b acts : forall w, active w <> b -> active (fst (exec w b acts)) = active w.
Proof.
  induction acts as [|a acts IH]; intros w H; cbn; auto.
  pose proof (exec1_active w b a H) as A.
  destruct (exec1 w b a) as [w1 [e|]]; cbn in *; auto.
  rewrite IH; congruence.
Qed.

Lemma fresh_batch w b : good w -> b < nb w ->
  let w1 := enter w b in
  active w1 <> b /\ bout (bat w1 (active w1)) = None /\
  (exists l, log w1 = l ++ [EBody b (active w1)]) /\
  (forall acts, active (fst (exec w1 b acts)) = active w1) /\
  (forall w' v, active w' <> b -> good w' ->
     let w'' := fst (exec1 w' b (ANew v)) in
     ni w'' = S (ni w') /\ ibatch (itm w'' (ni w')) = active w' /\ ibatch (itm w'' (ni w')) <> b).
Proof.
  intros G L. cbn zeta. destruct (inv_enter w b (proj1 G) L) as (I1 & A1).
  split; auto. split; [apply (i_act_pend _ _ I1); discriminate|].
  split; [unfold enter; cbn; eexists; reflexivity|].
  split; [intros acts; apply exec_active; auto|].
  intros w' v H G'. cbn. unfold new_item. rewrite (i_act_pend _ _ (proj1 G')) by discriminate.
  cbn. rewrite upd_same. cbn. auto.
Qed.

(* non-vacuity of the re-entrant part: a subscriber of item 0 and the body itself ask pending item 1, the
   body calls flush(); the body is entered once and item 1 gets the value the body sets afterwards *)
Example nonvacuous_reentrant :
  let sc := [[ASetRead 0 (VInt 5) 1 KValue; ARead 1 KError true; AReflush true; ASet 1 (VInt 7)]] in
  let w := fst (run sc init [OAdd (VInt 1); OAdd (VInt 2); OItemValue 0]) in
  log w = [ENew 0 0; ENew 1 0; EBody 0 1; EItem 0 (Ok (VInt 5)); ERead 0 1 (RRaise E_BATCHING);
           ERead 0 1 (RRaise E_BATCHING); EReflush 0 (RRaise E_BATCHING); EItem 1 (Ok (VInt 7));
           EBatch 0 (Ok VNone)] /\
  bruns (bat w 0) = 1 /\ iout (itm w 1) = Some (Ok (VInt 7)).
Proof. cbn zeta. repeat split; reflexivity. Qed.

(* non-vacuity: a concrete history in which a body sets one item, creates a request and raises *)
Example nonvacuous :
  let sc := [[ASet 0 (VInt 5); ANew VNone; ARaise 7%Z]] in
  let w := fst (run sc init [OAdd (VInt 1); OAdd (VInt 2)]) in
  good w /\ bout (bat w 0) = None /\ iout (itm w 1) = None /\
  snd (run sc w [OItemValue 1; OFlush 0; OItemValue 0; OAddTo 0 VNone; OCancel 0 None]) =
    [RRaise 7%Z; RRaise E_BATCHING; RVal (VInt 5); RRaise E_ADDFLUSHED; RUnit] /\
  log (fst (run sc w [OItemValue 1])) =
    [ENew 0 0; ENew 1 0; EBody 0 1; EItem 0 (Ok (VInt 5)); ENew 2 1; ECancel 0; EItem 1 (Err 7%Z); EBatch 0 (Err 7%Z)].
Proof. cbn zeta. split; [apply good_run, good_init|]. repeat split; reflexivity. Qed.
