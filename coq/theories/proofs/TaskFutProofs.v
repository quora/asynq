(* C10 for a scheduled AsyncTask (TaskFut.v): one completion per stretch of execution ([quiet], [completed_once],
   [progress]), what one top-level operation does, and relabellings of exception classes as state morphisms. *)
From Asynq Require Import Base Futures BatchFut TaskFut proofs.FuturesProofs proofs.BatchFutProofs.

Lemma tcomplete_log s o : tlog (tcomplete s o) = tlog s ++ notes (tsubs s) o.
Proof. cbn. unfold notes. now rewrite notify_snapshot, map_map. Qed.
Lemma tcomplete_subs s o : tsubs (tcomplete s o) = after_notify (tsubs s).
Proof. reflexivity. Qed.
Lemma tcomplete_out s o : tout (tcomplete s o) = Some o.
Proof. reflexivity. Qed.
Lemma tcomplete_gen s o : tgen (tcomplete s o) = None.
Proof. reflexivity. Qed.
Lemma tcomplete_runs s o : truns (tcomplete s o) = truns s.
Proof. reflexivity. Qed.
Local Arguments tcomplete : simpl never.
Global Hint Rewrite tcomplete_log tcomplete_subs tcomplete_out tcomplete_gen tcomplete_runs : tc.

(* [s'] was reached from [s] without any completion: outcome and callback log untouched,
   subscribers only appended *)
Definition quiet (s s' : tstate) : Prop :=
  tout s' = tout s /\ tlog s' = tlog s /\ exists later, tsubs s' = tsubs s ++ later.

(* [s'] was reached from [s] through exactly one completion, with outcome [oc]: every subscriber
   registered before it ([tsubs s] and those added meanwhile, [mid]) was called exactly once, in
   order, and saw [oc] - the outcome the future reports afterwards - whatever these subscribers did
   to the subscription list while being notified ([after_notify]); subscribers added after the
   completion ([later]) were not called *)
Definition completed_once (s s' : tstate) : Prop :=
  exists oc mid later,
    tout s' = Some oc /\
    tlog s' = tlog s ++ notes (tsubs s ++ mid) oc /\
    tsubs s' = after_notify (tsubs s ++ mid) ++ later.

Lemma quiet_refl s : quiet s s.
Proof. repeat split; auto. exists []. now rewrite app_nil_r. Qed.

Lemma quiet_trans a b c : quiet a b -> quiet b c -> quiet a c.
Proof.
  intros (A1 & A2 & l1 & A3) (B1 & B2 & l2 & B3). repeat split; try congruence.
  exists (l1 ++ l2). now rewrite B3, A3, app_assoc.
Qed.

Lemma quiet_completed a b c : quiet a b -> completed_once b c -> completed_once a c.
Proof.
  intros (A1 & A2 & l1 & A3) (oc & mid & later & B1 & B2 & B3).
  exists oc, (l1 ++ mid), later. rewrite app_assoc, <- A3. split; [exact B1|]. split; [now rewrite B2, A2 | exact B3].
Qed.

Lemma completed_quiet a b c : completed_once a b -> quiet b c -> completed_once a c.
Proof.
  intros (oc & mid & later & A1 & A2 & A3) (B1 & B2 & l2 & B3).
  exists oc, mid, (later ++ l2). split; [congruence|]. split; [congruence | now rewrite B3, A3, app_assoc].
Qed.

Lemma push_inner_quiet s r : quiet s (push_inner s r).
Proof. repeat split; auto. exists []. cbn. now rewrite app_nil_r. Qed.

(* at the granularity of one operation issued while the task is suspended: the operation that
   completes the task calls each current subscriber exactly once with the outcome already stored -
   WHATEVER the generator's cleanup does on close(); no other operation calls anything *)
Lemma inner_notify_once_after c s o :
  let s' := fst (istep c s o) in
  match tout s, tout s' with
  | None, Some oc => tlog s' = tlog s ++ notes (tsubs s) oc /\ tsubs s' = after_notify (tsubs s)
  | _, _ => tlog s' = tlog s
  end.
Proof.
  destruct o; cbn; destruct (tout s) eqn:E; cbn; autorewrite with tc; rewrite ?E; auto.
Qed.

(* completing a suspended task from outside: the outcome is stored, the generator is closed and
   every subscriber is notified once, for EVERY cleanup behaviour; the cleanup only decides what
   the setter returns to its caller *)
Lemma ext_set_completes c s :
  tout s = None ->
  (forall v, let '(s', r) := istep c s (ISetValue v) in
     tout s' = Some (Ok v) /\ tgen s' = None /\ tlog s' = tlog s ++ notes (tsubs s) (Ok v) /\
     tsubs s' = after_notify (tsubs s) /\ r = close_result c) /\
  (forall e, let '(s', r) := istep c s (ISetError e) in
     tout s' = Some (Err e) /\ tgen s' = None /\ tlog s' = tlog s ++ notes (tsubs s) (Err e) /\
     tsubs s' = after_notify (tsubs s) /\ r = close_result c).
Proof. intros H; split; intros; cbn; rewrite H; autorewrite with tc; auto. Qed.

Definition ireport (o : iop) (oc : outcome) : res :=
  match o with
  | IValue | ICall => report_value oc
  | IError => report_error oc
  | IIsComputed => RBool true
  | _ => RUnit
  end.
Definition is_iread (o : iop) : bool :=
  match o with IValue | ICall | IError | IIsComputed => true | _ => false end.
Definition is_iset (o : iop) : bool :=
  match o with ISetValue _ | ISetError _ => true | _ => false end.

(* an inner operation on a computed task: outcome, log, run count unchanged; setters raise
   FutureIsAlreadyComputed and change nothing; reads report the outcome *)
Lemma istep_computed c s oc o :
  tout s = Some oc ->
  let '(s', r) := istep c s o in
  quiet s s' /\ truns s' = truns s /\
  (is_iset o = true -> s' = s /\ r = RRaise E_ALREADY) /\
  (is_iread o = true -> r = ireport o oc).
Proof.
  intros H. destruct o; cbn; rewrite ?H; cbn;
    repeat split; auto using quiet_refl; try discriminate;
    try (exists []; now rewrite app_nil_r); try congruence.
  eexists; reflexivity.
Qed.

(* what a stretch of execution can do to a task: no completion, or - from an uncomputed task - exactly one *)
Definition progress (s s' : tstate) : Prop := quiet s s' \/ (tout s = None /\ completed_once s s').

Lemma progress_trans a b c : progress a b -> progress b c -> progress a c.
Proof.
  intros [Q1|(N1 & C1)] [Q2|(N2 & C2)].
  - left. exact (quiet_trans _ _ _ Q1 Q2).
  - right. split; [destruct Q1 as (E & _); congruence | exact (quiet_completed _ _ _ Q1 C2)].
  - right. split; [exact N1 | exact (completed_quiet _ _ _ C1 Q2)].
  - destruct C1 as (oc & _ & _ & E & _). congruence.
Qed.

Lemma istep_progress c s o : progress s (fst (istep c s o)).
Proof.
  destruct (tout s) as [oc|] eqn:H.
  - left. pose proof (istep_computed c s oc o H) as Hs. destruct (istep c s o). apply Hs.
  - destruct o as [|v|e|id k| | |]; cbn; rewrite ?H; cbn; try (left; apply quiet_refl).
    + right. split; [exact H|]. exists (Ok v), [], []. autorewrite with tc. rewrite !app_nil_r. auto.
    + right. split; [exact H|]. exists (Err e), [], []. autorewrite with tc. rewrite !app_nil_r. auto.
    + left. repeat split; cbn; auto. eexists; reflexivity.
Qed.

Lemma istep_runs c s o : truns (fst (istep c s o)) = truns s.
Proof. destruct o; cbn; destruct (tout s); reflexivity. Qed.

Lemma irun_runs c ops : forall s, truns (irun c s ops) = truns s.
Proof.
  induction ops as [|o ops IH]; intros s; cbn; auto.
  pose proof (istep_runs c s o) as H. destruct (istep c s o) as [s1 r]. rewrite IH. cbn in *. exact H.
Qed.

Lemma irun_progress c ops : forall s, progress s (irun c s ops).
Proof.
  induction ops as [|o ops IH]; intros s; cbn; [left; apply quiet_refl|].
  pose proof (istep_progress c s o) as P. destruct (istep c s o) as [s1 r]. cbn in P.
  eapply progress_trans; [exact P|]. eapply progress_trans; [left; apply push_inner_quiet | apply IH].
Qed.

Lemma tcomplete_once s o : completed_once s (tcomplete s o).
Proof. exists o, [], []. autorewrite with tc. rewrite !app_nil_r. auto. Qed.

Lemma exec_runs ph : forall s, truns (exec s ph) = truns s.
Proof.
  induction ph as [|p ph IH]; intros s; cbn; auto.
  destruct (tout (irun (pclean p) s (pinner p))) eqn:E.
  - apply irun_runs.
  - destruct (pdep p); [rewrite IH|rewrite tcomplete_runs]; apply irun_runs.
Qed.

(* running a started body to the end completes the task exactly once: by one of the inner
   operations, by a failed dependency, or by the body's own return / raise *)
Lemma exec_completes_once ph : forall s, tout s = None -> completed_once s (exec s ph).
Proof.
  induction ph as [|p ph IH]; intros s H; cbn.
  - apply tcomplete_once.
  - destruct (irun_progress (pclean p) (pinner p) s) as [Q | (_ & C)].
    + assert (N : tout (irun (pclean p) s (pinner p)) = None) by (destruct Q as (E & _); congruence).
      rewrite N. destruct (pdep p).
      * eapply quiet_completed; [exact Q|]. apply IH; exact N.
      * eapply quiet_completed; [exact Q|]. apply tcomplete_once.
    + destruct C as (oc & mid & later & C1 & C2 & C3). rewrite C1.
      exists oc, mid, later. auto.
Qed.

Lemma tcompute_completes_once s : tout s = None ->
  completed_once s (tcompute s) /\ (truns (tcompute s) <= S (truns s))%nat.
Proof.
  intros H. unfold tcompute. destruct (tgen s) as [ph|].
  - split.
    + apply (exec_completes_once ph (tmk None (tfin s) (tout s) (S (truns s)) (tsubs s) (tlog s) (tinner s))).
      exact H.
    + rewrite exec_runs. cbn. lia.
  - split; [apply tcomplete_once|rewrite tcomplete_runs; lia].
Qed.

Lemma tread_uncomputed s rep : tout s = None ->
  completed_once s (fst (tread s rep)) /\ (truns (fst (tread s rep)) <= S (truns s))%nat /\
  (forall oc, tout (fst (tread s rep)) = Some oc -> snd (tread s rep) = rep oc).
Proof.
  intros H. unfold tread. rewrite H. destruct (tcompute_completes_once s H) as (C & R).
  pose proof C as (oc & mid & later & C1 & _). rewrite C1. cbn [fst snd]. repeat split; auto. congruence.
Qed.

(* on a computed task (no reset): outcome, log and run count stay, reads report the outcome *)
Lemma tstep_computed s oc o :
  tout s = Some oc -> is_reset o = false ->
  (tout (fst (tstep s o)) = Some oc /\ tlog (fst (tstep s o)) = tlog s /\ truns (fst (tstep s o)) = truns s) /\
  (is_read o = true -> snd (tstep s o) = report o oc).
Proof.
  intros H Hr. destruct o; cbn in *; try discriminate; unfold tread; rewrite ?H; cbn;
    repeat split; auto; intros; discriminate.
Qed.

(* on an uncomputed task: nothing completes and nothing is called, or the task is completed exactly once, having
   started its body at most once; a read that leaves it computed reports the outcome it then holds *)
Lemma tstep_uncomputed s o : tout s = None ->
  ((tout (fst (tstep s o)) = None /\ tlog (fst (tstep s o)) = tlog s /\ truns (fst (tstep s o)) = truns s) \/
   (completed_once s (fst (tstep s o)) /\ (truns (fst (tstep s o)) <= S (truns s))%nat)) /\
  (is_read o = true -> forall oc, tout (fst (tstep s o)) = Some oc -> snd (tstep s o) = report o oc).
Proof.
  intros H. pose proof (fun rep => tread_uncomputed s rep H) as T.
  destruct o; cbn [tstep is_read report]; rewrite ?H; cbn [fst snd];
    try (split; [right; split; apply T | intros _; apply T]);
    try (split; [right; split; [apply tcomplete_once | rewrite tcomplete_runs; lia] | discriminate]);
    (split; [left; auto | intros; congruence]).
Qed.

(* FuturesProofs.all_reads_report, under the name the statements about tasks use *)
Fixpoint tall_reads_report (ops : list op) (rs : list res) (oc : outcome) : Prop :=
  match ops, rs with
  | [], [] => True
  | o :: ops', r :: rs' => (is_read o = true -> r = report o oc) /\ tall_reads_report ops' rs' oc
  | _, _ => False
  end.

(* from the completion on, without reset_unsafe, every read reports that outcome, the body never runs
   again, no callback fires again *)
Lemma task_stable ops : forall s oc,
  tout s = Some oc -> forallb (fun o => negb (is_reset o)) ops = true ->
  let '(s', rs) := trun s ops in
  tout s' = Some oc /\ tlog s' = tlog s /\ truns s' = truns s /\ all_reads_report ops rs oc.
Proof.
  intros s oc H Hn.
  destruct (run_with_reads_report tstep (fun s' => tout s' = Some oc /\ tlog s' = tlog s /\ truns s' = truns s) oc)
    with (ops := ops) (s := s) as [Q A]; auto.
  - intros s1 o (Q1 & Q2 & Q3) Ho. destruct (tstep_computed s1 oc o Q1 Ho) as ((A & B & C) & D).
    repeat split; auto; congruence.
  - change (run_with tstep s ops) with (trun s ops) in *. destruct (trun s ops). tauto.
Qed.

(* non-vacuity: a subscriber added before the run, one added while the task is suspended and one
   added after the cancellation; the cancelled task's generator raises a BaseException in its cleanup (an Exception would be dropped, see close_result) *)
Example task_notify_nonvacuous :
  run_task [mkphase ViaBatch (CleanRaiseBase 77) [ISubscribe 2 CbOk; ISetError 300; ISubscribe 3 CbOk; ISetValue VNone; IError] (Ok VNone)]
           (PRet (VInt 1)) [OSubscribe 1 (CbRaise XAssertion); OValue; OError]
  = ([RUnit; RRaise 300; RErr 300], [RUnit; RRaise 77; RUnit; RRaise E_ALREADY; RErr 300],
     [(1, Err 300); (2, Err 300)], 1, [1; 2; 3]).
Proof. reflexivity. Qed.

(* non-vacuity of the re-entrant part: the task is cancelled while suspended; subscriber 1 is a
   one-shot that unsubscribes itself, 2 (subscribed while suspended) drops the not yet notified 3
   and subscribes 5, 3 unsubscribes the already notified 2: all of 1, 2, 3 are called once, 5 and
   the later 4 are not; after reset_unsafe the next completion notifies the list as left behind *)
Example task_reentrant_nonvacuous :
  run_task [mkphase ViaFuture (CleanRaiseBase 77)
              [ISubscribe 2 (CbSeq (CbUnsub 3) (CbSub 5 CbOk)); ISubscribe 3 (CbUnsub 2); ISetError 300; ISubscribe 4 CbOk]
              (Ok VNone)]
           (PRet (VInt 1)) [OSubscribe 1 (CbUnsub 1); OError; OReset; OValue]
  = ([RUnit; RErr 300; RUnit; RVal VNone], [RUnit; RUnit; RRaise 77; RUnit],
     [(1, Err 300); (2, Err 300); (3, Err 300); (5, Ok VNone); (4, Ok VNone)], 1, [5; 4]).
Proof. reflexivity. Qed.

(* state morphisms: relabellings that the model cannot see.
   [F] maps states and [K] behaviour scripts; if they commute with the primitive state changes then they commute
   with every operation.  Used twice below: the Exception classes subscribers raise, the class the body raises. *)
Definition with_tsubs (s : tstate) (l : list sub) : tstate :=
  tmk (tgen s) (tfin s) (tout s) (truns s) l (tlog s) (tinner s).
Definition treset (s : tstate) : tstate := tmk (tgen s) (tfin s) None (truns s) (tsubs s) (tlog s) (tinner s).
Definition tstart (s : tstate) : tstate := tmk None (tfin s) (tout s) (S (truns s)) (tsubs s) (tlog s) (tinner s).
Definition Kiop (K : cbkind -> cbkind) (o : iop) : iop :=
  match o with ISubscribe id k => ISubscribe id (K k) | _ => o end.
Definition Ktop (K : cbkind -> cbkind) (o : op) : op :=
  match o with OSubscribe id k => OSubscribe id (K k) | _ => o end.

Record tmorph (F : tstate -> tstate) (K : cbkind -> cbkind) (Kp : phase -> phase) : Prop := {
  tm_out : forall s, tout (F s) = tout s;
  tm_complete : forall s o, F (tcomplete s o) = tcomplete (F s) o;
  tm_push : forall s r, F (push_inner s r) = push_inner (F s) r;
  tm_sub : forall s id k, F (with_tsubs s (tsubs s ++ [(id, k)])) = with_tsubs (F s) (tsubs (F s) ++ [(id, K k)]);
  tm_reset : forall s, F (treset s) = treset (F s);
  tm_start : forall s, F (tstart s) = tstart (F s);
  tm_gen : forall s, tgen (F s) = option_map (map Kp) (tgen s);
  tm_fin : forall s, outcome_of_pout (tfin (F s)) = outcome_of_pout (tfin s);
  tm_phase : forall p, pclean (Kp p) = pclean p /\ pdep (Kp p) = pdep p /\ pinner (Kp p) = map (Kiop K) (pinner p)
}.

Section Morphism.
  Variable F : tstate -> tstate.
  Variable K : cbkind -> cbkind.
  Variable Kp : phase -> phase.
  Hypothesis M : tmorph F K Kp.

  Lemma istep_F c s o : istep c (F s) (Kiop K o) = (F (fst (istep c s o)), snd (istep c s o)).
  Proof.
    destruct o; cbn [istep Kiop fst snd]; try (f_equal; symmetry; apply (tm_sub _ _ _ M));
      rewrite (tm_out _ _ _ M); destruct (tout s); rewrite <- ?(tm_complete _ _ _ M); reflexivity.
  Qed.

  Lemma irun_F c ops : forall s, irun c (F s) (map (Kiop K) ops) = F (irun c s ops).
  Proof.
    induction ops as [|o ops IH]; intros s; cbn [irun map]; auto.
    rewrite istep_F. destruct (istep c s o) as [s1 r]. cbn [fst snd]. now rewrite <- (tm_push _ _ _ M), IH.
  Qed.

  Lemma exec_F ph : forall s, exec (F s) (map Kp ph) = F (exec s ph).
  Proof.
    induction ph as [|p ph IH]; intros s; cbn [exec map].
    - now rewrite (tm_fin _ _ _ M), (tm_complete _ _ _ M).
    - destruct (tm_phase _ _ _ M p) as (-> & -> & ->). rewrite irun_F, (tm_out _ _ _ M).
      destruct (tout (irun (pclean p) s (pinner p))); auto.
      destruct (pdep p); [apply IH | now rewrite (tm_complete _ _ _ M)].
  Qed.

  Lemma tcompute_F s : tcompute (F s) = F (tcompute s).
  Proof.
    unfold tcompute. rewrite (tm_gen _ _ _ M). destruct (tgen s) as [ph|]; cbn [option_map].
    - fold (tstart (F s)). fold (tstart s). now rewrite <- (tm_start _ _ _ M), exec_F.
    - now rewrite (tm_complete _ _ _ M).
  Qed.

  Lemma tread_F s rep : tread (F s) rep = (F (fst (tread s rep)), snd (tread s rep)).
  Proof.
    unfold tread. rewrite (tm_out _ _ _ M). destruct (tout s); auto.
    rewrite tcompute_F, (tm_out _ _ _ M). destruct (tout (tcompute s)); reflexivity.
  Qed.

  Lemma tstep_F s o :
    tstep (F s) (Ktop K o) = (F (fst (tstep s o)), snd (tstep s o)).
  Proof.
    destruct o; cbn [Ktop tstep fst snd]; rewrite ?tread_F; auto;
      try (f_equal; symmetry; apply (tm_sub _ _ _ M)); try (f_equal; symmetry; apply (tm_reset _ _ _ M));
      rewrite (tm_out _ _ _ M); destruct (tout s); rewrite <- ?(tm_complete _ _ _ M); reflexivity.
  Qed.
End Morphism.

(* the CLASS of the Exception a subscriber raises does not matter (scheduled tasks) *)
Definition recls_iop (f : xcls -> xcls) (o : iop) : iop :=
  match o with ISubscribe id k => ISubscribe id (recls f k) | _ => o end.
Definition recls_phase (f : xcls -> xcls) (p : phase) : phase :=
  mkphase (pvia p) (pclean p) (map (recls_iop f) (pinner p)) (pdep p).
Definition recls_tstate (f : xcls -> xcls) (s : tstate) : tstate :=
  tmk (option_map (map (recls_phase f)) (tgen s)) (tfin s) (tout s) (truns s)
      (map (recls_sub f) (tsubs s)) (tlog s) (tinner s).
Definition recls_case (f : xcls -> xcls) (c : anycase) : anycase :=
  match c with
  | CFut k p o ops => CFut k p o (map (recls_op f) ops)
  | CTask ph fin ops => CTask (map (recls_phase f) ph) fin (map (recls_op f) ops)
  | CBatch its fin cs ops => CBatch (map (recls_ispec f) its) fin cs (map (recls_bop f) ops)
  end.

Lemma recls_tmorph f : tmorph (recls_tstate f) (recls f) (recls_phase f).
Proof.
  split; try reflexivity; intros s; intros.
  - unfold tcomplete, recls_tstate. cbn. now rewrite notify_recls.
  - unfold recls_tstate. cbn. now rewrite map_app.
  - auto.
Qed.

Lemma task_raise_class_irrelevant f ph fin ops :
  run_task (map (recls_phase f) ph) fin (map (recls_op f) ops) = run_task ph fin ops.
Proof.
  unfold run_task. change (tinit (map (recls_phase f) ph) fin) with (recls_tstate f (tinit ph fin)).
  change trun with (run_with tstep). rewrite (run_with_morph tstep _ _ (fun _ => True)); auto; [|intros s o _; exact (tstep_F _ _ _ (recls_tmorph f) s o)].
  destruct (run_with tstep (tinit ph fin) ops) as [s rs]. cbn. now rewrite map_map.
Qed.

(* non-vacuity: a task cancelled while suspended / completed by its body with asserting subscribers *)
Example task_raise_class_nonvacuous :
  run_task [mkphase ViaBatch CleanOk [ISubscribe 2 (CbRaise XStopIteration)] (Ok (VInt 1))]
           (PRet (VInt 7)) [OSubscribe 1 (CbRaise XAssertion); OSubscribe 3 CbOk; OValue; OError]
  = ([RUnit; RUnit; RVal (VInt 7); RNoError], [RUnit],
     [(1, Ok (VInt 7)); (3, Ok (VInt 7)); (2, Ok (VInt 7))], 1, [1; 3; 2]).
Proof. reflexivity. Qed.

(* the CLASS of the Exception the task's body raises does not matter (up to PEP 479) *)
Definition tpstate (f : xcls -> xcls) (s : tstate) : tstate :=
  tmk (tgen s) (recls_pout f (tfin s)) (tout s) (truns s) (tsubs s) (tlog s) (tinner s).

Lemma tpstate_tmorph f : gen_cls_ok f -> tmorph (tpstate f) (fun k => k) (fun p => p).
Proof.
  intros G. split; try reflexivity; intros s.
  - cbn. now destruct (tgen s) as [ph|]; cbn; rewrite ?map_id.
  - cbn. destruct (tfin s); cbn; auto. now rewrite G.
  - repeat split. rewrite <- (map_id (pinner s)) at 1. apply map_ext. now intros [].
Qed.

Lemma task_provider_class_irrelevant f ph fin ops : gen_cls_ok f ->
  run_task ph (recls_pout f fin) ops = run_task ph fin ops.
Proof.
  intros G. unfold run_task. change (tinit ph (recls_pout f fin)) with (tpstate f (tinit ph fin)).
  change trun with (run_with tstep). rewrite <- (map_id ops) at 1.
  rewrite (run_with_morph tstep (tpstate f) (fun o => o) (fun _ => True)); auto.
  - now destruct (run_with tstep (tinit ph fin) ops).
  - intros s o _. rewrite <- (tstep_F _ _ _ (tpstate_tmorph f G) s o). now destruct o.
Qed.

(* every case of the correspondence: relabel the classes raised by the provider / body / flush body *)
Definition precls_case (f : xcls -> xcls) (c : anycase) : anycase :=
  match c with
  | CFut k p o ops => CFut k (map (recls_pout f) p) o ops
  | CTask ph fin ops => CTask ph (recls_pout f fin) ops
  | CBatch its fin cs ops => CBatch its (recls_pout f fin) cs ops
  end.

Definition generator_body (c : anycase) : bool :=
  match c with CFut KTask _ _ _ | CTask _ _ _ => true | _ => false end.
