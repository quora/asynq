(* KEEP_DEPENDENCIES (p_keep) on the scheduler machine, for every program, history, oracle and fuel.

   The option is read in one place (the MResume transition of [step]): with it a task keeps its old
   dependencies in tk_deps across a resume; without it the list is cleared.

   Method: a normal form instead of a two-run relation.  [nmap c s] removes from every task's tk_deps
   the futures d with c d = true; [nrm s] does so with c = "computed in s".  Every helper of the
   machine that does not look inside tk_deps commutes with [nmap c] (for EVERY c), and so does [step]
   when c holds of computed futures only (step_nmap) - except at a Yield, which appends the futures of
   THIS yield to the stored list and (since repair 6f3969f) branches on them, not on the stored list
   (step_yield).  Computedness only grows in a state whose ids lie below the counter ([dom_ok]), hence
   there [step] commutes with the normal form (step_ncfg).  Two runs are related when their
   configurations have the same normal form ([sim]); steps of P and P' that differ only in p_keep agree
   up to normal form (step_keep) whenever the task being resumed has no UNCOMPUTED stored dependency
   ([rinv], decidable: [resume_ok]).
   That condition is what C03 states about the scheduler (a task resumes only when all it awaits is
   done); the machine can violate it only through its re-entrancy artifact (a task re-entered through a
   synchronous .value() of a task that awaits it - CPython raises "generator already executing" there),
   see the counterexample at the end; keep_inert_no_reentry proves that runs WITHOUT re-entrant resumes
   satisfy it (invariant V: no task has two open activations, and every open task - running, being
   resumed, or suspended inside value() - has all its stored dependencies computed; [shr]: every write
   of a transition leaves a task's stored dependencies alone or empties them).  On the model of the
   unrepaired code, which branched on the whole stored list, the program [cxk_root] refutes the
   inertness statement; that witness reproduced on the implementation and was repaired.

   From the step to the theorems: [rinv] is the hypothesis of step_keep, [resume_ok] its boolean (resume_ok_rinv),
   [guarded ok P n c] asks ok of every configuration from which the run of n steps takes one, [hist_guarded]
   the same of every run of a history (keep_inert_guarded, at ok = resume_ok); [no_reentry] is the sufficient check, through V
   (keep_inert_no_reentry). *)
From Asynq Require Import Machine proofs.ProgProofs proofs.MachineFrame proofs.MachineC05 proofs.MachineC08
  proofs.MachineC08U proofs.MachineSteps proofs.MachineHelpers.

Definition same_but_keep (P P' : params) : Prop :=
  p_kinds P = p_kinds P' /\ p_maxstack P = p_maxstack P' /\ p_oracle P = p_oracle P'.

(* c : which futures count as computed.  [unc c]: those that do not, the ones [ntk c] keeps in tk_deps *)
Definition unc (c : fid -> bool) (d : fid) : bool := negb (c d).

Definition ntk (c : fid -> bool) (tk : task) : task :=
  mkTask (tk_gen tk) (tk_last tk) (filter (unc c) (tk_deps tk)) (tk_ctxs tk) (tk_cact tk) (tk_ds tk)
         (tk_iter tk) (tk_next tk).
Definition nkind (c : fid -> bool) (k : fkind) : fkind :=
  match k with KTask tk => KTask (ntk c tk) | _ => k end.
Definition nfut (c : fid -> bool) (f : fut) : fut := mkFut (f_out f) (nkind c (f_kind f)).
Definition nheap (c : fid -> bool) (h : list (fid * fut)) : list (fid * fut) :=
  map (fun kv => (fst kv, nfut c (snd kv))) h.
Definition nmap (c : fid -> bool) (s : st) : st := with_heap s (nheap c (heap s)).
(* computed-of: the c of the state itself *)
Definition cof (s : st) : fid -> bool := fun h => computed h s.
Definition nrm (s : st) : st := nmap (cof s) s.
Definition ncfg (c : cfg) : cfg := mkC (c_mode c) (c_frames c) (nrm (c_st c)).

(* two configurations / states are related when they have the same normal form: everything equal
   except tk_deps, whose uncomputed members are the same in the same order *)
Definition ssim (s s' : st) : Prop := nrm s = nrm s'.
Definition sim (c c' : cfg) : Prop := ncfg c = ncfg c'.

(* names: x_nmap reads component or helper x off a mapped state, nmap_x maps the result of write x *)
Lemma get_nmap c h s : get h (nmap c s) = option_map (nfut c) (get h s).
Proof.
  unfold get, nmap. cbn [heap with_heap]. induction (heap s) as [|[k v] l IH]; cbn; [reflexivity|].
  destruct (fid_eqb k h); [reflexivity|exact IH].
Qed.

Lemma computed_nmap c h s : computed h (nmap c s) = computed h s.
Proof. unfold computed. rewrite get_nmap. destruct (get h s); reflexivity. Qed.

Lemma outcome_of_nmap c h s : outcome_of h (nmap c s) = outcome_of h s.
Proof. unfold outcome_of. rewrite get_nmap. destruct (get h s); reflexivity. Qed.

Lemma look_nmap c s r : look (nmap c s) r = look s r.
Proof. destruct r; [apply outcome_of_nmap|reflexivity]. Qed.

Lemma unwrap_look_nmap c s y : unwrap (look (nmap c s)) y = unwrap (look s) y.
Proof. apply unwrap_ext. intros a _. apply look_nmap. Qed.

Lemma get_task_nmap c t s : get_task t (nmap c s) = option_map (ntk c) (get_task t s).
Proof. unfold get_task. rewrite get_nmap. destruct (get t s) as [[o [tk| | |]]|]; reflexivity. Qed.

Lemma get_batch_nmap c k s : get_batch k (nmap c s) = get_batch k s. Proof. reflexivity. Qed.
Lemma cur_idx_nmap c k s : cur_idx k (nmap c s) = cur_idx k s. Proof. reflexivity. Qed.
Lemma var_get_nmap c v s : var_get v (nmap c s) = var_get v s. Proof. reflexivity. Qed.
Lemma ci_get_nmap c k s : ci_get k (nmap c s) = ci_get k s. Proof. reflexivity. Qed.
Lemma tasks_nmap c s : tasks (nmap c s) = tasks s. Proof. reflexivity. Qed.
Lemma active_nmap c s : active (nmap c s) = active s. Proof. reflexivity. Qed.
Lemma sb_nmap c s : sb (nmap c s) = sb s. Proof. reflexivity. Qed.
Lemma oracle_nmap c s : oracle (nmap c s) = oracle s. Proof. reflexivity. Qed.
Lemma trace_nmap c s : trace (nmap c s) = trace s. Proof. reflexivity. Qed.
Lemma top_next_nmap c s : top_next (nmap c s) = top_next s. Proof. reflexivity. Qed.

Lemma var_get_set_task v t tk s : var_get v (set_task t tk s) = var_get v s.
Proof. unfold set_task. destruct (get t s); reflexivity. Qed.
Lemma ci_get_set_task k t tk s : ci_get k (set_task t tk s) = ci_get k s.
Proof. unfold set_task. destruct (get t s); reflexivity. Qed.
Lemma get_task_with_active t a z : get_task t (with_active z a) = get_task t z. Proof. reflexivity. Qed.

Lemma nheap_upd c h f l : nheap c (upd fid_eqb h f l) = upd fid_eqb h (nfut c f) (nheap c l).
Proof.
  induction l as [|[k v] l IH]; cbn; [reflexivity|]. destruct (fid_eqb k h); cbn; [reflexivity|].
  f_equal. exact IH.
Qed.

Lemma nmap_put c h f s : nmap c (put h f s) = put h (nfut c f) (nmap c s).
Proof.
  unfold put, nmap, with_heap. cbn [heap batches cur sb tasks active vars cis oracle top_next trace].
  rewrite nheap_upd. reflexivity.
Qed.

Lemma nmap_set_task c t tk s : nmap c (set_task t tk s) = set_task t (ntk c tk) (nmap c s).
Proof.
  unfold set_task. rewrite get_nmap. destruct (get t s) as [f|]; cbn [option_map]; [|reflexivity].
  rewrite nmap_put. reflexivity.
Qed.

Lemma nmap_emit c e s : nmap c (emit e s) = emit e (nmap c s). Proof. reflexivity. Qed.
Lemma nmap_with_tasks c s l : nmap c (with_tasks s l) = with_tasks (nmap c s) l. Proof. reflexivity. Qed.
Lemma nmap_with_active c s a : nmap c (with_active s a) = with_active (nmap c s) a. Proof. reflexivity. Qed.
Lemma nmap_with_sb c s l : nmap c (with_sb s l) = with_sb (nmap c s) l. Proof. reflexivity. Qed.
Lemma nmap_with_oracle c s l : nmap c (with_oracle s l) = with_oracle (nmap c s) l. Proof. reflexivity. Qed.
Lemma nmap_with_cur c s l : nmap c (with_cur s l) = with_cur (nmap c s) l. Proof. reflexivity. Qed.
Lemma nmap_with_top_next c s n : nmap c (with_top_next s n) = with_top_next (nmap c s) n. Proof. reflexivity. Qed.
Lemma nmap_put_batch c k b s : nmap c (put_batch k b s) = put_batch k b (nmap c s). Proof. reflexivity. Qed.
Lemma nmap_var_set c v x s : nmap c (var_set v x s) = var_set v x (nmap c s). Proof. reflexivity. Qed.
Lemma nmap_ci_put c k x s : nmap c (ci_put k x s) = ci_put k x (nmap c s). Proof. reflexivity. Qed.
Lemma nmap_pop_task c s : nmap c (pop_task s) = pop_task (nmap c s). Proof. reflexivity. Qed.
Lemma nmap_reset_sched c s : nmap c (reset_sched s) = reset_sched (nmap c s). Proof. reflexivity. Qed.
Lemma nmap_drop_sb c s : nmap c (drop_sb s) = drop_sb (nmap c s).
Proof. unfold drop_sb. rewrite tasks_nmap. destruct (tasks s); reflexivity. Qed.

Lemma nmap_schedule_batch c k s : nmap c (schedule_batch k s) = schedule_batch k (nmap c s).
Proof.
  unfold schedule_batch. rewrite get_batch_nmap, sb_nmap. destruct (b_done (get_batch k s)); [reflexivity|].
  destruct (existsb (key_eqb k) (sb s)); reflexivity.
Qed.

Lemma create_nmap c p f s : create p f (nmap c s) = (fst (create p f s), nmap c (snd (create p f s))).
Proof. unfold create, alloc. cbn zeta. destruct f; cbn [fst snd]; rewrite ?nmap_put_batch, nmap_put; reflexivity. Qed.

Lemma inst_nmap c p y : forall s, inst p y (nmap c s) = (fst (inst p y s), nmap c (snd (inst p y s))).
Proof.
  induction y as [| a | l IH | l IH | l IH] using ystruct_ind2; intros s.
  - reflexivity.
  - destruct a as [f|h|]; simpl; try reflexivity.
    rewrite create_nmap. destruct (create p f s). reflexivity.
  - simpl. match goal with |- context [(?g l s)] => set (go := g) end.
    assert (H : forall s, go l (nmap c s) = (fst (go l s), nmap c (snd (go l s)))).
    { clear s. induction IH as [|x l Hx Hl IHl]; intros s; [reflexivity|]. simpl.
      rewrite Hx. destruct (inst p x s) as [x' s1]. cbn [fst snd].
      rewrite IHl. destruct (go l s1) as [l'' s2]. reflexivity. }
    rewrite H. destruct (go l s). reflexivity.
  - simpl. match goal with |- context [(?g l s)] => set (go := g) end.
    assert (H : forall s, go l (nmap c s) = (fst (go l s), nmap c (snd (go l s)))).
    { clear s. induction IH as [|x l Hx Hl IHl]; intros s; [reflexivity|]. simpl.
      rewrite Hx. destruct (inst p x s) as [x' s1]. cbn [fst snd].
      rewrite IHl. destruct (go l s1) as [l'' s2]. reflexivity. }
    rewrite H. destruct (go l s). reflexivity.
  - simpl. match goal with |- context [(?g l s)] => set (go := g) end.
    assert (H : forall s, go l (nmap c s) = (fst (go l s), nmap c (snd (go l s)))).
    { clear s. induction IH as [|[k x] l Hx Hl IHl]; intros s; [reflexivity|]. simpl. simpl in Hx.
      rewrite Hx. destruct (inst p x s) as [x' s1]. cbn [fst snd].
      rewrite IHl. destruct (go l s1) as [l'' s2]. reflexivity. }
    rewrite H. destruct (go l s). reflexivity.
Qed.

Lemma inst_nmap_fst c p y s : fst (inst p y (nmap c s)) = fst (inst p y s).
Proof. rewrite inst_nmap. reflexivity. Qed.

Lemma nmap_enter_ctx c t cx s : nmap c (enter_ctx t cx s) = enter_ctx t cx (nmap c s).
Proof.
  unfold enter_ctx. cbv zeta. rewrite get_task_nmap. destruct (get_task t s) as [tk|]; cbn [option_map]; destruct cx;
    rewrite ?nmap_emit, ?nmap_var_set, ?nmap_ci_put, ?nmap_set_task, ?var_get_set_task, ?ci_get_set_task; reflexivity.
Qed.

Lemma nmap_pause_plain c t cx s : nmap c (pause_plain t cx s) = pause_plain t cx (nmap c s).
Proof. destruct cx; reflexivity. Qed.

Lemma nmap_exit_ctx c t cx s : nmap c (exit_ctx t cx s) = exit_ctx t cx (nmap c s).
Proof.
  unfold exit_ctx. rewrite get_task_nmap.
  destruct (get_task t s) as [tk|]; cbn [option_map]; [|apply nmap_pause_plain].
  cbn [ntk tk_cact]. destruct (tk_cact tk); rewrite ?nmap_pause_plain, nmap_set_task; reflexivity.
Qed.

Lemma nmap_fold {X} (g : st -> X -> st) c l :
  (forall s x, nmap c (g s x) = g (nmap c s) x) -> forall s, nmap c (fold_left g l s) = fold_left g l (nmap c s).
Proof. intros H. induction l as [|x l IH]; intros s; cbn; [reflexivity|]. rewrite IH, H. reflexivity. Qed.

Lemma nmap_complete_task c t o s : nmap c (complete_task t o s) = complete_task t o (nmap c s).
Proof.
  unfold complete_task. rewrite get_task_nmap. destruct (get_task t s) as [tk|]; cbn [option_map]; [|reflexivity].
  cbn [ntk tk_gen tk_ctxs].
  destruct (tk_gen tk); [rewrite <- (nmap_fold (fun s x => exit_ctx t x s)) by (intros; apply nmap_exit_ctx)|];
    rewrite get_task_nmap; (destruct (get_task t _) as [tk1|]; cbn [option_map]; [|reflexivity]);
    rewrite nmap_emit, nmap_put; reflexivity.
Qed.

Lemma nmap_accept_error c t e s : nmap c (accept_error t e s) = accept_error t e (nmap c s).
Proof. unfold accept_error. rewrite computed_nmap. destruct (computed t s); [reflexivity|apply nmap_complete_task]. Qed.

Lemma resume1_nmap c t cx s : resume1 t cx (nmap c s) = (nmap c (fst (resume1 t cx s)), snd (resume1 t cx s)).
Proof.
  destruct cx as [cid [|k e|k e]|cid|cid var v]; try reflexivity; cbn [resume1]; rewrite ci_get_nmap;
    destruct (Nat.eqb _ k); reflexivity.
Qed.

Lemma pause1_nmap c t cx s : pause1 t cx (nmap c s) = (nmap c (fst (pause1 t cx s)), snd (pause1 t cx s)).
Proof.
  destruct cx as [cid [|k e|k e]|cid|cid var v]; try reflexivity; cbn [pause1]; rewrite ci_get_nmap;
    destruct (Nat.eqb _ k); reflexivity.
Qed.

Lemma fold_pair_nmap {X E} (g : st * E -> X -> st * E) c l :
  (forall s e x, g (nmap c s, e) x = (nmap c (fst (g (s, e) x)), snd (g (s, e) x))) ->
  forall s e, fold_left g l (nmap c s, e) = (nmap c (fst (fold_left g l (s, e))), snd (fold_left g l (s, e))).
Proof.
  intros H. induction l as [|x l IH]; intros s e; cbn; [reflexivity|].
  rewrite H. destruct (g (s, e) x) as [s1 e1]. apply IH.
Qed.

Lemma nmap_resume_contexts c t s : nmap c (resume_contexts t s) = resume_contexts t (nmap c s).
Proof.
  unfold resume_contexts. rewrite get_task_nmap. destruct (get_task t s) as [tk|]; cbn [option_map]; [|reflexivity].
  cbn [ntk tk_cact tk_ctxs]. destruct (tk_cact tk); [reflexivity|].
  rewrite <- (nmap_set_task c t (tk_with_ctxs tk (tk_ctxs tk) true)), fold_pair_nmap
    by (intros s0 e x; rewrite resume1_nmap; destruct (resume1 t x s0); reflexivity).
  destruct (fold_left _ _ _) as [s1 [e|]]; [apply nmap_accept_error|reflexivity].
Qed.

Lemma nmap_pause_contexts c t s : nmap c (pause_contexts t s) = pause_contexts t (nmap c s).
Proof.
  unfold pause_contexts. rewrite get_task_nmap. destruct (get_task t s) as [tk|]; cbn [option_map]; [|reflexivity].
  cbn [ntk tk_cact tk_ctxs]. destruct (negb (tk_cact tk)); [reflexivity|].
  rewrite <- (nmap_set_task c t (tk_with_ctxs tk (tk_ctxs tk) false)), fold_pair_nmap
    by (intros s0 e x; rewrite pause1_nmap; destruct (pause1 t x s0); reflexivity).
  destruct (fold_left _ _ _) as [s1 [e|]]; [apply nmap_accept_error|reflexivity].
Qed.

Lemma nmap_complete_item c h o s : nmap c (complete_item h o s) = complete_item h o (nmap c s).
Proof.
  unfold complete_item. rewrite get_nmap. destruct (get h s) as [f|]; cbn [option_map]; [|reflexivity].
  cbn [nfut f_out]. destruct (f_out f); [reflexivity|]. rewrite nmap_emit, nmap_put. reflexivity.
Qed.

Lemma flush_body_nmap c items : forall i ra s,
  flush_body items i ra (nmap c s) = (nmap c (fst (flush_body items i ra s)), snd (flush_body items i ra s)).
Proof.
  induction items as [|h rest IH]; intros i ra s; cbn [flush_body]; [destruct ra as [[k e]|]; reflexivity|].
  rewrite get_nmap. destruct ra as [[k e]|]; [destruct (Z.eqb i k); [reflexivity|]|];
    (destruct (get h s) as [[o [tk|kind idx key [v|e'|]|o'|]]|]; cbn [option_map nfut nkind f_kind];
     rewrite <- ?nmap_complete_item; apply IH).
Qed.

Lemma nmap_flush_batch c P k s : nmap c (flush_batch P k s) = flush_batch P k (nmap c s).
Proof.
  unfold flush_batch. rewrite get_batch_nmap, cur_idx_nmap. destruct (b_done (get_batch k s)); [reflexivity|].
  cbv zeta. destruct (Z.eqb _ _); rewrite <- ?nmap_with_cur, <- nmap_emit, flush_body_nmap;
    destruct (flush_body _ _ _ _) as [s2 err]; cbn [fst snd];
    rewrite <- nmap_fold by (intros; apply nmap_complete_item); reflexivity.
Qed.

Lemma first_max_ext P P' s s' l : (forall k, prio_of P k s = prio_of P' k s') ->
  forall best, first_max P l best s = first_max P' l best s'.
Proof.
  intros H. induction l as [|k l IH]; intros best; cbn [first_max]; [reflexivity|].
  destruct best as [b|]; [|apply IH]. rewrite !H, !IH. reflexivity.
Qed.

Lemma select_nmap c P s : select P (nmap c s) = (fst (select P s), nmap c (snd (select P s))).
Proof.
  unfold select. rewrite sb_nmap.
  change (filter (fun k => eligible k (nmap c s)) (sb s)) with (filter (fun k => eligible k s) (sb s)).
  destruct (filter (fun k => eligible k s) (sb s)) as [|k0 el]; [reflexivity|].
  cbn [oracle with_sb nmap with_heap]. destruct (oracle s) as [|c0 rest].
  - cbn [fst snd]. f_equal. apply first_max_ext. reflexivity.
  - match goal with |- (if ?b then _ else _) = _ => change b with (existsb (key_eqb c0) (k0 :: el) && is_max P c0 (k0 :: el) (with_sb s (k0 :: el))) end.
    destruct (existsb (key_eqb c0) (k0 :: el) && is_max P c0 (k0 :: el) (with_sb s (k0 :: el))); cbn [fst snd]; [reflexivity|].
    f_equal. apply first_max_ext. reflexivity.
Qed.

Lemma nmap_continue_with_batch c P s : nmap c (continue_with_batch P s) = continue_with_batch P (nmap c s).
Proof.
  unfold continue_with_batch. rewrite select_nmap. destruct (select P s) as [[k|] s1]; cbn [fst snd]; [|reflexivity].
  rewrite nmap_emit, nmap_flush_batch. reflexivity.
Qed.

(* computedness has only grown from s to s' *)
Definition le (s s' : st) : Prop := forall d, computed d s = true -> computed d s' = true.

Lemma le_refl s : le s s. Proof. intros d H. exact H. Qed.
Lemma le_trans a b c : le a b -> le b c -> le a c. Proof. intros A B d H. apply B, A, H. Qed.
Lemma step_le P c : dom_ok (c_st c) -> le (c_st c) (c_st (step P c)).
Proof. intros D. exact (proj1 (proj2 (hstep_calm P _ _ _ (step_hstep P c) D))). Qed.

Lemma le_resume_contexts t s : le s (resume_contexts t s).
Proof.
  apply (rel_resume_contexts le le_refl le_trans); intros; intros d Hd; try exact Hd.
  - rewrite computed_set_task. exact Hd.
  - rewrite computed_emit, computed_put. destruct (fid_eqb d _); [reflexivity|exact Hd].
Qed.

Lemma unc_mono c c' : (forall d, c d = true -> c' d = true) -> forall a, unc c' a = true -> unc c a = true.
Proof. intros H a. unfold unc. destruct (c a) eqn:E; [rewrite (H a E)|]; auto. Qed.

Lemma nmap_nmap c c' s : (forall d, c d = true -> c' d = true) -> nmap c' (nmap c s) = nmap c' s.
Proof.
  intros H. unfold nmap, with_heap. cbn [heap batches cur sb tasks active vars cis oracle top_next trace].
  unfold nheap. rewrite map_map. f_equal. apply map_ext. intros [k [o [tk| | |]]]; try reflexivity.
  unfold nfut, nkind, ntk. cbn [fst snd f_out f_kind tk_deps].
  rewrite (filter_filter _ _ _ (unc_mono c c' H)). reflexivity.
Qed.

Lemma nmap_ext c c' s : (forall d, c d = c' d) -> nmap c s = nmap c' s.
Proof.
  intros H. unfold nmap, with_heap. f_equal. unfold nheap. apply map_ext. intros [k [o [tk| | |]]]; try reflexivity.
  unfold nfut, nkind, ntk. cbn [fst snd f_out f_kind].
  rewrite (filter_ext (unc c) (unc c')) by (intros a; unfold unc; rewrite H; reflexivity). reflexivity.
Qed.

Lemma nrm_nmap c s : (forall d, c d = true -> computed d s = true) -> nrm (nmap c s) = nrm s.
Proof.
  intros H. unfold nrm. rewrite (nmap_ext (cof (nmap c s)) (cof s)) by (intros d; apply computed_nmap).
  apply nmap_nmap, H.
Qed.

Lemma nrm_nrm s : nrm (nrm s) = nrm s.
Proof. apply nrm_nmap. intros d H. exact H. Qed.

(* [nmap c] on the state of a configuration; ncfg x = cmap (cof (c_st x)) x *)
Definition cmap (c : fid -> bool) (x : cfg) : cfg := mkC (c_mode x) (c_frames x) (nmap c (c_st x)).

Lemma cmap_sim c x y : (forall d, c d = computed d (c_st y)) -> cmap c x = cmap c y -> sim x y.
Proof.
  intros C E. pose proof (f_equal c_st E) as Es. cbn [cmap c_st] in Es.
  assert (S : nrm (c_st x) = nrm (c_st y)).
  { unfold nrm. rewrite (nmap_ext (cof (c_st y)) c) by (intros d; symmetry; apply C).
    rewrite (nmap_ext (cof (c_st x)) c); [exact Es|].
    intros d. rewrite C. unfold cof. rewrite <- (computed_nmap c d (c_st x)), Es. apply computed_nmap. }
  unfold sim, ncfg. rewrite S. exact (f_equal (fun z => mkC (c_mode z) (c_frames z) (nrm (c_st y))) E).
Qed.

(* what the scheduler reads from tk_deps is the same on a mapped state, as long as the removed
   futures are computed *)
Lemma is_blocked_nmap c tk s : is_blocked tk (nmap c s) = is_blocked tk s.
Proof. unfold is_blocked. induction (tk_deps tk) as [|d l IH]; [reflexivity|]. cbn [existsb]. rewrite computed_nmap, IH. reflexivity. Qed.

Lemma is_blocked_ntk c c' tk s :
  (forall d, c d = true -> computed d s = true) -> is_blocked (ntk c tk) (nmap c' s) = is_blocked tk s.
Proof. intros H. rewrite is_blocked_nmap. exact (existsb_filter _ _ _ (unc_mono c (cof s) H)). Qed.

(* the dependencies task t has stored; todo_nmap: those of them the scheduler has still to push *)
Definition deps (t : fid) (s : st) : list fid := match get_task t s with Some tk => tk_deps tk | None => [] end.

Lemma todo_nmap c t s : (forall d, c d = true -> computed d s = true) ->
  filter (fun d => negb (computed d (nmap c s))) (deps t (nmap c s)) = filter (fun d => negb (computed d s)) (deps t s).
Proof.
  intros H. rewrite (filter_ext _ (unc (cof s))) by (intros d; apply (f_equal negb), computed_nmap).
  unfold deps. rewrite get_task_nmap. destruct (get_task t s) as [tk|]; [|reflexivity].
  exact (filter_filter _ _ _ (unc_mono c (cof s) H)).
Qed.

(* generator.close() at the end of the body (the local close_gen of [step]) *)
Definition close_gen (t : fid) (s : st) : st :=
  match get_task t s with
  | Some tk => set_task t (mkTask None (tk_last tk) (tk_deps tk) (tk_ctxs tk) (tk_cact tk) (tk_ds tk)
                                  (tk_iter tk) (tk_next tk)) s
  | None => s
  end.

Lemma nmap_close_gen c t s : nmap c (close_gen t s) = close_gen t (nmap c s).
Proof.
  unfold close_gen. rewrite get_task_nmap. destruct (get_task t s) as [tk|]; cbn [option_map]; [|reflexivity].
  rewrite nmap_set_task. reflexivity.
Qed.

(* [step] commutes with [nmap c] when c holds of computed futures only - except at a Yield: the futures it awaits join
   the stored dependencies whole, also those c holds of *)
Theorem step_nmap P c m fr s : (forall d, c d = true -> computed d s = true) ->
  step P (mkC m fr (nmap c s)) = cmap c (step P (mkC m fr s)) \/ exists t y k, m = MRun t (Yield y k).
Proof.
  intros H. unfold cmap.
  destruct m as [h| | | |t|t [v|v|e|y k|f k|h k|cx k|cx k|var k|k]| |o|e|o|];
    try (right; do 3 eexists; reflexivity); left; cbn [step c_mode c_frames c_st]; try reflexivity.
  - (* MValue *)
    rewrite computed_nmap, outcome_of_nmap, get_nmap. destruct (computed h s); [reflexivity|].
    destruct (get h s) as [[out [tk|kind idx key a|o|]]|]; cbn [option_map nfut nkind f_kind f_out]; try reflexivity.
    + rewrite <- nmap_flush_batch, outcome_of_nmap. reflexivity.
    + rewrite <- (nmap_put c h (mkFut (Some o) (KLazy o))). reflexivity.
  - (* MWaitHead *)
    destruct fr as [|[| |root| |] fr']; try reflexivity.
    rewrite computed_nmap, outcome_of_nmap. destruct (computed root s); [rewrite <- nmap_drop_sb|]; reflexivity.
  - (* MAfterExec *)
    destruct fr as [|[| |root| |] fr']; try reflexivity. rewrite computed_nmap, outcome_of_nmap.
    destruct (computed root s); [rewrite <- nmap_drop_sb|rewrite <- nmap_continue_with_batch]; reflexivity.
  - (* MExecLoop *)
    destruct fr as [|[| | |init|] fr']; try reflexivity.
    rewrite tasks_nmap. destruct (Nat.leb (length (tasks s)) init); [reflexivity|].
    destruct (Z.ltb (p_maxstack P) (Z.of_nat (length (tasks s)))); [reflexivity|].
    destruct (tasks s) as [|x ts]; [reflexivity|].
    rewrite computed_nmap, get_nmap. destruct (computed x s); [reflexivity|].
    destruct (get x s) as [[o [tk|kind idx key a|o'|]]|]; cbn [option_map nfut nkind f_kind f_out]; try reflexivity.
    + rewrite (is_blocked_ntk c c tk s H). cbn [ntk tk_ds]. destruct (is_blocked tk s); [destruct (tk_ds tk)|].
      * cbn [c_mode c_frames c_st]. rewrite nmap_pop_task, nmap_pause_contexts, nmap_set_task. reflexivity.
      * change (tk_set_ds (ntk c tk) true) with (ntk c (tk_set_ds tk true)).
        rewrite <- nmap_set_task, <- nmap_resume_contexts, (todo_nmap c x); [reflexivity|].
        intros d Hd. apply le_resume_contexts. rewrite computed_set_task. exact (H d Hd).
      * rewrite <- nmap_resume_contexts, computed_nmap. destruct (computed x (resume_contexts x s)); reflexivity.
    + rewrite <- nmap_schedule_batch. reflexivity.
    + rewrite <- (nmap_put c x (mkFut (Some o') (KLazy o'))). reflexivity.
  - (* MResume *)
    rewrite get_task_nmap. destruct (get_task t s) as [tk|]; cbn [option_map]; [|reflexivity].
    cbn [ntk tk_gen tk_last]. rewrite unwrap_look_nmap. destruct (tk_gen tk) as [k|].
    + cbn [c_mode c_frames c_st]. rewrite nmap_emit, nmap_set_task. unfold ntk.
      cbn [tk_gen tk_last tk_deps tk_ctxs tk_cact tk_ds tk_iter tk_next]. destruct (p_keep P); reflexivity.
    + rewrite computed_nmap. destruct (unwrap (look s) (tk_last tk)); [destruct (computed t s); [reflexivity|]|];
        rewrite <- ?nmap_complete_task, <- ?nmap_accept_error; reflexivity.
  - (* MRun: Ret, Result, Raise, Let, Enter, Exit *)
    cbv zeta. fold (close_gen t s) (close_gen t (nmap c s)). rewrite <- nmap_close_gen, computed_nmap, <- nmap_complete_task.
    destruct (computed t (close_gen t s)); reflexivity.
  - cbv zeta. fold (close_gen t s) (close_gen t (nmap c s)). rewrite <- nmap_close_gen, computed_nmap, <- nmap_complete_task.
    destruct (computed t (close_gen t s)); reflexivity.
  - cbv zeta. fold (close_gen t s) (close_gen t (nmap c s)). rewrite <- nmap_close_gen, <- nmap_accept_error. reflexivity.
  - rewrite create_nmap. destruct (create t f s) as [h s1]. reflexivity.
  - rewrite <- nmap_enter_ctx. reflexivity.
  - rewrite <- nmap_exit_ctx. reflexivity.
  - (* MContRet *)
    destruct fr as [|[| | | |t old] fr']; try reflexivity. rewrite !get_task_with_active, get_task_nmap.
    destruct (get_task t s) as [tk|]; cbn [option_map c_mode c_frames c_st]; rewrite ?nmap_set_task; reflexivity.
  - (* MDeliver *) destruct fr as [|[|t k| | |] fr']; reflexivity.
  - (* MUnwind *) destruct fr as [|[|t k| | |] fr']; reflexivity.
Qed.

(* c for the state before the yield, c' for the state after it, where more is computed *)
Lemma step_yield P c c' t y k fr s : (forall d, c d = true -> c' d = true) ->
  cmap c' (step P (mkC (MRun t (Yield y k)) fr (nmap c s))) = cmap c' (step P (mkC (MRun t (Yield y k)) fr s)).
Proof.
  intros H. cbn [step c_mode c_frames c_st]. rewrite inst_nmap. destruct (inst t y s) as [y' s1]. cbn [fst snd].
  rewrite get_task_nmap. unfold cmap.
  destruct (get_task t s1) as [tk|]; cbn [option_map]; [destruct (futs (extract y'))|]; cbn [c_mode c_frames c_st];
    rewrite ?nmap_set_task, (nmap_nmap c c' s1 H); [| |reflexivity];
    unfold ntk; cbn [tk_gen tk_last tk_deps tk_ctxs tk_cact tk_ds tk_iter tk_next];
    rewrite !filter_app, (filter_filter _ _ _ (unc_mono c c' H)); reflexivity.
Qed.

Theorem step_ncfg P c : dom_ok (c_st c) -> ncfg (step P c) = ncfg (step P (ncfg c)).
Proof.
  destruct c as [m fr s]. intros D. pose proof (step_le P (mkC m fr s) D) as L. cbn [c_st] in L.
  symmetry. apply (cmap_sim (cof (c_st (step P (mkC m fr s))))); [reflexivity|].
  unfold ncfg, nrm. cbn [c_mode c_frames c_st].
  destruct (step_nmap P (cof s) m fr s (fun d Hd => Hd)) as [E|(t & y & k & ->)]; [|apply step_yield; exact L].
  rewrite E. unfold cmap. cbn [c_mode c_frames c_st]. rewrite (nmap_nmap _ _ _ L). reflexivity.
Qed.

(* when a task is resumed, everything it stored as a dependency is computed *)
Definition rinv (c : cfg) : Prop :=
  match c_mode c with
  | MResume t => forall tk, get_task t (c_st c) = Some tk -> forall d, In d (tk_deps tk) -> computed d (c_st c) = true
  | _ => True
  end.

Lemma filter_unc_all c l : (forall d, In d l -> c d = true) -> filter (unc c) l = [].
Proof.
  induction l as [|a l IH]; intros H; [reflexivity|]. cbn [filter]. unfold unc at 1. rewrite (H a (or_introl eq_refl)).
  cbn [negb]. apply IH. intros d Hd. apply H. right. exact Hd.
Qed.

(* choosing the batch to flush does not read p_keep *)
Lemma continue_with_batch_keep kd ms b b' orc s :
  continue_with_batch (mkP kd ms b orc) s = continue_with_batch (mkP kd ms b' orc) s.
Proof.
  assert (E : select (mkP kd ms b orc) s = select (mkP kd ms b' orc) s).
  { unfold select. destruct (filter (fun k => eligible k s) (sb s)) as [|k0 el]; [reflexivity|].
    destruct (oracle (with_sb s (k0 :: el))) as [|c0 rest];
      rewrite (first_max_ext (mkP kd ms b orc) (mkP kd ms b' orc) _ _ _ (fun _ => eq_refl)); reflexivity. }
  unfold continue_with_batch. rewrite E. reflexivity.
Qed.

Theorem step_keep P P' c : same_but_keep P P' -> rinv c -> ncfg (step P c) = ncfg (step P' c).
Proof.
  destruct P as [kd ms b orc], P' as [kd' ms' b' orc']. unfold same_but_keep. cbn [p_kinds p_maxstack p_oracle].
  intros (<- & <- & <-) R. destruct c as [m fr s].
  destruct m as [h| | | |t|t p| |o|e|o|]; try reflexivity.
  { cbn [step c_mode c_frames c_st]. rewrite (continue_with_batch_keep kd ms b b' orc). reflexivity. }
  unfold rinv in R. cbn [c_mode c_st] in R. cbn [step c_mode c_frames c_st].
  destruct (get_task t s) as [tk|] eqn:G; [|reflexivity]. specialize (R tk eq_refl).
  destruct (tk_gen tk) as [k|]; [|reflexivity]. cbn [p_keep].
  apply (cmap_sim (cof s)); [intros d; symmetry; apply (resume_computed s t tk _ _ G)|].
  unfold cmap. cbn [c_mode c_frames c_st]. rewrite !nmap_emit, !nmap_set_task. unfold ntk.
  cbn [tk_gen tk_last tk_deps tk_ctxs tk_cact tk_ds tk_iter tk_next].
  destruct b, b'; rewrite ?(filter_unc_all (cof s) _ R); reflexivity.
Qed.

Lemma is_blocked_false tk s : is_blocked tk s = false <-> forall d, In d (tk_deps tk) -> computed d s = true.
Proof.
  unfold is_blocked. rewrite <- Bool.not_true_iff_false, existsb_exists. split.
  - intros N d Hd. destruct (computed d s) eqn:E; [reflexivity|]. destruct N. exists d. rewrite E. auto.
  - intros A (d & Hd & Hn). rewrite (A d Hd) in Hn. discriminate.
Qed.

(* the decidable form of rinv: the task being resumed is not blocked on anything it has stored *)
Definition resume_ok (c : cfg) : bool :=
  match c_mode c with
  | MResume t => match get_task t (c_st c) with Some tk => negb (is_blocked tk (c_st c)) | None => true end
  | _ => true
  end.

Lemma resume_ok_rinv c : resume_ok c = true -> rinv c.
Proof.
  unfold resume_ok, rinv. destruct (c_mode c); try (intros; exact I).
  intros H tk G. rewrite G in H. apply is_blocked_false. destruct (is_blocked tk (c_st c)); [discriminate|reflexivity].
Qed.

Lemma resume_ok_ncfg c : resume_ok (ncfg c) = resume_ok c.
Proof.
  destruct c as [m fr s]. unfold resume_ok, ncfg. cbn [c_mode c_st].
  destruct m; try reflexivity.
  unfold nrm. rewrite get_task_nmap. destruct (get_task _ s) as [tk|]; cbn [option_map]; [|reflexivity].
  rewrite is_blocked_ntk; [reflexivity|]. intros d Hd. exact Hd.
Qed.

Lemma resume_ok_sim c c' : sim c c' -> resume_ok c = resume_ok c'.
Proof. intros S. rewrite <- (resume_ok_ncfg c), <- (resume_ok_ncfg c'), S. reflexivity. Qed.

Theorem sim_step P P' c c' :
  same_but_keep P P' -> sim c c' -> dom_ok (c_st c) -> dom_ok (c_st c') -> rinv c ->
  sim (step P c) (step P' c').
Proof.
  intros K S D D' R. unfold sim in *.
  rewrite (step_keep P P' c K R), (step_ncfg P' c D), S. symmetry. apply step_ncfg; assumption.
Qed.

(* [ok] holds in every configuration from which the run takes a step *)
Fixpoint guarded (ok : cfg -> bool) (P : params) (n : nat) (c : cfg) : bool :=
  match n with
  | O => true
  | S n' => if is_final (c_mode c) then true else ok c && guarded ok P n' (step P c)
  end.

(* the two runs stay related, and the second run satisfies the condition too *)
Lemma sim_run P P' n : forall c c',
  same_but_keep P P' -> sim c c' -> RInv (c_st c) -> RInv (c_st c') -> guarded resume_ok P n c = true ->
  sim (run P n c) (run P' n c') /\ guarded resume_ok P' n c' = true.
Proof.
  induction n as [|n IH]; intros c c' K S R R' G; [split; [exact S|reflexivity]|]. rewrite !run_S. cbn [guarded] in *.
  rewrite <- (f_equal c_mode S : c_mode c = c_mode c'). destruct (is_final (c_mode c)); [split; [exact S|reflexivity]|].
  apply andb_true_iff in G as [Y G]. rewrite <- (resume_ok_sim c c' S), Y.
  apply IH; [exact K| |apply RInv_step; exact R|apply RInv_step; exact R'|exact G].
  apply sim_step; [exact K|exact S|exact (proj1 R)|exact (proj1 R')|apply resume_ok_rinv, Y].
Qed.

Lemma le_create p f s : dom_ok s -> le s (snd (create p f s)).
Proof. intros D. destruct (calm_create p f s D) as (_ & _ & _ & M & _). exact M. Qed.

Lemma sim_root_start p s s' : ssim s s' -> dom_ok s -> dom_ok s' -> sim (root_start p s) (root_start p s').
Proof.
  intros E D D'. unfold sim, ncfg, root_start, start. cbn [c_mode c_frames c_st].
  rewrite <- (nrm_nmap (cof s) _ (le_create _ _ s D)), <- (nrm_nmap (cof s') _ (le_create _ _ s' D')).
  pose proof (f_equal (create [] (FTask p)) E) as A. unfold nrm in A. rewrite !create_nmap in A.
  exact (f_equal (fun r => mkC (MValue (fst r)) [FTop] (nrm (snd r))) A).
Qed.

Fixpoint hist_guarded (ok : cfg -> bool) (P : params) (fuel : nat) (ps : list prog) (s : st) : bool :=
  match ps with
  | [] => true
  | p :: ps' =>
    guarded ok P fuel (start (fst (create [] (FTask p) s)) (snd (create [] (FTask p) s))) &&
    hist_guarded ok P fuel ps' (snd (run_root P fuel p s))
  end.

(* what run_root returns is read off the normal form of the last configuration *)
Lemma sim_root_result c c' :
  sim c c' -> fst (root_result c) = fst (root_result c') /\ ssim (snd (root_result c)) (snd (root_result c')).
Proof.
  intros S. split; [exact (f_equal (fun x => fst (root_result x)) S)|exact (f_equal (fun x => snd (root_result x)) S)].
Qed.

Lemma sim_run_root P P' fuel p s s' :
  same_but_keep P P' -> ssim s s' -> RInv s -> RInv s' ->
  guarded resume_ok P fuel (start (fst (create [] (FTask p) s)) (snd (create [] (FTask p) s))) = true ->
  fst (run_root P fuel p s) = fst (run_root P' fuel p s') /\ ssim (snd (run_root P fuel p s)) (snd (run_root P' fuel p s')).
Proof.
  intros K E R R' G. rewrite !run_root_eq.
  apply sim_root_result, (sim_run P P' fuel _ _ K (sim_root_start p s s' E (proj1 R) (proj1 R')));
    [apply (RInv_calm s)|apply (RInv_calm s')|exact G]; try assumption; apply calm_create.
Qed.

Lemma sim_run_history P P' fuel ps : forall s s',
  same_but_keep P P' -> ssim s s' -> RInv s -> RInv s' ->
  hist_guarded resume_ok P fuel ps s = true ->
  fst (run_history P fuel ps s) = fst (run_history P' fuel ps s') /\
  ssim (snd (run_history P fuel ps s)) (snd (run_history P' fuel ps s')).
Proof.
  induction ps as [|p ps IH]; intros s s' K E R R' G; [split; [reflexivity|exact E]|].
  cbn [hist_guarded] in G. apply andb_true_iff in G as [G1 G2].
  destruct (sim_run_root P P' fuel p s s' K E R R' G1) as [Eo Es].
  destruct (IH _ _ K Es (RInv_run_root P fuel p s R) (RInv_run_root P' fuel p s' R') G2) as [Eos Ess].
  cbn [run_history]. destruct (run_root P fuel p s) as [o s1], (run_root P' fuel p s') as [o' s1']. cbn [fst snd] in *.
  destruct (run_history P fuel ps s1) as [os s2], (run_history P' fuel ps s1') as [os' s2']. cbn [fst snd] in *.
  split; [congruence|exact Ess].
Qed.

(* KEEP_DEPENDENCIES is inert on every history in which (in one of the two runs - the other then
   behaves the same) every resume finds all stored dependencies of its task computed *)
Theorem keep_inert_guarded P P' fuel ps :
  same_but_keep P P' -> hist_guarded resume_ok P fuel ps (st0 P) = true ->
  run_case P fuel ps = run_case P' fuel ps.
Proof.
  intros K G. unfold run_case.
  destruct (sim_run_history P P' fuel ps (st0 P) (st0 P') K) as [Eo Es]; try assumption.
  - unfold ssim, st0. rewrite (proj2 (proj2 K)). reflexivity.
  - apply RInv_st0.
  - apply RInv_st0.
  - destruct (run_history P fuel ps (st0 P)) as [os s]. destruct (run_history P' fuel ps (st0 P')) as [os' s']. cbn [fst snd] in *.
    rewrite Eo, (f_equal trace Es : trace s = trace s'). reflexivity.
Qed.

Corollary keep_preserves_success_guarded P P' fuel ps os e :
  same_but_keep P P' -> hist_guarded resume_ok P fuel ps (st0 P) = true ->
  fst (run_case P fuel ps) = os -> ~ In (Some (Err e)) os -> ~ In (Some (Err e)) (fst (run_case P' fuel ps)).
Proof. intros K G E N. rewrite <- (keep_inert_guarded P P' fuel ps K G), E. exact N. Qed.

(* The hypothesis of keep_inert_guarded can fail only through re-entrancy: a resume of t while a frame
   "body of t inside value()" is on the stack (CPython: "generator already executing"). *)
Definition fvin (t : fid) (fr : list frame) : bool :=
  existsb (fun f => match f with FValue t' _ => fid_eqb t' t | _ => false end) fr.
Definition reentry (c : cfg) : bool :=
  match c_mode c with MResume t => fvin t (c_frames c) | _ => false end.
Definition no_reentry (c : cfg) : bool := negb (reentry c).

Lemma deps_put t x f s :
  deps t (put x f s) = if fid_eqb t x then match f_kind f with KTask tk => tk_deps tk | _ => [] end else deps t s.
Proof. unfold deps, get_task. rewrite get_put. destruct (fid_eqb t x); [destruct f as [o [tk| | |]]|]; reflexivity. Qed.

(* t's stored dependencies shrink: emptied or unchanged *)
Definition shr (t : fid) (s s' : st) : Prop := deps t s' = [] \/ deps t s' = deps t s.

Lemma shr_refl t s : shr t s s.
Proof. right. reflexivity. Qed.

Lemma shr_trans t a b c : shr t a b -> shr t b c -> shr t a c.
Proof. unfold shr. intros [A|A] [B|B]; rewrite ?B, ?A; auto. Qed.

Lemma shr_heap t a b c : heap c = heap b -> shr t a b -> shr t a c.
Proof. unfold shr, deps, get_task, get. intros ->. auto. Qed.

Lemma shr_put t x f s :
  (t = x -> match f_kind f with KTask tk => tk_deps tk = [] \/ tk_deps tk = deps x s | _ => True end) -> shr t s (put x f s).
Proof.
  intros H. unfold shr. rewrite deps_put. destruct (fid_eqb_spec t x) as [->|]; [|right; reflexivity].
  specialize (H eq_refl). destruct (f_kind f); auto.
Qed.

Lemma shr_set_task t x tk tk' s :
  get_task x s = Some tk -> (t = x -> tk_deps tk' = [] \/ tk_deps tk' = tk_deps tk) -> shr t s (set_task x tk' s).
Proof.
  intros G H. unfold set_task. pose proof G as G'. apply get_task_some in G' as (out & ->). apply shr_put.
  unfold deps. rewrite G. exact H.
Qed.

Lemma shr_create t p f s : shr t s (snd (create p f s)).
Proof.
  unfold create, alloc. cbn zeta.
  destruct f; cbn [snd]; apply (shr_heap t s (put [top_next s] _ s) _ eq_refl), shr_put; cbn; auto.
Qed.

(* every write of a transition leaves the stored dependencies of t alone or empties them, unless t itself yields *)
Lemma hstep_shr t P A s s' : hstep P A s s' -> shr t s s' \/ A (TYield t).
Proof.
  assert (View : forall a b, heap b = heap a -> shr t a b) by (intros a b E; exact (shr_heap t a a b E (shr_refl t a))).
  assert (Hi : forall h f o s0, get h s0 = Some f -> f_out f = None ->
                                shr t s0 (emit (EvItemDone h o) (put h (mkFut (Some o) (f_kind f)) s0))).
  { intros h f o s0 G _. apply (shr_heap t s0 (put h _ s0) _ eq_refl), shr_put. intros _. cbn [f_kind]. unfold deps, get_task.
    rewrite G. destruct f as [o' [tk| | |]]; cbn; auto. }
  induction 1 as [s|a b c _ IH1 _ IH2|s s' Hh _ _ _ _ _ _|v x s|k c s|e s He|x tk tk' s G Bk|x tk o s G C|x out o s G C
                  |p f s _|k s|k s F|s F|x tk o d s _ G Hd|x tk k y' F s Y G];
    try (left; apply View; first [assumption|reflexivity]).
  - destruct IH1 as [S1|Y]; [destruct IH2 as [S2|Y]|]; [left; exact (shr_trans t a b c S1 S2)|right; exact Y..].
  - left. apply (shr_set_task t x tk); [exact G|]. right. apply Bk.
  - left. apply (shr_heap t s (put x _ s) _ eq_refl), shr_put. left. reflexivity.
  - left. apply shr_put. exact (fun _ => I).
  - left. apply shr_create.
  - left. apply (rel_schedule_batch (shr t)); intros; apply View; reflexivity.
  - left. apply (rel_flush_batch (shr t)); try (intros; apply View; reflexivity); [apply shr_trans|exact Hi].
  - left. apply (rel_continue_with_batch (shr t)); try (intros; apply View; reflexivity); [apply shr_trans|exact Hi].
  - left. apply (shr_heap t s (set_task x _ s) _ eq_refl), (shr_set_task t x tk); [exact G|]. destruct Hd as [->| ->]; auto.
  - destruct (fid_eqb_spec t x) as [->|N]; [right; exact Y|left]. apply (shr_set_task t x tk); [exact G|]. intros E. destruct (N E).
Qed.

(* all of t's stored dependencies are computed *)
Definition allc (t : fid) (s : st) : Prop := forall d, In d (deps t s) -> computed d s = true.

Lemma allc_shr t s s' : shr t s s' -> le s s' -> allc t s -> allc t s'.
Proof. intros [E|E] L A d Hd; rewrite E in Hd; [destruct Hd|exact (L d (A d Hd))]. Qed.

(* the tasks whose code is on Python's stack: the running one and those inside a synchronous value() *)
Definition mode_open (m : mode) : list fid := match m with MRun t _ | MResume t => [t] | _ => [] end.
Definition fvals (fr : list frame) : list fid :=
  flat_map (fun f => match f with FValue t _ => [t] | _ => [] end) fr.
Definition opens (c : cfg) : list fid := mode_open (c_mode c) ++ fvals (c_frames c).

Lemma fvin_fvals t fr : fvin t fr = true <-> In t (fvals fr).
Proof.
  unfold fvin, fvals. rewrite existsb_exists, in_flat_map. split; intros (f & Hf & H); exists f; (split; [exact Hf|]).
  - destruct f as [|t' k| | |]; try discriminate. apply fid_eqb_eq in H. left. exact H.
  - destruct f as [|t' k| | |]; try (destruct H; fail). destruct H as [->|[]]. apply fid_eqb_refl.
Qed.

(* the stored dependencies of t are left alone or emptied, or t was running and has been closed: a Yield that awaits
   something new hands control back to the scheduler *)
Lemma step_shr P c t :
  shr t (c_st c) (c_st (step P c)) \/ (exists p, c_mode c = MRun t p) /\ opens (step P c) = fvals (c_frames c).
Proof.
  destruct (hstep_shr t P _ _ _ (step_hstep P c)) as [S|(y & k & Hm)]; [left; exact S|].
  destruct c as [m fr s]. cbn [c_mode] in Hm. subst m. cbn [step c_mode c_frames c_st].
  pose proof (inst_rel (shr t) (shr_refl t) (shr_trans t) (shr_create t) t y s) as Si.
  destruct (inst t y s) as [y' s1]. cbn [snd] in Si.
  destruct (get_task t s1) as [tk|] eqn:G; [|left; exact Si].
  destruct (futs (extract y')) as [|f F]; [left|right; split; [eauto|reflexivity]].
  apply (shr_trans t s s1 _ Si), (shr_set_task t t tk _ s1 G). right. apply app_nil_r.
Qed.

(* one transition leaves the open tasks alone, closes the running one, ends the computation, or resumes the
   unblocked task on top of the scheduler's stack (fourth disjunct: the one branch of MExecLoop that goes to MResume).  (Stated about c' so that the case analysis follows the one copy
   of the transition on the left of the equation, scrutinee by scrutinee.) *)
Lemma step_opens P c c' : step P c = c' ->
  opens c' = opens c \/ (exists t, opens c = t :: opens c') \/ opens c' = [] \/
  (exists x tk, get_task x (c_st c) = Some tk /\ is_blocked tk (c_st c) = false /\
                c_mode c' = MResume x /\ opens c' = x :: opens c).
Proof.
  destruct c as [m fr s].
  destruct m as [h| | | |t0|t0 p| |o|e|o|]; cbn [step c_mode c_frames c_st]; [| | | | |destruct p; cbv beta iota zeta| | | | |];
    repeat match goal with
           | |- (match ?x with _ => _ end) = _ -> _ => destruct x eqn:?
           | |- (if ?x then _ else _) = _ -> _ => destruct x eqn:?
           end;
    intros <-;
    first [left; reflexivity | right; left; eexists; reflexivity | right; right; left; reflexivity | idtac].
  right. right. right.
  match goal with
  | Hg : get ?x s = Some (mkFut _ (KTask ?tk0)), Hb : is_blocked ?tk0 s = false |- _ =>
    exists x, tk0; unfold get_task; rewrite Hg; auto
  end.
Qed.

(* no task is open twice (a task about to be resumed is checked by no_reentry), and every open task has all
   its stored dependencies computed *)
Definition V (c : cfg) : Prop :=
  (no_reentry c = true -> NoDup (opens c)) /\ forall t, In t (opens c) -> allc t (c_st c).

Theorem V_step P c : dom_ok (c_st c) -> no_reentry c = true -> V c -> V (step P c).
Proof.
  intros D NR [N A]. specialize (N NR).
  assert (O : (no_reentry (step P c) = true -> NoDup (opens (step P c))) /\
              forall t, In t (opens (step P c)) -> allc t (c_st c)).
  { destruct (step_opens P c _ eq_refl) as [E|[(t0 & E)|[E|(x & tk & G & B & Hm & E)]]].
    - rewrite E. auto.
    - rewrite E in N, A. split; [intros _; inversion N; assumption|]. intros t Ht. apply A. right. exact Ht.
    - rewrite E. split; [constructor|intros t []].
    - rewrite E. split.
      + intros NR'. constructor; [|exact N]. intros Hin. unfold no_reentry, reentry in NR'. rewrite Hm in NR'.
        unfold opens in E at 1. rewrite Hm in E. injection E as E. rewrite <- E in Hin.
        apply fvin_fvals in Hin. rewrite Hin in NR'. discriminate.
      + intros t [<-|Ht]; [|exact (A t Ht)]. unfold allc, deps. rewrite G. apply is_blocked_false, B. }
  destruct O as [N' O]. split; [exact N'|]. intros t Ht.
  destruct (step_shr P c t) as [S|[(p & Hm) E]]; [exact (allc_shr t _ _ S (step_le P c D) (O t Ht))|].
  rewrite E in Ht. unfold opens in N. rewrite Hm in N. inversion N; contradiction.
Qed.

Lemma V_resume_ok c : V c -> resume_ok c = true.
Proof.
  intros (_ & A). unfold resume_ok, opens in *. destruct (c_mode c); try reflexivity.
  specialize (A _ (or_introl eq_refl)). unfold allc, deps in A.
  destruct (get_task _ (c_st c)) as [tk|]; [|reflexivity]. rewrite (proj2 (is_blocked_false tk (c_st c)) A). reflexivity.
Qed.

Lemma V_start h s : V (start h s).
Proof. split; [constructor|intros t []]. Qed.

Lemma guarded_no_reentry P n : forall c,
  RInv (c_st c) -> V c -> guarded no_reentry P n c = true -> guarded resume_ok P n c = true.
Proof.
  induction n as [|n IH]; intros c R HV G; [reflexivity|]. cbn [guarded] in *.
  destruct (is_final (c_mode c)); [reflexivity|]. apply andb_true_iff in G as [NR G].
  rewrite (V_resume_ok c HV). cbn [andb]. apply IH; [apply RInv_step; exact R| |exact G].
  apply V_step; [exact (proj1 R)|exact NR|exact HV].
Qed.

Lemma hist_no_reentry P fuel ps : forall s,
  RInv s -> hist_guarded no_reentry P fuel ps s = true -> hist_guarded resume_ok P fuel ps s = true.
Proof.
  induction ps as [|p ps IH]; intros s R G; [reflexivity|]. cbn [hist_guarded] in *.
  apply andb_true_iff in G as [G1 G2]. rewrite (IH _ (RInv_run_root P fuel p s R) G2), andb_true_r.
  apply guarded_no_reentry; [|apply V_start|exact G1].
  cbn [start c_st]. apply (RInv_calm s); [exact R|apply calm_create].
Qed.

(* KEEP_DEPENDENCIES is inert on every history without re-entrant resumes *)
Theorem keep_inert_no_reentry P P' fuel ps :
  same_but_keep P P' -> hist_guarded no_reentry P fuel ps (st0 P) = true ->
  run_case P fuel ps = run_case P' fuel ps.
Proof.
  intros K G. apply keep_inert_guarded; [exact K|]. apply hist_no_reentry; [apply RInv_st0|exact G].
Qed.

Corollary keep_preserves_success_no_reentry P P' fuel ps os e :
  same_but_keep P P' -> hist_guarded no_reentry P fuel ps (st0 P) = true ->
  fst (run_case P fuel ps) = os -> ~ In (Some (Err e)) os -> ~ In (Some (Err e)) (fst (run_case P' fuel ps)).
Proof. intros K G E N. rewrite <- (keep_inert_no_reentry P P' fuel ps K G), E. exact N. Qed.
(* MAX_TASK_STACK_SIZE = 2.  Root [0] enters async context 7 and awaits task [1]; [1] awaits a
   ConstFuture, calls [3].value() (the nested loop exceeds the stack limit, the scheduler resets, the
   RuntimeError is delivered into [1]) and then yields None.  Before repair 6f3969f KEEP_DEPENDENCIES made
   that yield return to the (now empty) scheduler loop, which paused and resumed the root's contexts:
   an extra EvPause/EvResume pair, and with [ResumeRaises 1 77] outcome Err 77 instead of Ok 5. *)
Definition cxk_inner : prog := Ret VNone.
Definition cxk_task : prog :=
  Yield (YLeaf (LNew (FConst (VInt 1)))) (fun _ =>
    Let (FTask cxk_inner) (fun h => Sync h (fun _ => Yield YNone (fun _ => Ret (VInt 5))))).
Definition cxk_root (f : cfault) : prog :=
  Enter (CAsync 7 f)
    (Yield (YLeaf (LNew (FTask cxk_task)))
           (fun o => Exit (CAsync 7 f) (match o with Ok v => Ret v | Err e => Raise e end))).
Definition cxk_P (keep : bool) : params := mkP [] 2 keep [].

Lemma cxk_same : same_but_keep (cxk_P false) (cxk_P true).
Proof. repeat split. Qed.

Example cxk_repaired :
  run_case (cxk_P true) 200 [cxk_root NoFault] =
  ([Some (Ok (VInt 5))],
   [EvStep [0%Z] 0 (Ok VNone); EvResume [0%Z] 7; EvStep [1%Z] 0 (Ok VNone); EvStep [1%Z] 1 (Ok (VInt 1));
    EvGot [1%Z] (Err E_RUNTIME); EvStep [1%Z] 2 (Ok VNone); EvDone [1%Z] (Ok (VInt 5));
    EvStep [0%Z] 1 (Ok (VInt 5)); EvPause [0%Z] 7; EvDone [0%Z] (Ok (VInt 5)); EvSched 0 0 None]) /\
  run_case (cxk_P false) 200 [cxk_root NoFault] = run_case (cxk_P true) 200 [cxk_root NoFault] /\
  fst (run_case (cxk_P false) 200 [cxk_root (ResumeRaises 1 77%Z)]) = [Some (Ok (VInt 5))] /\
  run_case (cxk_P false) 200 [cxk_root (ResumeRaises 1 77%Z)] = run_case (cxk_P true) 200 [cxk_root (ResumeRaises 1 77%Z)] /\
  hist_guarded resume_ok (cxk_P true) 200 [cxk_root NoFault] (st0 (cxk_P true)) = true.
Proof. vm_compute. repeat split. Qed.

(* nor does the option cost transitions (on the unrepaired code it did): same outcome at the same fuel, and
   the fuel is tight (one less does not finish) *)
Definition cxf_prog : prog :=
  Yield (YLeaf (LNew (FConst (VInt 1)))) (fun _ => Yield YNone (fun _ => Ret (VInt 5))).
Definition cxf_P (keep : bool) : params := mkP [] 1000 keep [].

Example cxf_same_fuel :
  run_case (cxf_P true) 16 [cxf_prog] = run_case (cxf_P false) 16 [cxf_prog] /\
  fst (run_case (cxf_P true) 16 [cxf_prog]) = [Some (Ok (VInt 5))] /\
  fst (run_case (cxf_P true) 15 [cxf_prog]) = [None] /\ fst (run_case (cxf_P false) 15 [cxf_prog]) = [None].
Proof. vm_compute. repeat split. Qed.

Definition keep_inert_statement : Prop :=
  forall P P' fuel ps, same_but_keep P P' -> run_case P fuel ps = run_case P' fuel ps.

(* "no option makes a computation fail that succeeds without it" (either way round) *)
Definition keep_preserves_success_statement : Prop :=
  forall P P' fuel fuel' ps v e, same_but_keep P P' ->
    fst (run_case P fuel ps) = [Some (Ok v)] -> fst (run_case P' fuel' ps) <> [Some (Err e)].

(* Counterexample on the model of the repaired code (MAX_TASK_STACK_SIZE = 3); it needs the machine's re-entrancy
   artifact.  Root [0] awaits a ConstFuture, creates [2] (which awaits [0]) and calls [2].value(): the
   nested loop finds [0] unblocked and RE-ENTERS it from its stored generator.  This inner activation
   yields a batch item [4]; pushing it exceeds the stack limit, the scheduler resets and RuntimeError
   unwinds into the OUTER activation of [0] - whose entry now stores the uncomputed dependency [4].
   The outer activation yields None and is resumed on the spot: without the option [4] is dropped from
   tk_deps, with it [4] stays.  Then [0] calls [5].value() where [5] awaits [0]: with the option [0]
   is blocked (on [4]), [5] is popped and its context paused - whose pause() raises, [5] fails with 77
   and [0] returns 100; without it [0] is re-entered at once, completes with 8, and the outer `return`
   raises FutureIsAlreadyComputed. *)
Definition cxr_wait0 : prog := Yield (YLeaf (LOld [0%Z])) (fun _ => Ret VNone).
Definition cxr_wait0_ctx : prog :=
  Enter (CAsync 9 (PauseRaises 1 77%Z)) (Yield (YLeaf (LOld [0%Z])) (fun _ => Ret VNone)).
Definition cxr_obs : prog :=
  Let (FTask cxr_wait0_ctx) (fun h5 =>
    if fid_eqb h5 [5%Z]
    then Sync h5 (fun o => match o with Ok _ => Ret (VInt 9) | Err _ => Ret (VInt 100) end)
    else Ret (VInt 8)).
Definition cxr_body : prog :=
  Let (FTask cxr_wait0) (fun h =>
    if fid_eqb h [2%Z]
    then Sync h (fun _ => Yield YNone (fun _ => cxr_obs))
    else Yield (YLeaf (LNew (FItem 0 1 (ASet (VInt 5))))) (fun _ => Ret VNone)).
Definition cxr_root : prog := Yield (YLeaf (LNew (FConst (VInt 1)))) (fun _ => cxr_body).
Definition cxr_P (keep : bool) : params := mkP [] 3 keep [].

Lemma cxr_same : same_but_keep (cxr_P true) (cxr_P false).
Proof. repeat split. Qed.

Lemma cxr_trace_off :
  run_case (cxr_P false) 400 [cxr_root] =
  ([Some (Err E_ALREADY)],
   [EvStep [0%Z] 0 (Ok VNone); EvStep [0%Z] 1 (Ok (VInt 1)); EvStep [2%Z] 0 (Ok VNone); EvStep [0%Z] 2 (Ok VNone);
    EvGot [0%Z] (Err E_RUNTIME); EvStep [0%Z] 3 (Ok VNone); EvStep [5%Z] 0 (Ok VNone); EvResume [5%Z] 9;
    EvStep [0%Z] 4 (Ok VNone); EvDone [0%Z] (Ok (VInt 8)); EvStep [5%Z] 1 (Ok (VInt 8)); EvDone [5%Z] (Ok VNone);
    EvGot [0%Z] (Ok VNone); EvSched 0 0 (Some [0%Z])]).
Proof. vm_compute. reflexivity. Qed.

Lemma cxr_trace_on :
  run_case (cxr_P true) 400 [cxr_root] =
  ([Some (Ok (VInt 100))],
   [EvStep [0%Z] 0 (Ok VNone); EvStep [0%Z] 1 (Ok (VInt 1)); EvStep [2%Z] 0 (Ok VNone); EvStep [0%Z] 2 (Ok VNone);
    EvGot [0%Z] (Err E_RUNTIME); EvStep [0%Z] 3 (Ok VNone); EvStep [5%Z] 0 (Ok VNone); EvResume [5%Z] 9;
    EvPause [5%Z] 9; EvDone [5%Z] (Err 77%Z); EvGot [0%Z] (Err 77%Z); EvDone [0%Z] (Ok (VInt 100));
    EvSched 0 0 None]).
Proof. vm_compute. reflexivity. Qed.

Theorem keep_inert_statement_is_false : ~ keep_inert_statement.
Proof.
  intros H. specialize (H _ _ 400%nat [cxr_root] cxr_same). rewrite cxr_trace_off, cxr_trace_on in H. discriminate.
Qed.

Theorem keep_preserves_success_statement_is_false : ~ keep_preserves_success_statement.
Proof.
  intros H. apply (H (cxr_P true) (cxr_P false) 400%nat 400%nat [cxr_root] (VInt 100) E_ALREADY cxr_same).
  - rewrite cxr_trace_on. reflexivity.
  - rewrite cxr_trace_off. reflexivity.
Qed.

(* the witness violates the hypothesis of keep_inert_guarded in both runs (the resume of the outer
   activation of [0] finds [4] stored and uncomputed), and the step sequence up to there contains the
   re-entry: a resume of [0] while a frame "body of [0] inside value()" is on the stack *)
Lemma cxr_not_guarded :
  hist_guarded resume_ok (cxr_P true) 400 [cxr_root] (st0 (cxr_P true)) = false /\
  hist_guarded resume_ok (cxr_P false) 400 [cxr_root] (st0 (cxr_P false)) = false /\
  hist_guarded no_reentry (cxr_P true) 400 [cxr_root] (st0 (cxr_P true)) = false /\
  hist_guarded no_reentry (cxr_P false) 400 [cxr_root] (st0 (cxr_P false)) = false.
Proof. vm_compute. repeat split. Qed.

(* two batches, a context, a nested task, an item error, a synchronous call, Yields with and
   without futures (the latter after dependencies have been stored), twice in one history *)
Definition keep_demo_child : prog :=
  Yield (YTuple [YLeaf (LNew (FItem 1 1 (ASet (VInt 10)))); YLeaf (LNew (FItem 0 3 (ASet (VInt 7))))])
        (fun o => Yield YNone (fun _ => match o with Ok v => Ret v | Err e => Raise e end)).
Definition keep_demo : prog :=
  Enter (CAsync 7 NoFault)
    (Yield (YLeaf (LNew (FItem 0 1 (ASet (VInt 5)))))
       (fun _ => Yield YNone (fun _ => Let (FTask keep_demo_child) (fun h =>
          Yield (YList [YLeaf (LOld h); YLeaf (LNew (FItem 0 2 (AErr 33%Z)))])
            (fun _ => Sync h (fun o => Exit (CAsync 7 NoFault)
               (Yield (YLeaf (LNew (FConst (VInt 1)))) (fun _ => match o with Ok v => Ret v | Err e => Raise e end)))))))).

Example keep_demo_guarded :
  let P := mkP [] 1000 true [] in
  hist_guarded resume_ok P 300 [keep_demo; keep_demo] (st0 P) = true /\
  hist_guarded no_reentry P 300 [keep_demo; keep_demo] (st0 P) = true /\
  fst (run_case P 300 [keep_demo; keep_demo]) = [Some (Ok (VTuple [VInt 10; VInt 7])); Some (Ok (VTuple [VInt 10; VInt 7]))].
Proof.
  (* the first conjunct follows from the second, which is evaluated once *)
  intros P. assert (N : hist_guarded no_reentry P 300 [keep_demo; keep_demo] (st0 P) = true) by (vm_compute; reflexivity).
  split; [exact (hist_no_reentry P 300 _ _ (RInv_st0 P) N)|]. split; [exact N|vm_compute; reflexivity].
Qed.
