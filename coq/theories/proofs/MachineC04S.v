(* C04 on the scheduler machine for tree programs WITH SYNCHRONOUS CALLS (MachineC01S.stree): what is true, and what
   is false, of "a batch is flushed only when every uncompleted task reachable from the awaited computation has
   started and is stuck" once scheduler loops nest below callers that are inside value().

   FINDING (flush_only_when_stuck_stree_is_false, demo c04s_demo, vm_compute witness at step 50): the statement of
   MachineC04.flush_only_when_stuck_tree is FALSE for stree programs - already for the OUTERMOST loop.  The loop
   nested in a synchronous call flushes whatever scheduled batch has the highest priority, including a batch that
   contains items of tasks the OUTER pass has already settled (popped as "blocked, dependencies scheduled").  Those
   tasks become runnable, but the outer pass does not look at them again: when it ends, wait_for calls
   _continue_with_batch and flushes the next batch although a reachable, started, uncompleted task is runnable.
   (This is the behaviour of scheduler.py wait_for/_execute/_handle_async_task as modelled; it costs batching
   efficiency, not correctness: the next pass runs the task.)

   What IS proved, for every pointwise P, every stree program, oracle, priorities, KEEP_DEPENDENCIES, fuel
   (no_unwind), at every flush point (mode MAfterExec over FWait r, r uncomputed) of the outermost loop or of a loop
   nested to any depth:
     flush_only_when_settled_stree   there is a set S of SETTLED futures with r in S; no member of S is on the task
                                     stack (so none is a caller suspended in value() or below one); every task in S
                                     is uncompleted, has started, has a dependency in S and all its dependencies
                                     computed or in S; every other member is a batch item (S_okW: the item may
                                     meanwhile be computed - that is the only difference to MachineC04.S_ok); if all
                                     items of S are pending, S is stuck in the sense of S_ok;
     flush_only_when_stuck_stree_if_no_stale_item
                                     the full-strength conclusion (S_ok) under a hypothesis on the state: no
                                     uncompleted task has an already computed batch item among its dependencies;
     reachable_is_computed_or_settled_stree
                                     everything reachable from r through tk_deps of uncompleted tasks is computed, a
                                     pending item, or an uncompleted task that has STARTED, is off the stack, and is
                                     blocked or depends on a batch item that is already computed (no reachable task
                                     is unstarted - that half of C04 survives nesting);
     reachable_is_computed_or_stuck_stree_if_no_stale_item   the tree conclusion under the same state hypothesis;
     flush_point_shape_stree         MAfterExec always sits on FWait r.
   Demos: c04s_demo_runs (the run: nested flush at step 35, outer flush at step 50), c04s_demo_nested_flush (the hypotheses
   are satisfiable at a NESTED flush point and give the full conclusion there).

   Route: per level of the wait_for nesting a ghost settled set and the pass invariant [passW] (MachineC04.passG
   with the level's own stack segment [seg] above [below], a set Rn of running tasks, a universe Un for the "white"
   clause, and S_okW for "settled").  The innermost level's invariant is live; the levels of the callers suspended in value() are
   FROZEN ([frozen]/[lvls], recursive along the FValue frames like MachineDFSS.stk): everything a frozen level
   mentions is older (creation number below b = number of the callee awaited above it), everything the nested
   loops touch is at least that young (from MachineC01S.CI), so a nested step is either a change of one young
   entry ([chg]) or a flush ([tbc]: task entries untouched, items stay items) - both preserve frozen levels.  A
   synchronous call freezes the innermost level (dls_MRun, Sync case), its return thaws it (frozen_thaw,
   dls_MDeliver); a new pass of a nested loop starts from the facts of the level below it (lvls_white).
   Dependency facts: MachineC04.deps_ok for every wait root in the frames ([DK]).
   NOT proved here: the batch-table part for stree (items of S that are still pending are in scheduled, unflushed
   batches - MachineC04B has it for tree programs only). *)
From Asynq Require Import Machine proofs.MachineFrame proofs.MachineC05 proofs.MachineC08.
From Asynq Require Export proofs.MachineCases.
From Asynq Require Import proofs.MachineC01 proofs.MachineC01S proofs.MachineDFS proofs.MachineDFSS proofs.MachineC04 proofs.MachineC04B.

(* as MachineC04.S_ok, except that a settled ITEM may meanwhile have been computed (by the flush of a loop nested
   in a synchronous call) *)
Definition S_okW (S : Sset) (s : st) (d : fid) : Prop :=
  (exists tk, get d s = Some (mkFut None (KTask tk)) /\ (1 <= tk_iter tk)%Z /\
              (exists e, In e (tk_deps tk) /\ S e) /\
              (forall e, In e (tk_deps tk) -> computed e s = true \/ S e)) \/
  (exists o kind idx key a, get d s = Some (mkFut o (KItem kind idx key a))).

Lemma S_okW_alloc S s d : S_okW S s d -> get d s <> None.
Proof. intros [(tk & Hg & _)|(o & kind & idx & key & a & Hg)]; rewrite Hg; discriminate. Qed.

Definition item_fwd (s s' : st) : Prop :=
  forall h o kind idx key a, get h s = Some (mkFut o (KItem kind idx key a)) -> exists o', get h s' = Some (mkFut o' (KItem kind idx key a)).

Definition utask_fwd (s s' : st) : Prop :=
  forall t tk, get t s = Some (mkFut None (KTask tk)) -> get t s' = Some (mkFut None (KTask tk)).

Definition cmono (s s' : st) : Prop := forall e, computed e s = true -> computed e s' = true.
Definition dmono (s s' : st) : Prop := forall d, get d s <> None -> get d s' <> None.

Lemma S_okW_mono (S S' : Sset) s s' d :
  S_okW S s d -> (forall e, S e -> S' e) ->
  (forall tk, get d s = Some (mkFut None (KTask tk)) -> get d s' = Some (mkFut None (KTask tk))) ->
  (forall o kind idx key a, get d s = Some (mkFut o (KItem kind idx key a)) -> exists o', get d s' = Some (mkFut o' (KItem kind idx key a))) ->
  cmono s s' -> S_okW S' s' d.
Proof.
  intros [(tk & Hg & Hi & (e0 & He0 & Hs0) & Ha)|(o & kind & idx & key & a & Hg)] HS E IF M.
  - left. exists tk. split; [apply E; exact Hg|]. split; [exact Hi|]. split; [exists e0; auto|].
    intros e Hin. destruct (Ha e Hin); auto.
  - right. destruct (IF _ _ _ _ _ Hg) as (o' & Hg'). exists o', kind, idx, key, a. exact Hg'.
Qed.

Lemma S_okW_same (S S' : Sset) s s' d :
  S_okW S s d -> (forall e, S e -> S' e) -> get d s' = get d s -> cmono s s' -> S_okW S' s' d.
Proof.
  intros H HS E M. apply (S_okW_mono S S' s s' d H HS); [intros tk Hg; rewrite E; exact Hg| |exact M].
  intros o kind idx key a Hg. exists o. rewrite E. exact Hg.
Qed.

Lemma S_okW_task (S : Sset) s d tk : get d s = Some (mkFut None (KTask tk)) -> (1 <= tk_iter tk)%Z ->
  (exists e, In e (tk_deps tk) /\ S e) -> (forall e, In e (tk_deps tk) -> computed e s = true \/ S e) -> S_okW S s d.
Proof. intros Hg Hi He Ha. left. exists tk. auto. Qed.

Lemma S_okW_item (S : Sset) s d kind idx key a : get d s = Some (mkFut None (KItem kind idx key a)) -> S_okW S s d.
Proof. intros Hg. right. exists None, kind, idx, key, a. exact Hg. Qed.

(* the pass invariant of a level (MachineC04.passG) with [S_okW] for "settled" *)
Definition passW := passG S_okW.
Definition pw_off r S Rn Un seg below s (H : passW r S Rn Un seg below s) := pg_off _ _ _ _ _ _ _ _ H.
Definition pw_ok r S Rn Un seg below s (H : passW r S Rn Un seg below s) := pg_ok _ _ _ _ _ _ _ _ H.
Definition pw_white r S Rn Un seg below s (H : passW r S Rn Un seg below s) := pg_white _ _ _ _ _ _ _ _ H.
Definition pw_nodup r S Rn Un seg below s (H : passW r S Rn Un seg below s) := pg_nodup _ _ _ _ _ _ _ _ H.
Definition pw_alloc r S Rn Un seg below s (H : passW r S Rn Un seg below s) := pg_alloc _ _ _ _ _ _ _ _ H.
Definition pw_end r S Rn Un seg below s (H : passW r S Rn Un seg below s) := pg_end _ _ _ _ _ _ _ _ H.

(* one entry x changes (x is running, or is foreign to this level); new entries may appear, new tasks have no deps *)
Definition chg (x : fid) (s s' : st) : Prop :=
  dmono s s' /\ cmono s s' /\
  (forall h, h <> x -> get h s <> None -> get h s' = get h s) /\
  (forall u tk, u <> x -> get u s = None -> get u s' = Some (mkFut None (KTask tk)) -> tk_deps tk = []).

Lemma chg_refl x s : chg x s s.
Proof. split; [intros d H; exact H|]. split; [intros e H; exact H|]. split; [auto|]. intros u tk _ H1 H2. congruence. Qed.

Lemma chg_trans x a b c : chg x a b -> chg x b c -> chg x a c.
Proof.
  intros (A1 & A2 & A3 & A4) (B1 & B2 & B3 & B4). split; [intros d H; apply B1, A1, H|]. split; [intros e H; apply B2, A2, H|]. split.
  - intros h N Hh. rewrite B3, A3; auto.
  - intros u tk N Hn Hg. destruct (get u b) as [f|] eqn:E.
    + rewrite B3 in Hg; [|exact N|rewrite E; discriminate]. rewrite E in Hg. inversion Hg; subst f. apply (A4 u tk N Hn E).
    + apply (B4 u tk N E Hg).
Qed.

Lemma chg_frame_w x s s' : frame_w x s s' -> chg x s s'.
Proof. intros (_ & A & B & C & D). split; [exact A|]. split; [exact B|]. split; [exact C|exact D]. Qed.

Lemma chg_view x s s' : heap s' = heap s -> chg x s s'.
Proof.
  intros Hh. assert (G : forall h, get h s' = get h s) by (intros h; unfold get; rewrite Hh; reflexivity).
  split; [intros d; rewrite G; auto|]. split; [intros e; unfold computed; rewrite G; auto|]. split; [intros h _ _; apply G|].
  intros u tk _ Hn Hg. rewrite G in Hg. congruence.
Qed.

Lemma chg_upd x s s' f f' : get x s = Some f -> upd_entry s s' x f' -> (f_out f <> None -> f_out f' <> None) -> chg x s s'.
Proof.
  intros Hg U Ho. pose proof (upd_entry_dom _ _ _ _ _ Hg U) as Dom. destruct U as (A & B & Hr).
  split; [intros d Hd; apply Dom; exact Hd|]. split; [|split].
  - exact (upd_entry_mono s s' x f f' Hg (conj A (conj B Hr)) Ho).
  - intros h N _. apply B. exact N.
  - intros u tk N Hn Hgu. rewrite B in Hgu by exact N. congruence.
Qed.

Lemma chg_of_oth x s s2 : deps_step s s2 -> (forall h, h <> x -> get h s2 = get h s) -> chg x s s2.
Proof.
  intros (D1 & D2 & _) Hoth. split; [exact D1|]. split; [exact D2|]. split; [intros h N _; apply Hoth; exact N|].
  intros u tk N Hn Hg. rewrite (Hoth u N) in Hg. congruence.
Qed.

Lemma chg_grow x s s' : grow s s' -> chg x s s'.
Proof.
  intros (Hd & G2). split; [exact (proj1 Hd)|]. split; [exact (proj1 (proj2 Hd))|]. split; [intros h _ Hh; apply G2; exact Hh|].
  intros u tk _ Hn Hg. exact (deps_step_new s s' u None tk Hd Hn Hg).
Qed.

Lemma passW_chg r S Rn Un seg below x s s' :
  passW r S Rn Un seg below s -> (Rn x \/ (~ In x seg /\ ~ Un x)) -> ~ S x -> chg x s s' ->
  passW r S Rn Un seg below s'.
Proof. intros H Hx HSx (Dom & Mono & Fo & New). exact (passG_chg S_okW S_okW_same S_okW_alloc r S Rn Un seg below x s s' H Hx HSx Dom Mono Fo New). Qed.

(* a flush: task entries are untouched, items stay items *)
Definition tbc (s s' : st) : Prop := task_back s s' /\ utask_fwd s s' /\ item_fwd s s' /\ dmono s s' /\ cmono s s'.

Lemma tbc_view s s' : heap s' = heap s -> tbc s s'.
Proof.
  intros Hh. assert (G : forall h, get h s' = get h s) by (intros h; unfold get; rewrite Hh; reflexivity).
  split; [intros u out tk Hg; rewrite G in Hg; exact Hg|]. split; [intros t tk Hg; rewrite G; exact Hg|].
  split; [intros h o kind idx key a Hg; exists o; rewrite G; exact Hg|].
  split; [intros d; rewrite G; auto|intros e; unfold computed; rewrite G; auto].
Qed.

Lemma passW_tbc r S Rn Un seg below s s' : passW r S Rn Un seg below s -> tbc s s' -> passW r S Rn Un seg below s'.
Proof.
  intros [K1 K2 K3 K4 K5 K6 K7 K8] (TB & UF & IF & Dom & Mono).
  constructor.
  - exact K1.
  - intros d Hd. apply (S_okW_mono S S s s' d (K2 d Hd)); [auto|apply UF|apply IF|exact Mono].
  - intros above y rest tk Hseg Hg Hds Hr e He. apply TB in Hg.
    destruct (K3 above y rest tk Hseg Hg Hds Hr e He) as [H|[H|H]]; auto.
  - intros u tk HU Hg Hds Hr HSu e He Hc. apply TB in Hg. apply (K4 u tk HU Hg Hds Hr HSu e He). apply (mono_unc s s' Mono). exact Hc.
  - exact K5.
  - intros d Hd. apply Dom. apply K6. exact Hd.
  - exact K7.
  - intros E. destruct (K8 E) as [H|H]; [left; apply Mono; exact H|right; exact H].
Qed.

Lemma passW_weaken r S (Rn Rn' Un Un' : fid -> Prop) seg below s :
  passW r S Rn Un seg below s -> (forall u, Rn u -> Rn' u) -> (forall u, Un' u -> Un u) -> passW r S Rn' Un' seg below s.
Proof. exact (passG_weaken S_okW r S Rn Rn' Un Un' seg below s). Qed.

Definition after_runW (S : Sset) (V : list fid) (s : st) (t : fid) : Prop :=
  forall tk, get t s = Some (mkFut None (KTask tk)) ->
    forall e, In e (tk_deps tk) -> computed e s = false -> ~ S e /\ ~ In e V.

Definition rdd (s : st) (t : fid) : Prop :=
  forall tk, get t s = Some (mkFut None (KTask tk)) -> forall e, In e (tk_deps tk) -> computed e s = true.

Lemma passW_unrun r S (Rn Rn' Un : fid -> Prop) t rest below s s2 :
  passW r S Rn Un (t :: rest) below s -> (forall u, Rn u -> Rn' u \/ u = t) ->
  after_runW S ((t :: rest) ++ below) s t ->
  (forall h, h <> t -> get h s2 = get h s) -> (forall e, computed e s2 = computed e s) ->
  (get t s <> None -> get t s2 <> None) ->
  (forall tk', get t s2 = Some (mkFut None (KTask tk')) ->
     tk_ds tk' = false /\ exists tk, get t s = Some (mkFut None (KTask tk)) /\ tk_deps tk' = tk_deps tk) ->
  passW r S Rn' Un (t :: rest) below s2.
Proof. exact (passG_unrun S_okW S_okW_same r S Rn Rn' Un t rest below s s2). Qed.

(* a level whose caller t is inside value(): its pass invariant is frozen; b is the creation number of the callee
   (the root of the next inner wait): everything the level talks about is older than b, everything the nested loops
   touch is at least as young *)
Record frozen (b : Z) (r : fid) (S : Sset) (t : fid) (F : list fid) (rest below : list fid) (s : st) : Prop := {
  fz_pass : passW r S (fun u => In u (t :: F)) (fun u => (fnum u < b)%Z) (t :: rest) below s;
  fz_hi : forall d, S d \/ In d ((t :: rest) ++ below) -> (fnum d < b)%Z;
  fz_rdd : rdd s t;
  fz_iter : forall tk, get t s = Some (mkFut None (KTask tk)) -> (1 <= tk_iter tk)%Z
}.

Inductive lvls (s : st) : Z -> list fid -> list frame -> Prop :=
| lvls_top b : lvls s b [] [FTop]
| lvls_val b t k old i r vs S rest below :
    frozen b r S t (fvals vs) rest below s -> (fnum r <= b)%Z -> length below = i -> lvls s (fnum r) below vs ->
    lvls s b ((t :: rest) ++ below) (FValue t k :: FCont t old :: FExec i :: FWait r :: vs).

Lemma frozen_chg b r S t F rest below x s s' :
  frozen b r S t F rest below s -> (b <= fnum x)%Z -> chg x s s' -> frozen b r S t F rest below s'.
Proof.
  intros [A B C D] Hx Hc.
  assert (Nt : t <> x) by (intros ->; specialize (B x (or_intror (or_introl eq_refl))); lia).
  assert (At : get t s <> None) by (apply (pw_alloc _ _ _ _ _ _ _ A); left; reflexivity).
  pose proof Hc as (Dom & Mono & Fo & New).
  constructor.
  - apply (passW_chg _ _ _ _ _ _ x s s' A); [|intros H; specialize (B x (or_introl H)); lia|exact Hc].
    right. split; [intros H; specialize (B x (or_intror (in_or_app _ _ _ (or_introl H)))); lia|lia].
  - exact B.
  - intros tk Hg e He. rewrite (Fo t Nt At) in Hg. apply Mono. apply (C tk Hg e He).
  - intros tk Hg. rewrite (Fo t Nt At) in Hg. apply (D tk Hg).
Qed.

Lemma frozen_tbc b r S t F rest below s s' :
  frozen b r S t F rest below s -> tbc s s' -> frozen b r S t F rest below s'.
Proof.
  intros [A B C D] Hc. pose proof Hc as (TB & UF & IF & Dom & Mono). constructor.
  - apply (passW_tbc _ _ _ _ _ _ s s' A Hc).
  - exact B.
  - intros tk Hg e He. apply TB in Hg. apply Mono. apply (C tk Hg e He).
  - intros tk Hg. apply TB in Hg. apply (D tk Hg).
Qed.

Lemma lvls_chg s s' x : chg x s s' -> forall b ts fr, lvls s b ts fr -> (b <= fnum x)%Z -> lvls s' b ts fr.
Proof.
  intros Hc b ts fr H. induction H as [b|b t k old i r vs S rest below Hfz Hrb Hlen Hl IH]; intros Hx; [apply lvls_top|].
  apply (lvls_val s' b t k old i r vs S rest below); [apply (frozen_chg _ _ _ _ _ _ _ x s s' Hfz Hx Hc)|exact Hrb|exact Hlen|apply IH; lia].
Qed.

Lemma lvls_tbc s s' : tbc s s' -> forall b ts fr, lvls s b ts fr -> lvls s' b ts fr.
Proof.
  intros Hc b ts fr H. induction H as [b|b t k old i r vs S rest below Hfz Hrb Hlen Hl IH]; [apply lvls_top|].
  apply (lvls_val s' b t k old i r vs S rest below); [apply (frozen_tbc _ _ _ _ _ _ _ s s' Hfz Hc)|exact Hrb|exact Hlen|exact IH].
Qed.

Lemma lvls_view s s' b ts fr : heap s' = heap s -> lvls s b ts fr -> lvls s' b ts fr.
Proof. intros Hh. exact (lvls_tbc s s' (tbc_view s s' Hh) b ts fr). Qed.

Lemma lvls_bound s b ts fr : lvls s b ts fr -> forall d, In d ts -> (fnum d < b)%Z.
Proof. intros H. destruct H as [b|b t k old i r vs S rest below Hfz Hrb Hlen Hl]; intros d Hd; [destruct Hd|]. apply (fz_hi _ _ _ _ _ _ _ _ Hfz). right. exact Hd. Qed.

Lemma lvls_nodup s b ts fr : lvls s b ts fr -> NoDup ts.
Proof. intros H. destruct H as [b|b t k old i r vs S rest below Hfz Hrb Hlen Hl]; [constructor|]. apply (pw_nodup _ _ _ _ _ _ _ (fz_pass _ _ _ _ _ _ _ _ Hfz)). Qed.

Lemma lvls_alloc s b ts fr : lvls s b ts fr -> forall d, In d ts -> get d s <> None.
Proof. intros H. destruct H as [b|b t k old i r vs S rest below Hfz Hrb Hlen Hl]; intros d Hd; [destruct Hd|]. apply (pw_alloc _ _ _ _ _ _ _ (fz_pass _ _ _ _ _ _ _ _ Hfz)). exact Hd. Qed.

Definition deps_younger (s : st) : Prop :=
  forall u out tk, get u s = Some (mkFut out (KTask tk)) -> forall d, In d (tk_deps tk) -> (fnum u < fnum d)%Z.

(* thawing: when the callee has returned, the caller's level is the innermost one again *)
Lemma frozen_thaw b r S t F rest below s :
  frozen b r S t F rest below s -> deps_younger s ->
  passW r S (fun u => In u (t :: F)) (fun _ => True) (t :: rest) below s.
Proof.
  intros [[K1 K2 K3 K4 K5 K6 K7 K8] B C D] Hy. constructor; auto.
  intros u tk _ Hg Hds Hr HSu e He Hc.
  destruct (Z.ltb (fnum u) b) eqn:E.
  - apply Z.ltb_lt in E. apply (K4 u tk E Hg Hds Hr HSu e He Hc).
  - apply Z.ltb_ge in E. pose proof (Hy u None tk Hg e He) as Hlt.
    split; intros H; [specialize (B e (or_introl H))|specialize (B e (or_intror H))]; lia.
Qed.

(* no white task that is not running has an uncomputed dependency on the stack of the suspended levels *)
Lemma lvls_white s b ts fr : lvls s b ts fr -> deps_younger s ->
  forall u tk, get u s = Some (mkFut None (KTask tk)) -> tk_ds tk = false -> ~ In u (fvals fr) ->
  forall e, In e (tk_deps tk) -> computed e s = false -> ~ In e ts.
Proof.
  intros H Hy. destruct H as [b|b t k old i r vs S rest below Hfz Hrb Hlen Hl]; intros u tk Hg Hds Hr e He Hc; [intros []|].
  cbn [fvals] in Hr. pose proof (frozen_thaw _ _ _ _ _ _ _ _ Hfz Hy) as [K1 K2 K3 K4 K5 K6 K7 K8].
  (* the white clause answers for an unsettled u; a settled u has its uncomputed dependencies settled, hence off the stack *)
  intros Hin. assert (HSu : ~ S u).
  { intros HSu. destruct (K2 u HSu) as [(tk0 & Hg0 & _ & _ & Hall)|(o & kind & idx & key & a & Hg0)]; [|congruence].
    rewrite Hg in Hg0. inversion Hg0; subst tk0. destruct (Hall e He) as [H|H]; [congruence|]. apply (K1 e H Hin). }
  exact (proj2 (K4 u tk I Hg Hds Hr HSu e He Hc) Hin).
Qed.

Lemma kback_cwb P s : kback s (continue_with_batch P s).
Proof.
  unfold continue_with_batch. pose proof (select_batches P s) as [Hb Hh].
  destruct (select P s) as [[k|] s1]; cbn [snd] in *; [|apply kback_view; exact Hh].
  eapply kback_trans; [|apply kback_view; reflexivity].
  eapply kback_trans; [|apply kback_flush_batch]. apply kback_view. cbn. exact Hh.
Qed.

Lemma tbc_item_steps s s' : item_steps s s' -> tbc s s'.
Proof.
  intros S. split; [exact (item_steps_task_back s s' S)|]. split; [intros t tk; apply (item_steps_task _ _ _ _ _ S)|].
  split; [|split; [exact (item_steps_dom s s' S)|intros e; apply (item_steps_computed _ _ _ S)]].
  intros h o kind idx key a Hg. destruct S as (_ & _ & H). destruct (H h) as [E|(? & ? & ? & ? & G & G')]; [exists o; rewrite E; exact Hg|].
  rewrite Hg in G. inversion G; subst. eexists. exact G'.
Qed.

Lemma tbc_cwb spec R P s : pointwise P -> SI spec R s -> tbc s (continue_with_batch P s).
Proof. intros HP HS. exact (tbc_item_steps _ _ (continue_with_batch_item_steps P s HP (proj1 (proj2 HS)))). Qed.

Lemma passW_view r S Rn Un seg below s s' : heap s' = heap s -> passW r S Rn Un seg below s -> passW r S Rn Un seg below s'.
Proof. intros Hh H. apply (passW_tbc _ _ _ _ _ _ s s' H). apply tbc_view. exact Hh. Qed.

Fixpoint wroots (fr : list frame) : list fid :=
  match fr with
  | [] => []
  | FWait r :: fr' => r :: wroots fr'
  | _ :: fr' => wroots fr'
  end.

Definition mroots (m : mode) : list fid :=
  match m with
  | MValue h => [h]
  | MRun _ (Sync h _) => [h]
  | _ => []
  end.

Definition DK (rs : list fid) (s : st) : Prop := forall r, In r rs -> get r s <> None /\ deps_ok r s.

Lemma DK_step rs rs' s s' : DK rs s -> deps_step s s' -> (forall r, In r rs' -> In r rs) -> DK rs' s'.
Proof.
  intros H Hd Hsub r Hr. destruct (H r (Hsub r Hr)) as [A B]. exact (deps_step_keeps s s' Hd r A B).
Qed.

Lemma deps_ok_newroot r h s s' :
  deps_ok r s -> get r s <> None -> get h s = None -> deps_step s s' -> deps_ok h s'.
Proof.
  intros HD Hr Hh Hd. pose proof (deps_ok_along r s s' HD Hd) as [K1 K2 K3 K4 K5 K6].
  constructor; auto.
  intros p o tk Hg Hin. destruct (deps_step_back s s' p o tk h Hd Hg Hin) as (o0 & tk0 & Hg0 & _ & E & _).
  rewrite E in Hin. apply (dk_alloc r s HD p o0 tk0 h Hg0 Hin). exact Hh.
Qed.

Lemma stree_not_sync p : stree p -> forall h k, p <> Sync h k.
Proof. intros H h k ->. inversion H. Qed.

Lemma mroots_stree t p : stree p -> mroots (MRun t p) = [].
Proof. intros H. destruct p; try reflexivity. inversion H. Qed.

Lemma SI_deps_younger spec R s : SI spec R s -> deps_younger s.
Proof. intros HS u out tk Hg. apply (SI_deps _ _ _ _ _ _ HS Hg). Qed.

Lemma SI_spec_alloc spec R s h o : SI spec R s -> spec h = Some o -> get h s <> None.
Proof. intros (_ & _ & _ & _ & HU) Hs Hg. rewrite (HU h Hg) in Hs. discriminate. Qed.

Section C04S.
  Variable P : params.
  Hypothesis HP : pointwise P.
  Variable res : outcome.

  Definition inner (r : fid) (i : nat) (vs : list frame) (S : Sset) (Rn : fid -> Prop) (seg below : list fid) (s : st) : Prop :=
    tasks s = seg ++ below /\ length below = i /\ passW r S Rn (fun _ => True) seg below s /\ lvls s (fnum r) below vs.

  (* a running task x of the innermost level changes its entry: that level's invariant and the frozen levels stand *)
  Lemma inner_chg r i vs (S : Sset) (Rn : fid -> Prop) seg below x s s' :
    inner r i vs S Rn seg below s -> tasks s' = tasks s -> chg x s s' -> Rn x -> ~ S x -> (fnum r <= fnum x)%Z ->
    inner r i vs S Rn seg below s'.
  Proof.
    intros (Hts & Hlen & HPk & HL) Ht Hch HRx HSx Hrx. split; [rewrite Ht; exact Hts|]. split; [exact Hlen|]. split.
    - exact (passW_chg r S Rn _ seg below x s s' HPk (or_introl HRx) HSx Hch).
    - exact (lvls_chg s s' x Hch _ _ _ HL Hrx).
  Qed.

  (* the end of an _execute pass: the awaited r is computed, or settled in a closed set of settled futures *)
  Definition stuckW (S : Sset) (r : fid) (s : st) : Prop :=
    computed r s = true \/ (S r /\ (forall d, S d -> S_okW S s d) /\ (forall d, S d -> ~ In d (tasks s))).

  Definition modeW (S : Sset) (m : mode) (fr : list frame) (s : st) : Prop :=
    match m with
    | MValue h => lvls s (fnum h) (tasks s) fr
    | MDeliver _ => exists b, lvls s b (tasks s) fr
    | MWaitHead => exists r vs, fr = FWait r :: vs /\ lvls s (fnum r) (tasks s) vs
    | MAfterExec => exists r vs, fr = FWait r :: vs /\ lvls s (fnum r) (tasks s) vs /\ stuckW S r s
    | MExecLoop => exists i r vs seg below, fr = FExec i :: FWait r :: vs /\
        inner r i vs S (fun u => In u (fvals vs)) seg below s
    | MResume t => exists old i r vs rest below, fr = FCont t old :: FExec i :: FWait r :: vs /\
        inner r i vs S (fun u => In u (t :: fvals vs)) (t :: rest) below s /\ rdd s t
    | MRun t p => exists old i r vs rest below, fr = FCont t old :: FExec i :: FWait r :: vs /\
        inner r i vs S (fun u => In u (t :: fvals vs)) (t :: rest) below s /\ rdd s t /\
        (forall tk, get t s = Some (mkFut None (KTask tk)) -> (1 <= tk_iter tk)%Z) /\
        (forall h k, p = Sync h k -> forall d, S d \/ In d (tasks s) -> (fnum d < fnum h)%Z)
    | MContRet => exists t old i r vs rest below, fr = FCont t old :: FExec i :: FWait r :: vs /\
        inner r i vs S (fun u => In u (t :: fvals vs)) (t :: rest) below s /\ after_runW S (tasks s) s t
    | _ => True
    end.

  Definition DLS (spec : specmap) (S : Sset) (c : cfg) : Prop :=
    FLS res spec c /\
    match c_mode c with
    | MUnwind _ | MDone _ | MStuck => True
    | m => DK (mroots m ++ wroots (c_frames c)) (c_st c) /\ modeW S m (c_frames c) (c_st c)
    end.

  Lemma dls_MValue spec S h fr s : DLS spec S (mkC (MValue h) fr s) -> DLS spec S (step P (mkC (MValue h) fr s)).
  Proof.
    intros (HFL & HD & HW). split; [apply (fls_MValue P res); exact HFL|].
    destruct HFL as ((_ & _ & Ht) & _). cbn [c_mode c_frames c_st mode_ok modeW mroots] in *.
    cbn [step c_mode c_frames c_st].
    destruct (computed h s) eqn:Hc.
    - cbn [c_mode c_frames c_st mroots modeW]. split; [|exists (fnum h); exact HW].
      apply (DK_step _ _ s s HD (deps_step_refl s)). intros r Hr. right. exact Hr.
    - destruct Ht as (out & tk & Hg). rewrite Hg. cbn [c_mode c_frames c_st mroots modeW wroots].
      split; [exact HD|]. exists h, fr. split; [reflexivity|exact HW].
  Qed.

  (* leaving wait_for *)
  Lemma dls_leave S r vs s o :
    DK (r :: wroots vs) s -> lvls s (fnum r) (tasks s) vs ->
    DK (mroots (MDeliver o) ++ wroots vs) (drop_sb s) /\ modeW S (MDeliver o) vs (drop_sb s).
  Proof.
    intros HD HL. cbn [mroots modeW app]. split.
    - apply (DK_step _ _ s _ HD); [apply deps_step_view; apply heap_drop_sb|]. intros x Hx. right. exact Hx.
    - exists (fnum r). rewrite tasks_drop_sb. apply (lvls_view s); [apply heap_drop_sb|exact HL].
  Qed.

  (* a new pass starts with nothing settled *)
  Lemma dls_MWaitHead spec S fr s : DLS spec S (mkC MWaitHead fr s) ->
    exists S', DLS spec S' (step P (mkC MWaitHead fr s)).
  Proof.
    intros (HFL & HD & HW). pose proof (fls_MWaitHead P res spec fr s HFL) as HFL'.
    destruct HFL as ((Hf & HS & _) & HK). cbn [c_mode c_frames c_st modeW mroots app] in *.
    destruct HW as (r & vs & -> & HL). cbn [wroots] in HD.
    unfold stackC in HK. cbn [c_mode c_frames c_st stackS] in HK. destruct HK as (r' & vs' & Efr & _ & Hfl & _).
    injection Efr as <- <-. cbn [R_of fvals] in HS.
    cbn [step c_mode c_frames c_st] in *. destruct (computed r s) eqn:Hc.
    - exists S. split; [exact HFL'|]. cbn [c_mode c_frames c_st]. apply (dls_leave S r vs s (outcome_of r s)); assumption.
    - exists (fun _ => False). split; [exact HFL'|]. cbn [c_mode c_frames c_st mroots modeW app wroots]. split.
      + apply (DK_step _ _ s _ HD); [apply deps_step_view; reflexivity|auto].
      + destruct (HD r (or_introl eq_refl)) as [Hra HDr].
        assert (Hrn : ~ In r (tasks s)) by (intros Hin; pose proof (lvls_bound _ _ _ _ HL r Hin); lia).
        pose proof (SI_deps_younger _ _ _ HS) as Hy.
        exists (length (tasks s)), r, vs, [r], (tasks s). split; [reflexivity|].
        split; [reflexivity|]. split; [reflexivity|]. split; [|apply (lvls_view s); [reflexivity|exact HL]].
        apply (passW_view _ _ _ _ _ _ s); [reflexivity|].
        constructor.
        * intros d [].
        * intros d [].
        * intros above x rest tkx Hseg Hgx Hds _ e He. exfalso.
          destruct above as [|a above']; cbn in Hseg; inversion Hseg; subst; [|destruct above'; discriminate].
          destruct (Hfl x tkx Hgx) as (A & _). apply Hrn. apply A. left. exact Hds.
        * intros u tku _ Hgu Hds Hru _ e He Hce. split; [intros []|]. cbn [app]. intros [<-|Hin].
          -- apply (dk_root r s HDr u None tku Hgu He).
          -- apply (lvls_white s _ _ _ HL Hy u tku Hgu Hds Hru e He Hce Hin).
        * cbn [app]. constructor; [exact Hrn|apply (lvls_nodup _ _ _ _ HL)].
        * cbn [app]. intros d [<-|Hd]; [exact Hra|apply (lvls_alloc _ _ _ _ HL d Hd)].
        * right. exists []. reflexivity.
        * discriminate.
  Qed.

  Lemma dls_MAfterExec spec S fr s : DLS spec S (mkC MAfterExec fr s) -> DLS spec S (step P (mkC MAfterExec fr s)).
  Proof.
    intros (HFL & HD & HW). split; [apply (fls_MAfterExec P HP res); exact HFL|].
    destruct HFL as ((Hf & HS & _) & HK). cbn [c_mode c_frames c_st modeW mroots app] in *.
    destruct HW as (r & vs & -> & HL & _). cbn [wroots] in HD. cbn [R_of fvals] in HS.
    cbn [step c_mode c_frames c_st]. destruct (computed r s) eqn:Hc.
    - cbn [c_mode c_frames c_st]. apply (dls_leave S r vs s (outcome_of r s)); assumption.
    - cbn [c_mode c_frames c_st mroots modeW app wroots]. split.
      + apply (DK_step _ _ s _ HD); [exact (deps_step_item_steps _ _ (continue_with_batch_item_steps P s HP (proj1 (proj2 HS))))|auto].
      + exists r, vs. split; [reflexivity|]. rewrite (tasks_of_regs _ _ (regs_continue_with_batch P s)).
        apply (lvls_tbc s); [apply (tbc_cwb spec _ P s HP HS)|exact HL].
  Qed.

  Lemma dls_MExecLoop spec S fr s : DLS spec S (mkC MExecLoop fr s) ->
    exists S', DLS spec S' (step P (mkC MExecLoop fr s)).
  Proof.
    intros (HFL & HD & HW). pose proof (fls_MExecLoop P res spec fr s HFL) as HFL'.
    destruct HFL as ((Hf & HS & _) & HK). cbn [c_mode c_frames c_st modeW mroots app] in *.
    destruct HW as (i & r & vs & seg & below & -> & Hts & Hlen & HPk & HL).
    destruct Hf as (i' & r' & vs' & Efr & Hlv). injection Efr as <- <- <-.
    cbn [R_of fvals] in HS. cbn [wroots] in HD.
    unfold stackC in HK. cbn [c_mode c_frames c_st stackS] in HK.
    destruct HK as (i2 & r2 & vs2 & seg2 & below2 & Efr & _ & _ & _ & Hfl & _). injection Efr as <- <- <-.
    destruct (HD r (or_introl eq_refl)) as [Hra HDr].
    (* the top of the segment is at least as young as r, hence no suspended caller *)
    assert (Hyoung : forall x seg0, seg = x :: seg0 -> (fnum r <= fnum x)%Z).
    { intros x seg0 ->. apply (proj1 Hlv). rewrite Hts. cbn [app]. apply hi_top. rewrite app_length. lia. }
    assert (Hoth : forall x o, get x s = Some (mkFut o KOther) -> o <> None).
    { intros x o Hx. destruct (SI_entry _ _ _ _ _ HS Hx) as (_ & o' & _ & _ & Hk). exact Hk. }
    (* last argument: the top of the segment is not a suspended caller - callers are older than r, the segment is not *)
    pose proof (level_exec S_okW S_okW_same S_okW_alloc S_okW_task S_okW_item P i (FWait r :: vs) r S _ seg below s _
                  (step_MExecLoop P i _ s (fun t out tk => SI_noraise _ _ _ t out tk HS)) Hts Hlen HPk HDr
                  (fun y tky Hg Hd => proj1 (Hfl y tky Hg) (or_introl Hd)) Hoth
                  (fun x seg0 E Hin => Zlt_not_le _ _ (wt_ok_fvals _ _ _ _ _ (proj2 Hlv) x Hin) (Hyoung x seg0 E))) as HX.
    revert HFL' HX. destruct (step P (mkC MExecLoop (FExec i :: FWait r :: vs) s)) as [m' fr' s']. cbn [c_mode c_frames c_st].
    intros HFL' HX. destruct m' as [h| | | |x|t p| |o|e|o|]; try contradiction.
    - (* the pass has ended: r is computed or settled *)
      destruct HX as (-> & -> & ->). exists S. split; [exact HFL'|]. cbn [c_mode c_frames c_st mroots app wroots modeW].
      cbn [app] in Hts. split; [exact HD|]. exists r, vs. split; [reflexivity|]. rewrite Hts. split; [exact HL|].
      destruct (pw_end _ _ _ _ _ _ _ HPk eq_refl) as [Hc|HSr]; [left; exact Hc|right].
      split; [exact HSr|]. split; [apply (pw_ok _ _ _ _ _ _ _ HPk)|intros d Hd; rewrite Hts; apply (pw_off _ _ _ _ _ _ _ HPk d Hd)].
    - destruct HX as (-> & S' & x & seg0 & seg' & Eseg & (Hd & Hoth2) & Ht' & HP' & _).
      exists S'. split; [exact HFL'|]. cbn [c_mode c_frames c_st mroots app wroots modeW].
      split; [apply (DK_step _ _ s _ HD Hd); auto|]. exists i, r, vs, seg', below. split; [reflexivity|].
      split; [exact Ht'|]. split; [exact Hlen|]. split; [exact HP'|].
      exact (lvls_chg s s' x (chg_of_oth x s s' Hd Hoth2) _ _ _ HL (Hyoung x seg0 Eseg)).
    - destruct HX as (seg0 & -> & Eseg & (Hd & Hoth2) & Ht' & HP' & Hrd).
      exists S. split; [exact HFL'|]. cbn [c_mode c_frames c_st mroots app wroots modeW].
      split; [apply (DK_step _ _ s _ HD Hd); auto|]. exists (active s), i, r, vs, seg0, below. split; [reflexivity|].
      split; [|exact Hrd]. rewrite <- Eseg. split; [exact Ht'|]. split; [exact Hlen|]. split.
      + apply (passW_weaken _ _ _ _ _ _ _ _ _ HP'); [|auto]. intros u [->|H]; [left; reflexivity|right; exact H].
      + exact (lvls_chg s s' x (chg_of_oth x s s' Hd Hoth2) _ _ _ HL (Hyoung x seg0 Eseg)).
    - exists S. split; [exact HFL'|exact I].
  Qed.

  Lemma dls_MResume spec S t fr s : DLS spec S (mkC (MResume t) fr s) -> DLS spec S (step P (mkC (MResume t) fr s)).
  Proof.
    intros (HFL & HD & HW). split; [exact (fls_MResume P res spec t fr s HFL)|].
    destruct HFL as ((Hf & HS & (tk & Hg & _)) & _). cbn [c_mode c_frames c_st modeW mroots app] in * |-.
    destruct HW as (old & i & r & vs & rest & below & -> & (Hts & Hlen & HPk & HL) & Hrd).
    destruct Hf as (old' & i' & r' & vs' & Efr & Hrt & Hlv). injection Efr as <- <- <- <-.
    cbn [R_of fvals] in HS. cbn [wroots] in HD.
    assert (HtR : ~ In t (fvals vs)).
    { intros Hin. pose proof (wt_ok_fvals _ _ _ _ _ (proj2 Hlv) t Hin). lia. }
    destruct (HD r (or_introl eq_refl)) as [Hra HDr].
    destruct (SI_entry _ _ _ _ _ HS Hg) as (_ & ot & _ & _ & _ & _ & Hk). destruct (Hk eq_refl HtR) as (k & K1 & K2 & _).
    destruct (step_MResume P t (FCont t old :: FExec i :: FWait r :: vs) s tk k Hg K1) as (s2 & -> & U & _).
    assert (Hdeps : (if p_keep P then tk_deps tk else []) = tk_deps tk \/ (if p_keep P then tk_deps tk else []) = [])
      by (destruct (p_keep P); auto).
    assert (Fr : frame_t t s s2) by (apply (frame_t_tupd t s s2 tk None _ Hg U); [exact Hdeps|cbn; lia]).
    pose proof (chg_frame_w t s s2 (frame_t_w t s s2 Fr)) as Hch.
    assert (HSt : ~ S t) by (intros H; apply (pw_off _ _ _ _ _ _ _ HPk t H); left; reflexivity).
    cbn [c_mode c_frames c_st]. rewrite (mroots_stree t _ (K2 _)). cbn [app wroots]. split.
    - apply (DK_step _ _ s _ HD); [apply Fr|auto].
    - cbn [modeW]. exists old, i, r, vs, rest, below. split; [reflexivity|]. split; [|split; [|split]].
      + exact (inner_chg _ _ _ _ _ _ _ t s s2 (conj Hts (conj Hlen (conj HPk HL))) (proj1 Fr) Hch (or_introl eq_refl) HSt Hrt).
      + intros tk2 Hg2 e He. rewrite (tupd_get _ _ _ _ _ U) in Hg2. inversion Hg2; subst tk2. cbn [tk_deps] in He.
        rewrite (tupd_computed s s2 t tk _ Hg U). apply (Hrd tk Hg e). destruct Hdeps as [E|E]; rewrite E in He; [exact He|destruct He].
      + intros tk2 Hg2. rewrite (tupd_get _ _ _ _ _ U) in Hg2. inversion Hg2; subst tk2. cbn.
        pose proof (dk_iter0 r s HDr t None tk Hg). lia.
      + intros h0 k0 E. exfalso. exact (stree_not_sync _ (K2 _) h0 k0 E).
  Qed.

  Lemma dls_MContRet spec S fr s : DLS spec S (mkC MContRet fr s) -> DLS spec S (step P (mkC MContRet fr s)).
  Proof.
    intros (HFL & HD & HW). split; [exact (fls_MContRet P res spec fr s HFL)|].
    destruct HFL as ((Hf & HS & _) & _). cbn [c_mode c_frames c_st modeW mroots app] in * |-.
    destruct HW as (t & old & i & r & vs & rest & below & -> & (Hts & Hlen & HPk & HL) & Har).
    destruct Hf as (t' & old' & i' & r' & vs' & Efr & Hrt & Hlv). injection Efr as <- <- <- <- <-.
    cbn [wroots] in HD. rewrite Hts in Har.
    assert (HRn : forall u, In u (t :: fvals vs) -> In u (fvals vs) \/ u = t) by (intros u [E|H]; [right; symmetry; exact E|left; exact H]).
    destruct (step_MContRet_cases P t old (FExec i :: FWait r :: vs) s) as (s2 & -> & [(-> & Hnt)|(out & tk & Hg & U)]);
      cbn [c_mode c_frames c_st mroots app wroots modeW].
    - split; [apply (DK_step _ _ s _ HD); [apply deps_step_view; reflexivity|auto]|].
      exists i, r, vs, (t :: rest), below. split; [reflexivity|]. split; [exact Hts|split; [exact Hlen|split]].
      + apply (passW_unrun r S _ _ _ t rest below s _ HPk HRn Har); try reflexivity; auto.
        intros tk' Hg'. destruct (Hnt _ _ Hg').
      + apply (lvls_view s); [reflexivity|exact HL].
    - pose proof (tupd_upd_entry _ _ _ _ _ U : upd_entry s s2 t _) as U'.
      assert (Hd2 : deps_step s s2) by (apply (deps_step_upd s _ t out tk out _ Hg U'); [auto|left; reflexivity|cbn; lia]).
      pose proof (tupd_other _ _ _ _ _ U) as Hoth.
      split; [apply (DK_step _ _ s _ HD); [exact Hd2|auto]|].
      exists i, r, vs, (t :: rest), below. split; [reflexivity|]. split; [|split; [exact Hlen|split]].
      + rewrite <- Hts. exact (tupd_tasks _ _ _ _ _ U).
      + apply (passW_unrun r S _ _ _ t rest below s _ HPk HRn Har Hoth).
        * exact (upd_entry_computed s s2 t out tk _ Hg U').
        * intros _. rewrite (tupd_get _ _ _ _ _ U). discriminate.
        * intros tk' Hg'. rewrite (tupd_get _ _ _ _ _ U) in Hg'. inversion Hg'; subst. split; [reflexivity|]. exists tk. split; [exact Hg|reflexivity].
      + apply (lvls_chg s _ t (chg_of_oth t s _ Hd2 Hoth) _ _ _ HL Hrt).
  Qed.

  (* value() returns into a suspended caller: its level is thawed; the settled set is the caller's again *)
  Lemma dls_MDeliver spec S o fr s : DLS spec S (mkC (MDeliver o) fr s) ->
    exists S', DLS spec S' (step P (mkC (MDeliver o) fr s)).
  Proof.
    intros (HFL & HD & HW). pose proof (fls_MDeliver P res spec o fr s HFL) as HFL'.
    destruct HFL as ((Hf & HS & _) & _). cbn [c_mode c_frames c_st modeW mroots app] in * |-.
    destruct Hf as (b0 & Hv). destruct HW as (b & HL).
    inversion Hv as [b' Eo Eb Ef|oh b' t k old i r orr vs Hk Ht Hb Hrt Hh Hr Hvs Eo Eb Ef]; subst; cbn [step c_mode c_frames c_st] in *.
    - exists S. split; [exact HFL'|exact I].
    - inversion HL as [|b1 t1 k1 old1 i1 r1 vs1 S1 rest below Hfz Hrb Hlen HL1 E1 E2 E3]. subst.
      exists S1. split; [exact HFL'|]. cbn [c_mode c_frames c_st]. rewrite (mroots_stree t _ (Hk o)). cbn [app wroots] in *.
      cbn [R_of fvals] in HS.
      pose proof (frozen_thaw _ _ _ _ _ _ _ _ Hfz (SI_deps_younger _ _ _ HS)) as HPk.
      split; [apply (DK_step _ _ s _ HD); [apply deps_step_view; reflexivity|auto]|].
      cbn [modeW]. exists old, (length below), r, vs, rest, below. split; [reflexivity|]. split; [|split; [|split]].
      + split; [cbn [tasks emit]; symmetry; assumption|]. split; [reflexivity|]. split.
        * apply (passW_view _ _ _ _ _ _ s); [reflexivity|exact HPk].
        * apply (lvls_view s); [reflexivity|exact HL1].
      + intros tk Hg e He. apply (fz_rdd _ _ _ _ _ _ _ _ Hfz tk Hg e He).
      + intros tk Hg. apply (fz_iter _ _ _ _ _ _ _ _ Hfz tk Hg).
      + intros h0 k0 E. exfalso. exact (stree_not_sync _ (Hk o) h0 k0 E).
  Qed.

  Lemma dls_MRun spec S t p fr s : DLS spec S (mkC (MRun t p) fr s) ->
    exists spec', DLS spec' S (step P (mkC (MRun t p) fr s)).
  Proof.
    intros (HFL & HD & HW). destruct (fls_MRun P res spec t p fr s HFL) as (spec' & HFL'). exists spec'. split; [exact HFL'|]. clear HFL'.
    destruct HFL as ((Hf & HS & Hm) & _). cbn [c_mode c_frames c_st modeW] in * |-.
    destruct HW as (old & i & r & vs & rest & below & -> & Hin & Hrd & Hit & Hsy). pose proof Hin as (Hts & Hlen & HPk & HL).
    destruct Hf as (old' & i' & r' & vs' & Efr & Hrt & Hlv). injection Efr as <- <- <- <-.
    cbn [R_of fvals] in HS. cbn [wroots] in HD.
    destruct (SI_utask _ _ _ t HS (or_introl eq_refl)) as (tk & Hg).
    assert (Hsub : forall x, In x (r :: wroots vs) -> In x (mroots (MRun t p) ++ r :: wroots vs)) by (intros x Hx; apply in_or_app; right; exact Hx).
    destruct (HD r (Hsub r (or_introl eq_refl))) as [Hra HDr].
    assert (HSt : ~ S t) by (intros H; apply (pw_off _ _ _ _ _ _ _ HPk t H); left; reflexivity).
    pose proof (SI_above_free _ _ _ HS) as Hfree.
    set (fr := FCont t old :: FExec i :: FWait r :: vs).
    destruct Hm as [(Htree & Hst)|(h & k & oh & -> & Hk & Hsh & Hst & Hth & Hih)].
    2:{ (* the synchronous call proper: the caller's level is frozen *)
      cbn [step c_mode c_frames c_st mroots wroots modeW app] in *. split; [exact HD|].
      rewrite Hts. apply (lvls_val s (fnum h) t k old i r vs S rest below); [|lia|exact Hlen|exact HL].
      constructor.
      - apply (passW_weaken _ _ _ _ _ _ _ _ _ HPk); auto.
      - intros d Hd. apply (Hsy h k eq_refl d). rewrite Hts. exact Hd.
      - exact Hrd.
      - exact Hit. }
    destruct (level_run S_okW S_okW_alloc P t p fr r S _ _ rest below s tk Htree Hg Hfree HPk (Hrd tk Hg) (Hit tk Hg))
      as [(q & k & -> & Hq)|(m' & s2 & -> & Fw & HDK & Hm')].
    2:{ (* only the entry of t changed, the stack is as before *)
      pose proof (inner_chg _ _ _ _ _ _ _ t s s2 Hin (proj1 Fw) (chg_frame_w t s s2 Fw) (or_introl eq_refl) HSt Hrt) as Hin2.
      assert (HDK2 : DK (r :: wroots vs) s2) by (intros r0 Hr0; destruct (HD r0 (Hsub r0 Hr0)) as [Hra0 HDr0]; exact (HDK r0 Hra0 HDr0)).
      destruct m' as [| | | |t'|t' q| | | | |]; try contradiction; cbn [c_mode c_frames c_st].
      - destruct Hm' as (-> & Hrd2). cbn [mroots app wroots modeW]. split; [exact HDK2|].
        exists old, i, r, vs, rest, below. split; [reflexivity|]. split; [exact Hin2|exact Hrd2].
      - destruct Hm' as (-> & Hq & Hrd2 & Hit2). rewrite (mroots_stree t q Hq). cbn [app wroots modeW]. split; [exact HDK2|].
        exists old, i, r, vs, rest, below. split; [reflexivity|]. split; [exact Hin2|]. split; [exact Hrd2|]. split; [exact Hit2|].
        intros h0 k0 E. exfalso. exact (stree_not_sync _ Hq h0 k0 E).
      - cbn [mroots app wroots modeW]. split; [exact HDK2|].
        exists t, old, i, r, vs, rest, below. split; [reflexivity|]. split; [exact Hin2|]. rewrite (proj1 Fw), Hts. exact Hm'. }
    (* a synchronous call: the callee task is created; it is younger than everything the level knows *)
    cbn [step c_mode c_frames c_st].
    pose proof (SI_create spec _ t (FTask q) s HS (sf_task q Hq)) as HCr. cbn zeta in HCr.
    pose proof (deps_step_create t (FTask q) s (Hfree (top_next s) (Z.le_refl _))) as Gr.
    pose proof (tasks_of_regs _ _ (regs_create t (FTask q) s)) as Ets.
    destruct (create t (FTask q) s) as [h s1]. cbn [fst snd fexpr_outs] in *.
    destruct HCr as (Hfresh & _ & Hnew & Hoth & Hh & _ & _).
    pose proof (chg_grow t s s1 Gr) as Hch.
    cbn [c_mode c_frames c_st mroots app wroots modeW]. split.
    - intros r0 [<-|Hr0].
      + split; [exact Hnew|]. apply (deps_ok_newroot r h s s1 HDr Hra Hfresh (proj1 Gr)).
      + destruct (HD r0 (Hsub r0 Hr0)) as [Hra0 HDr0]. split; [apply (proj1 (proj1 Gr)); exact Hra0|].
        apply (deps_ok_along r0 s s1 HDr0 (proj1 Gr)).
    - assert (Hgt1 : get t s1 = get t s) by (apply (proj2 Gr); rewrite Hg; discriminate).
      exists old, i, r, vs, rest, below. split; [reflexivity|]. split; [|split; [|split]].
      + exact (inner_chg _ _ _ _ _ _ _ t s s1 Hin Ets Hch (or_introl eq_refl) HSt Hrt).
      + intros tk' Hg' e He. rewrite Hgt1 in Hg'. apply (proj1 (proj2 (proj1 Gr))). apply (Hrd tk' Hg' e He).
      + intros tk' Hg'. rewrite Hgt1 in Hg'. apply (Hit tk' Hg').
      + intros h0 k0 E d Hd. inversion E; subst h0.
        assert (Ad : get d s <> None).
        { destruct Hd as [Hd|Hd]; [apply (S_okW_alloc S s); apply (pw_ok _ _ _ _ _ _ _ HPk); exact Hd|].
          rewrite Ets, Hts in Hd. apply (pw_alloc _ _ _ _ _ _ _ HPk d Hd). }
        destruct (get d s) as [fd|] eqn:Egd; [|congruence].
        pose proof (SI_fnum_lt _ _ _ _ _ HS Egd) as Hlt. rewrite Hh. cbn. lia.
  Qed.

  Theorem dls_step spec S c : is_unwind (c_mode c) = false -> DLS spec S c -> exists spec' S', DLS spec' S' (step P c).
  Proof.
    destruct c as [m fr s]. destruct m; cbn [c_mode is_unwind]; intros Hu HI; try discriminate.
    - exists spec, S. apply dls_MValue; exact HI.
    - destruct (dls_MWaitHead spec S fr s HI) as (S' & H). exists spec, S'. exact H.
    - exists spec, S. apply dls_MAfterExec; exact HI.
    - destruct (dls_MExecLoop spec S fr s HI) as (S' & H). exists spec, S'. exact H.
    - exists spec, S. apply dls_MResume; exact HI.
    - destruct (dls_MRun spec S _ _ fr s HI) as (spec' & H). exists spec', S. exact H.
    - exists spec, S. apply dls_MContRet; exact HI.
    - destruct (dls_MDeliver spec S o fr s HI) as (S' & H). exists spec, S'. exact H.
    - exists spec, S. exact HI.
    - exists spec, S. exact HI.
  Qed.

  Theorem dls_run n spec S c : DLS spec S c -> no_unwind P n c -> exists spec' S', DLS spec' S' (run P n c).
  Proof.
    intros HI Hn. apply (run_invariant P (fun c => exists spec S, DLS spec S c)); [|eauto|intros k Hk; apply Hn; lia].
    intros c0 Hu (spec0 & S0 & H0). exact (dls_step spec0 S0 c0 Hu H0).
  Qed.

End C04S.

Definition items_pending (S : Sset) (s : st) : Prop :=
  forall d o kind idx key a, S d -> get d s = Some (mkFut o (KItem kind idx key a)) -> o = None.

Lemma S_okW_pending (S : Sset) s : (forall d, S d -> S_okW S s d) -> items_pending S s -> forall d, S d -> S_ok S s d.
Proof.
  intros Hcl Hp d Hd. destruct (Hcl d Hd) as [(tk & Hg & Hi & He & Ha)|(o & kind & idx & key & a & Hg)].
  - left. exists tk. auto.
  - right. rewrite (Hp d o kind idx key a Hd Hg) in Hg. exists kind, idx, key, a. exact Hg.
Qed.

Section C04S_theorems.
  Variable P : params.
  Hypothesis HP : pointwise P.
  Variable p : prog.
  Hypothesis Hp : stree p.

  Let h := fst (create [] (FTask p) (st0 P)).
  Let s1 := snd (create [] (FTask p) (st0 P)).

  Lemma dls_reach n : no_unwind P n (start h s1) -> exists spec S, DLS (evals p) spec S (run P n (start h s1)).
  Proof.
    intros Hn.
    destruct (fls_reach P HP p Hp 0) as (spec0 & HFL).
    { intros k Hk. assert (k = O) by lia. subst k. reflexivity. }
    cbn [run] in HFL. fold h s1 in HFL.
    pose proof (deps_ok_fresh P p : deps_ok h s1) as HD.
    assert (Hga : get h s1 <> None).
    { destruct (create_entries [] (FTask p) (st0 P)) as (e & He & _). pose proof (create_id [] (FTask p) (st0 P)) as [E1 _].
      unfold h, s1. rewrite E1, He. discriminate. }
    apply (dls_run P HP (evals p) n spec0 (fun _ => False) (start h s1)); [|exact Hn].
    split; [exact HFL|]. cbn [c_mode c_frames c_st start mroots wroots app modeW]. split.
    - intros r [<-|[]]. split; assumption.
    - replace (tasks s1) with (@nil fid) by (symmetry; apply (tasks_of_regs (st0 P)); apply regs_create). apply lvls_top.
  Qed.

  (* a flush point always sits directly on the wait_for frame of the awaited task *)
  Theorem flush_point_shape_stree n :
    no_unwind P n (start h s1) -> c_mode (run P n (start h s1)) = MAfterExec ->
    exists r vs, c_frames (run P n (start h s1)) = FWait r :: vs.
  Proof.
    intros Hn Hm. destruct (dls_reach n Hn) as (spec & S & (_ & HDL)).
    destruct (run P n (start h s1)) as [m fr s]. cbn [c_mode c_frames c_st] in *. subst m.
    destruct HDL as (_ & (r & vs & E & _)). exists r, vs. exact E.
  Qed.

  (* C04, the true statement for stree programs.  Whenever a scheduler loop - the outermost one or one nested below
     callers suspended in value() - is about to flush a batch (its _execute pass has ended, the task r it waits for
     is not computed), there is a set S of SETTLED futures containing r such that
     - no member of S is on the task stack (in particular none is a suspended caller or a task below one);
     - every task in S is uncompleted, has started (1 <= iteration index), is suspended at a yield with a dependency
       in S, and each of its dependencies is computed or in S;
     - every other member of S is a batch item;
     - if every batch item of S is still pending (no loop nested in a synchronous call flushed it during this pass)
       then S is a set of STUCK futures in the sense of MachineC04.S_ok: its items are uncomputed and each of its
       tasks is blocked on an uncomputed member. *)
  Theorem flush_only_when_settled_stree n r vs :
    no_unwind P n (start h s1) -> c_mode (run P n (start h s1)) = MAfterExec ->
    c_frames (run P n (start h s1)) = FWait r :: vs -> computed r (c_st (run P n (start h s1))) = false ->
    exists S : fid -> Prop, S r /\
      (forall d, S d -> S_okW S (c_st (run P n (start h s1))) d) /\
      (forall d, S d -> ~ In d (tasks (c_st (run P n (start h s1))))) /\
      (items_pending S (c_st (run P n (start h s1))) -> forall d, S d -> S_ok S (c_st (run P n (start h s1))) d).
  Proof.
    intros Hn Hm Hfr Hc. destruct (dls_reach n Hn) as (spec & S & (_ & HDL)).
    destruct (run P n (start h s1)) as [m fr s]. cbn [c_mode c_frames c_st] in *. subst m fr.
    destruct HDL as (_ & (r' & vs' & E & _ & [Hc'|(HSr & Hcl & Hoff)])); [injection E as <- <-; congruence|].
    injection E as <- <-. exists S. split; [exact HSr|]. split; [exact Hcl|]. split; [exact Hoff|].
    apply S_okW_pending. exact Hcl.
  Qed.

  (* consequence: everything reachable from the awaited task through the dependency lists of uncompleted tasks is
     computed, a pending batch item, or an uncompleted task that HAS STARTED, is suspended at a yield, is not on the
     task stack, and is blocked - unless a batch item it waits for was computed by a nested flush during this pass.
     In particular no reachable task is unstarted. *)
  Theorem reachable_is_computed_or_settled_stree n r vs :
    no_unwind P n (start h s1) -> c_mode (run P n (start h s1)) = MAfterExec ->
    c_frames (run P n (start h s1)) = FWait r :: vs -> computed r (c_st (run P n (start h s1))) = false ->
    forall d, reach (c_st (run P n (start h s1))) r d ->
      computed d (c_st (run P n (start h s1))) = true \/
      (exists kind idx key a, get d (c_st (run P n (start h s1))) = Some (mkFut None (KItem kind idx key a))) \/
      (exists tk, get d (c_st (run P n (start h s1))) = Some (mkFut None (KTask tk)) /\ (1 <= tk_iter tk)%Z /\
                  ~ In d (tasks (c_st (run P n (start h s1)))) /\
                  (is_blocked tk (c_st (run P n (start h s1))) = true \/
                   exists e o kind idx key a, In e (tk_deps tk) /\
                     get e (c_st (run P n (start h s1))) = Some (mkFut (Some o) (KItem kind idx key a)))).
  Proof.
    intros Hn Hm Hfr Hc. destruct (flush_only_when_settled_stree n r vs Hn Hm Hfr Hc) as (S & HSh & HS & Hoff & _).
    set (s := c_st (run P n (start h s1))) in *.
    assert (Hcl : forall y tk, S y -> get y s = Some (mkFut None (KTask tk)) -> forall e, In e (tk_deps tk) -> computed e s = true \/ S e).
    { intros y tk HSy Hg. destruct (HS y HSy) as [(tk0 & Hg0 & _ & _ & Hall)|(o & kind & idx & key & a & Hg0)]; [|congruence].
      rewrite Hg in Hg0. inversion Hg0; subst tk0. exact Hall. }
    intros d Hr. destruct (reach_settled S s r HSh Hcl d Hr) as [Hcd|HSd]; [left; exact Hcd|].
    destruct (HS d HSd) as [(tk & Hg & Hi & (e & He & HSe) & _)|(o & kind & idx & key & a & Hg)].
    - right. right. exists tk. split; [exact Hg|]. split; [exact Hi|]. split; [apply Hoff; exact HSd|].
      destruct (HS e HSe) as [(tke & Hge & _)|([oe|] & kind & idx & key & a & Hge)].
      + left. apply (blocked_intro tk s e He). rewrite (computed_get _ _ _ Hge). reflexivity.
      + right. exists e, oe, kind, idx, key, a. split; assumption.
      + left. apply (blocked_intro tk s e He). rewrite (computed_get _ _ _ Hge). reflexivity.
    - destruct o as [o|]; [left; rewrite (computed_get _ _ _ Hg); reflexivity|right; left; exists kind, idx, key, a; exact Hg].
  Qed.

  (* if no uncompleted task depends on an already computed batch item, the tree statement holds verbatim *)
  Theorem reachable_is_computed_or_stuck_stree_if_no_stale_item n r vs :
    no_unwind P n (start h s1) -> c_mode (run P n (start h s1)) = MAfterExec ->
    c_frames (run P n (start h s1)) = FWait r :: vs -> computed r (c_st (run P n (start h s1))) = false ->
    (forall e o kind idx key a, get e (c_st (run P n (start h s1))) = Some (mkFut (Some o) (KItem kind idx key a)) ->
       forall d tk, get d (c_st (run P n (start h s1))) = Some (mkFut None (KTask tk)) -> ~ In e (tk_deps tk)) ->
    forall d, reach (c_st (run P n (start h s1))) r d ->
      computed d (c_st (run P n (start h s1))) = true \/
      (exists kind idx key a, get d (c_st (run P n (start h s1))) = Some (mkFut None (KItem kind idx key a))) \/
      (exists tk, get d (c_st (run P n (start h s1))) = Some (mkFut None (KTask tk)) /\ (1 <= tk_iter tk)%Z /\
                  is_blocked tk (c_st (run P n (start h s1))) = true).
  Proof.
    intros Hn Hm Hfr Hc Hno d Hr.
    destruct (reachable_is_computed_or_settled_stree n r vs Hn Hm Hfr Hc d Hr) as [H|[H|(tk & Hg & Hi & _ & [Hb|(e & o & kind & idx & key & a & He & Hge)])]]; auto.
    - right. right. exists tk. auto.
    - exfalso. apply (Hno e o kind idx key a Hge d tk Hg He).
  Qed.

  (* the full-strength conclusion of MachineC04.flush_only_when_stuck_tree, under a hypothesis on the state at the
     flush point: no uncompleted task has among its dependencies a batch item that is already computed (i.e. no
     nested flush has completed an item somebody still waits for; with KEEP_DEPENDENCIES this also excludes the
     remembered items of earlier yields) *)
  Theorem flush_only_when_stuck_stree_if_no_stale_item n r vs :
    no_unwind P n (start h s1) -> c_mode (run P n (start h s1)) = MAfterExec ->
    c_frames (run P n (start h s1)) = FWait r :: vs -> computed r (c_st (run P n (start h s1))) = false ->
    (forall e o kind idx key a, get e (c_st (run P n (start h s1))) = Some (mkFut (Some o) (KItem kind idx key a)) ->
       forall d tk, get d (c_st (run P n (start h s1))) = Some (mkFut None (KTask tk)) -> ~ In e (tk_deps tk)) ->
    exists S : fid -> Prop, S r /\ (forall d, S d -> S_ok S (c_st (run P n (start h s1))) d) /\
      (forall d, S d -> ~ In d (tasks (c_st (run P n (start h s1))))).
  Proof.
    intros Hn Hm Hfr Hc Hno. destruct (flush_only_when_settled_stree n r vs Hn Hm Hfr Hc) as (S & HSr & HS & Hoff & _).
    set (s := c_st (run P n (start h s1))) in *.
    exists (fun d => S d /\ computed d s = false). split; [split; assumption|]. split; [|intros d (Hd & _); apply Hoff; exact Hd].
    intros d (Hd & Hcd). destruct (HS d Hd) as [(tk & Hg & Hi & (e & He & HSe) & Ha)|(o & kind & idx & key & a & Hg)].
    - left. exists tk. split; [exact Hg|]. split; [exact Hi|]. split.
      + exists e. split; [exact He|]. split; [exact HSe|].
        destruct (HS e HSe) as [(tke & Hge & _)|([oe|] & kind & idx & key & a & Hge)]; try (rewrite (computed_get _ _ _ Hge); reflexivity).
        exfalso. apply (Hno e oe kind idx key a Hge d tk Hg He).
      + intros e0 He0. destruct (computed e0 s) eqn:Ec; [left; reflexivity|right]. destruct (Ha e0 He0) as [H|H]; [congruence|split; [exact H|reflexivity]].
    - right. exists kind, idx, key, a. unfold computed in Hcd. rewrite Hg in Hcd. destruct o; [discriminate|exact Hg].
  Qed.
End C04S_theorems.

(* MachineC04.flush_only_when_stuck_tree with [stree] for [tree] (and the awaited task read off the FWait frame) *)
Definition flush_only_when_stuck_stree_statement : Prop :=
  forall P, pointwise P -> forall p, stree p -> forall n,
    let h := fst (create [] (FTask p) (st0 P)) in
    let s1 := snd (create [] (FTask p) (st0 P)) in
    no_unwind P n (start h s1) -> c_mode (run P n (start h s1)) = MAfterExec ->
    forall r vs, c_frames (run P n (start h s1)) = FWait r :: vs -> computed r (c_st (run P n (start h s1))) = false ->
    exists S : fid -> Prop, S r /\ forall d, S d -> S_ok S (c_st (run P n (start h s1))) d.

(* root [0] yields three tasks: [1] waits for item [4] of batch kind 0, [2] for item [5] of kind 1, and [3] calls
   the fresh task [6] synchronously; [6] waits for item [7], which joins [4]'s batch.  The loop nested below [3]
   flushes that batch (step 35): [4] is computed while [1] is settled in the OUTER pass.  When the outer pass ends
   (step 50) the outermost loop flushes batch (1,0) although task [1] - uncompleted, reachable from [0], started -
   is NOT blocked any more. *)
Definition c04s_item (kind key v : Z) : prog :=
  Yield (YLeaf (LNew (FItem kind key (ASet (VInt v))))) (ret_or_raise (fun v => v)).
Definition c04s_caller : prog :=
  Let (FTask (c04s_item 0 2 7)) (fun h => Sync h (ret_or_raise (fun v => v))).
Definition c04s_demo : prog :=
  Yield (YTuple [YLeaf (LNew (FTask (c04s_item 0 1 5))); YLeaf (LNew (FTask (c04s_item 1 1 6))); YLeaf (LNew (FTask c04s_caller))])
        (ret_or_raise (fun v => v)).

Lemma c04s_item_stree kind key v : stree (c04s_item kind key v).
Proof. unfold c04s_item. apply st_yield; [|apply ret_or_raise_stree]. intros l [<-|[]]. repeat constructor. Qed.

Lemma c04s_demo_stree : stree c04s_demo.
Proof.
  unfold c04s_demo. apply st_yield; [|apply ret_or_raise_stree].
  intros l Hl. cbn in Hl. destruct Hl as [<-|[<-|[<-|[]]]]; constructor; constructor; try apply c04s_item_stree.
  unfold c04s_caller. apply st_call; [apply c04s_item_stree|apply ret_or_raise_stree].
Qed.

(* 0 unallocated, 1 uncompleted task, 2 pending item, 3 anything else *)
Definition ecode (s : st) (d : fid) : nat :=
  match get d s with
  | None => 0
  | Some (mkFut None (KTask _)) => 1
  | Some (mkFut None (KItem _ _ _ _)) => 2
  | Some _ => 3
  end.
Definition deps_of (s : st) (d : fid) : list fid :=
  match get d s with Some (mkFut _ (KTask tk)) => tk_deps tk | _ => [] end.

Lemma S_ok_task_code (S : Sset) s d : S_ok S s d -> ecode s d = 1%nat ->
  (exists e, In e (deps_of s d) /\ S e) /\ (forall e, In e (deps_of s d) -> computed e s = true \/ S e).
Proof.
  unfold ecode, deps_of. intros [(tk & Hg & _ & He & Ha)|(kind & idx & key & a & Hg)] Hc; rewrite Hg in *; [auto|discriminate].
Qed.

Lemma S_ok_code (S : Sset) s d : S_ok S s d -> ecode s d = 1%nat \/ ecode s d = 2%nat.
Proof. unfold ecode. intros [(tk & Hg & _)|(kind & idx & key & a & Hg)]; rewrite Hg; auto. Qed.

Notation c04s_start := (start (fst (create [] (FTask c04s_demo) (st0 c06s_P))) (snd (create [] (FTask c04s_demo) (st0 c06s_P)))) (only parsing).
Notation c04s_cfg n := (run c06s_P n c04s_start) (only parsing).

Lemma c04s_facts :
  no_unwind_b c06s_P 50 c04s_start = true /\
  c_mode (c04s_cfg 50) = MAfterExec /\ c_frames (c04s_cfg 50) = [FWait [0%Z]; FTop] /\
  computed [0%Z] (c_st (c04s_cfg 50)) = false /\ computed [1%Z] (c_st (c04s_cfg 50)) = false /\
  ecode (c_st (c04s_cfg 50)) [0%Z] = 1%nat /\ deps_of (c_st (c04s_cfg 50)) [0%Z] = [[3%Z]; [2%Z]; [1%Z]] /\
  ecode (c_st (c04s_cfg 50)) [1%Z] = 1%nat /\ deps_of (c_st (c04s_cfg 50)) [1%Z] = [[4%Z]] /\
  ecode (c_st (c04s_cfg 50)) [4%Z] = 3%nat.
(* each run is evaluated once: [set] shares it between the conjuncts *)
Proof. split; [rewrite no_unwind_b_traj; vm_compute; reflexivity|]. set (c := run c06s_P 50 _). vm_compute. repeat split. Qed.

Theorem flush_only_when_stuck_stree_is_false : ~ flush_only_when_stuck_stree_statement.
Proof.
  intros H.
  pose proof (H c06s_P c06s_P_pointwise c04s_demo c04s_demo_stree 50%nat) as H50. clear H. cbv zeta in H50.
  destruct c04s_facts as (Hn & Hm & Hfr & Hc0 & Hc1 & He0 & Hd0 & He1 & Hd1 & He4).
  apply no_unwind_b_sound in Hn.
  destruct (H50 Hn Hm [0%Z] [FTop] Hfr Hc0) as (S & HS0 & Hcl). clear H50.
  destruct (S_ok_task_code S _ [0%Z] (Hcl _ HS0) He0) as (_ & Hall0). rewrite Hd0 in Hall0.
  assert (HS1 : S [1%Z]).
  { destruct (Hall0 [1%Z]) as [Hc|HS1]; [right; right; left; reflexivity|congruence|exact HS1]. }
  destruct (S_ok_task_code S _ [1%Z] (Hcl _ HS1) He1) as ((e & He & HSe) & _). rewrite Hd1 in He.
  destruct He as [<-|[]].
  destruct (S_ok_code S _ [4%Z] (Hcl _ HSe)) as [Hc|Hc]; rewrite He4 in Hc; discriminate.
Qed.

(* the run of the demo: the nested flush (pass ended at step 35 below caller [3]) and the outer flush at step 50 *)
Example c04s_demo_runs :
  no_unwind_b c06s_P 120 c04s_start = true /\
  c_mode (c04s_cfg 120) = MDone (Ok (VTuple [VInt 5; VInt 6; VInt 7])) /\
  (* the first pass of the nested loop ends at step 35: the hypotheses of the theorems hold at a NESTED flush point *)
  c_mode (c04s_cfg 35) = MAfterExec /\ fvals (c_frames (c04s_cfg 35)) = [[3%Z]] /\
  tasks (c_st (c04s_cfg 35)) = [[3%Z]; [0%Z]] /\ computed [6%Z] (c_st (c04s_cfg 35)) = false /\
  map (ecode (c_st (c04s_cfg 35))) [[6%Z]; [7%Z]; [1%Z]; [4%Z]] = [1; 2; 1; 2]%nat /\
  (* its flush computes [4] and [7] *)
  map (ecode (c_st (c04s_cfg 36))) [[6%Z]; [7%Z]; [1%Z]; [4%Z]] = [1; 3; 1; 3]%nat /\
  (* the outer pass ends at step 50 with [1] runnable; step 51 is after the flush of batch (1,0) *)
  c_mode (c04s_cfg 50) = MAfterExec /\ fvals (c_frames (c04s_cfg 50)) = [] /\ tasks (c_st (c04s_cfg 50)) = [] /\
  computed [0%Z] (c_st (c04s_cfg 50)) = false /\ deps_of (c_st (c04s_cfg 50)) [0%Z] = [[3%Z]; [2%Z]; [1%Z]] /\
  deps_of (c_st (c04s_cfg 50)) [1%Z] = [[4%Z]] /\
  map (ecode (c_st (c04s_cfg 50))) [[0%Z]; [1%Z]; [2%Z]; [3%Z]; [4%Z]; [5%Z]] = [1; 1; 1; 3; 3; 2]%nat /\
  firstn 3 (trace (c_st (c04s_cfg 51))) = [EvAfter 1 0; EvItemDone [5%Z] (Ok (VInt 6)); EvFlush 1 0 [[5%Z]]].
Proof.
  split; [rewrite no_unwind_b_traj; vm_compute; reflexivity|].
  set (c120 := run c06s_P 120 _). set (c35 := run c06s_P 35 _). set (c36 := run c06s_P 36 _).
  set (c50 := run c06s_P 50 _). set (c51 := run c06s_P 51 _). vm_compute. repeat split.
Qed.

(* non-vacuity: the theorems apply at the NESTED flush point of the demo (step 35: the loop below caller [3] waits
   for [6]; no item has been computed yet, so even the full-strength conclusion holds there) *)
Definition stale_entry (kv : fid * fut) : bool :=
  match snd kv with mkFut (Some _) (KItem _ _ _ _) => true | _ => false end.

Lemma no_stale_by_scan s : existsb stale_entry (heap s) = false ->
  forall e o kind idx key a, get e s = Some (mkFut (Some o) (KItem kind idx key a)) -> False.
Proof.
  intros Hc e o kind idx key a Hg. unfold get in Hg.
  destruct (find (fun kv => fid_eqb (fst kv) e) (heap s)) as [kv|] eqn:Ef; [|discriminate].
  apply find_some in Ef as [Hin _]. inversion Hg as [E].
  assert (X : existsb stale_entry (heap s) = true).
  { apply existsb_exists. exists kv. split; [exact Hin|]. unfold stale_entry. rewrite E. reflexivity. }
  congruence.
Qed.

Example c04s_demo_nested_flush :
  exists S : fid -> Prop, S [6%Z] /\ (forall d, S d -> S_ok S (c_st (c04s_cfg 35)) d) /\
    (forall d, S d -> ~ In d (tasks (c_st (c04s_cfg 35)))).
Proof.
  assert (Hn : no_unwind c06s_P 35 c04s_start) by (apply no_unwind_b_sound; rewrite no_unwind_b_traj; vm_compute; reflexivity).
  apply (flush_only_when_stuck_stree_if_no_stale_item c06s_P c06s_P_pointwise c04s_demo c04s_demo_stree 35 [6%Z]
           (tl (c_frames (c04s_cfg 35))) Hn);
    try (set (c := run c06s_P 35 _); vm_compute; reflexivity).
  intros e o kind idx key a Hg. exfalso. revert e o kind idx key a Hg. apply no_stale_by_scan. vm_compute. reflexivity.
Qed.
