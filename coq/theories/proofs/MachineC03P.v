(* C03, liveness of tree programs: every _execute pass terminates.  MachineC03T treats a task that is started or
   resumed, by induction over its program; here the stack entries are suspended tasks, and the induction is over
   their creation numbers: dependencies are younger, and every uncomputed descendant of the entry has a number
   below a bound B (top_next at the start of the pass), so B - fnum x falls (claim).  Futures created while a sibling
   runs have numbers >= B, but they are not descendants in the reference state s0 against which exec_listU states
   its hypotheses (ub_back).  The sets of uncomputed descendants of sibling dependencies are disjoint
   (deps_ok.dk_disj), so processing one sibling does not disturb the others. *)
From Asynq Require Import Machine Seq proofs.MachineC08 proofs.MachineC01 proofs.MachineC04 proofs.MachineC01S
  proofs.MachineC04S proofs.MachineC03T proofs.MachineC03L.

(* z is below x through the dependency lists of uncomputed tasks, along uncomputed dependencies *)
Inductive ub (s : st) (x : fid) : fid -> Prop :=
| ub_refl : ub s x x
| ub_dep y tk z : ub s x y -> get y s = Some (mkFut None (KTask tk)) -> In z (tk_deps tk) -> computed z s = false -> ub s x z.

Lemma ub_fnum s x z : deps_younger s -> ub s x z -> (fnum x <= fnum z)%Z.
Proof. intros Hy H. induction H as [|y tk z Hr IH Hg Hin Hc]; [lia|]. pose proof (Hy y None tk Hg z Hin). lia. Qed.

Lemma ub_trans s a b c : ub s a b -> ub s b c -> ub s a c.
Proof. intros H1 H2. induction H2 as [|y tk z Hr IH Hg Hin Hc]; [exact H1|]. exact (ub_dep s a y tk z IH Hg Hin Hc). Qed.

Lemma ub_exists r s a z : deps_ok r s -> get a s <> None -> ub s a z -> get z s <> None.
Proof. intros HD Ha H. induction H as [|y tk z Hr IH Hg Hin Hc]; [exact Ha|]. exact (dk_alloc r s HD y None tk z Hg Hin). Qed.

Lemma ub_back s s' a :
  (forall z, ub s a z -> get z s' = get z s) -> (forall z, computed z s = true -> computed z s' = true) ->
  forall z, ub s' a z -> ub s a z.
Proof.
  intros K M z H. induction H as [|y tk z Hr IH Hg Hin Hc]; [constructor|].
  rewrite (K y IH) in Hg. apply (ub_dep s a y tk z IH Hg Hin).
  destruct (computed z s) eqn:E; [rewrite (M z E) in Hc; discriminate|reflexivity].
Qed.

(* the uncomputed descendants of two distinct uncomputed dependencies of an uncomputed task are disjoint *)
Lemma ub_disjoint r s x tkx d1 d2 : deps_younger s -> deps_ok r s ->
  get x s = Some (mkFut None (KTask tkx)) -> In d1 (tk_deps tkx) -> In d2 (tk_deps tkx) ->
  computed d1 s = false -> computed d2 s = false -> d1 <> d2 ->
  forall z, ub s d1 z -> ub s d2 z -> False.
Proof.
  intros Hy HD Hgx Hi1 Hi2 Hc1 Hc2 Nd z H1.
  pose proof (Hy x None tkx Hgx d1 Hi1) as L1. pose proof (Hy x None tkx Hgx d2 Hi2) as L2.
  induction H1 as [|y1 tk1 z H1 IH Hg1 Hin1 Hcz]; intros H2.
  - inversion H2 as [E|y2 tk2 z' H2' Hg2 Hin2 Hcz2]; [apply Nd; symmetry; exact E|]. subst z'.
    assert (E : y2 = x) by exact (dk_disj r s HD y2 x tk2 tkx d1 Hg2 Hgx Hin2 Hi1 Hc1). subst y2.
    pose proof (ub_fnum s d2 x Hy H2'). lia.
  - inversion H2 as [E|y2 tk2 z' H2' Hg2 Hin2 Hcz2].
    + subst z. assert (E : y1 = x) by exact (dk_disj r s HD y1 x tk1 tkx d2 Hg1 Hgx Hin1 Hi2 Hc2). subst y1.
      pose proof (ub_fnum s d1 x Hy H1). lia.
    + subst z'. assert (E : y1 = y2) by exact (dk_disj r s HD y1 y2 tk1 tk2 z Hg1 Hg2 Hin1 Hin2 Hcz). subst y2.
      exact (IH H2').
Qed.

Section LaterPass.
  Variable P : params.
  Hypothesis HP : pointwise P.
  Variable p0 : prog.
  Hypothesis Ht0 : tree p0.

  Let h := fst (create [] (FTask p0) (st0 P)).
  Let s1 := snd (create [] (FTask p0) (st0 P)).
  Let c0 := start h s1.

  Hypothesis Hnu : forall n, no_unwind P n c0.

  Notation RcE s := (Rc P p0 (mkC MExecLoop (fr0 P p0) s)).

  Lemma Rc_facts s : RcE s ->
    deps_younger s /\ deps_ok h s /\ (forall d f, get d s = Some f -> (fnum d < top_next s)%Z).
  Proof.
    intros HR. destruct (Rc_exec_inv P HP p0 Ht0 Hnu s HR) as (spec & S & _ & HD & _).
    destruct HR as (n & Er).
    assert (Er' : run P n c0 = mkC MExecLoop (fr0 P p0) s) by (symmetry; exact Er).
    assert (Hns : c_mode (run P n c0) <> MStuck) by (rewrite Er'; discriminate).
    destruct (reach_SI P HP p0 Ht0 n (Hnu n) Hns) as (specS & R & HS). fold h s1 c0 in HS. rewrite Er' in HS. cbn [c_st] in HS.
    split; [exact (SI_deps_younger _ _ _ HS)|]. split; [exact HD|]. intros d f Hf. apply (SI_fnum_lt _ _ _ _ _ HS Hf).
  Qed.

  Lemma Rc_mono s m s' : RcE s -> run P m (mkC MExecLoop (fr0 P p0) s) = mkC MExecLoop (fr0 P p0) s' ->
    forall z, computed z s = true -> computed z s' = true.
  Proof.
    intros (n & Er) R z Hc. assert (Er' : run P n c0 = mkC MExecLoop (fr0 P p0) s) by (symmetry; exact Er).
    pose proof (comp_mono_add P p0 n m z) as M. fold h s1 c0 in M.
    rewrite run_add, Er', R in M. cbn [c_st] in M. apply M. exact Hc.
  Qed.

  (* x is dealt with: popped, and only its uncomputed descendants (and new futures) were touched *)
  Definition poppedU (x : fid) (ts : list fid) (s : st) : Prop :=
    exists m s', run P m (mkC MExecLoop (fr0 P p0) s) = mkC MExecLoop (fr0 P p0) s' /\ tasks s' = ts /\
      forall d, get d s <> None -> ~ ub s x d -> get d s' = get d s.

  Definition claim (j : nat) : Prop := forall B s x ts, RcE s -> tasks s = x :: ts ->
    (forall d, ub s x d -> (fnum d < B)%Z) -> (Z.to_nat (B - fnum x) <= j)%nat -> poppedU x ts s.

  (* a list of sibling dependencies on top of the stack, their subtrees as in the reference state s0 *)
  Lemma exec_listU j (IHj : claim j) B s0 : forall l s ts, RcE s -> tasks s = l ++ ts -> NoDup l ->
    (forall z, computed z s0 = true -> computed z s = true) ->
    (forall d, In d l -> forall z, ub s0 d z -> get z s = get z s0) ->
    (forall d, In d l -> forall z, ub s0 d z -> get z s0 <> None) ->
    (forall d, In d l -> forall z, ub s0 d z -> (fnum z < B)%Z) ->
    (forall d, In d l -> (Z.to_nat (B - fnum d) <= j)%nat) ->
    (forall d1 d2 z, In d1 l -> In d2 l -> d1 <> d2 -> ub s0 d1 z -> ub s0 d2 z -> False) ->
    exists m s', run P m (mkC MExecLoop (fr0 P p0) s) = mkC MExecLoop (fr0 P p0) s' /\ tasks s' = ts /\
      forall d0, get d0 s <> None -> (forall e, In e l -> ~ ub s0 e d0) -> get d0 s' = get d0 s.
  Proof.
    induction l as [|d l IH]; intros s ts HR Hts Hnd Hm Hunt Hex Hbd Hms Hdisj.
    - exists O, s. split; [reflexivity|]. split; [exact Hts|]. intros; reflexivity.
    - inversion Hnd as [|d' l' Hnin Hnd']; subst d' l'.
      assert (Hback : forall z, ub s d z -> ub s0 d z) by (apply ub_back; [apply Hunt; left; reflexivity|exact Hm]).
      destruct (IHj B s d (l ++ ts) HR Hts) as (m1 & s2 & R1 & T1 & K1).
      { intros z Hz. apply (Hbd d (or_introl eq_refl)). apply Hback. exact Hz. }
      { apply Hms. left. reflexivity. }
      assert (HR2 : RcE s2) by (rewrite <- R1; apply Rc_run; exact HR).
      pose proof (Rc_mono s m1 s2 HR R1) as M12.
      destruct (IH s2 ts HR2 T1 Hnd') as (m2 & s3 & R2 & T2 & K2).
      + intros z Hz. apply M12, Hm, Hz.
      + intros d' Hd' z Hz. rewrite <- (Hunt d' (or_intror Hd') z Hz). apply K1.
        * rewrite (Hunt d' (or_intror Hd') z Hz). apply (Hex d' (or_intror Hd') z Hz).
        * intros Hub. apply (Hdisj d d' z (or_introl eq_refl) (or_intror Hd')); [intros ->; contradiction|apply Hback; exact Hub|exact Hz].
      + intros d' Hd'. apply Hex. right. exact Hd'.
      + intros d' Hd'. apply Hbd. right. exact Hd'.
      + intros d' Hd'. apply Hms. right. exact Hd'.
      + intros d1 d2 z H1 H2. apply Hdisj; right; assumption.
      + exists (m1 + m2)%nat, s3. rewrite run_add, R1. split; [exact R2|]. split; [exact T2|].
        intros d0 A Hno. assert (E1 : get d0 s2 = get d0 s).
        { apply K1; [exact A|]. intros Hub. apply (Hno d (or_introl eq_refl)). apply Hback. exact Hub. }
        rewrite <- E1. apply K2; [rewrite E1; exact A|]. intros e He. apply Hno. right. exact He.
  Qed.

  Lemma claim_all : forall j, claim j.
  Proof.
    induction j as [|j IHj]; intros B s x ts HR Hts Hbd Hms.
    - pose proof (Hbd x (ub_refl s x)). lia.
    - destruct (match get x s with
                | Some (mkFut None (KTask tk)) => is_blocked tk s && negb (tk_ds tk)
                | _ => false end) eqn:Efv.
      2: { destruct (popped_nfv P HP p0 Ht0 Hnu s x ts HR Hts) as (m & s' & R & T & K).
           - intros tk Hg Hb. rewrite Hg, Hb in Efv. destruct (tk_ds tk); [reflexivity|discriminate].
           - exists m, s'. split; [exact R|]. split; [exact T|]. intros d A Hno. apply K; [|exact A].
             intros [E|[]]. apply Hno. rewrite <- E. constructor. }
      destruct (get x s) as [[[o|] [tk| | |]]|] eqn:Hg; try discriminate.
      apply andb_true_iff in Efv as [Hb Hds]. apply negb_true_iff in Hds.
      destruct (Rc_facts s HR) as (Hy & HD & Hlt).
      destruct (first_visit P HP p0 Ht0 Hnu s x ts tk HR Hts Hg Hb Hds) as (s5 & E5 & G5 & Uoth & T5 & Hnd).
      set (tkB := tk_flags tk true true) in *.
      set (todo := filter (fun d => negb (computed d s)) (tk_deps tk)) in *.
      pose proof (Rc_step _ _ _ HR) as HR5. rewrite E5 in HR5.
      assert (R5 : run P 1 (mkC MExecLoop (fr0 P p0) s) = mkC MExecLoop (fr0 P p0) s5) by (rewrite run_step; exact E5).
      pose proof (Rc_mono s 1 s5 HR R5) as M5.
      (* the members of todo are uncomputed dependencies of x, younger than x *)
      assert (Htodo : forall d, In d (rev todo) -> In d (tk_deps tk) /\ computed d s = false /\ (fnum x < fnum d)%Z /\ ub s x d).
      { intros d Hd. apply in_rev, filter_In in Hd as (Hin & Hcd). apply negb_true_iff in Hcd.
        split; [exact Hin|]. split; [exact Hcd|]. split; [exact (Hy x None tk Hg d Hin)|].
        exact (ub_dep s x x tk d (ub_refl s x) Hg Hin Hcd). }
      assert (Hgx : get x s <> None) by (rewrite Hg; discriminate).
      destruct (exec_listU j IHj B s (rev todo) s5 (x :: ts) HR5) as (m & s6 & R6 & T6 & K6).
      + exact T5.
      + exact (NoDup_rev Hnd).
      + exact M5.
      + intros d Hd z Hz. destruct (Htodo d Hd) as (_ & _ & Hlt' & _).
        apply Uoth. intros ->. pose proof (ub_fnum s d x Hy Hz). lia.
      + intros d Hd z Hz. destruct (Htodo d Hd) as (Hin & _). apply (ub_exists h s d z HD); [|exact Hz].
        exact (dk_alloc h s HD x None tk d Hg Hin).
      + intros d Hd z Hz. destruct (Htodo d Hd) as (_ & _ & _ & Hub). apply Hbd. exact (ub_trans s x d z Hub Hz).
      + intros d Hd. destruct (Htodo d Hd) as (_ & _ & Hlt' & Hub). pose proof (Hbd d Hub). lia.
      + intros d1 d2 z H1 H2 Nd. destruct (Htodo d1 H1) as (I1 & C1 & _). destruct (Htodo d2 H2) as (I2 & C2 & _).
        exact (ub_disjoint h s x tk d1 d2 Hy HD Hg I1 I2 C1 C2 Nd z).
      + assert (HR6 : RcE s6) by (rewrite <- R6; apply Rc_run; exact HR5).
        assert (Nxt : forall e, In e (rev todo) -> ~ ub s e x).
        { intros e He Hub. destruct (Htodo e He) as (_ & _ & Hlt' & _). pose proof (ub_fnum s e x Hy Hub). lia. }
        assert (G6 : get x s6 = Some (mkFut None (KTask tkB))).
        { rewrite (K6 x); [exact G5| |exact Nxt]. rewrite G5. discriminate. }
        destruct (popped_nfv P HP p0 Ht0 Hnu s6 x ts HR6 T6) as (m7 & s7 & R7 & T7 & K7).
        { intros tk' Hg' _. rewrite G6 in Hg'. inversion Hg'. reflexivity. }
        exists (1 + (m + m7))%nat, s7. rewrite (run_add P 1), R5, (run_add P m), R6. split; [exact R7|]. split; [exact T7|].
        intros d A Hno. assert (Nd : d <> x) by (intros ->; apply Hno; constructor).
        pose proof (Uoth d Nd) as E5'.
        assert (E6 : get d s6 = get d s5).
        { apply K6; [rewrite E5'; exact A|]. intros e He Hub. destruct (Htodo e He) as (_ & _ & _ & Hx). apply Hno. exact (ub_trans s x e d Hx Hub). }
        cbn [c_st] in K7. rewrite <- E5', <- E6. apply K7; [intros [E|[]]; apply Nd; symmetry; exact E|rewrite E6, E5'; exact A].
  Qed.

  (* EVERY pass terminates: from the head of wait_for with the awaited task uncomputed (the start of the first pass,
     or right after a flush) the machine reaches the end of the pass, with an empty task stack *)
  Theorem pass_terminates n :
    c_mode (run P n c0) = MWaitHead -> computed h (c_st (run P n c0)) = false ->
    exists m, c_mode (run P (n + m) c0) = MAfterExec /\ tasks (c_st (run P (n + m) c0)) = [].
  Proof.
    intros Hm Hc. pose proof (next_pass_starts P HP p0 Ht0 Hnu n Hm Hc) as E1. fold h s1 c0 in E1.
    set (s := with_tasks (c_st (run P n c0)) [h]) in *.
    assert (HR : RcE s) by (exists (n + 1)%nat; symmetry; exact E1).
    destruct (Rc_facts s HR) as (Hy & HD & Hlt).
    assert (Hgh : get h s <> None).
    { destruct (get h s) eqn:E; [discriminate|]. unfold computed in Hc. exfalso.
      destruct (tree_run_CInv P p0 n HP Ht0 (Hnu n)) as (spec & HC). fold h s1 c0 in HC. unfold CInv in HC. rewrite Hm in HC.
      destruct HC as (_ & _ & _ & (o & tk & Hg) & _). change (get h s) with (get h (c_st (run P n c0))) in E. congruence. }
    destruct (claim_all (Z.to_nat (top_next s - fnum h)) (top_next s) s h [] HR eq_refl) as (m & s' & R & T & _).
    { intros d Hd. pose proof (ub_exists h s h d HD Hgh Hd) as A. destruct (get d s) as [f|] eqn:E; [|congruence]. apply (Hlt d f E). }
    { lia. }
    assert (E1' : run P (n + 1) c0 = mkC MExecLoop (fr0 P p0) s) by exact E1.
    exists (1 + (m + 1))%nat. replace (n + (1 + (m + 1)))%nat with ((n + 1) + (m + 1))%nat by lia.
    rewrite (run_add P (n + 1)), E1', (run_add P m), R, (run_step P 0). cbn [run].
    unfold fr0. cbn [step c_mode c_frames c_st]. rewrite T. cbn. split; [reflexivity|exact T].
  Qed.
End LaterPass.

(* termination when the number of futures created is bounded *)
Theorem terminates_if_allocation_bounded_tree P p N :
  pointwise P -> tree p ->
  let h := fst (create [] (FTask p) (st0 P)) in
  let s1 := snd (create [] (FTask p) (st0 P)) in
  (forall n, no_unwind P n (start h s1)) ->
  (forall n, (top_next (c_st (run P n (start h s1))) <= Z.of_nat N)%Z) ->
  exists n, c_mode (run P n (start h s1)) = MDone (eval p).
Proof.
  intros HP Ht. cbn zeta. intros Hnu Halloc. apply (fun Hpass => terminates_if_passes_end_and_allocation_bounded P HP p Ht Hnu Hpass N Halloc).
  intros n Hm Hc. destruct (pass_terminates P HP p Ht Hnu n Hm Hc) as (m & Hm' & _). exists m. exact Hm'.
Qed.

(* non-vacuity for a program WITH batch items: c01_demo (two batch kinds, a nested task; it needs flushes, see
   C03_termination_demos) never unwinds and creates at most 10 futures, for every fuel; the theorem gives its
   termination with the sequential outcome *)
Example c01_demo_terminates :
  let P := mkP [] 1000 false [] in
  let h := fst (create [] (FTask c01_demo) (st0 P)) in
  let s1 := snd (create [] (FTask c01_demo) (st0 P)) in
  (forall n, no_unwind P n (start h s1)) /\ (forall n, (top_next (c_st (run P n (start h s1))) <= Z.of_nat 10)%Z) /\
  exists n, c_mode (run P n (start h s1)) = MDone (eval c01_demo).
Proof.
  cbn zeta. set (P := mkP [] 1000 false []).
  set (c := start (fst (create [] (FTask c01_demo) (st0 P))) (snd (create [] (FTask c01_demo) (st0 P)))).
  assert (Hf : is_final (c_mode (run P 41 c)) = true) by (vm_compute; reflexivity).
  assert (Hg : forall n, negb (is_unwind (c_mode (run P n c))) && Z.leb (top_next (c_st (run P n c))) 10 = true)
    by (apply (traj_final_all P (fun c => negb (is_unwind (c_mode c)) && Z.leb (top_next (c_st c)) 10) c 41);
        [vm_compute; reflexivity|exact Hf]).
  assert (Hnu : forall n, no_unwind P n c).
  { intros n k _. destruct (proj1 (andb_true_iff _ _) (Hg k)) as [H _]. apply negb_true_iff. exact H. }
  assert (Hal : forall n, (top_next (c_st (run P n c)) <= Z.of_nat 10)%Z).
  { intros n. destruct (proj1 (andb_true_iff _ _) (Hg n)) as [_ H]. apply Z.leb_le. exact H. }
  split; [exact Hnu|]. split; [exact Hal|].
  assert (HP : pointwise P) by (intros kind; reflexivity).
  exact (terminates_if_allocation_bounded_tree P c01_demo 10 HP c01_demo_tree Hnu Hal).
Qed.
