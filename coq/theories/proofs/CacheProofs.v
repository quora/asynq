(* Proofs about the Cache model (C13).
   The repaired default key is an injective encoding of the bound arguments (default_key_normalises).  Section Generic:
   the LRU machine over an abstract key type - size and order invariants, errors are not cached, and the provenance
   invariant [inv] (every stored value and every blocked body comes from a call of the history that passed the
   argument check: no cross-talk).  Section Inst: the same for the per-instance dictionaries.  The lazy constant.
   Sections Relabel / RelabelInst: mapping keys through an injective f and values through any rho commutes with every
   step, which gives both the refinement of the reference cache keyed on the bound arguments and the opacity of the
   payloads.  Section FamilyProofs: several functions behind one decorator project to their own machines. *)
From Asynq Require Import Base Cache.

Lemma kelem_eqb_spec a b : kelem_eqb a b = true <-> a = b.
Proof.
  destruct a as [x|n x], b as [y|m y]; cbn; rewrite ?andb_true_iff, ?Z.eqb_eq; intuition congruence.
Qed.

Lemma key_eqb_spec a : forall b, key_eqb a b = true <-> a = b.
Proof.
  induction a as [|x a IH]; intros [|y b]; cbn; rewrite ?andb_true_iff, ?kelem_eqb_spec, ?IH; intuition congruence.
Qed.

Lemma listz_eqb_spec a : forall b, listz_eqb a b = true <-> a = b.
Proof.
  induction a as [|x a IH]; intros [|y b]; cbn; rewrite ?andb_true_iff, ?Z.eqb_eq, ?IH; intuition congruence.
Qed.

Lemma kwl_eqb_spec a : forall b, kwl_eqb a b = true <-> a = b.
Proof.
  induction a as [|[n x] a IH]; intros [|[m y] b]; cbn; rewrite ?andb_true_iff, ?Z.eqb_eq, ?IH; intuition congruence.
Qed.

Lemma bound_eqb_spec a b : bound_eqb a b = true <-> a = b.
Proof.
  destruct a, b. unfold bound_eqb; cbn. rewrite andb_true_iff, listz_eqb_spec, kwl_eqb_spec. intuition congruence.
Qed.

Lemma fill_all_app kw a b :
  fill_all kw (a ++ b) =
  match fill_all kw a, fill_all kw b with Some x, Some y => Some (x ++ y) | _, _ => None end.
Proof.
  induction a as [|p a IH]; cbn.
  - destruct (fill_all kw b); reflexivity.
  - destruct (fill kw p); [|reflexivity]. rewrite IH.
    destruct (fill_all kw a); [|reflexivity]. destruct (fill_all kw b); reflexivity.
Qed.

Lemma bind_params_fill ps : forall args kw vs,
  bind_params ps args kw = Some vs ->
  (length args <= length ps)%nat /\
  exists ws, fill_all kw (skipn (length args) ps) = Some ws /\ vs = args ++ ws.
Proof.
  induction ps as [|p ps IH]; intros args kw vs H; cbn in H.
  - destruct args; [|discriminate]. inversion H; subst. split; [cbn; lia|]. exists []. auto.
  - destruct args as [|a args].
    + destruct (fill kw p) as [v|] eqn:Ef; [|discriminate].
      destruct (bind_params ps [] kw) as [vs'|] eqn:Eb; [|discriminate]. inversion H; subst.
      destruct (IH _ _ _ Eb) as (_ & ws & Hw & Hv). cbn in *. split; [lia|].
      exists (v :: ws). rewrite Ef, Hw. subst. auto.
    + destruct (memz (fst p) (map fst kw)); [discriminate|].
      destruct (bind_params ps args kw) as [vs'|] eqn:Eb; [|discriminate]. inversion H; subst.
      destruct (IH _ _ _ Eb) as (Hl & ws & Hw & Hv). cbn. split; [lia|].
      exists ws. subst. auto.
Qed.

Lemma skipn_app_le {A} n (a b : list A) : (n <= length a)%nat -> skipn n (a ++ b) = skipn n a ++ b.
Proof.
  intros H. rewrite skipn_app. replace (n - length a)%nat with 0%nat by lia. reflexivity.
Qed.

(* for every call that binds, the repaired default key is the encoding of the bound arguments *)
Lemma default_key_normalises s c b :
  bind s c = Some b -> alru_key false KmDefault s c = Some (enc b).
Proof.
  unfold bind, alru_key, args_tuple, names_fixed, enc. intros H.
  destruct (bind_params (spos s) (cargs c) (ckw c)) as [vs|] eqn:E1; [|discriminate].
  destruct (bind_params (skw s) [] (ckw c)) as [ws|] eqn:E2; [|discriminate].
  destruct (bind_params_fill _ _ _ _ E1) as (Hl & w1 & Hw1 & Hv1).
  destruct (bind_params_fill _ _ _ _ E2) as (_ & w2 & Hw2 & Hv2). cbn in Hw2, Hv2. subst.
  rewrite skipn_app_le by exact Hl. rewrite fill_all_app, Hw1, Hw2.
  remember (extras (map fst (spos s ++ skw s)) (ckw c)) as exs eqn:Ex.
  destruct exs as [|e ex].
  - inversion H; subst. cbn. rewrite !app_nil_r. now rewrite <- app_assoc.
  - destruct (svarkw s); [|discriminate]. inversion H; subst. cbn [fst snd].
    now rewrite <- app_assoc.
Qed.

Lemma enc_injective b1 b2 : enc b1 = enc b2 -> b1 = b2.
Proof.
  destruct b1 as [l1 m1], b2 as [l2 m2]. unfold enc; cbn [fst snd].
  revert l2. induction l1 as [|x l1 IH]; intros [|y l2] H; cbn in H.
  - f_equal. revert m2 H. induction m1 as [|[n v] m1 IHm]; intros [|[n' v'] m2] H; cbn in H; try discriminate; auto.
    inversion H; subst. f_equal. now apply IHm.
  - destruct m1 as [|[n v] m1]; cbn in H; discriminate.
  - destruct m2 as [|[n v] m2]; cbn in H; discriminate.
  - inversion H; subst. apply IH in H2. inversion H2; subst. reflexivity.
Qed.

Lemma inst_key_is_default s c : inst_key s c = alru_key false KmDefault s c.
Proof. reflexivity. Qed.

Lemma NoDup_app_snoc {A} (l : list A) x : NoDup l -> ~ In x l -> NoDup (l ++ [x]).
Proof. intros Hn Hi. apply (NoDup_Add (Add_app x l [])). rewrite app_nil_r. auto. Qed.

Section Generic.
  Variable K : Type.
  Variable keqb : K -> K -> bool.
  Hypothesis keqb_spec : forall a b, keqb a b = true <-> a = b.

  Notation entry := (entry K).
  Notation ekey := (ekey K).
  Notation eval := (eval K).
  Notation estamp := (estamp K).
  Notation lru_find := (lru_find K keqb).
  Notation lru_remove := (lru_remove K keqb).
  Notation lru_touch := (lru_touch K keqb).
  Notation lru_getitem := (lru_getitem K keqb).
  Notation lru_setitem := (lru_setitem K keqb).

  Lemma keqb_refl k : keqb k k = true.
  Proof. now apply keqb_spec. Qed.
  Lemma keqb_neq a b : a <> b -> keqb a b = false.
  Proof. intros H. destruct (keqb a b) eqn:E; auto. apply keqb_spec in E. contradiction. Qed.

  (* stamps strictly increase along the list: the list is in recency order *)
  Fixpoint stamps_sorted (l : list entry) : Prop :=
    match l with
    | [] => True
    | e :: l' => (forall e', In e' l' -> (estamp e < estamp e')%nat) /\ stamps_sorted l'
    end.

  Definition lru_ok (cap t : nat) (l : list entry) : Prop :=
    (length l <= cap)%nat /\ NoDup (map ekey l) /\ stamps_sorted l /\
    (forall e, In e l -> (estamp e < t)%nat).

  Lemma find_none_notin l k : lru_find l k = None <-> ~ In k (map ekey l).
  Proof.
    induction l as [|e l IH]; cbn; [tauto|].
    destruct (keqb (ekey e) k) eqn:E.
    - apply keqb_spec in E. split; [discriminate|]. intros H. exfalso. apply H. now left.
    - rewrite IH. split; intros H; [intros [H1|H1]; [subst; rewrite keqb_refl in E; discriminate|tauto]|tauto].
  Qed.

  Lemma find_some_in l k v : lru_find l k = Some v -> In k (map ekey l).
  Proof.
    induction l as [|e l IH]; cbn; [discriminate|].
    destruct (keqb (ekey e) k) eqn:E; [apply keqb_spec in E; auto|auto].
  Qed.

  Lemma remove_in l k e : In e (lru_remove l k) -> In e l.
  Proof.
    induction l as [|x l IH]; cbn; auto. destruct (keqb (ekey x) k); cbn; [auto|]. intros [H|H]; auto.
  Qed.

  Lemma remove_length_found l k v :
    lru_find l k = Some v -> S (length (lru_remove l k)) = length l.
  Proof.
    induction l as [|x l IH]; cbn; [discriminate|]. destruct (keqb (ekey x) k); cbn; auto.
  Qed.

  Lemma remove_nodup l k : NoDup (map ekey l) -> NoDup (map ekey (lru_remove l k)) /\ ~ In k (map ekey (lru_remove l k)).
  Proof.
    induction l as [|x l IH]; cbn; intros H.
    - split; [constructor|tauto].
    - inversion H as [|? ? Hn Hd]; subst. destruct (keqb (ekey x) k) eqn:E.
      + apply keqb_spec in E. subst. auto.
      + destruct (IH Hd) as [I1 I2]. cbn. split.
        * constructor; auto. intros Hin. apply Hn. apply in_map_iff in Hin as (e & He & Hin).
          apply in_map_iff. exists e. split; auto. eapply remove_in; eauto.
        * intros [H1|H1]; [subst; rewrite keqb_refl in E; discriminate|tauto].
  Qed.

  Lemma remove_sorted l k : stamps_sorted l -> stamps_sorted (lru_remove l k).
  Proof.
    induction l as [|x l IH]; cbn; auto. intros [H1 H2]. destruct (keqb (ekey x) k); cbn; auto.
    split; auto. intros e' He. apply H1. eapply remove_in; eauto.
  Qed.

  Lemma sorted_snoc l e :
    stamps_sorted l -> (forall e', In e' l -> (estamp e' < estamp e)%nat) -> stamps_sorted (l ++ [e]).
  Proof.
    induction l as [|x l IH]; cbn; intros Hs Hlt.
    - split; auto. intros e' [].
    - destruct Hs as [H1 H2]. split.
      + intros e' He. apply in_app_iff in He as [He|[He|[]]]; [auto|subst; auto].
      + apply IH; auto.
  Qed.

  Lemma touch_ok cap t l k v v0 :
    lru_ok cap t l -> lru_find l k = Some v0 -> lru_ok cap (S t) (lru_touch l k v t).
  Proof.
    intros (Hlen & Hnd & Hs & Hlt) Hf. unfold lru_touch.
    pose proof (remove_length_found _ _ _ Hf) as Hl.
    destruct (remove_nodup l k Hnd) as [N1 N2].
    repeat split.
    - rewrite app_length. cbn. lia.
    - rewrite map_app. cbn. apply NoDup_app_snoc; auto.
    - apply sorted_snoc; [now apply remove_sorted|]. intros e' He. cbn. apply Hlt. eapply remove_in; eauto.
    - intros e He. apply in_app_iff in He as [He|[He|[]]].
      + apply remove_in in He. apply Hlt in He. lia.
      + subst. cbn. lia.
  Qed.

  Lemma sorted_tl l : stamps_sorted l -> stamps_sorted (tl l).
  Proof. destruct l; cbn; tauto. Qed.

  Lemma setitem_ok cap t l k v :
    (1 <= cap)%nat -> lru_ok cap t l -> lru_ok cap (S t) (lru_setitem cap l k v t).
  Proof.
    intros Hc Hok. unfold lru_setitem. destruct (lru_find l k) as [v0|] eqn:Hf.
    - eapply touch_ok; eauto.
    - destruct Hok as (Hlen & Hnd & Hs & Hlt). apply find_none_notin in Hf.
      assert (Hsub : forall e, In e (if (length l =? cap)%nat then tl l else l) -> In e l).
      { destruct (length l =? cap)%nat; auto. destruct l; cbn; auto. }
      repeat split.
      + rewrite app_length. cbn. destruct (length l =? cap)%nat eqn:E.
        * apply Nat.eqb_eq in E. destruct l; cbn in *; lia.
        * apply Nat.eqb_neq in E. lia.
      + rewrite map_app. cbn. apply NoDup_app_snoc.
        * destruct (length l =? cap)%nat; auto. destruct l; cbn in *; auto. now inversion Hnd.
        * intros Hin. apply Hf. apply in_map_iff in Hin as (e & He & Hin). apply in_map_iff. eauto.
      + apply sorted_snoc.
        * destruct (length l =? cap)%nat; auto. now apply sorted_tl.
        * intros e' He. cbn. auto.
      + intros e He. apply in_app_iff in He as [He|[He|[]]].
        * apply Hsub, Hlt in He. lia.
        * subst. cbn. lia.
  Qed.

  (* the entry a full cache drops is the head of the list, and it is the least recently used one *)
  Lemma setitem_evicts_lru cap t l k v :
    lru_ok cap t l -> lru_find l k = None ->
    (length l = cap -> (1 <= cap)%nat ->
       exists e0 rest, l = e0 :: rest /\ lru_setitem cap l k v t = rest ++ [(k, v, t)] /\
                       forall e, In e rest -> (estamp e0 < estamp e)%nat) /\
    (length l <> cap -> lru_setitem cap l k v t = l ++ [(k, v, t)]).
  Proof.
    intros (Hlen & Hnd & Hs & Hlt) Hf. unfold lru_setitem. rewrite Hf. split; intros H.
    - intros Hc. destruct l as [|e0 rest]; [cbn in H; lia|]. exists e0, rest.
      apply Nat.eqb_eq in H. rewrite H. cbn. repeat split; auto. now destruct Hs.
    - apply Nat.eqb_neq in H. now rewrite H.
  Qed.

  (* a hit moves the entry to the most-recent end with the current stamp; other entries keep theirs *)
  Lemma getitem_hit l k t v l' :
    lru_getitem l k t = Some (v, l') ->
    lru_find l k = Some v /\ l' = lru_remove l k ++ [(k, v, t)].
  Proof.
    unfold lru_getitem, lru_touch. destruct (lru_find l k); [|discriminate]. intros H. inversion H; subst. auto.
  Qed.

  Variable kf : call -> option K.
  Variable valid : call -> bool.
  Variable cap : nat.
  Hypothesis cap_pos : (1 <= cap)%nat.

  Notation astep := (astep K keqb kf valid cap).
  Notation arun := (arun K keqb kf valid cap).

  Lemma arun_cons st o ops :
    arun st (o :: ops) =
    (fst (arun (fst (astep st o)) ops),
     (snd (astep st o), Z.of_nat (length (store (fst (astep st o))))) :: snd (arun (fst (astep st o)) ops)).
  Proof. cbn. destruct (astep st o) as [s1 r]. cbn. destruct (arun s1 ops). reflexivity. Qed.

  Lemma astep_tick st o : tick (fst (astep st o)) = S (tick st).
  Proof.
    destruct o as [id c bl b|id]; cbn.
    - destruct (kf c); [|reflexivity]. destruct (lru_getitem _ _ _) as [[v l']|]; [reflexivity|].
      destruct (negb (valid c)); [reflexivity|]. destruct bl; [reflexivity|]. destruct b; reflexivity.
    - destruct (infl_find K (infl st) id) as [[k [v|e]]|]; reflexivity.
  Qed.

  Lemma ok_weaken c t l : lru_ok c t l -> lru_ok c (S t) l.
  Proof. intros (A & B & C & D). repeat split; auto. intros e He. apply D in He. lia. Qed.

  Lemma astep_ok st o : lru_ok cap (tick st) (store st) -> lru_ok cap (tick (fst (astep st o))) (store (fst (astep st o))).
  Proof.
    intros Hok. rewrite astep_tick. destruct o as [id c bl b|id]; cbn.
    - destruct (kf c) as [k|]; [|now apply ok_weaken].
      destruct (lru_getitem (store st) k (tick st)) as [[v l']|] eqn:Eg.
      + apply getitem_hit in Eg as [Hf ->]. cbn. eapply touch_ok; eauto.
      + destruct (negb (valid c)); [now apply ok_weaken|]. destruct bl; [now apply ok_weaken|].
        destruct b; cbn; [now apply setitem_ok | now apply ok_weaken].
    - destruct (infl_find K (infl st) id) as [[k [v|e]]|]; cbn; [now apply setitem_ok| |]; now apply ok_weaken.
  Qed.

  (* a property every step preserves holds after every history *)
  Lemma arun_inv (P : astate K -> Prop) :
    (forall st o, P st -> P (fst (astep st o))) -> forall ops st, P st -> P (fst (arun st ops)).
  Proof. intros HP. induction ops as [|o ops IH]; intros st H; [exact H|]. rewrite arun_cons. apply IH, HP, H. Qed.

  Lemma arun_ok ops st :
    lru_ok cap (tick st) (store st) -> lru_ok cap (tick (fst (arun st ops))) (store (fst (arun st ops))).
  Proof. apply (arun_inv (fun st => lru_ok cap (tick st) (store st))). intros s o. apply astep_ok. Qed.

  (* history level: from the empty cache, after any history: at most maxsize entries, keys unique,
     list in strict recency order *)
  Lemma size_and_lru ops :
    let st := fst (arun ainit ops) in
    (length (store st) <= cap)%nat /\ NoDup (map ekey (store st)) /\ stamps_sorted (store st).
  Proof.
    assert (H0 : lru_ok cap (tick (@ainit K)) (store (@ainit K))).
    { repeat split; cbn; try lia; try constructor; try (intros e []). }
    pose proof (arun_ok ops _ H0) as (A & B & C & _). auto.
  Qed.

  (* the size reported after every operation is within maxsize *)
  Lemma sizes_bounded ops : forall st,
    lru_ok cap (tick st) (store st) ->
    Forall (fun rz => 0 <= snd rz <= Z.of_nat cap) (snd (arun st ops)).
  Proof.
    induction ops as [|o ops IH]; intros st Hok; [constructor|]. rewrite arun_cons.
    pose proof (astep_ok st o Hok) as H1. constructor; [|apply IH, H1]. destruct H1 as (A & _). cbn. lia.
  Qed.

  Lemma find_app_notin a b k : ~ In k (map ekey a) -> lru_find (a ++ b) k = lru_find b k.
  Proof.
    induction a as [|e a IH]; cbn; auto. intros H.
    rewrite keqb_neq by (intros E; apply H; now left). apply IH. tauto.
  Qed.

  Lemma find_single k v t : lru_find [(k, v, t)] k = Some v.
  Proof. cbn. now rewrite keqb_refl. Qed.

  Lemma setitem_find c l k v t : NoDup (map ekey l) -> lru_find (lru_setitem c l k v t) k = Some v.
  Proof.
    intros Hnd. unfold lru_setitem. destruct (lru_find l k) eqn:Hf.
    - unfold lru_touch. destruct (remove_nodup l k Hnd) as [_ N]. rewrite find_app_notin by exact N. apply find_single.
    - apply find_none_notin in Hf. rewrite find_app_notin; [apply find_single|].
      destruct (length l =? c)%nat; auto. destruct l; cbn in *; tauto.
  Qed.

  Lemma call_hit st id c bl b k v :
    kf c = Some k -> lru_find (store st) k = Some v ->
    snd (astep st (ACall id c bl b)) = RHit v /\
    runs (fst (astep st (ACall id c bl b))) = runs st /\ infl (fst (astep st (ACall id c bl b))) = infl st.
  Proof. intros Hk Hf. cbn. rewrite Hk. unfold lru_getitem. rewrite Hf. cbn. auto. Qed.

  Lemma call_miss st id c b k :
    NoDup (map ekey (store st)) ->
    kf c = Some k -> lru_find (store st) k = None -> valid c = true ->
    let st' := fst (astep st (ACall id c false b)) in
    let r := snd (astep st (ACall id c false b)) in
    runs st' = runs st ++ [id] /\ infl st' = infl st /\
    match b with
    | BRet v => r = RMiss v /\ lru_find (store st') k = Some v
    | BRaise e => r = RRaise e /\ store st' = store st
    end.
  Proof.
    intros Hnd Hk Hf Hv. cbn. rewrite Hk. unfold lru_getitem. rewrite Hf, Hv. cbn.
    destruct b; cbn; repeat split; auto. now apply setitem_find.
  Qed.

  Lemma call_miss_blocking st id c b k :
    kf c = Some k -> lru_find (store st) k = None -> valid c = true ->
    let st' := fst (astep st (ACall id c true b)) in
    snd (astep st (ACall id c true b)) = RPending /\
    runs st' = runs st ++ [id] /\ infl st' = infl st ++ [(id, k, b)] /\ store st' = store st.
  Proof. intros Hk Hf Hv. cbn. rewrite Hk. unfold lru_getitem. rewrite Hf, Hv. cbn. auto. Qed.

  Lemma call_unbindable st id c bl b k :
    kf c = Some k -> lru_find (store st) k = None -> valid c = false ->
    let st' := fst (astep st (ACall id c bl b)) in
    snd (astep st (ACall id c bl b)) = RTypeError /\ runs st' = runs st /\ store st' = store st /\ infl st' = infl st.
  Proof. intros Hk Hf Hv. cbn. rewrite Hk. unfold lru_getitem. rewrite Hf, Hv. cbn. auto. Qed.

  Lemma finish_spec st id k b :
    NoDup (map ekey (store st)) ->
    infl_find K (infl st) id = Some (k, b) ->
    let st' := fst (astep st (AFinish id)) in
    let r := snd (astep st (AFinish id)) in
    runs st' = runs st /\
    match b with
    | BRet v => r = RDone v /\ lru_find (store st') k = Some v
    | BRaise e => r = RRaise e /\ store st' = store st
    end.
  Proof.
    intros Hnd Hf. cbn. rewrite Hf. destruct b; cbn; repeat split; auto. now apply setitem_find.
  Qed.

  (* a body that raises never changes the cache, whether it raises at once or after blocking;
     the next call with that key misses again *)
  Lemma errors_not_cached st id c bl e k :
    kf c = Some k -> lru_find (store st) k = None ->
    store (fst (astep st (ACall id c bl (BRaise e)))) = store st.
  Proof.
    intros Hk Hf. cbn. rewrite Hk. unfold lru_getitem. rewrite Hf.
    destruct (negb (valid c)); cbn; [reflexivity|]. destruct bl; reflexivity.
  Qed.

  Lemma errors_not_cached_finish st id k e :
    infl_find K (infl st) id = Some (k, BRaise e) ->
    store (fst (astep st (AFinish id))) = store st /\ snd (astep st (AFinish id)) = RRaise e.
  Proof. intros Hf. cbn. rewrite Hf. cbn. auto. Qed.

  Definition prov (pre : list aop) (k : K) (v : Z) : Prop :=
    exists id c bl, In (ACall id c bl (BRet v)) pre /\ kf c = Some k /\ valid c = true.

  (* the history holds a call [id] with key k and script b that got past the argument check;
     [prov pre k v] is [exists id, called pre id k (BRet v)] *)
  Definition called (pre : list aop) (id : Z) (k : K) (b : body) : Prop :=
    exists c bl, In (ACall id c bl b) pre /\ kf c = Some k /\ valid c = true.

  (* every stored value and every blocked body comes from such a call *)
  Definition inv (pre : list aop) (st : astate K) : Prop :=
    (forall e, In e (store st) -> prov pre (ekey e) (eval e)) /\
    (forall id k b, In (id, k, b) (infl st) -> called pre id k b).

  Lemma called_mono pre o id k b : called pre id k b -> called (pre ++ [o]) id k b.
  Proof. intros (c & bl & H & H2). exists c, bl. split; auto. apply in_app_iff. now left. Qed.

  Lemma called_last pre id c bl b k : kf c = Some k -> valid c = true -> called (pre ++ [ACall id c bl b]) id k b.
  Proof. intros Hk Hv. exists c, bl. split; auto. apply in_app_iff. right. now left. Qed.

  Lemma find_some_entry l k v : lru_find l k = Some v -> exists e, In e l /\ ekey e = k /\ eval e = v.
  Proof.
    induction l as [|e l IH]; cbn; [discriminate|]. destruct (keqb (ekey e) k) eqn:E.
    - intros H. inversion H; subst. apply keqb_spec in E. exists e. auto.
    - intros H. destruct (IH H) as (e' & A & B). exists e'. auto.
  Qed.

  Lemma touch_in l k v t e : In e (lru_touch l k v t) -> In e l \/ e = (k, v, t).
  Proof.
    unfold lru_touch. intros H. apply in_app_iff in H as [H|[H|[]]]; [left; eapply remove_in; eauto|now right].
  Qed.

  Lemma setitem_in c l k v t e : In e (lru_setitem c l k v t) -> In e l \/ e = (k, v, t).
  Proof.
    unfold lru_setitem. destruct (lru_find l k); [apply touch_in|].
    intros H. apply in_app_iff in H as [H|[H|[]]]; [left|now right].
    destruct (length l =? c)%nat; auto. destruct l; cbn in *; auto.
  Qed.

  Lemma infl_find_in l id k b : infl_find K l id = Some (k, b) -> In (id, k, b) l.
  Proof.
    induction l as [|[[i k'] b'] l IH]; cbn; [discriminate|]. destruct (i =? id) eqn:E; [|auto].
    intros H. inversion H; subst. apply Z.eqb_eq in E. subst. now left.
  Qed.

  Lemma infl_remove_in l id x : In x (infl_remove K l id) -> In x l.
  Proof.
    induction l as [|[[i k'] b'] l IH]; cbn; auto. destruct (i =? id); cbn; [auto|]. intros [H|H]; auto.
  Qed.

  (* only a call whose key is in the store is answered from the cache, and with the stored value *)
  Lemma hit_inv st o v :
    snd (astep st o) = RHit v ->
    exists id c bl b k, o = ACall id c bl b /\ kf c = Some k /\ lru_find (store st) k = Some v.
  Proof.
    destruct o as [id c bl b|id]; cbn.
    - destruct (kf c) as [k|] eqn:Hk; [|discriminate]. unfold lru_getitem.
      destruct (lru_find (store st) k) as [v0|] eqn:Hf; cbn.
      + intros H. inversion H; subst. exists id, c, bl, b, k. auto.
      + destruct (negb (valid c)); [discriminate|]. destruct bl; [discriminate|]. destruct b; discriminate.
    - destruct (infl_find K (infl st) id) as [[k [v0|e]]|]; discriminate.
  Qed.

  (* what a step stores was the script of a call that got past the checks, now or when it blocked: a property P of
     stored (key, value) pairs and a property Q of blocked bodies that are closed under that are kept *)
  Lemma astep_pres (P : K -> Z -> Prop) (Q : Z -> K -> body -> Prop) st o :
    (forall id c bl b k, o = ACall id c bl b -> kf c = Some k -> valid c = true -> Q id k b) ->
    (forall id k v, Q id k (BRet v) -> P k v) ->
    (forall e, In e (store st) -> P (ekey e) (eval e)) -> (forall id k b, In (id, k, b) (infl st) -> Q id k b) ->
    (forall e, In e (store (fst (astep st o))) -> P (ekey e) (eval e)) /\
    (forall id k b, In (id, k, b) (infl (fst (astep st o))) -> Q id k b).
  Proof.
    intros Hc HQP Hs Hi. destruct o as [id c bl b|id]; cbn.
    - destruct (kf c) as [k|] eqn:Hk; [|split; auto].
      unfold lru_getitem. destruct (lru_find (store st) k) as [v0|] eqn:Hf; cbn.
      + split; cbn; auto. intros e He. apply touch_in in He as [He| ->]; auto.
        destruct (find_some_entry _ _ _ Hf) as (e' & A & <- & <-). exact (Hs e' A).
      + destruct (valid c) eqn:Hv; cbn; [|split; auto].
        pose proof (Hc id c bl b k eq_refl Hk Hv) as Hq.
        destruct bl; cbn; [|destruct b as [v|e]; cbn]; split; cbn; auto.
        * intros i k' b' H. apply in_app_iff in H as [H|[H|[]]]; auto. now inversion H; subst.
        * intros e He. apply setitem_in in He as [He| ->]; auto. exact (HQP id k v Hq).
    - destruct (infl_find K (infl st) id) as [[k [v|e]]|] eqn:Hf; cbn; split; cbn; auto;
        try (intros i k' b' H; apply infl_remove_in in H; auto).
      intros e He. apply setitem_in in He as [He| ->]; auto. apply (HQP id), Hi, infl_find_in, Hf.
  Qed.

  Lemma inv_step pre st o : inv pre st -> inv (pre ++ [o]) (fst (astep st o)).
  Proof.
    intros [Hs Hi]. apply (astep_pres (prov (pre ++ [o])) (called (pre ++ [o]))).
    - intros id c bl b k -> Hk Hv. now apply called_last.
    - intros id k v H. now exists id.
    - intros e He. destruct (Hs e He) as (id & H). exists id. now apply called_mono.
    - intros id k b H. now apply called_mono, Hi.
  Qed.

  Fixpoint hits_justified (pre ops : list aop) (rs : list (res * Z)) : Prop :=
    match ops, rs with
    | o :: ops', rz :: rs' =>
      (forall v, fst rz = RHit v ->
         exists id c bl b k, o = ACall id c bl b /\ kf c = Some k /\ prov pre k v) /\
      hits_justified (pre ++ [o]) ops' rs'
    | _, _ => True
    end.

  Lemma no_cross_talk_gen ops : forall pre st, inv pre st -> hits_justified pre ops (snd (arun st ops)).
  Proof.
    induction ops as [|o ops IH]; intros pre st Hinv; [exact I|]. rewrite arun_cons.
    split; [|apply IH, inv_step, Hinv]. intros v Hv.
    destruct (hit_inv _ _ _ Hv) as (id & c & bl & b & k & -> & Hk & Hf). exists id, c, bl, b, k. repeat split; auto.
    destruct (find_some_entry _ _ _ Hf) as (e & He & <- & <-). apply Hinv, He.
  Qed.

  (* every value served from the cache was computed by the body of an earlier call with the same key *)
  Lemma no_cross_talk ops : hits_justified [] ops (snd (arun ainit ops)).
  Proof. apply no_cross_talk_gen. split; cbn; intros; contradiction. Qed.
End Generic.

Section Inst.
  Variable K : Type.
  Variable keqb : K -> K -> bool.
  Hypothesis keqb_spec : forall a b, keqb a b = true <-> a = b.
  Variable kf : call -> option K.
  Variable valid : call -> bool.

  Notation idict := (idict K).
  Notation p_find := (p_find K).
  Notation p_set := (p_set K).
  Notation p_remove := (p_remove K).
  Notation p_ensure := (p_ensure K).
  Notation p_dict := (p_dict K).
  Notation p_store := (p_store K keqb).
  Notation pstep := (pstep K keqb kf valid).
  Notation prun := (prun K keqb kf valid).

  Lemma prun_cons st o ops :
    prun st (o :: ops) =
    (fst (prun (fst (pstep st o)) ops),
     (snd (pstep st o), Z.of_nat (length (pstore (fst (pstep st o)))), Z.of_nat (p_total K (pstore (fst (pstep st o)))))
     :: snd (prun (fst (pstep st o)) ops)).
  Proof. cbn. destruct (pstep st o) as [s1 r]. cbn. destruct (prun s1 ops). reflexivity. Qed.

  Definition op_inst (o : pop) : Z :=
    match o with PCall _ i _ _ _ => i | PFinish _ i => i | PDrop i => i end.

  Lemma p_find_app_other l i j d : j <> i -> p_find (l ++ [(i, d)]) j = p_find l j.
  Proof.
    intros H. assert (E : (i =? j) = false) by (apply Z.eqb_neq; congruence).
    induction l as [|[x dx] l IH]; cbn; [now rewrite E | now rewrite IH].
  Qed.
  Lemma p_find_set_other l i j d : j <> i -> p_find (p_set l i d) j = p_find l j.
  Proof.
    intros H. assert (E : (i =? j) = false) by (apply Z.eqb_neq; congruence).
    induction l as [|[x dx] l IH]; cbn; [now rewrite E|].
    destruct (Z.eqb_spec x i) as [->|]; cbn; [now rewrite E | now rewrite IH].
  Qed.
  Lemma p_find_remove_other l i j : j <> i -> p_find (p_remove l i) j = p_find l j.
  Proof.
    intros H. assert (E : (i =? j) = false) by (apply Z.eqb_neq; congruence).
    induction l as [|[x dx] l IH]; cbn; auto.
    destruct (Z.eqb_spec x i) as [->|]; cbn; [now rewrite E | now rewrite IH].
  Qed.
  Lemma p_find_ensure_other l i j : j <> i -> p_find (p_ensure l i) j = p_find l j.
  Proof. intros H. unfold p_ensure. destruct (p_find l i); auto. now apply p_find_app_other. Qed.
  Lemma p_find_store_other l i j k v : j <> i -> p_find (p_store l i k v) j = p_find l j.
  Proof. intros H. unfold p_store. destruct (p_find l i); auto. now apply p_find_set_other. Qed.

  Lemma p_find_app_same l i : p_find l i = None -> p_find (l ++ [(i, [])]) i = Some [].
  Proof.
    induction l as [|[x dx] l IH]; cbn; [now rewrite Z.eqb_refl|]. destruct (x =? i); [discriminate|auto].
  Qed.
  Lemma p_dict_ensure l i : p_dict (p_ensure l i) i = p_dict l i.
  Proof.
    unfold p_dict, p_ensure. destruct (p_find l i) eqn:E; [now rewrite E|]. now rewrite p_find_app_same.
  Qed.

  (* an operation changes the table of instances only by p_ensure, p_store and p_remove at its own instance *)
  Lemma pstore_step (P : list (Z * idict) -> Prop) st o :
    (forall l, P l -> P (p_ensure l (op_inst o))) -> (forall l k v, P l -> P (p_store l (op_inst o) k v)) ->
    (forall l, P l -> P (p_remove l (op_inst o))) ->
    P (pstore st) -> P (pstore (fst (pstep st o))).
  Proof.
    intros He Hs Hr H. destruct o as [id i c bl b|id i|i]; cbn in *.
    - destruct (kf c) as [k|]; cbn; auto.
      destruct (d_find K keqb (p_dict (p_ensure (pstore st) i) i) k); cbn; auto.
      destruct (negb (valid c)); cbn; auto. destruct bl; cbn; auto. destruct b; cbn; auto.
    - destruct (pinfl_find K (pinfl st) id i) as [[k [v|e]]|]; cbn; auto.
    - destruct (inst_busy K (pinfl st) i); cbn; auto.
  Qed.

  (* an operation on one instance leaves every other instance's cache untouched *)
  Lemma instances_independent st o j :
    op_inst o <> j -> p_find (pstore (fst (pstep st o))) j = p_find (pstore st) j.
  Proof.
    intros H. assert (H' : j <> op_inst o) by congruence.
    apply (pstore_step (fun l => p_find l j = p_find (pstore st) j)); auto; intros l; intros; 
      [rewrite p_find_ensure_other | rewrite p_find_store_other | rewrite p_find_remove_other]; auto.
  Qed.

  (* ... and what a call returns depends only on its own instance's cache *)
  Lemma call_depends_on_own_cache st1 st2 id i c bl b :
    p_dict (pstore st1) i = p_dict (pstore st2) i ->
    snd (pstep st1 (PCall id i c bl b)) = snd (pstep st2 (PCall id i c bl b)).
  Proof.
    intros H. cbn. rewrite !p_dict_ensure, H. destruct (kf c) as [k|]; cbn; auto.
    destruct (d_find K keqb (p_dict (pstore st2) i) k); cbn; auto.
    destruct (negb (valid c)); cbn; auto. destruct bl; cbn; auto. destruct b; auto.
  Qed.

  (* instance keys stay unique, so Drop really removes the instance's cache *)
  Lemma p_find_none_notin l i : p_find l i = None <-> ~ In i (map fst l).
  Proof.
    induction l as [|[x dx] l IH]; cbn; [tauto|]. destruct (Z.eqb_spec x i); [|rewrite IH; tauto].
    split; [discriminate|]. intros H. exfalso. apply H. now left.
  Qed.
  Lemma p_ensure_nodup l i : NoDup (map fst l) -> NoDup (map fst (p_ensure l i)).
  Proof.
    intros H. unfold p_ensure. destruct (p_find l i) eqn:E; auto.
    rewrite map_app. apply NoDup_app_snoc; auto. now apply p_find_none_notin.
  Qed.
  Lemma p_set_keys l i d : p_find l i <> None -> map fst (p_set l i d) = map fst l.
  Proof.
    induction l as [|[x dx] l IH]; cbn; [congruence|]. destruct (x =? i); cbn; auto. intros H. now rewrite IH.
  Qed.
  Lemma p_store_nodup l i k v : NoDup (map fst l) -> NoDup (map fst (p_store l i k v)).
  Proof. unfold p_store. destruct (p_find l i) eqn:E; auto. rewrite p_set_keys; auto. congruence. Qed.
  Lemma p_remove_sub l i x : In x (map fst (p_remove l i)) -> In x (map fst l).
  Proof.
    induction l as [|[y dy] l IH]; cbn; auto. destruct (y =? i); cbn; auto. intros [H|H]; auto.
  Qed.
  Lemma p_remove_nodup l i : NoDup (map fst l) -> NoDup (map fst (p_remove l i)) /\ p_find (p_remove l i) i = None.
  Proof.
    induction l as [|[x dx] l IH]; cbn; intros H; [split; [constructor|reflexivity]|].
    inversion H as [|? ? Hn Hd]; subst. destruct (x =? i) eqn:E; cbn.
    - apply Z.eqb_eq in E. subst. split; auto. now apply p_find_none_notin.
    - destruct (IH Hd) as [I1 I2]. rewrite E. split; auto. constructor; auto.
      intros Hin. apply Hn. eapply p_remove_sub; eauto.
  Qed.

  Lemma prun_inv (P : pstate K -> Prop) :
    (forall st o, P st -> P (fst (pstep st o))) -> forall ops st, P st -> P (fst (prun st ops)).
  Proof. intros HP. induction ops as [|o ops IH]; intros st H; [exact H|]. rewrite prun_cons. apply IH, HP, H. Qed.

  Lemma prun_nodup ops st : NoDup (map fst (pstore st)) -> NoDup (map fst (pstore (fst (prun st ops)))).
  Proof.
    apply (prun_inv (fun st => NoDup (map fst (pstore st)))). intros s o.
    apply (pstore_step (fun l => NoDup (map fst l))); intros; [apply p_ensure_nodup | apply p_store_nodup | apply p_remove_nodup]; auto.
  Qed.

  (* after any history, dropping an idle instance removes its cache; a later call on an instance with
     that identity starts from an empty cache *)
  Lemma instance_vanishes ops i :
    let st := fst (prun pinit ops) in
    inst_busy K (pinfl st) i = false ->
    let st' := fst (pstep st (PDrop i)) in
    p_find (pstore st') i = None /\
    forall id c k v, kf c = Some k -> valid c = true ->
      snd (pstep st' (PCall id i c false (BRet v))) = RMiss v.
  Proof.
    intros st Hb st'. assert (Hn : NoDup (map fst (pstore st))) by (apply prun_nodup; constructor).
    assert (Hf : p_find (pstore st') i = None).
    { subst st'. cbn. rewrite Hb. cbn. now apply p_remove_nodup. }
    split; auto. intros id c k v Hk Hv. cbn. rewrite Hk, p_dict_ensure. unfold p_dict. rewrite Hf. cbn.
    now rewrite Hv.
  Qed.

  Definition pprov (pre : list pop) (i : Z) (k : K) (v : Z) : Prop :=
    exists id c bl, In (PCall id i c bl (BRet v)) pre /\ kf c = Some k /\ valid c = true.

  (* [pprov pre i k v] is [exists id, pcalled pre id i k (BRet v)] *)
  Definition pcalled (pre : list pop) (id i : Z) (k : K) (b : body) : Prop :=
    exists c bl, In (PCall id i c bl b) pre /\ kf c = Some k /\ valid c = true.

  (* instance i's dictionary maps k to v *)
  Definition pmem (l : list (Z * idict)) (i : Z) (k : K) (v : Z) : Prop := exists d, In (i, d) l /\ In (k, v) d.

  Definition pinv (pre : list pop) (st : pstate K) : Prop :=
    (forall i k v, pmem (pstore st) i k v -> pprov pre i k v) /\
    (forall id i k b, In (id, i, k, b) (pinfl st) -> pcalled pre id i k b).

  Lemma pcalled_mono pre o id i k b : pcalled pre id i k b -> pcalled (pre ++ [o]) id i k b.
  Proof. intros (c & bl & H & H2). exists c, bl. split; auto. apply in_app_iff. now left. Qed.

  Lemma p_find_in l i d : p_find l i = Some d -> In (i, d) l.
  Proof.
    induction l as [|[x dx] l IH]; cbn; [discriminate|]. destruct (x =? i) eqn:E; [|auto].
    intros H. inversion H; subst. apply Z.eqb_eq in E. subst. now left.
  Qed.
  Lemma d_find_in d k v : d_find K keqb d k = Some v -> In (k, v) d.
  Proof.
    induction d as [|[k' v'] d IH]; cbn; [discriminate|]. destruct (keqb k' k) eqn:E; [|auto].
    intros H. inversion H; subst. apply keqb_spec in E. subst. now left.
  Qed.
  Lemma d_set_in d k v k' v' : In (k', v') (d_set K keqb d k v) -> In (k', v') d \/ (k' = k /\ v' = v).
  Proof.
    induction d as [|[a b] d IH]; cbn.
    - intros [H|[]]. inversion H. auto.
    - destruct (keqb a k) eqn:E; cbn.
      + apply keqb_spec in E. subst. intros [H|H]; [inversion H; auto|auto].
      + intros [H|H]; auto. destruct (IH H); auto.
  Qed.
  Lemma p_set_in l i d j d' : In (j, d') (p_set l i d) -> In (j, d') l \/ (j = i /\ d' = d).
  Proof.
    induction l as [|[a b] l IH]; cbn.
    - intros [H|[]]. inversion H. auto.
    - destruct (a =? i) eqn:E; cbn.
      + apply Z.eqb_eq in E. subst. intros [H|H]; [inversion H; auto|auto].
      + intros [H|H]; auto. destruct (IH H); auto.
  Qed.

  Lemma pmem_find l i k v : d_find K keqb (p_dict l i) k = Some v -> pmem l i k v.
  Proof.
    unfold p_dict. destruct (p_find l i) as [d|] eqn:E; [|discriminate]. intros H. exists d.
    split; [now apply p_find_in | now apply d_find_in].
  Qed.
  Lemma pmem_ensure l i0 i k v : pmem (p_ensure l i0) i k v -> pmem l i k v.
  Proof.
    unfold p_ensure. destruct (p_find l i0); auto. intros (d & Hd & Hk).
    apply in_app_iff in Hd as [Hd|[Hd|[]]]; [exists d; auto|]. inversion Hd; subst. contradiction.
  Qed.
  Lemma pmem_store l i k v j k' v' : pmem (p_store l i k v) j k' v' -> pmem l j k' v' \/ (j = i /\ k' = k /\ v' = v).
  Proof.
    unfold p_store. destruct (p_find l i) as [d0|] eqn:E; auto. intros (d & Hd & Hk).
    apply p_set_in in Hd as [Hd|[-> ->]]; [left; exists d; auto|].
    apply d_set_in in Hk as [Hk|[-> ->]]; auto. left. exists d0. split; auto. now apply p_find_in.
  Qed.
  Lemma pmem_remove l i j k v : pmem (p_remove l i) j k v -> pmem l j k v.
  Proof.
    intros (d & Hd & Hk). exists d. split; auto. clear Hk.
    induction l as [|[a b] l IH]; cbn in *; auto. destruct (a =? i); cbn in *; auto. destruct Hd; auto.
  Qed.
  Lemma pinfl_find_in l id i k b : pinfl_find K l id i = Some (k, b) -> In (id, i, k, b) l.
  Proof.
    induction l as [|[[[a j] k'] b'] l IH]; cbn; [discriminate|]. destruct ((a =? id) && (j =? i)) eqn:E; [|auto].
    intros H. inversion H; subst. apply andb_true_iff in E as [E1 E2]. apply Z.eqb_eq in E1, E2. subst. now left.
  Qed.
  Lemma pinfl_remove_in l id i x : In x (pinfl_remove K l id i) -> In x l.
  Proof.
    induction l as [|[[[a j] k'] b'] l IH]; cbn; auto. destruct ((a =? id) && (j =? i)); cbn; auto. intros [H|H]; auto.
  Qed.

  Lemma phit_inv st o v :
    snd (pstep st o) = RHit v ->
    exists id i c bl b k, o = PCall id i c bl b /\ kf c = Some k /\ pmem (pstore st) i k v.
  Proof.
    destruct o as [id i c bl b|id i|i]; cbn.
    - destruct (kf c) as [k|] eqn:Hk; [|discriminate]. rewrite p_dict_ensure.
      destruct (d_find K keqb (p_dict (pstore st) i) k) as [v0|] eqn:Hf; cbn.
      + intros H. inversion H; subst. exists id, i, c, bl, b, k. repeat split; auto. now apply pmem_find.
      + destruct (negb (valid c)); [discriminate|]. destruct bl; [discriminate|]. destruct b; discriminate.
    - destruct (pinfl_find K (pinfl st) id i) as [[k [v0|e]]|]; discriminate.
    - destruct (inst_busy K (pinfl st) i); discriminate.
  Qed.

  Lemma pinv_step pre st o : pinv pre st -> pinv (pre ++ [o]) (fst (pstep st o)).
  Proof.
    intros [Hs Hi].
    assert (Hs' : forall i k v, pmem (pstore st) i k v -> pprov (pre ++ [o]) i k v).
    { intros i k v H. destruct (Hs i k v H) as (id & Hc). exists id. now apply pcalled_mono. }
    assert (Hi' : forall id i k b, In (id, i, k, b) (pinfl st) -> pcalled (pre ++ [o]) id i k b)
      by (intros; apply pcalled_mono; auto).
    assert (He : forall i0 i k v, pmem (p_ensure (pstore st) i0) i k v -> pprov (pre ++ [o]) i k v)
      by (intros i0 i k v H; apply Hs', (pmem_ensure _ _ _ _ _ H)).
    destruct o as [id i c bl b|id i|i]; cbn.
    - destruct (kf c) as [k|] eqn:Hk; cbn; [|split; cbn; eauto].
      destruct (d_find K keqb (p_dict (p_ensure (pstore st) i) i) k); cbn; [split; cbn; eauto|].
      destruct (valid c) eqn:Hv; cbn; [|split; cbn; eauto].
      assert (Hc : pcalled (pre ++ [PCall id i c bl b]) id i k b).
      { exists c, bl. split; auto. apply in_app_iff. right. now left. }
      destruct bl; cbn; [|destruct b as [v|e]; cbn]; split; cbn; eauto.
      + intros a j k' b' H. apply in_app_iff in H as [H|[H|[]]]; auto. now inversion H; subst.
      + intros j k' v' H. apply pmem_store in H as [H|(-> & -> & ->)]; eauto. now exists id.
    - destruct (pinfl_find K (pinfl st) id i) as [[k [v|e]]|] eqn:Hf; cbn; split; cbn; eauto;
        try (intros a j k' b' H; apply pinfl_remove_in in H; auto).
      intros j k' v' H. apply pmem_store in H as [H|(-> & -> & ->)]; eauto.
      exists id. apply Hi', pinfl_find_in, Hf.
    - destruct (inst_busy K (pinfl st) i); cbn; split; cbn; eauto.
      intros j k v H. apply Hs', (pmem_remove _ _ _ _ _ H).
  Qed.

  Fixpoint phits_justified (pre ops : list pop) (rs : list (res * Z * Z)) : Prop :=
    match ops, rs with
    | o :: ops', rz :: rs' =>
      (forall v, fst (fst rz) = RHit v ->
         exists id i c bl b k, o = PCall id i c bl b /\ kf c = Some k /\ pprov pre i k v) /\
      phits_justified (pre ++ [o]) ops' rs'
    | _, _ => True
    end.

  Lemma inst_no_cross_talk_gen ops : forall pre st, pinv pre st -> phits_justified pre ops (snd (prun st ops)).
  Proof.
    induction ops as [|o ops IH]; intros pre st Hinv; [exact I|]. rewrite prun_cons.
    split; [|apply IH, pinv_step, Hinv]. intros v Hv.
    destruct (phit_inv _ _ _ Hv) as (id & i & c & bl & b & k & -> & Hk & Hm). exists id, i, c, bl, b, k.
    repeat split; auto. apply Hinv, Hm.
  Qed.

End Inst.

Lemma needs_refresh_iff ttl st :
  needs_refresh ttl st = true <-> refresh st = 0 \/ (ttl <> 0 /\ refresh st < now st - ttl).
Proof.
  unfold needs_refresh. rewrite orb_true_iff, andb_true_iff, negb_true_iff, Z.eqb_eq, Z.eqb_neq, Z.ltb_lt. tauto.
Qed.

(* a call runs the body iff never computed / dirtied / ttl expired; otherwise it changes nothing
   and returns the cached value *)
Lemma lazy_recompute_iff ttl st id bl b :
  let st' := fst (lstep ttl st (LCall id bl b)) in
  let r := snd (lstep ttl st (LCall id bl b)) in
  (needs_refresh ttl st = true ->
     lruns st' = lruns st ++ [id] /\
     match bl, b with
     | true, _ => r = RPending /\ refresh st' = refresh st /\ cached st' = cached st
     | false, BRet v => r = RMiss v /\ refresh st' = now st /\ cached st' = Some v
     | false, BRaise e => r = RRaise e /\ refresh st' = refresh st /\ cached st' = cached st
     end) /\
  (needs_refresh ttl st = false ->
     st' = st /\ r = match cached st with Some v => RHit v | None => RNone end).
Proof.
  cbn. destruct (needs_refresh ttl st); split; intros H; try discriminate.
  - destruct bl; cbn; [auto|]. destruct b; cbn; auto.
  - auto.
Qed.

Lemma lazy_dirty_forces ttl st : needs_refresh ttl (fst (lstep ttl st LDirty)) = true.
Proof. reflexivity. Qed.

Lemma lazy_finish ttl st id b :
  linfl_find (linfl st) id = Some b ->
  let st' := fst (lstep ttl st (LFinish id)) in
  let r := snd (lstep ttl st (LFinish id)) in
  lruns st' = lruns st /\
  match b with
  | BRet v => r = RDone v /\ refresh st' = now st /\ cached st' = Some v
  | BRaise e => r = RRaise e /\ refresh st' = refresh st /\ cached st' = cached st
  end.
Proof. intros H. cbn. rewrite H. destruct b; cbn; auto. Qed.

(* a quiet stretch: only calls and clock ticks, the clock moving forward by at most [budget] in total
   (any amount if [unbounded]) *)
Fixpoint quiet (unbounded : bool) (budget : Z) (ops : list lop) : Prop :=
  match ops with
  | [] => True
  | LCall _ _ _ :: r => quiet unbounded budget r
  | LTick dt :: r => 0 <= dt /\ (unbounded = true \/ dt <= budget) /\ quiet unbounded (budget - dt) r
  | _ => False
  end.

Fixpoint all_hits (v : Z) (ops : list lop) (rs : list res) : Prop :=
  match ops, rs with
  | LCall _ _ _ :: ops', r :: rs' => r = RHit v /\ all_hits v ops' rs'
  | _ :: ops', _ :: rs' => all_hits v ops' rs'
  | _, _ => True
  end.

Lemma lrun_cons ttl st o ops :
  lrun ttl st (o :: ops) =
  (fst (lrun ttl (fst (lstep ttl st o)) ops), snd (lstep ttl st o) :: snd (lrun ttl (fst (lstep ttl st o)) ops)).
Proof. cbn. destruct (lstep ttl st o) as [s1 r]. cbn. destruct (lrun ttl s1 ops). reflexivity. Qed.

Lemma quiet_all_hits ops : forall ttl st v budget,
  refresh st <> 0 -> cached st = Some v ->
  (ttl = 0 \/ (0 <= budget /\ now st + budget <= refresh st + ttl)) ->
  quiet (ttl =? 0) budget ops ->
  lruns (fst (lrun ttl st ops)) = lruns st /\ all_hits v ops (snd (lrun ttl st ops)).
Proof.
  induction ops as [|o ops IH]; intros ttl st v budget Hr Hc Hb Hq; [cbn; auto|].
  rewrite lrun_cons. cbn [fst snd].
  destruct o as [id bl b| | |dt]; cbn in Hq; try contradiction.
  - assert (Hn : needs_refresh ttl st = false).
    { destruct (needs_refresh ttl st) eqn:E; auto. apply needs_refresh_iff in E.
      destruct E as [E|[E1 E2]]; [contradiction|]. destruct Hb as [Hb|Hb]; [contradiction|]. lia. }
    cbn [lstep]. rewrite Hn. cbn [fst snd all_hits]. rewrite Hc.
    destruct (IH ttl st v budget Hr Hc Hb Hq). auto.
  - destruct Hq as (Hd & Hu & Hq). cbn [lstep fst snd all_hits].
    destruct (IH ttl (mkL (refresh st) (cached st) (now st + dt) (linfl st) (lruns st)) v (budget - dt)) as [A B];
      cbn; auto.
    destruct (Z.eq_dec ttl 0) as [Ht|Ht]; [auto|right].
    destruct Hb as [Hb|Hb]; [contradiction|].
    destruct Hu as [Hu|Hu]; [apply Z.eqb_eq in Hu; contradiction|lia].
Qed.

(* like dirty() (lazy_dirty_forces), a ttl expiry makes the next call recompute the constant *)
Lemma lazy_expiry_forces ttl st :
  ttl <> 0 -> refresh st < now st - ttl -> needs_refresh ttl st = true.
Proof. intros. apply needs_refresh_iff. auto. Qed.

(* Refinement of the reference cache and opacity of the payloads are one fact: the caches compare keys and never
   look at values.  Mapping the keys through any f
   that the equality tests cannot tell from the identity (an injective f), and the values bodies return through
   any rho (everything to one value, the unique integers of the harness to None / 0 / False / '' ...), commutes
   with every step: hit or miss, evictions, sizes and the body-run log are the same. *)
Section Relabel.
  Variable rho : Z -> Z.

  Definition rl_body (b : body) : body := match b with BRet v => BRet (rho v) | BRaise e => BRaise e end.
  Definition rl_res (r : res) : res :=
    match r with
    | RHit v => RHit (rho v) | RMiss v => RMiss (rho v) | RDone v => RDone (rho v)
    | r => r
    end.
  Definition rl_aop (o : aop) : aop :=
    match o with ACall id c bl b => ACall id c bl (rl_body b) | AFinish id => AFinish id end.
  Definition rl_obs (x : res * Z) : res * Z := (rl_res (fst x), snd x).

  Section Keyed.
    Variable K : Type.
    Definition rl_entry (e : entry K) : entry K := (ekey K e, rho (eval K e), estamp K e).
    Definition rl_infl (x : Z * K * body) : Z * K * body := (fst (fst x), snd (fst x), rl_body (snd x)).
    Definition rl_astate (st : astate K) : astate K :=
      mkA (map rl_entry (store st)) (map rl_infl (infl st)) (tick st) (runs st).
  End Keyed.

  Section StateMap.
    Variables K1 K2 : Type.
    Variable eqb1 : K1 -> K1 -> bool.
    Variable eqb2 : K2 -> K2 -> bool.
    Variable f : K1 -> K2.
    Hypothesis eqb_f : forall a b, eqb2 (f a) (f b) = eqb1 a b.

    Definition me (e : entry K1) : entry K2 := (f (ekey K1 e), rho (eval K1 e), estamp K1 e).
    Definition mi (x : Z * K1 * body) : Z * K2 * body := (fst (fst x), f (snd (fst x)), rl_body (snd x)).
    Definition ma (st : astate K1) : astate K2 := mkA (map me (store st)) (map mi (infl st)) (tick st) (runs st).

    Lemma me_find l k : lru_find K2 eqb2 (map me l) (f k) = option_map rho (lru_find K1 eqb1 l k).
    Proof. induction l as [|e l IH]; cbn; auto. rewrite eqb_f. destruct (eqb1 (ekey K1 e) k); auto. Qed.
    Lemma me_remove l k : lru_remove K2 eqb2 (map me l) (f k) = map me (lru_remove K1 eqb1 l k).
    Proof. induction l as [|e l IH]; cbn; auto. rewrite eqb_f. destruct (eqb1 (ekey K1 e) k); cbn; auto. now rewrite IH. Qed.
    Lemma me_touch l k v t : lru_touch K2 eqb2 (map me l) (f k) (rho v) t = map me (lru_touch K1 eqb1 l k v t).
    Proof. unfold lru_touch. now rewrite me_remove, map_app. Qed.
    Lemma me_setitem cap l k v t :
      lru_setitem K2 eqb2 cap (map me l) (f k) (rho v) t = map me (lru_setitem K1 eqb1 cap l k v t).
    Proof.
      unfold lru_setitem. rewrite me_find. destruct (lru_find K1 eqb1 l k); [apply me_touch|].
      cbn. rewrite map_length, map_app. destruct (length l =? cap)%nat; auto. destruct l; reflexivity.
    Qed.
    Lemma mi_find l id :
      infl_find K2 (map mi l) id = option_map (fun kb => (f (fst kb), rl_body (snd kb))) (infl_find K1 l id).
    Proof. induction l as [|[[i k] b] l IH]; cbn; auto. destruct (i =? id); auto. Qed.
    Lemma mi_remove l id : infl_remove K2 (map mi l) id = map mi (infl_remove K1 l id).
    Proof. induction l as [|[[i k] b] l IH]; cbn; auto. destruct (i =? id); cbn; auto. now rewrite IH. Qed.

    Variable kf1 : call -> option K1.
    Variable kf2 : call -> option K2.
    Variable valid : call -> bool.
    Variable cap : nat.

    Definition op_agrees (o : aop) : Prop :=
      match o with ACall _ c _ _ => kf2 c = option_map f (kf1 c) | AFinish _ => True end.

    Lemma astep_map st o : op_agrees o ->
      astep K2 eqb2 kf2 valid cap (ma st) (rl_aop o) =
      (ma (fst (astep K1 eqb1 kf1 valid cap st o)), rl_res (snd (astep K1 eqb1 kf1 valid cap st o))).
    Proof.
      destruct st as [l inf t rs]. destruct o as [id c bl b|id]; cbn [astep rl_aop ma store infl tick runs op_agrees].
      - intros ->. destruct (kf1 c) as [k|]; [|reflexivity]. cbn [option_map].
        unfold lru_getitem. rewrite me_find. destruct (lru_find K1 eqb1 l k) as [v|]; cbn [option_map].
        + unfold ma; cbn. now rewrite me_touch.
        + destruct (negb (valid c)); [reflexivity|]. destruct bl.
          * unfold ma; cbn. now rewrite map_app.
          * destruct b as [v|e]; unfold ma; cbn; auto. now rewrite me_setitem.
      - intros _. rewrite mi_find. destruct (infl_find K1 inf id) as [[k [v|e]]|]; unfold ma; cbn; auto.
        + now rewrite me_setitem, mi_remove.
        + now rewrite mi_remove.
    Qed.

    Lemma arun_map ops : forall st, Forall op_agrees ops ->
      arun K2 eqb2 kf2 valid cap (ma st) (map rl_aop ops) =
      (ma (fst (arun K1 eqb1 kf1 valid cap st ops)), map rl_obs (snd (arun K1 eqb1 kf1 valid cap st ops))).
    Proof.
      induction ops as [|o ops IH]; intros st Ha; [reflexivity|]. inversion Ha; subst.
      cbn [map]. rewrite !arun_cons, astep_map by assumption. cbn [fst snd]. rewrite IH by assumption.
      cbn. now rewrite map_length.
    Qed.
  End StateMap.

  (* the relabelling of values alone is the map along the identity on keys *)
  Lemma rl_astate_ma K st : rl_astate K st = ma K K (fun k => k) st.
  Proof. reflexivity. Qed.

  Lemma agrees_id K (kf : call -> option K) o : op_agrees K K (fun k => k) kf kf o.
  Proof. destruct o; cbn; auto. destruct (kf c); reflexivity. Qed.

  (* for every history: the same history with relabelled body results yields the relabelled results, the same
     cache sizes and the same body-run log *)
  Lemma arun_relabel K keqb kf valid cap ops (st : astate K) :
    arun K keqb kf valid cap (rl_astate K st) (map rl_aop ops) =
    (rl_astate K (fst (arun K keqb kf valid cap st ops)), map rl_obs (snd (arun K keqb kf valid cap st ops))).
  Proof.
    rewrite !rl_astate_ma. apply (arun_map K K keqb keqb (fun k => k) (fun a b => eq_refl) kf kf).
    apply Forall_forall. intros o _. apply agrees_id.
  Qed.

  Definition rl_lop (o : lop) : lop := match o with LCall id bl b => LCall id bl (rl_body b) | o => o end.
  Definition rl_lstate (st : lstate) : lstate :=
    mkL (refresh st) (option_map rho (cached st)) (now st) (map (fun x => (fst x, rl_body (snd x))) (linfl st)) (lruns st).

  Lemma rl_linfl_find l id :
    linfl_find (map (fun x => (fst x, rl_body (snd x))) l) id = option_map rl_body (linfl_find l id).
  Proof. induction l as [|[i b] l IH]; cbn; auto. destruct (i =? id); auto. Qed.
  Lemma rl_linfl_remove l id :
    linfl_remove (map (fun x => (fst x, rl_body (snd x))) l) id = map (fun x => (fst x, rl_body (snd x))) (linfl_remove l id).
  Proof. induction l as [|[i b] l IH]; cbn; auto. destruct (i =? id); cbn; auto. now rewrite IH. Qed.

  Lemma lstep_relabel ttl st o :
    lstep ttl (rl_lstate st) (rl_lop o) = (rl_lstate (fst (lstep ttl st o)), rl_res (snd (lstep ttl st o))).
  Proof.
    destruct st as [rf ca nw inf rs]. destruct o as [id bl b|id| |dt]; cbn [lstep rl_lop].
    - unfold needs_refresh. cbn [refresh now rl_lstate].
      destruct ((rf =? 0) || negb (ttl =? 0) && (rf <? nw - ttl)).
      + destruct bl; cbn; unfold rl_lstate; cbn; [now rewrite map_app|].
        destruct b; cbn; auto.
      + cbn. destruct ca; reflexivity.
    - cbn [rl_lstate linfl]. rewrite rl_linfl_find. destruct (linfl_find inf id) as [[v|e]|]; cbn; unfold rl_lstate; cbn; auto;
        now rewrite rl_linfl_remove.
    - reflexivity.
    - reflexivity.
  Qed.
End Relabel.

(* the same for acached_per_instance *)
Section RelabelInst.
  Variable rho : Z -> Z.

  Definition rl_pop (o : pop) : pop :=
    match o with PCall id i c bl b => PCall id i c bl (rl_body rho b) | o => o end.
  Definition rl_pobs (x : res * Z * Z) : res * Z * Z := (rl_res rho (fst (fst x)), snd (fst x), snd x).

  Section KeyedInst.
    Variable K : Type.
    Definition rl_dict (d : idict K) : idict K := map (fun kv => (fst kv, rho (snd kv))) d.
    Definition rl_pstore (l : list (Z * idict K)) : list (Z * idict K) := map (fun x => (fst x, rl_dict (snd x))) l.
    Definition rl_pinfl (x : Z * Z * K * body) : Z * Z * K * body :=
      (fst (fst (fst x)), snd (fst (fst x)), snd (fst x), rl_body rho (snd x)).
    Definition rl_pstate (st : pstate K) : pstate K :=
      mkP (rl_pstore (pstore st)) (map rl_pinfl (pinfl st)) (pruns st).
  End KeyedInst.

  Section InstMap.
    Variables K1 K2 : Type.
    Variable eqb1 : K1 -> K1 -> bool.
    Variable eqb2 : K2 -> K2 -> bool.
    Variable f : K1 -> K2.
    Hypothesis eqb_f : forall a b, eqb2 (f a) (f b) = eqb1 a b.

    Definition md (d : idict K1) : idict K2 := map (fun kv => (f (fst kv), rho (snd kv))) d.
    Definition mp (l : list (Z * idict K1)) : list (Z * idict K2) := map (fun x => (fst x, md (snd x))) l.
    Definition mpi (x : Z * Z * K1 * body) : Z * Z * K2 * body :=
      (fst (fst (fst x)), snd (fst (fst x)), f (snd (fst x)), rl_body rho (snd x)).
    Definition mps (st : pstate K1) : pstate K2 := mkP (mp (pstore st)) (map mpi (pinfl st)) (pruns st).

    Lemma md_find d k : d_find K2 eqb2 (md d) (f k) = option_map rho (d_find K1 eqb1 d k).
    Proof. induction d as [|[a v] d IH]; cbn; auto. rewrite eqb_f. destruct (eqb1 a k); auto. Qed.
    Lemma md_set d k v : d_set K2 eqb2 (md d) (f k) (rho v) = md (d_set K1 eqb1 d k v).
    Proof. induction d as [|[a w] d IH]; cbn; auto. rewrite eqb_f. destruct (eqb1 a k); cbn; auto. f_equal; apply IH. Qed.
    Lemma mp_find l i : p_find K2 (mp l) i = option_map md (p_find K1 l i).
    Proof. induction l as [|[a d] l IH]; cbn; auto. destruct (a =? i); auto. Qed.
    Lemma mp_set l i d : p_set K2 (mp l) i (md d) = mp (p_set K1 l i d).
    Proof. induction l as [|[a d'] l IH]; cbn; auto. destruct (a =? i); cbn; auto. f_equal; apply IH. Qed.
    Lemma mp_remove l i : p_remove K2 (mp l) i = mp (p_remove K1 l i).
    Proof. induction l as [|[a d'] l IH]; cbn; auto. destruct (a =? i); cbn; auto. f_equal; apply IH. Qed.
    Lemma mp_ensure l i : p_ensure K2 (mp l) i = mp (p_ensure K1 l i).
    Proof. unfold p_ensure. rewrite mp_find. destruct (p_find K1 l i); cbn; auto. unfold mp. now rewrite map_app. Qed.
    Lemma mp_dict l i : p_dict K2 (mp l) i = md (p_dict K1 l i).
    Proof. unfold p_dict. rewrite mp_find. destruct (p_find K1 l i); auto. Qed.
    Lemma mp_store l i k v : p_store K2 eqb2 (mp l) i (f k) (rho v) = mp (p_store K1 eqb1 l i k v).
    Proof. unfold p_store. rewrite mp_find. destruct (p_find K1 l i); cbn [option_map]; auto. now rewrite md_set, mp_set. Qed.
    Lemma mp_total l : p_total K2 (mp l) = p_total K1 l.
    Proof. induction l as [|[a d] l IH]; cbn; auto. unfold md at 1. rewrite map_length. f_equal. apply IH. Qed.
    Lemma mpi_find l id i :
      pinfl_find K2 (map mpi l) id i = option_map (fun kb => (f (fst kb), rl_body rho (snd kb))) (pinfl_find K1 l id i).
    Proof. induction l as [|[[[a j] k] b] l IH]; cbn; auto. destruct ((a =? id) && (j =? i)); auto. Qed.
    Lemma mpi_remove l id i : pinfl_remove K2 (map mpi l) id i = map mpi (pinfl_remove K1 l id i).
    Proof. induction l as [|[[[a j] k] b] l IH]; cbn; auto. destruct ((a =? id) && (j =? i)); cbn; auto. f_equal; apply IH. Qed.
    Lemma mpi_busy l i : inst_busy K2 (map mpi l) i = inst_busy K1 l i.
    Proof. induction l as [|[[[a j] k] b] l IH]; cbn; auto. f_equal; apply IH. Qed.

    Variable kf1 : call -> option K1.
    Variable kf2 : call -> option K2.
    Variable valid : call -> bool.

    Definition pop_agrees (o : pop) : Prop :=
      match o with PCall _ _ c _ _ => kf2 c = option_map f (kf1 c) | _ => True end.

    Lemma pstep_map st o : pop_agrees o ->
      pstep K2 eqb2 kf2 valid (mps st) (rl_pop o) =
      (mps (fst (pstep K1 eqb1 kf1 valid st o)), rl_res rho (snd (pstep K1 eqb1 kf1 valid st o))).
    Proof.
      destruct st as [l inf rs]. destruct o as [id i c bl b|id i|i]; cbn [pstep rl_pop mps pstore pinfl pruns pop_agrees].
      - intros ->. rewrite mp_ensure. destruct (kf1 c) as [k|]; [|reflexivity]. cbn [option_map].
        rewrite mp_dict, md_find. destruct (d_find K1 eqb1 (p_dict K1 (p_ensure K1 l i) i) k); cbn [option_map]; [reflexivity|].
        destruct (negb (valid c)); [reflexivity|]. destruct bl.
        + unfold mps; cbn. now rewrite map_app.
        + destruct b as [v|e]; unfold mps; cbn; auto. now rewrite mp_store.
      - intros _. rewrite mpi_find. destruct (pinfl_find K1 inf id i) as [[k [v|e]]|]; unfold mps; cbn; auto.
        + now rewrite mp_store, mpi_remove.
        + now rewrite mpi_remove.
      - intros _. rewrite mpi_busy. destruct (inst_busy K1 inf i); unfold mps; cbn; auto. now rewrite mp_remove.
    Qed.

    Lemma prun_map ops : forall st, Forall pop_agrees ops ->
      prun K2 eqb2 kf2 valid (mps st) (map rl_pop ops) =
      (mps (fst (prun K1 eqb1 kf1 valid st ops)), map rl_pobs (snd (prun K1 eqb1 kf1 valid st ops))).
    Proof.
      induction ops as [|o ops IH]; intros st Ha; [reflexivity|]. inversion Ha; subst.
      cbn [map]. rewrite !prun_cons, pstep_map by assumption. cbn [fst snd]. rewrite IH by assumption.
      cbn [map rl_pobs fst snd mps pstore]. unfold mp at 1. now rewrite map_length, mp_total.
    Qed.
  End InstMap.

  Lemma pagrees_id K (kf : call -> option K) o : pop_agrees K K (fun k => k) kf kf o.
  Proof. destruct o; cbn; auto. destruct (kf c); reflexivity. Qed.

  Lemma rl_pstate_mps K st : rl_pstate K st = mps K K (fun k => k) st.
  Proof. reflexivity. Qed.

  Lemma prun_relabel K keqb kf valid ops (st : pstate K) :
    prun K keqb kf valid (rl_pstate K st) (map rl_pop ops) =
    (rl_pstate K (fst (prun K keqb kf valid st ops)), map rl_pobs (snd (prun K keqb kf valid st ops))).
  Proof.
    rewrite !rl_pstate_mps. apply (prun_map K K keqb keqb (fun k => k) (fun a b => eq_refl) kf kf).
    apply Forall_forall. intros o _. apply pagrees_id.
  Qed.
End RelabelInst.

(* the reference cache of the statement is the same LRU cache keyed on the bound arguments themselves *)
Definition ref_alru (s : sig) (cap : nat) (ops : list aop) :=
  arun bound bound_eqb (bind s) (bindable s) cap ainit ops.
Definition impl_alru (s : sig) (cap : nat) (ops : list aop) :=
  arun key key_eqb (alru_key false KmDefault s) (bindable s) cap ainit ops.

Definition all_bind (s : sig) (ops : list aop) : Prop :=
  Forall (fun o => match o with ACall _ c _ _ => bindable s c = true | AFinish _ => True end) ops.
Definition all_bind_inst (s : sig) (ops : list pop) : Prop :=
  Forall (fun o => match o with PCall _ _ c _ _ => bindable s c = true | _ => True end) ops.

Lemma enc_eqb a b : key_eqb (enc a) (enc b) = bound_eqb a b.
Proof.
  destruct (bound_eqb a b) eqn:E.
  - apply bound_eqb_spec in E. subst. now apply key_eqb_spec.
  - destruct (key_eqb (enc a) (enc b)) eqn:E2; auto. apply key_eqb_spec, enc_injective in E2. subst.
    rewrite (proj2 (bound_eqb_spec b b) eq_refl) in E. discriminate.
Qed.

Lemma default_key_bindable s c : bindable s c = true -> alru_key false KmDefault s c = option_map enc (bind s c).
Proof.
  unfold bindable. destruct (bind s c) as [b|] eqn:E; [|discriminate]. intros _. exact (default_key_normalises _ _ _ E).
Qed.

Lemma rl_aop_id ops : map (rl_aop (fun v => v)) ops = ops.
Proof. induction ops as [|[id c bl [v|e]|id] ops IH]; cbn; auto; now rewrite IH. Qed.
Lemma rl_obs_id rs : map (rl_obs (fun v => v)) rs = rs.
Proof. induction rs as [|[[] z] rs IH]; cbn; auto; now rewrite IH. Qed.

Lemma refines_reference s cap ops :
  all_bind s ops ->
  snd (impl_alru s cap ops) = snd (ref_alru s cap ops) /\
  runs (fst (impl_alru s cap ops)) = runs (fst (ref_alru s cap ops)).
Proof.
  intros H. unfold impl_alru, ref_alru.
  pose proof (arun_map (fun v => v) bound key bound_eqb key_eqb enc enc_eqb
                (bind s) (alru_key false KmDefault s) (bindable s) cap ops ainit) as L.
  rewrite rl_aop_id, rl_obs_id in L. change (ma _ _ _ _ ainit) with (@ainit key) in L. rewrite L; [auto|].
  eapply Forall_impl; [|exact H]. intros [id c bl b|id]; cbn; auto. apply default_key_bindable.
Qed.

Lemma rl_pop_id ops : map (rl_pop (fun v => v)) ops = ops.
Proof. induction ops as [|[id i c bl [v|e]|id i|i] ops IH]; cbn; auto; now rewrite IH. Qed.
Lemma rl_pobs_id rs : map (rl_pobs (fun v => v)) rs = rs.
Proof. induction rs as [|[[[] z] z'] rs IH]; cbn; auto; now rewrite IH. Qed.

(* acached_per_instance returns what per-instance dictionaries keyed on the bound arguments return *)
Lemma inst_refines_reference s ops :
  all_bind_inst s ops ->
  snd (prun key key_eqb (inst_key s) (bindable s) pinit ops) =
  snd (prun bound bound_eqb (bind s) (bindable s) pinit ops) /\
  pruns (fst (prun key key_eqb (inst_key s) (bindable s) pinit ops)) =
  pruns (fst (prun bound bound_eqb (bind s) (bindable s) pinit ops)).
Proof.
  intros H.
  pose proof (prun_map (fun v => v) bound key bound_eqb key_eqb enc enc_eqb
                (bind s) (inst_key s) (bindable s) ops pinit) as L.
  rewrite rl_pop_id, rl_pobs_id in L. change (mps _ _ _ _ pinit) with (@pinit key) in L. rewrite L; [auto|].
  eapply Forall_impl; [|exact H]. intros [id i c bl b|id i|i]; cbn; auto. apply default_key_bindable.
Qed.

Definition dkey (s : sig) : call -> option key := alru_key false KmDefault s.

(* for the repaired default key, "same key" means "same bound arguments": a value served to a call that
   binds was computed by an earlier call with exactly the same bound arguments *)
Lemma prov_same_bound s pre c k v :
  dkey s c = Some k -> bindable s c = true ->
  prov key (dkey s) (bindable s) pre k v ->
  exists id c' bl, In (ACall id c' bl (BRet v)) pre /\ bind s c' = bind s c /\ bind s c <> None.
Proof.
  intros Hk Hb (id & c' & bl & Hin & Hk' & Hv'). exists id, c', bl. split; auto.
  unfold bindable in *. destruct (bind s c) as [b|] eqn:E; [|discriminate].
  destruct (bind s c') as [b'|] eqn:E'; [|discriminate].
  unfold dkey in *. rewrite (default_key_normalises _ _ _ E) in Hk. rewrite (default_key_normalises _ _ _ E') in Hk'.
  assert (enc b = enc b') by congruence. apply enc_injective in H. subst. split; [reflexivity|discriminate].
Qed.

Fixpoint hits_same_bound (s : sig) (pre ops : list aop) (rs : list (res * Z)) : Prop :=
  match ops, rs with
  | o :: ops', rz :: rs' =>
    (forall v id c bl b, fst rz = RHit v -> o = ACall id c bl b -> bindable s c = true ->
       exists id' c' bl', In (ACall id' c' bl' (BRet v)) pre /\ bind s c' = bind s c) /\
    hits_same_bound s (pre ++ [o]) ops' rs'
  | _, _ => True
  end.

Lemma hits_same_bound_of s ops : forall pre rs,
  hits_justified key (dkey s) (bindable s) pre ops rs -> hits_same_bound s pre ops rs.
Proof.
  induction ops as [|o ops IH]; intros pre [|rz rs] H; cbn in *; auto.
  destruct H as [H1 H2]. split; auto.
  intros v id c bl b Hr Ho Hb. destruct (H1 v Hr) as (id0 & c0 & bl0 & b0 & k & Ho' & Hk & Hp).
  rewrite Ho in Ho'. inversion Ho'; subst.
  destruct (prov_same_bound _ _ _ _ _ Hk Hb Hp) as (i & c' & bl' & A & B & _). eauto.
Qed.

(* the hypotheses are satisfiable; the
   model reproduces the defect of tools.py before /repo 5f87390 and the construction of /repo removes it *)
Definition ex_ops : list aop :=
  [ACall 0 (mkCall [1] []) false (BRet 100); ACall 1 (mkCall [1] [(1, 3)]) false (BRet 101);
   ACall 2 (mkCall [1; 2] []) false (BRet 102); ACall 3 (mkCall [] [(0, 1)]) true (BRet 103); AFinish 3].

(* the key construction of tools.py before /repo 5f87390 ([alru_key true]) is refuted: one signature, def f(a, b=2) *)
Definition sig_ab2 : sig := mkSig [(0, None); (1, Some 2)] [] false.

Example ex_all_bind : all_bind sig_ab2 ex_ops.
Proof. repeat constructor. Qed.

Example ex_repaired :
  run_case (CAlru KmDefault 128 sig_ab2 ex_ops) =
  OAlru [(RMiss 100, 1); (RMiss 101, 2); (RHit 100, 2); (RHit 100, 2); (RNoop, 2)] [0; 1].
Proof. vm_compute. reflexivity. Qed.

Example ex_tree_cross_talk :
  run_case_src (CAlru KmDefault 128 sig_ab2 ex_ops) =
  OAlru [(RMiss 100, 1); (RHit 100, 1); (RMiss 102, 2); (RPending, 2); (RDone 103, 3)] [0; 2; 3].
Proof. vm_compute. reflexivity. Qed.

Example ex_quiet : quiet (10 =? 0) 10 [LCall 1 false (BRet 5); LTick 4; LCall 2 true (BRaise 7); LTick 6; LCall 3 false (BRet 9)].
Proof. cbn. repeat split; auto; lia. Qed.

Example ex_idle : inst_busy key (pinfl (fst (prun key key_eqb (inst_key sig_ab2) (bindable sig_ab2) pinit
                     [PCall 0 1 (mkCall [1] []) true (BRet 100); PFinish 0 1]))) 1 = false.
Proof. vm_compute. reflexivity. Qed.

Lemma nth_error_upd_same {A} (l : list A) : forall f x a, nth_error l f = Some a -> nth_error (upd l f x) f = Some x.
Proof. induction l as [|y l IH]; intros [|f] x a H; cbn in *; try discriminate; eauto. Qed.

Lemma nth_error_upd_other {A} (l : list A) : forall f g x, f <> g -> nth_error (upd l f x) g = nth_error l g.
Proof. induction l as [|y l IH]; intros [|f] [|g] x H; cbn; auto; try congruence. Qed.

Definition proj {O} (f : nat) (ops : list (nat * O)) : list O :=
  map snd (filter (fun fo => (fst fo =? f)%nat) ops).

Section FamilyProofs.
  Variable K : Type.
  Variable keqb : K -> K -> bool.
  Variable kfs : nat -> call -> option K.
  Variable valids : nat -> call -> bool.
  Variable caps : nat -> nat.

  Notation mstep := (mstep K keqb kfs valids caps).
  Notation mrun := (mrun K keqb kfs valids caps).
  Notation astep_of f := (astep K keqb (kfs f) (valids f) (caps f)).
  Notation arun_of f := (arun K keqb (kfs f) (valids f) (caps f)).

  Lemma mrun_cons st o ops :
    mrun st (o :: ops) =
    (fst (mrun (fst (mstep st o)) ops), (snd (mstep st o), msizes K (fst (mstep st o))) :: snd (mrun (fst (mstep st o)) ops)).
  Proof. cbn. destruct (mstep st o) as [s1 r]. cbn. destruct (mrun s1 ops). reflexivity. Qed.

  (* an operation on function f leaves the cache machine of every other function untouched *)
  Lemma mstep_other st f o g : g <> f -> nth_error (mfns (fst (mstep st (f, o)))) g = nth_error (mfns st) g.
  Proof.
    intros H. unfold Cache.mstep. cbn [fst snd]. destruct (nth_error (mfns st) f) as [a|]; auto.
    destruct (astep_of f a o) as [a' r]. cbn. apply nth_error_upd_other. congruence.
  Qed.

  (* ... and on f's own machine it is exactly the single-function wrapper step *)
  Lemma mstep_own st f o a : nth_error (mfns st) f = Some a ->
    mstep st (f, o) = (mkM (upd (mfns st) f (fst (astep_of f a o)))
                           (mlog st ++ tag_runs f (runs a) (runs (fst (astep_of f a o)))), snd (astep_of f a o)).
  Proof. intros H. unfold Cache.mstep. cbn [fst snd]. rewrite H. destruct (astep_of f a o) as [a' r]. reflexivity. Qed.

  (* what function f observes in an interleaved history: the results of its own operations and the size of
     its own cache after each of them *)
  Fixpoint obs_on (f : nat) (ops : list (nat * aop)) (rs : list (res * list Z)) : list (res * Z) :=
    match ops, rs with
    | fo :: ops', (r, sz) :: rs' =>
      if (fst fo =? f)%nat then (r, nth f sz 0) :: obs_on f ops' rs' else obs_on f ops' rs'
    | _, _ => []
    end.

  Lemma family_projection_gen ops : forall st f a, nth_error (mfns st) f = Some a ->
    nth_error (mfns (fst (mrun st ops))) f = Some (fst (arun_of f a (proj f ops))) /\
    obs_on f ops (snd (mrun st ops)) = snd (arun_of f a (proj f ops)).
  Proof.
    induction ops as [|[g o] ops IH]; intros st f a H; [cbn; auto|].
    rewrite mrun_cons. unfold proj. cbn [filter fst snd obs_on]. fold (proj f ops).
    destruct (Nat.eqb_spec g f) as [->|N].
    - cbn [map snd]. rewrite arun_cons, (mstep_own st f o a H). cbn [fst snd mfns].
      pose proof (nth_error_upd_same _ f (fst (astep_of f a o)) a H) as Hc.
      destruct (IH (mkM (upd (mfns st) f (fst (astep_of f a o))) (mlog st ++ tag_runs f (runs a) (runs (fst (astep_of f a o)))))
                   f _ Hc) as [IH1 IH2].
      split; [exact IH1|]. rewrite IH2. do 2 f_equal. unfold msizes. cbn [mfns].
      exact (nth_error_nth _ _ 0 (map_nth_error (fun a => Z.of_nat (length (store a))) _ _ Hc)).
    - rewrite <- (mstep_other st g o f) in H by auto. exact (IH _ f a H).
  Qed.

  (* the body-run log: the entries tagged f are exactly the body runs of f's own cache machine, in order:
     a miss of function f runs the body of function f *)
  Definition log_of (f : nat) (l : list (Z * Z)) : list Z :=
    map fst (filter (fun p => snd p =? Z.of_nat f) l).

  Lemma log_of_app f a b : log_of f (a ++ b) = log_of f a ++ log_of f b.
  Proof. unfold log_of. now rewrite filter_app, map_app. Qed.

  Lemma log_of_tag f g b a : log_of f (tag_runs g b a) = if Nat.eqb g f then skipn (length b) a else [].
  Proof.
    unfold log_of, tag_runs. induction (skipn (length b) a) as [|x l IH]; cbn; [now destruct (g =? f)%nat|].
    destruct (Nat.eqb_spec g f) as [->|N].
    - rewrite Z.eqb_refl. cbn. now rewrite IH.
    - destruct (Z.eqb_spec (Z.of_nat g) (Z.of_nat f)); [lia | exact IH].
  Qed.

  (* a step only appends to the body-run log *)
  Lemma astep_runs kf valid cap (a : astate K) o : exists d, runs (fst (astep K keqb kf valid cap a o)) = runs a ++ d.
  Proof.
    assert (Q : exists d, runs a = runs a ++ d) by (exists []; now rewrite app_nil_r).
    destruct o as [id c bl b|id]; cbn.
    - destruct (kf c) as [k|]; cbn; auto.
      destruct (lru_getitem K keqb (store a) k (tick a)) as [[v l']|]; cbn; auto.
      destruct (negb (valid c)); cbn; auto. destruct bl; cbn; eauto. destruct b; cbn; eauto.
    - destruct (infl_find K (infl a) id) as [[k [v|e]]|]; cbn; auto.
  Qed.

  Definition log_inv (st : mstate K) : Prop :=
    forall f a, nth_error (mfns st) f = Some a -> log_of f (mlog st) = runs a.

  Lemma log_inv_step st fo : log_inv st -> log_inv (fst (mstep st fo)).
  Proof.
    destruct fo as [g o]. intros I f a' H.
    destruct (nth_error (mfns st) g) as [a|] eqn:Eg; [|unfold Cache.mstep in *; cbn [fst snd] in *; rewrite Eg in *; now apply I].
    rewrite (mstep_own st g o a Eg) in *. cbn [fst mfns mlog] in *. rewrite log_of_app, log_of_tag.
    destruct (Nat.eqb_spec g f) as [->|N].
    - rewrite (nth_error_upd_same _ _ _ _ Eg) in H. inversion H; subst a'.
      destruct (astep_runs (kfs f) (valids f) (caps f) a o) as [d ->].
      now rewrite (I f a Eg), skipn_app, Nat.sub_diag, skipn_all.
    - rewrite nth_error_upd_other in H by exact N. rewrite app_nil_r. now apply I.
  Qed.

  Lemma log_inv_run ops : forall st, log_inv st -> log_inv (fst (mrun st ops)).
  Proof. induction ops as [|o ops IH]; intros st I; [exact I|]. rewrite mrun_cons. apply IH, log_inv_step, I. Qed.
End FamilyProofs.

Lemma mpstep_other K keqb kfs valids (st : mpstate K) f o g :
  (forall i, o <> PDrop i) -> g <> f ->
  nth_error (mpfns (fst (mpstep K keqb kfs valids st (f, o)))) g = nth_error (mpfns st) g.
Proof.
  intros Hd H. unfold mpstep. cbn [fst snd].
  destruct o as [id i c bl b|id i|i]; [| |now destruct (Hd i)];
    (destruct (nth_error (mpfns st) f) as [p|]; auto;
     destruct (pstep K keqb (kfs f) (valids f) p _) as [p' r]; cbn; apply nth_error_upd_other; congruence).
Qed.

(* Drop of an idle instance removes it from the cache of every method; a busy one is kept everywhere *)
Lemma mpstep_drop K keqb kfs valids (st : mpstate K) f i :
  let st' := fst (mpstep K keqb kfs valids st (f, PDrop i)) in
  (existsb (fun p => inst_busy K (pinfl p) i) (mpfns st) = true -> st' = st) /\
  (existsb (fun p => inst_busy K (pinfl p) i) (mpfns st) = false ->
   forall g p, nth_error (mpfns st) g = Some p ->
     nth_error (mpfns st') g = Some (mkP (p_remove K (pstore p) i) (pinfl p) (pruns p))).
Proof.
  unfold mpstep. cbn [fst snd].
  destruct (existsb (fun p => inst_busy K (pinfl p) i) (mpfns st)); cbn; split; intros; try discriminate; auto.
  exact (map_nth_error (fun p => mkP (p_remove K (pstore p) i) (pinfl p) (pruns p)) g (mpfns st) H0).
Qed.

Fixpoint own_decos {A} (k : nat) (fns : list (nat * A)) : list (nat * A) :=
  match fns with [] => [] | (_, a) :: fns' => (k, a) :: own_decos (S k) fns' end.

Lemma resolve_own {D A} (dflt : D) decos (fns : list (nat * A)) : forall pre,
  resolve dflt (pre ++ map (fun fa => nth (fst fa) decos dflt) fns) (own_decos (length pre) fns) = resolve dflt decos fns.
Proof.
  unfold resolve. induction fns as [|[d a] fns IH]; intros pre; cbn; auto.
  f_equal.
  - rewrite app_nth2, Nat.sub_diag by lia. reflexivity.
  - specialize (IH (pre ++ [nth d decos dflt])). rewrite app_length in IH. cbn in IH.
    rewrite Nat.add_1_r, <- app_assoc in IH. exact IH.
Qed.

(* `memo = alru_cache(maxsize=2)` on f and g, both `def (a, b=1)`: f(1), f(1, b=1), g(1), g(a=1) *)
Definition ex_family : ccase :=
  let s := mkSig [(0, None); (1, Some 1)] [] false in
  CAlruM [(KmDefault, 2)] [(0%nat, s); (0%nat, s)]
    [(0%nat, ACall 0 (mkCall [1] []) false (BRet 100)); (0%nat, ACall 1 (mkCall [1] [(1, 1)]) false (BRet 101));
     (1%nat, ACall 2 (mkCall [1] []) false (BRet 102)); (1%nat, ACall 3 (mkCall [] [(0, 1)]) false (BRet 103))].
Example ex_family_runs :
  run_case ex_family = OAlruM [(RMiss 100, [1; 0]); (RHit 100, [1; 0]); (RMiss 102, [1; 1]); (RHit 102, [1; 1])]
                              [(0, 0); (2, 1)].
Proof. vm_compute. reflexivity. Qed.

Definition lkeep (f : nat) (fo : nat * lop) : bool :=
  match snd fo with LTick _ => true | _ => (fst fo =? f)%nat end.
Definition lproj (f : nat) (ops : list (nat * lop)) : list lop := map snd (filter (lkeep f) ops).
Fixpoint lobs_on (f : nat) (ops : list (nat * lop)) (rs : list res) : list res :=
  match ops, rs with
  | fo :: ops', r :: rs' => if lkeep f fo then r :: lobs_on f ops' rs' else lobs_on f ops' rs'
  | _, _ => []
  end.

Lemma mlrun_cons ttls st o ops :
  mlrun ttls st (o :: ops) =
  (fst (mlrun ttls (fst (mlstep ttls st o)) ops), snd (mlstep ttls st o) :: snd (mlrun ttls (fst (mlstep ttls st o)) ops)).
Proof. cbn. destruct (mlstep ttls st o) as [s1 r]. cbn. destruct (mlrun ttls s1 ops). reflexivity. Qed.

(* function f's own operations and the clock ticks step f's machine as they would on its own ... *)
Lemma mlstep_keep ttls st g o f l : lkeep f (g, o) = true -> nth_error (mlfns st) f = Some l ->
  nth_error (mlfns (fst (mlstep ttls st (g, o)))) f = Some (fst (lstep (ttls f) l o)) /\
  snd (mlstep ttls st (g, o)) = snd (lstep (ttls f) l o).
Proof.
  unfold lkeep, mlstep. cbn [fst snd]. intros Hk H.
  destruct o as [id bl b|id| |dt]; try (apply Nat.eqb_eq in Hk; subst g; rewrite H;
    destruct (lstep (ttls f) l _) as [l' r]; cbn; split; [eapply nth_error_upd_same; eauto | reflexivity]).
  split; [|reflexivity]. exact (map_nth_error (fun l => fst (lstep 0 l (LTick dt))) f (mlfns st) H).
Qed.

(* ... and no other operation touches it *)
Lemma mlstep_other ttls (st : mlstate) f o g :
  (forall dt, o <> LTick dt) -> g <> f ->
  nth_error (mlfns (fst (mlstep ttls st (f, o)))) g = nth_error (mlfns st) g.
Proof.
  intros Hd H. unfold mlstep. cbn [fst snd].
  destruct o as [id bl b|id| |dt]; [| | |now destruct (Hd dt)];
    (destruct (nth_error (mlfns st) f) as [l|]; auto;
     destruct (lstep (ttls f) l _) as [l' r]; cbn; apply nth_error_upd_other; congruence).
Qed.

(* in particular dirty() of one lazy constant does not force a recomputation of another one *)
Lemma mlstep_dirty_other ttls st f g l :
  g <> f -> nth_error (mlfns st) g = Some l ->
  nth_error (mlfns (fst (mlstep ttls st (f, LDirty)))) g = Some l.
Proof. intros H Hl. rewrite mlstep_other; auto. intros dt; discriminate. Qed.

Lemma lazy_family_projection_gen ttls ops : forall st f l, nth_error (mlfns st) f = Some l ->
  nth_error (mlfns (fst (mlrun ttls st ops))) f = Some (fst (lrun (ttls f) l (lproj f ops))) /\
  lobs_on f ops (snd (mlrun ttls st ops)) = snd (lrun (ttls f) l (lproj f ops)).
Proof.
  induction ops as [|[g o] ops IH]; intros st f l H; [cbn; auto|].
  rewrite mlrun_cons. unfold lproj. cbn [filter lobs_on]. fold (lproj f ops).
  destruct (lkeep f (g, o)) eqn:Ek.
  - destruct (mlstep_keep ttls st g o f l Ek H) as [Hc Hr]. cbn [map snd]. rewrite lrun_cons, Hr.
    destruct (IH _ f _ Hc) as [IH1 IH2]. cbn [fst snd]. now rewrite IH2.
  - apply IH. rewrite mlstep_other; auto; unfold lkeep in Ek; cbn [fst snd] in Ek.
    + intros dt ->. discriminate.
    + intros ->. destruct o; try discriminate; rewrite Nat.eqb_refl in Ek; discriminate.
Qed.

(* `f(1)` three times with a body that returns payload 9001 (None in the harness): Miss, Hit, Hit *)
Example ex_payload_hit :
  snd (arun key key_eqb (alru_key false KmDefault sig_ab2) (bindable sig_ab2) 2 ainit
         [ACall 0 (mkCall [1] []) false (BRet 9001); ACall 1 (mkCall [1] []) false (BRet 9001);
          ACall 2 (mkCall [] [(0, 1)]) false (BRet 9001)]) = [(RMiss 9001, 1); (RHit 9001, 1); (RHit 9001, 1)].
Proof. vm_compute. reflexivity. Qed.
