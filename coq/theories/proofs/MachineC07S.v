(* C07 on the scheduler machine for tree programs WITH SYNCHRONOUS CALLS (MachineC01S.stree) whose with-blocks are
   well nested (MachineC06S.wns): the active periods of asynq contexts are nested LIFO across all tasks of the
   thread; a scoped value read inside a task is that of the innermost enclosing override in that task, in the
   tasks awaiting it or in the callers that (transitively) called it synchronously - exactly as in synchronous
   code; at a flush of the OUTERMOST scheduler loop and at the end every scoped value is back to what it was.
   At a flush issued by a loop NESTED in a synchronous call the callers (and the tasks awaiting them) keep their
   overrides applied: "back to base at every flush" is FALSE for stree (refuted below), the true statement says
   exactly which layers are applied.

   Route: the ghost list [MachineC07.layers s] lists the contexts of the uncomputed tasks on the scheduler's stack whose
   _contexts_active flag is set, bottom of the stack first, entry order inside a task; the invariant is
   [MachineC07.vars_ok].  With synchronous calls the stack decomposes along the FValue frames
   (MachineDFSS.stk); the callers stay on the stack below the callee's segment with their flag set, so their layers
   stay in [layers] while the nested loop runs.  The invariant is carried over
     MachineC04S.DLS  (MachineDFSS.FLS = MachineC01S.CI + the flag/stack invariant; plus the pass invariant, from
                       which: the stack has no duplicates, everything on it is allocated, the dependencies pushed
                       by a first visit are not on the stack, everything on the stack below a nested loop is older
                       than the loop's root), and
     MachineC06S.WI   (context ids of a task are distinct, the suspended continuations / the running body are well
                       nested with the task's open list).
   The new transitions (Let (FTask q) / Sync -> MValue -> MWaitHead ..., MDeliver into FValue) push and pop no layer.

   The 'owners await' clause uses the relation [awaits] (dependency links and synchronous-call links) and the
   invariant AWc (MachineC07.AWs per segment of the stack, [awl] along the FValue frames).
   The last section specialises the theorems to yield-only tree programs (tree p is stree p, wn is wns, no task is ever
   inside value()). *)
From Asynq Require Import Machine proofs.MachineFrame proofs.MachineC05 proofs.MachineC08 proofs.MachineC01
  proofs.MachineC01S proofs.MachineDFS proofs.MachineC04 proofs.MachineC07 proofs.MachineC06T
  proofs.MachineDFSS proofs.MachineC06S proofs.MachineC04S.

Lemma task_layers_tbc s s' t : task_back s s' -> utask_fwd s s' -> task_layers s' t = task_layers s t.
Proof.
  intros TB UF.
  destruct (get t s) as [[[o|] [tk|k1 k2 k3 k4|o'|]]|] eqn:Hg;
    try (assert (E : task_layers s t = []) by (unfold task_layers; rewrite Hg; reflexivity); rewrite E;
         apply task_layers_inactive; intros tk' Hg'; apply TB in Hg'; rewrite Hg in Hg'; discriminate).
  unfold task_layers. rewrite (UF t tk Hg), Hg. reflexivity.
Qed.

Lemma layers_tbc s s' : tbc s s' -> tasks s' = tasks s -> layers s' = layers s.
Proof.
  intros (TB & UF & _) Ht. rewrite !layers_lower, Ht. apply lower_ext. intros t _. apply task_layers_tbc; assumption.
Qed.

(* for plain contexts (forallb plain_ctx), like MachineC06T.toggle_entry *)
Lemma resume_topP base s x ts tk :
  forallb plain_ctx (tk_ctxs tk) = true -> tasks s = x :: ts -> ~ In x ts -> get x s = Some (mkFut None (KTask tk)) ->
  NoDup (map cid_of (tk_ctxs tk)) -> vars_ok base s ->
  let s' := resume_contexts x s in
  vars_ok base s' /\ layers s' = layers s ++ (if tk_cact tk then [] else map (pair x) (tk_ctxs tk)).
Proof.
  intros Hp Hts Hnx Hg Hnd HV. cbn zeta. destruct (tk_cact tk) eqn:Hc.
  - replace (resume_contexts x s) with s by (unfold resume_contexts, get_task; rewrite Hg, Hc; reflexivity).
    rewrite app_nil_r. split; [exact HV|reflexivity].
  - pose proof (resume_tupd x s None tk (plain_noraise _ Hp) Hg) as U.
    assert (E : layers s = lower s ts).
    { rewrite (layers_cons s x ts Hts), (task_layers_inactive s x); [apply app_nil_r|]. intros tk' Hg'. congruence. }
    assert (Hl' : layers (resume_contexts x s) = layers s ++ map (pair x) (tk_ctxs tk)).
    { rewrite (layers_top s _ x ts Hnx); [|rewrite (tupd_tasks _ _ _ _ _ U); exact Hts|exact (tupd_other _ _ _ _ _ U)].
      rewrite (task_layers_active _ x _ (tupd_get _ _ _ _ _ U) eq_refl), E. reflexivity. }
    split; [|exact Hl']. unfold vars_ok. rewrite Hl', (resume_contexts_eq x s None tk Hg Hp Hc).
    apply fold_resume_VOs; [exact Hp|apply (VOs_vc base s); [apply scoped_set_task|exact HV]|exact Hnd|].
    intros c Hc' Hin. rewrite E in Hin. apply lower_keys in Hin. contradiction.
Qed.

Lemma pause_topP base s x ts tk :
  forallb plain_ctx (tk_ctxs tk) = true -> tasks s = x :: ts -> ~ In x ts -> get x s = Some (mkFut None (KTask tk)) ->
  tk_cact tk = true -> vars_ok base s ->
  let s' := pause_contexts x s in
  VOs base s' (lower s ts) /\ lower s' ts = lower s ts /\ layers s = lower s ts ++ map (pair x) (tk_ctxs tk).
Proof.
  intros Hp Hts Hnx Hg Hc HV. cbn zeta.
  pose proof (pause_tupd x s None tk (plain_noraise _ Hp) Hg) as U.
  pose proof (top_layers s x ts tk Hts Hg Hc) as E.
  split; [|split; [|exact E]].
  - rewrite (pause_contexts_eq x s None tk Hg Hp Hc). apply fold_pause_VOs; [exact Hp|].
    apply (VOs_vc base s); [apply scoped_set_task|]. unfold vars_ok in HV. rewrite E in HV. exact HV.
  - apply lower_ext. intros h Hh. apply task_layers_get, (tupd_other _ _ _ _ _ U). intros ->. contradiction.
Qed.

(* at every non-final configuration: the stack has no duplicates, everything on it is allocated, every
   uncompleted task whose contexts are active is on it, and a task whose dependencies are scheduled has its contexts active *)
Definition stack_facts (s : st) : Prop :=
  NoDup (tasks s) /\ (forall d, In d (tasks s) -> get d s <> None) /\
  (forall u tk, get u s = Some (mkFut None (KTask tk)) -> tk_cact tk = true -> In u (tasks s)) /\
  (forall u tk, get u s = Some (mkFut None (KTask tk)) -> tk_ds tk = true -> tk_cact tk = true).

Lemma stack_facts_intro s F E : NoDup (tasks s) -> (forall d, In d (tasks s) -> get d s <> None) -> fl s F E -> stack_facts s.
Proof.
  intros Hn Ha Hfl. split; [exact Hn|]. split; [exact Ha|]. split.
  - intros u tk Hg Hc. apply (proj1 (Hfl u tk Hg)). right. exact Hc.
  - intros u tk Hg Hd. apply (proj1 (proj2 (Hfl u tk Hg))). exact Hd.
Qed.

Lemma dls_facts res spec S c : DLS res spec S c ->
  match c_mode c with MUnwind _ | MDone _ | MStuck => True | _ => stack_facts (c_st c) end.
Proof.
  intros ((HC & HK) & HW). destruct c as [m fr s]. unfold stackC in HK. cbn [c_mode c_frames c_st] in *.
  assert (HL : forall b fr' F E, lvls s b (tasks s) fr' -> fl s F E -> stack_facts s).
  { intros b fr' F E HL. apply stack_facts_intro; [apply (lvls_nodup _ _ _ _ HL)|apply (lvls_alloc _ _ _ _ HL)]. }
  assert (HI : forall r i vs Rn seg below F E, inner r i vs S Rn seg below s -> fl s F E -> stack_facts s).
  { intros r i vs Rn seg below F E (Hts & _ & HPk & _).
    apply stack_facts_intro; rewrite Hts; [apply (pw_nodup _ _ _ _ _ _ _ HPk)|apply (pw_alloc _ _ _ _ _ _ _ HPk)]. }
  destruct m; try exact I; destruct HW as (_ & HW); cbn [modeW stackS] in HW, HK.
  - exact (HL _ _ _ _ HW (proj1 (proj2 HK))).
  - destruct HK as (r & vs & _ & _ & Hfl & _). destruct HW as (r' & vs' & _ & HW). exact (HL _ _ _ _ HW Hfl).
  - destruct HK as (r & vs & _ & _ & Hfl & _). destruct HW as (r' & vs' & _ & HW & _). exact (HL _ _ _ _ HW Hfl).
  - destruct HK as (i & r & vs & seg0 & below0 & _ & _ & _ & _ & Hfl & _).
    destruct HW as (i' & r' & vs' & seg & below & _ & HW). exact (HI _ _ _ _ _ _ _ _ HW Hfl).
  - destruct HK as (old & i & r & vs & rest0 & below0 & _ & _ & _ & _ & Hfl & _).
    destruct HW as (old' & i' & r' & vs' & rest & below & _ & HW & _). exact (HI _ _ _ _ _ _ _ _ HW Hfl).
  - destruct HK as (old & i & r & vs & rest0 & below0 & _ & _ & _ & _ & Hfl & _).
    destruct HW as (old' & i' & r' & vs' & rest & below & _ & HW & _). exact (HI _ _ _ _ _ _ _ _ HW Hfl).
  - destruct HK as (t & old & i & r & vs & rest0 & below0 & _ & _ & _ & _ & Hfl & _).
    destruct HW as (t' & old' & i' & r' & vs' & rest & below & _ & HW & _). exact (HI _ _ _ _ _ _ _ _ HW Hfl).
  - destruct HW as (b & HW). exact (HL _ _ _ _ HW (proj1 (proj2 HK))).
Qed.

(* at the head of the _execute loop, for the entry x on top of the stack when the loop goes on: x is not a caller
   suspended in value(), and the uncomputed dependencies a first visit of x pushes are not on the stack *)
Lemma dls_exec_view res spec S fr s : DLS res spec S (mkC MExecLoop fr s) ->
  exists i r vs, fr = FExec i :: FWait r :: vs /\ SI spec (fun x => In x (fvals vs)) s /\ stack_facts s /\
    forall x ts, tasks s = x :: ts -> (i < length (tasks s))%nat ->
      ~ In x (fvals vs) /\
      forall tk, get x s = Some (mkFut None (KTask tk)) -> tk_ds tk = false ->
        forall d, In d (filter (fun d => negb (computed d s)) (tk_deps tk)) ->
          In d (tk_deps tk) /\ d <> x /\
          forall tkd, get d s = Some (mkFut None (KTask tkd)) -> tk_ds tkd = false /\ tk_cact tkd = false.
Proof.
  intros HD. pose proof (dls_facts _ _ _ _ HD) as HF. cbn [c_mode c_st] in HF.
  destruct HD as (((Hf & HS & _) & _) & _ & HW). cbn [c_mode c_frames c_st modeW] in *.
  destruct HW as (i & r & vs & seg & below & -> & Hts & _ & HPk & _).
  destruct Hf as (i' & r' & vs' & Efr & Hlv). injection Efr as <- <- <-. cbn [R_of fvals] in HS.
  exists i, r, vs. split; [reflexivity|]. split; [exact HS|]. split; [exact HF|]. intros x ts E Hi.
  assert (HxR : ~ In x (fvals vs)).
  { intros Hin. assert (Hxr : (fnum r <= fnum x)%Z) by (apply (proj1 Hlv); rewrite E in *; apply hi_top; cbn [length] in Hi; lia).
    pose proof (wt_ok_fvals _ _ _ _ _ (proj2 Hlv) x Hin). lia. }
  split; [exact HxR|]. intros tk Hg Hds d Hd. apply filter_In in Hd as [Hd Hcd]. apply negb_true_iff in Hcd. split; [exact Hd|].
  assert (HSx : ~ S x) by (intros HSx; apply (pw_off _ _ _ _ _ _ _ HPk x HSx); rewrite <- Hts, E; left; reflexivity).
  pose proof (proj2 (pw_white _ _ _ _ _ _ _ HPk x tk I Hg Hds HxR HSx d Hd Hcd)) as Hnin. rewrite <- Hts in Hnin.
  destruct HF as (_ & _ & Hact & Hdc). split; [intros ->; apply Hnin; rewrite E; left; reflexivity|]. intros tkd Hgd.
  split; [destruct (tk_ds tkd) eqn:Ed; [exfalso; apply Hnin, (Hact d tkd Hgd), (Hdc d tkd Hgd Ed)|reflexivity]|].
  destruct (tk_cact tkd) eqn:Ed; [exfalso; apply Hnin, (Hact d tkd Hgd Ed)|reflexivity].
Qed.

(* while code of t runs: t is on top of the stack, its entry is there and its contexts are active; so are those of the
   callers suspended in value(), which are below t on the stack *)
Lemma dls_run_view res spec S t p fr s : DLS res spec S (mkC (MRun t p) fr s) ->
  exists old i r vs rest tk, fr = FCont t old :: FExec i :: FWait r :: vs /\ tasks s = t :: rest /\ ~ In t rest /\
    get t s = Some (mkFut None (KTask tk)) /\ tk_cact tk = true /\ SI spec (fun x => In x (t :: fvals vs)) s /\
    (forall d, In d (tasks s) -> get d s <> None) /\ (stree p \/ exists h k, p = Sync h k) /\
    (forall x, In x (fvals vs) -> In x rest /\ exists tkx, get x s = Some (mkFut None (KTask tkx)) /\ tk_cact tkx = true).
Proof.
  intros HD. pose proof (dls_facts _ _ _ _ HD) as (Hnodup & Halloc & _ & _). cbn [c_mode c_st] in Hnodup, Halloc.
  destruct HD as (((_ & HS & Hm) & HK) & _). cbn [c_mode c_frames c_st] in *.
  unfold stackC in HK. cbn [c_mode c_frames c_st stackS] in HK.
  destruct HK as (old & i & r & vs & rest0 & below & -> & Hts & _ & Hstk & _ & Hown). cbn [R_of fvals] in HS.
  destruct (Hown t (or_introl eq_refl)) as (tk & Hg & Hcact).
  exists old, i, r, vs, (rest0 ++ below), tk. split; [reflexivity|]. split; [exact Hts|].
  split; [rewrite Hts in Hnodup; inversion Hnodup; assumption|]. repeat (split; [assumption|]).
  split; [destruct Hm as [(Htree & _)|(h & k & _ & -> & _)]; eauto|].
  intros x Hx. split; [apply in_or_app; right; apply (stk_fvals _ _ Hstk x Hx)|apply (Hown x (or_intror Hx))].
Qed.

(* at MResume t the entry of t is an uncompleted task suspended at a continuation; the step writes that entry only, and
   neither its contexts nor its flag *)
Lemma dls_resume_view P res spec S t fr s : DLS res spec S (mkC (MResume t) fr s) ->
  exists tk tk' q s2, get t s = Some (mkFut None (KTask tk)) /\ step P (mkC (MResume t) fr s) = mkC (MRun t q) fr s2 /\
    tupd s s2 t None tk' /\ tk_ctxs tk' = tk_ctxs tk /\ tk_cact tk' = tk_cact tk.
Proof.
  intros (((Hf & HS & (tk & Hg & _)) & _) & _). cbn [c_mode c_frames c_st] in *.
  destruct Hf as (old & i & r & vs & -> & Hrt & Hlv). cbn [R_of fvals] in HS.
  assert (HtR : ~ In t (fvals vs)) by (intros Hin; pose proof (wt_ok_fvals _ _ _ _ _ (proj2 Hlv) t Hin); lia).
  destruct (SI_entry _ _ _ _ _ HS Hg) as (_ & ot & _ & _ & _ & _ & Hk). cbn in Hk. destruct (Hk eq_refl HtR) as (k & K1 & _).
  destruct (step_MResume P t (FCont t old :: FExec i :: FWait r :: vs) s tk k Hg K1) as (s2 & E & U & _).
  exists tk. eexists. exists (k (unwrap (look s) (tk_last tk))), s2. repeat (split; [eassumption|]). split; reflexivity.
Qed.

(* VV c: vars_ok at the state of c;  VSs c c': VV c' and the layers changed at the end only;  VLS: DLS, WI and VV together.
   The lemmas vss_M<mode> establish VSs c (step P c) mode by mode. *)
Section C07S.
  Variable P : params.
  Hypothesis HP : pointwise P.
  Variable res : outcome.
  Variable base : Z -> val.

  Definition VV (c : cfg) : Prop :=
    match c_mode c with MUnwind _ | MStuck => True | _ => vars_ok base (c_st c) end.

  (* the result of one step: the variable part of the invariant, and layers changed at the end only *)
  Definition VSs (c c' : cfg) : Prop := VV c' /\ lifo (layers (c_st c)) (layers (c_st c')).

  Definition VLS (spec : specmap) (S : Sset) (c : cfg) : Prop := DLS res spec S c /\ WI c /\ VV c.

  Lemma VV_intro m fr s : vars_ok base s -> VV (mkC m fr s).
  Proof. intros H. unfold VV. cbn [c_mode c_st]. destruct m; try exact H; exact I. Qed.

  Lemma VSs_eq m m' fr fr' s s' : vc s' = vc s -> layers s' = layers s -> vars_ok base s -> VSs (mkC m fr s) (mkC m' fr' s').
  Proof.
    intros Hv Hl HV. split; [apply VV_intro; apply (vars_ok_same base s); assumption|apply lifo_same; exact Hl].
  Qed.

  Lemma VSs_view m m' fr fr' s s' : heap s' = heap s -> tasks s' = tasks s -> vc s' = vc s -> vars_ok base s ->
    VSs (mkC m fr s) (mkC m' fr' s').
  Proof. intros Hh Ht Hv HV. apply VSs_eq; [exact Hv|apply layers_view; assumption|exact HV]. Qed.

  (* a transition that writes neither scoped variables nor context instances (MachineCases.step_scoped) and keeps
     the layers *)
  Lemma VSs_quiet c :
    match c_mode c with MExecLoop | MRun _ (Enter _ _) | MRun _ (Exit _ _) | MUnwind _ | MStuck => False | _ => True end ->
    VV c -> layers (c_st (step P c)) = layers (c_st c) -> VSs c (step P c).
  Proof.
    intros Hq HV Hl. pose proof (step_scoped P c) as E. split; [|apply lifo_same; exact Hl].
    assert (V : forall c', vars_ok base (c_st c') -> VV c') by (intros [m' fr' s']; apply VV_intro).
    destruct c as [m fr s]. cbn [c_mode c_st] in *.
    destruct m as [h| | | |t|t p| |o|e|o|]; try contradiction; try (destruct p; try contradiction);
      (apply V, (vars_ok_same base s); [rewrite !vc_scoped; exact E|exact Hl|exact HV]).
  Qed.

  Lemma vss_MValue spec S h fr s : DLS res spec S (mkC (MValue h) fr s) -> VV (mkC (MValue h) fr s) ->
    VSs (mkC (MValue h) fr s) (step P (mkC (MValue h) fr s)).
  Proof.
    intros (((_ & _ & Ht) & _) & _) HV. cbn [c_mode c_frames c_st mode_ok] in Ht. unfold VV in HV. cbn [c_mode c_st] in HV.
    cbn [step c_mode c_frames c_st].
    destruct (computed h s); [apply VSs_view; auto|]. destruct Ht as (out & tk & Hg). rewrite Hg. apply VSs_view; auto.
  Qed.

  Lemma vss_MDeliver o fr s : VV (mkC (MDeliver o) fr s) -> VSs (mkC (MDeliver o) fr s) (step P (mkC (MDeliver o) fr s)).
  Proof.
    intros HV. unfold VV in HV. cbn [c_mode c_st] in HV. cbn [step c_mode c_frames c_st].
    destruct fr as [|[ |t k|root|i|t old] fr']; apply VSs_view; auto.
  Qed.

  Lemma vss_MContRet fr s : VV (mkC MContRet fr s) -> VSs (mkC MContRet fr s) (step P (mkC MContRet fr s)).
  Proof.
    intros HV. apply VSs_quiet; [exact I|exact HV|]. destruct fr as [|[ |t k|root|i|t old] fr']; try reflexivity.
    destruct (step_MContRet P t old fr' s) as (s2 & -> & Ht2 & _ & _ & _ & _ & _ & _ & Hoth & Hx).
    apply (layers_entry s s2 t Ht2 (fun h N _ => Hoth h N)). unfold task_layers.
    destruct (get t s) as [[out [tk| | |]]|]; rewrite Hx; reflexivity.
  Qed.

  Lemma vss_MWaitHead spec S fr s : DLS res spec S (mkC MWaitHead fr s) -> VV (mkC MWaitHead fr s) ->
    VSs (mkC MWaitHead fr s) (step P (mkC MWaitHead fr s)).
  Proof.
    intros HD HV. pose proof (dls_facts _ _ _ _ HD) as (_ & _ & Hact & _). cbn [c_mode c_st] in Hact.
    destruct HD as (_ & _ & HW). cbn [c_mode c_frames c_st modeW] in HW. destruct HW as (r & vs & -> & HL).
    unfold VV in HV. cbn [c_mode c_st] in HV. cbn [step c_mode c_frames c_st].
    destruct (computed r s); [apply VSs_eq; [apply vc_drop_sb|apply layers_drop_sb|exact HV]|].
    apply VSs_eq; [reflexivity| |exact HV]. apply (layers_push s [r]). intros d [<-|[]].
    apply task_layers_inactive. intros tk Hg. destruct (tk_cact tk) eqn:Hc; [|reflexivity]. exfalso.
    pose proof (lvls_bound _ _ _ _ HL r (Hact r tk Hg Hc)). lia.
  Qed.

  Lemma vss_MAfterExec spec S fr s : DLS res spec S (mkC MAfterExec fr s) -> VV (mkC MAfterExec fr s) ->
    VSs (mkC MAfterExec fr s) (step P (mkC MAfterExec fr s)).
  Proof.
    intros (((_ & HS & _) & _) & _ & HW) HV. cbn [c_mode c_frames c_st modeW] in HW, HS. destruct HW as (r & vs & -> & _).
    unfold VV in HV. cbn [c_mode c_st] in HV. cbn [step c_mode c_frames c_st].
    destruct (computed r s); [apply VSs_eq; [apply vc_drop_sb|apply layers_drop_sb|exact HV]|].
    apply VSs_eq; [apply scoped_continue_with_batch| |exact HV].
    apply layers_tbc; [apply (tbc_cwb spec _ P s HP HS)|apply tasks_of_regs; apply regs_continue_with_batch].
  Qed.

  Lemma vss_MResume spec S t fr s : DLS res spec S (mkC (MResume t) fr s) -> VV (mkC (MResume t) fr s) ->
    VSs (mkC (MResume t) fr s) (step P (mkC (MResume t) fr s)).
  Proof.
    intros HD HV. destruct (dls_resume_view P _ _ _ _ _ _ HD) as (tk & tk' & q & s2 & Hg & E & U & E1 & E2).
    apply VSs_quiet; [exact I|exact HV|]. rewrite E.
    apply (layers_tupd _ _ _ _ _ U), (task_layers_same s s2 t None tk tk' Hg (tupd_get _ _ _ _ _ U) E1 E2).
  Qed.

  Lemma vss_MExecLoop spec S fr s : DLS res spec S (mkC MExecLoop fr s) -> WI (mkC MExecLoop fr s) -> VV (mkC MExecLoop fr s) ->
    VSs (mkC MExecLoop fr s) (step P (mkC MExecLoop fr s)).
  Proof.
    intros HD HA HV. destruct (dls_exec_view _ _ _ _ _ HD) as (i & r & vs & -> & HS & (Hnodup & _ & _ & Hdc) & Htop).
    apply WI_plain_inv in HA; [|exact I]. cbn [fvals] in HA. destruct HA as (_ & HH & _).
    unfold VV in HV. cbn [c_mode c_st] in HV.
    assert (Hnd : forall x ts, tasks s = x :: ts -> ~ In x ts) by (intros x ts E; rewrite E in Hnodup; inversion Hnodup; assumption).
    assert (Hpop : forall x ts s2, tasks s = x :: ts -> tasks s2 = x :: ts -> vc s2 = vc s -> (forall h, h <> x -> get h s2 = get h s) ->
               task_layers s x = [] ->
               VSs (mkC MExecLoop (FExec i :: FWait r :: vs) s) (mkC MExecLoop (FExec i :: FWait r :: vs) (pop_task s2))).
    { intros x ts s2 E Ht2 Hv2 Hoth Hx0. apply VSs_eq; [exact Hv2| |exact HV].
      apply (layers_pop s s2 x ts E); auto. }
    assert (Hplain : forall x tk, get x s = Some (mkFut None (KTask tk)) -> forallb plain_ctx (tk_ctxs tk) = true)
      by (intros x tk Hg; exact (SI_plain _ _ _ _ _ _ HS Hg)).
    assert (Hids : forall x ts tk, tasks s = x :: ts -> (i < length (tasks s))%nat -> get x s = Some (mkFut None (KTask tk)) ->
              NoDup (map cid_of (tk_ctxs tk))) by (intros x ts tk E Hi Hg; exact (proj1 (HH x tk Hg (proj1 (Htop x ts E Hi))))).
    destruct (step_MExecLoop P i (FWait r :: vs) s (fun t out tk Hg => plain_noraise _ (SI_plain _ _ _ _ _ _ HS Hg)))
      as [Hle| |x ts E Hi Hx|x ts kind idx key a E Hi Hg|x ts o E Hi Hg
          |x ts tk s2 E Hi Hg Hb Hds U Es2|x ts tk s2 E Hi Hg Hb Hds U Es2|x ts tk s2 E Hi Hg Hb U Es2].
    - apply VSs_view; auto.
    - split; [exact I|exists (layers s); right; reflexivity].
    - apply (Hpop x ts s E E); auto. unfold task_layers.
      destruct Hx as [Hx|[Hx|(o & Hx)]]; [|rewrite Hx; reflexivity|rewrite Hx; destruct o; reflexivity].
      unfold computed in Hx. destruct (get x s) as [[[o|] k]|]; try discriminate; reflexivity.
    - apply (Hpop x ts _ E); [rewrite (tasks_of_regs s); [exact E|apply regs_schedule_batch]|apply vc_schedule_batch| |].
      + intros h _. unfold get. rewrite heap_schedule_batch. reflexivity.
      + unfold task_layers. rewrite Hg. reflexivity.
    - apply (Hpop x ts _ E); [exact E|reflexivity|intros h N; apply get_put_other; exact N|].
      unfold task_layers. rewrite Hg. reflexivity.
    - (* settled: the contexts are paused, the entry is popped *)
      destruct (vars_ok_set_task base s x None tk (tk_set_ds tk false) Hg eq_refl eq_refl HV) as (HtA & G1 & HlA & HVA). rewrite E in HtA.
      destruct (pause_topP base _ x ts (tk_set_ds tk false) (Hplain x tk Hg) HtA (Hnd x ts E) G1 (Hdc x tk Hg Hds) HVA) as (PV & PL & PE).
      rewrite <- Es2 in PV, PL.
      assert (Hl : layers (pop_task s2) = lower (set_task x (tk_set_ds tk false) s) ts).
      { rewrite layers_lower. unfold pop_task. cbn [tasks with_tasks]. rewrite (tupd_tasks _ _ _ _ _ U), E. exact PL. }
      split; [apply VV_intro; unfold vars_ok; rewrite Hl; exact PV|].
      exists (map (pair x) (tk_ctxs tk)). right. cbn [c_st]. rewrite Hl, <- HlA. exact PE.
    - (* first visit: the contexts are resumed, the uncomputed dependencies pushed *)
      destruct (vars_ok_set_task base s x None tk (tk_set_ds tk true) Hg eq_refl eq_refl HV) as (HtA & G1 & HlA & HVA). rewrite E in HtA.
      destruct (resume_topP base _ x ts (tk_set_ds tk true) (Hplain x tk Hg) HtA (Hnd x ts E) G1 (Hids x ts tk E Hi Hg) HVA) as (RV & RE).
      rewrite <- Es2 in RV, RE.
      assert (Hpush : layers (with_tasks s2 (rev (filter (fun d => negb (computed d s)) (tk_deps tk)) ++ x :: ts)) = layers s2).
      { rewrite <- E, <- (tupd_tasks _ _ _ _ _ U). apply layers_push. intros d Hd.
        destruct (proj2 (Htop x ts E Hi) tk Hg Hds d Hd) as (_ & Nd & Hw).
        apply task_layers_inactive. intros tkd Hgd. rewrite (tupd_other _ _ _ _ _ U d Nd) in Hgd. apply (Hw tkd Hgd). }
      split; [apply VV_intro; apply (vars_ok_same base s2); [reflexivity|exact Hpush|exact RV]|].
      eexists. left. cbn [c_st]. rewrite Hpush, RE, HlA. reflexivity.
    - (* not blocked: the contexts are resumed, the task runs *)
      destruct (resume_topP base s x ts tk (Hplain x tk Hg) E (Hnd x ts E) Hg (Hids x ts tk E Hi Hg) HV) as (RV & RE).
      rewrite <- Es2 in RV, RE.
      split; [apply VV_intro; apply (vars_ok_same base s2); [reflexivity|reflexivity|exact RV]|eexists; left; exact RE].
  Qed.

  Lemma vss_MRun spec S t p fr s : DLS res spec S (mkC (MRun t p) fr s) -> WI (mkC (MRun t p) fr s) -> VV (mkC (MRun t p) fr s) ->
    VSs (mkC (MRun t p) fr s) (step P (mkC (MRun t p) fr s)).
  Proof.
    intros HD HA HV.
    destruct (dls_run_view _ _ _ _ _ _ _ HD) as (old & i & r & vs & rest & tk & -> & Hts & Hnt & Hg & Hcact & HS & Halloc & Hm & _).
    unfold WI in HA. cbn [c_mode c_frames c_st R_of fvals fv_ok] in HA.
    destruct HA as (_ & (tk0 & Hg0 & Hnd & Hw)). rewrite Hg in Hg0. inversion Hg0; subst tk0. clear Hg0.
    destruct Hm as [Htree|(h & k & ->)]; [|apply VSs_quiet; [exact I|exact HV|reflexivity]].
    assert (Hw' : wns (tk_ctxs tk) p) by (destruct Hw as [Hw|(h' & k' & -> & _)]; [exact Hw|inversion Htree]). clear Hw.
    (* the body ends: no with-block is open, the entry of t had no layer and has none *)
    set (c := mkC (MRun t p) (FCont t old :: FExec i :: FWait r :: vs) s) in *.
    assert (Hfin : forall o, finishes p o -> VSs c (step P c)).
    { intros o Hq. assert (Hc0 : tk_ctxs tk = []) by (apply (wns_done_inv _ _ Hw'); destruct Hq; eauto).
      apply VSs_quiet; [destruct Hq; exact I|exact HV|].
      destruct (step_run_finish P t (FCont t old :: FExec i :: FWait r :: vs) s tk Hg p o Hq) as (s2 & E & U & _).
      unfold c. rewrite E. apply (layers_tupd _ _ _ _ _ U). unfold task_layers. rewrite (tupd_get _ _ _ _ _ U), Hg, Hcact, Hc0. reflexivity. }
    subst c. inversion Htree as [v Ev|v Ev|e Ev|y k Hl Hk Ev|c k Hc Hk Ev|c k Hc Hk Ev|q k Hq Hk Ev]; subst p.
    - exact (Hfin _ (fin_ret v)).
    - exact (Hfin _ (fin_result v)).
    - exact (Hfin _ (fin_raise e)).
    - (* a yield: new futures are not on the stack, the entry of t keeps its contexts *)
      destruct (SI_inst _ t y spec s HS Hl) as (spec1 & (_ & _ & Old & _) & _).
      assert (Hg1 : get t (snd (inst t y s)) = Some (mkFut None (KTask tk))) by (rewrite Old; [exact Hg|rewrite Hg; discriminate]).
      apply VSs_quiet; [exact I|exact HV|].
      destruct (step_run_yield_at P t (FCont t old :: FExec i :: FWait r :: vs) s tk y k Hg1) as (s2 & -> & U & _).
      assert (E : layers s2 = layers s); [|destruct (futs (extract _)); exact E].
      apply (layers_entry s s2 t); [rewrite (tupd_tasks _ _ _ _ _ U); apply tasks_of_regs, regs_inst| |].
      + intros h N Hh. rewrite (tupd_other _ _ _ _ _ U h N). apply Old, Halloc, Hh.
      + apply (task_layers_same s s2 t None tk _ Hg (tupd_get _ _ _ _ _ U)); reflexivity.
    - destruct (enter_top base s t rest tk c Hts Hnt Hg Hcact Hc HV (proj1 (wns_enter_inv _ _ _ Hw'))) as [V E].
      split; [apply VV_intro; exact V|exists [(t, c)]; left; exact E].
    - destruct (wns_exit_inv _ _ _ Hw') as (op & Eop & _).
      destruct (exit_top base s t rest tk c Hts Hnt Hg Hcact Hc HV op Eop Hnd) as [V E].
      split; [apply VV_intro; exact V|exists [(t, c)]; right; exact E].
    - (* a synchronous call: the callee task is created, it is not on the stack *)
      apply VSs_quiet; [exact I|exact HV|]. rewrite step_run_let.
      pose proof (SI_create spec _ t (FTask q) s HS (sf_task q Hq)) as (Hfresh & _ & _ & Hoth & _).
      apply (layers_entry s _ t (tasks_of_regs _ _ (regs_create t (FTask q) s))); [|apply task_layers_get, Hoth; intros E; rewrite E in Hfresh; congruence].
      intros x _ Hx. apply Hoth. intros ->. exact (Halloc _ Hx Hfresh).
  Qed.

  Theorem vls_step spec S c : is_unwind (c_mode c) = false -> VLS spec S c ->
    exists spec' S', VLS spec' S' (step P c) /\ lifo (layers (c_st c)) (layers (c_st (step P c))).
  Proof.
    intros Hu (HD & HA & HV). destruct (dls_step P HP res spec S c Hu HD) as (spec' & S' & HD').
    pose proof (wi_step P HP res spec c Hu (proj1 HD) HA) as HA'.
    exists spec', S'.
    assert (HS : VSs c (step P c)).
    { destruct c as [m fr s]. destruct m; cbn [c_mode is_unwind] in Hu; try discriminate;
        eauto using vss_MValue, vss_MWaitHead, vss_MAfterExec, vss_MExecLoop, vss_MResume, vss_MRun, vss_MContRet, vss_MDeliver.
      all: split; [exact HV|apply lifo_same; reflexivity]. (* MDone, MStuck: no step *) }
    destruct HS as [H1 H2]. split; [split; [exact HD'|split; assumption]|exact H2].
  Qed.

  Theorem vls_run n spec S c : VLS spec S c -> no_unwind P n c -> exists spec' S', VLS spec' S' (run P n c).
  Proof.
    intros HI0 Hn. apply (run_invariant P (fun c => exists spec S, VLS spec S c)); [|eauto|intros k Hk; apply Hn; lia].
    intros c0 Hu (sp & S0 & H0). destruct (vls_step sp S0 c0 Hu H0) as (sp' & S' & H' & _). eauto.
  Qed.
End C07S.

Section C07S_theorems.
  Variable P : params.
  Hypothesis HP : pointwise P.
  Variable p : prog.
  Hypothesis Hp : stree p.
  Hypothesis Hw : wns [] p.

  Let h := fst (create [] (FTask p) (st0 P)).
  Let s1 := snd (create [] (FTask p) (st0 P)).
  Let base : Z -> val := fun x => var_get x s1.

  Lemma vls_reach n : no_unwind P n (start h s1) -> exists spec S, VLS (evals p) base spec S (run P n (start h s1)).
  Proof.
    intros Hn.
    pose proof (no_unwind_start P p) as H0.
    destruct (dls_reach P HP p Hp 0 H0) as (spec & S & HD). fold h s1 in HD. cbn [run] in HD.
    destruct (wi_reach P HP p Hp Hw 0 H0) as (spec0 & _ & HA). fold h s1 in HA. cbn [run] in HA.
    apply (vls_run P HP (evals p) base n spec S (start h s1)); [|exact Hn].
    split; [exact HD|]. split; [exact HA|]. apply VV_intro.
    assert (Hl : layers s1 = []) by reflexivity. unfold vars_ok. rewrite Hl. split; [|split].
    - intros x. reflexivity.
    - intros pre t cid var v post E. destruct pre; discriminate.
    - constructor.
  Qed.

  (* nesting: each machine step - of the outermost loop, of a loop nested in synchronous calls, of a task body, of
     value() entering or returning - changes the list of active contexts at its END only *)
  Theorem contexts_nest_lifo_stree n :
    no_unwind P n (start h s1) ->
    lifo (layers (c_st (run P n (start h s1)))) (layers (c_st (run P (S n) (start h s1)))).
  Proof.
    intros Hn. destruct (vls_reach n Hn) as (spec & S & HVL).
    destruct (vls_step P HP (evals p) base spec S _ (Hn n (le_n n)) HVL) as (_ & _ & _ & HL).
    rewrite run_step. exact HL.
  Qed.

  (* the save-and-restore invariant at every reachable configuration (MDone included) *)
  Theorem saved_values_stree n :
    no_unwind P n (start h s1) ->
    match c_mode (run P n (start h s1)) with
    | MUnwind _ | MStuck => True
    | _ => vars_ok (fun x => var_get x s1) (c_st (run P n (start h s1)))
    end.
  Proof. intros Hn. destruct (vls_reach n Hn) as (spec & S & (_ & _ & HV)). exact HV. Qed.

  (* the members of [layers]: exactly the open contexts of the uncompleted tasks whose contexts are active (all of
     them are on the scheduler's task stack) *)
  Theorem layers_are_the_active_contexts_stree n u c :
    no_unwind P n (start h s1) -> is_final (c_mode (run P n (start h s1))) = false ->
    let s := c_st (run P n (start h s1)) in
    In (u, c) (layers s) <->
    exists tk, get u s = Some (mkFut None (KTask tk)) /\ tk_cact tk = true /\ In c (tk_ctxs tk).
  Proof.
    intros Hn Hf. cbn zeta. destruct (vls_reach n Hn) as (spec & S & (HD & _ & _)).
    pose proof (dls_facts _ _ _ _ HD) as HF. pose proof (Hn n (le_n n)) as Hu.
    destruct (run P n (start h s1)) as [m fr s]. cbn [c_mode c_st] in *.
    assert (Hact : forall u tk, get u s = Some (mkFut None (KTask tk)) -> tk_cact tk = true -> In u (tasks s)).
    { destruct m; try discriminate; apply HF. }
    split.
    - intros Hin. rewrite layers_lower in Hin. destruct (lower_in s (tasks s) u c Hin) as (_ & tk & Hg & Hc & Hi). exists tk. auto.
    - intros (tk & Hg & Hc & Hi). rewrite layers_lower. apply (lower_intro s (tasks s) u c tk); auto. apply (Hact u tk Hg Hc).
  Qed.

  (* reads: while code of t runs (also at the moment it makes a synchronous call), the scoped variables are the
     initial values overridden by the layers in order: those of the tasks BELOW t on the scheduler's stack whose
     contexts are active, then t's own open contexts in entry order.  Every owner of a lower layer is a caller suspended
     in value() - a synchronous call that (transitively) led to t's code - or a task suspended at a yield with its
     dependencies scheduled; and every such caller contributes ALL its open contexts: the callee and everything below
     it read the caller's overrides, as in synchronous code *)
  Theorem reads_see_enclosing_overrides_stree n t q :
    no_unwind P n (start h s1) -> c_mode (run P n (start h s1)) = MRun t q ->
    let c := run P n (start h s1) in
    let s := c_st c in
    (forall x, var_get x s = apply_l (fun x => var_get x s1) (layers s) x) /\
    exists tk rest, get t s = Some (mkFut None (KTask tk)) /\ tk_cact tk = true /\
      (wns (tk_ctxs tk) q \/ exists h' k, q = Sync h' k /\ forall o, wns (tk_ctxs tk) (k o)) /\
      tasks s = t :: rest /\ ~ In t rest /\ layers s = lower s rest ++ map (pair t) (tk_ctxs tk) /\
      (forall u cx, In (u, cx) (lower s rest) ->
         In u rest /\ exists tku, get u s = Some (mkFut None (KTask tku)) /\ tk_cact tku = true /\ In cx (tk_ctxs tku) /\
                                  (In u (fvals (c_frames c)) \/ tk_ds tku = true)) /\
      (forall x, In x (fvals (c_frames c)) ->
         In x rest /\ exists tkx, get x s = Some (mkFut None (KTask tkx)) /\ tk_cact tkx = true /\
                                  forall cx, In cx (tk_ctxs tkx) -> In (x, cx) (lower s rest)).
  Proof.
    intros Hn Hm. cbn zeta. destruct (vls_reach n Hn) as (spec & S & (HD & HA & HV)).
    pose proof (running_stree P HP p Hp n t q Hn Hm) as (_ & _ & Hall). fold h s1 in Hall. cbn zeta in Hall.
    destruct (run P n (start h s1)) as [m fr s]. cbn [c_mode c_frames c_st] in *. subst m.
    destruct (dls_run_view _ _ _ _ _ _ _ HD) as (old & i & r & vs & rest & tk & -> & Hts & Hnt & Hg & Hcact & _ & _ & _ & Hfv).
    unfold VV in HV. cbn [c_mode c_st] in HV. destruct HV as (A & _).
    unfold WI in HA. cbn [c_mode c_frames c_st] in HA. destruct HA as (_ & (tk0 & Hg0 & _ & Hwq)).
    rewrite Hg in Hg0. inversion Hg0; subst tk0. clear Hg0.
    split; [exact A|]. exists tk, rest. split; [exact Hg|]. split; [exact Hcact|]. split; [exact Hwq|].
    split; [exact Hts|]. split; [exact Hnt|]. split; [exact (top_layers s t rest tk Hts Hg Hcact)|split].
    - intros u cx Hin. destruct (lower_in s _ u cx Hin) as (Hu & tku & Hgu & Hcu & Hiu). split; [exact Hu|].
      exists tku. split; [exact Hgu|]. split; [exact Hcu|]. split; [exact Hiu|].
      destruct (Hall u tku Hgu Hcu) as (_ & [E|[E|E]]); [subst u; contradiction|left; exact E|right; exact E].
    - cbn [fvals]. intros x Hx. destruct (Hfv x Hx) as (Hxb & tkx & Hgx & Hcx).
      split; [exact Hxb|]. exists tkx. split; [exact Hgx|]. split; [exact Hcx|].
      intros cx Hi. apply (lower_intro s _ x cx tkx); assumption.
  Qed.

  (* corollary: a variable has the value of the innermost (last) override layer for it, or its initial value when no
     active layer overrides it *)
  Theorem reads_innermost_stree n t q x :
    no_unwind P n (start h s1) -> c_mode (run P n (start h s1)) = MRun t q ->
    let s := c_st (run P n (start h s1)) in
    (forall pre u cid v post, layers s = pre ++ (u, COverride cid x v) :: post ->
       (forall l, In l post -> ovar (snd l) <> Some x) -> var_get x s = v) /\
    ((forall l, In l (layers s) -> ovar (snd l) <> Some x) -> var_get x s = var_get x s1).
  Proof.
    intros Hn Hm. cbn zeta. destruct (reads_see_enclosing_overrides_stree n t q Hn Hm) as (A & _). cbn zeta in A.
    destruct (apply_l_innermost (fun x => var_get x s1) (layers (c_st (run P n (start h s1)))) x) as [I1 I2].
    split.
    - intros pre u cid v post E Hpost. rewrite A. apply (I1 pre u cid v post E Hpost).
    - intros Hno. rewrite A. apply I2. exact Hno.
  Qed.

  (* restoration, outermost: when the outermost call has returned (value or error) and at every flush point of
     the OUTERMOST scheduler loop (no caller is inside value()) every scoped value is what it was before *)
  Theorem values_restored_stree n :
    no_unwind P n (start h s1) ->
    ((exists o, c_mode (run P n (start h s1)) = MDone o) \/
     (c_mode (run P n (start h s1)) = MAfterExec /\ fvals (c_frames (run P n (start h s1))) = [])) ->
    forall x, var_get x (c_st (run P n (start h s1))) = var_get x s1.
  Proof.
    intros Hn Hm x. pose proof (saved_values_stree n Hn) as HV.
    assert (Hts : tasks (c_st (run P n (start h s1))) = []).
    { destruct Hm as [(o & Hm)|(Hm & Hfv)]; [apply (end_stree P HP p Hp n o Hn Hm)|apply (outer_flush_stree P HP p Hp n Hn Hm Hfv)]. }
    assert (HV' : vars_ok (fun x => var_get x s1) (c_st (run P n (start h s1)))).
    { destruct Hm as [(o & Hm)|(Hm & _)]; rewrite Hm in HV; exact HV. }
    destruct HV' as (A & _). rewrite A. unfold layers. rewrite Hts. reflexivity.
  Qed.

  (* at ANY flush point (end of an _execute pass of the outermost loop or of a loop nested in synchronous calls):
     the scoped variables are the initial values overridden by the layers that are still applied, and these are exactly
     the open contexts of the uncompleted tasks whose contexts are active; each such task is on the scheduler's stack
     and is a caller suspended in value() or a task that has scheduled its dependencies (it awaits the caller) *)
  Theorem values_at_flush_stree n :
    no_unwind P n (start h s1) -> c_mode (run P n (start h s1)) = MAfterExec ->
    let c := run P n (start h s1) in
    let s := c_st c in
    (forall x, var_get x s = apply_l (fun x => var_get x s1) (layers s) x) /\
    (forall u cx, In (u, cx) (layers s) <->
       exists tk, get u s = Some (mkFut None (KTask tk)) /\ tk_cact tk = true /\ In cx (tk_ctxs tk)) /\
    (forall u tk, get u s = Some (mkFut None (KTask tk)) -> tk_cact tk = true ->
       In u (tasks s) /\ (In u (fvals (c_frames c)) \/ tk_ds tk = true)) /\
    (forall u, In u (fvals (c_frames c)) -> exists tk, get u s = Some (mkFut None (KTask tk)) /\ tk_cact tk = true).
  Proof.
    intros Hn Hm. cbn zeta. pose proof (saved_values_stree n Hn) as HV. rewrite Hm in HV. destruct HV as (A & _).
    assert (Hf : is_final (c_mode (run P n (start h s1))) = false) by (rewrite Hm; reflexivity).
    split; [exact A|]. split; [|split].
    - intros u cx. apply (layers_are_the_active_contexts_stree n u cx Hn Hf).
    - intros u tk Hg Hc. destruct (flush_stree P HP p Hp n Hn Hm) as (r & vs & Efr & _ & _ & Hall). fold h s1 in Efr, Hall. cbn zeta in Efr, Hall.
      destruct (Hall u tk Hg (or_introl Hc)) as (Hin & _ & Hd). split; [exact Hin|]. rewrite Efr. cbn [fvals]. exact Hd.
    - intros u Hu. apply (callers_stay_resumed P HP p Hp n u Hn Hf Hu).
  Qed.
End C07S_theorems.

(* root [0]:    with override(x := 10):  a, b = yield sib.asynq(), caller.asynq()
   sib [1]:     with override(x := 20):  v = yield item(kind 0); return v                - blocks on the batch: paused
   caller [2]:  with ctx9, override(x := 30):  v = mid(); return v                       - synchronous call, depth 1
   mid [4]:     with override(x := 40): leaf(2) ; with override(x := 41) (same id): v = leaf(3); return v   - depth 2
   leaf [5],[7]: with override(x := 70): v = yield item(kind 0); return v                - blocks: the nested loop flushes
   x is scoped variable 0 (initially VInt 0).  While leaf runs it reads 70 over mid's 40 over caller's 30 over root's 10;
   at the flushes of the loop nested two calls deep leaf is paused and x = 40 (41 the second time) - NOT the initial
   value: mid and caller are inside value(), root awaits caller; at the flushes of the outermost loop x = 0 again. *)
Definition c07s_ov (i v : Z) : ctxk := COverride i 0 (VInt v).
Definition c07s_block (c : ctxk) (key v : Z) : prog :=
  Enter c (Yield (YLeaf (LNew (FItem 0 key (ASet (VInt v))))) (fun o => Exit c (c06n_rr o))).
Definition c07s_mid : prog :=
  Enter (c07s_ov 1 40)
    (Let (FTask (c07s_block (c07s_ov 7 70) 2 20)) (fun h => Sync h (fun _ =>
       Exit (c07s_ov 1 40) (Enter (c07s_ov 1 41)
         (Let (FTask (c07s_block (c07s_ov 7 70) 3 30)) (fun h => Sync h (fun o => Exit (c07s_ov 1 41) (c06n_rr o)))))))).
Definition c07s_caller : prog :=
  Enter (CAsync 9 NoFault) (Enter (c07s_ov 5 30)
    (Let (FTask c07s_mid) (fun h => Sync h (fun o => Exit (c07s_ov 5 30) (Exit (CAsync 9 NoFault) (c06n_rr o)))))).
Definition c07s_demo : prog :=
  Enter (c07s_ov 0 10) (Yield (YTuple [YLeaf (LNew (FTask (c07s_block (c07s_ov 2 20) 1 10))); YLeaf (LNew (FTask c07s_caller))])
                              (fun o => Exit (c07s_ov 0 10) (c06n_rr o))).

Lemma c07s_mid_ok : stree c07s_mid /\ wns [] c07s_mid.
Proof.
  apply call_block_ok; [reflexivity|apply (c06n_block_ok (c07s_ov 7 70) 2 20 eq_refl)|]. intros _.
  apply call_block_ok; [reflexivity|apply (c06n_block_ok (c07s_ov 7 70) 3 30 eq_refl)|exact c06n_rr_ok].
Qed.

Lemma c07s_caller_ok : stree c07s_caller /\ wns [] c07s_caller.
Proof.
  unfold c07s_caller. split.
  - apply st_enter; [reflexivity|]. apply st_enter; [reflexivity|]. apply st_call; [apply c07s_mid_ok|].
    intros o. apply st_exit; [reflexivity|]. apply st_exit; [reflexivity|apply ret_or_raise_stree].
  - apply wns_enter; [intros []|]. cbn [app]. apply wns_enter; [cbn; intros [E|[]]; discriminate|]. cbn [app].
    apply wns_call; [apply c07s_mid_ok|].
    intros o. apply (wns_exit [CAsync 9 NoFault] (c07s_ov 5 30)). apply (wns_exit [] (CAsync 9 NoFault)). apply c06n_rr_wns.
Qed.

Lemma c07s_demo_ok : stree c07s_demo /\ wns [] c07s_demo.
Proof.
  unfold c07s_demo. split.
  - apply st_enter; [reflexivity|]. apply st_yield.
    + intros l Hl. cbn in Hl. destruct Hl as [<-|[<-|[]]]; constructor; constructor.
      * apply (c06n_block_ok (c07s_ov 2 20) 1 10 eq_refl).
      * apply c07s_caller_ok.
    + intros o. apply st_exit; [reflexivity|apply ret_or_raise_stree].
  - apply wns_enter; [intros []|]. cbn [app]. apply wns_yield.
    + intros q Hq. cbn in Hq. destruct Hq as [E|[E|[]]]; inversion E; subst q.
      * apply (c06n_block_ok (c07s_ov 2 20) 1 10 eq_refl).
      * apply c07s_caller_ok.
    + intros o. apply (wns_exit [] (c07s_ov 0 10)). apply c06n_rr_wns.
Qed.

Lemma c07s_demo_runs :
  let P := c06s_P in
  let h := fst (create [] (FTask c07s_demo) (st0 P)) in
  let s1 := snd (create [] (FTask c07s_demo) (st0 P)) in
  let c k := run P k (start h s1) in
  let keys k := map lkey (layers (c_st (c k))) in
  let x k := var_get 0 (c_st (c k)) in
  stree c07s_demo /\ wns [] c07s_demo /\ pointwise P /\ no_unwind_b P 200 (start h s1) = true /\
  c_mode (c 200%nat) = MDone (Ok (VTuple [VInt 10; VInt 30])) /\ x 0%nat = VInt 0 /\
  (* the leaf [5], called synchronously by mid [4], called synchronously by caller [2], awaited by root [0], runs: it reads
     its own override over those of both callers and of the root; the sibling [1] (blocked on the batch) contributes nothing *)
  (exists q, c_mode (c 34%nat) = MRun [5] q) /\ fvals (c_frames (c 34%nat)) = [[4]; [2]] /\
  keys 34%nat = [([0], 0); ([2], 9); ([2], 5); ([4], 1); ([5], 7)] /\ x 34%nat = VInt 70 /\
  (* the flush points: (step, callers inside value(), task stack, value of x, keys of the layers still applied) *)
  map (fun k => (k, fvals (c_frames (c k)), tasks (c_st (c k)), x k, keys k))
      (filter (fun k => match c_mode (c k) with MAfterExec => true | _ => false end) (seq 0 200)) =
    [(40%nat, [[4]; [2]], [[4]; [2]; [0]], VInt 40, [([0], 0); ([2], 9); ([2], 5); ([4], 1)]);
     (49%nat, [[4]; [2]], [[4]; [2]; [0]], VInt 40, [([0], 0); ([2], 9); ([2], 5); ([4], 1)]);
     (66%nat, [[4]; [2]], [[4]; [2]; [0]], VInt 41, [([0], 0); ([2], 9); ([2], 5); ([4], 1)]);
     (75%nat, [[4]; [2]], [[4]; [2]; [0]], VInt 41, [([0], 0); ([2], 9); ([2], 5); ([4], 1)]);
     (82%nat, [[2]], [[2]; [0]], VInt 30, [([0], 0); ([2], 9); ([2], 5)]);
     (91%nat, [], [], VInt 0, []); (107%nat, [], [], VInt 0, [])]%Z /\
  (* after the computation *)
  x 200%nat = VInt 0.
Proof.
  split; [apply c07s_demo_ok|]. split; [apply c07s_demo_ok|]. split; [exact c06s_P_pointwise|].
  cbv beta zeta. rewrite no_unwind_b_traj.
  rewrite (filter_map_run c06s_P (fun c => match c_mode c with MAfterExec => true | _ => false end)
             (fun k c => (k, fvals (c_frames c), tasks (c_st c), var_get 0 (c_st c), map lkey (layers (c_st c))))).
  vm_compute. repeat match goal with |- _ /\ _ => split end; try reflexivity. eexists; reflexivity.
Qed.

(* The statement for yield-only tree programs (values_restored_tree at the end of this file: "at every flush point every
   scoped value is back to what it was before the computation") does not survive synchronous calls: a flush issued by a loop nested in a synchronous call happens with
   the overrides of the callers (and of the tasks awaiting them) still applied.  The true statements are
   values_restored_stree (outermost flushes and the end) and values_at_flush_stree (every flush: which layers are applied). *)
Definition values_restored_at_every_flush_stree_statement : Prop :=
  forall P, pointwise P -> forall p, stree p -> wns [] p -> forall n,
  let h := fst (create [] (FTask p) (st0 P)) in
  let s1 := snd (create [] (FTask p) (st0 P)) in
  no_unwind P n (start h s1) -> c_mode (run P n (start h s1)) = MAfterExec ->
  forall x, var_get x (c_st (run P n (start h s1))) = var_get x s1.

Theorem values_restored_at_every_flush_stree_is_false : ~ values_restored_at_every_flush_stree_statement.
Proof.
  intros H.
  specialize (H c06s_P c06s_P_pointwise c07s_demo (proj1 c07s_demo_ok) (proj2 c07s_demo_ok) 40%nat). cbn zeta in H.
  assert (Hn : no_unwind c06s_P 40 (start (fst (create [] (FTask c07s_demo) (st0 c06s_P))) (snd (create [] (FTask c07s_demo) (st0 c06s_P)))))
    by (apply no_unwind_b_sound; vm_compute; reflexivity).
  specialize (H Hn ltac:(vm_compute; reflexivity) 0%Z). vm_compute in H. discriminate H.
Qed.

(* With synchronous calls "u awaits v" has two kinds of links: v is in the dependency list of an uncompleted task
   (the task yielded it), or a caller w is suspended in value() on r (frames ... FWait r :: FValue w k ...: the
   synchronous call of r by w).  The scheduler's stack decomposes into the segments of the wait_for levels; inside
   each segment the two facts of MachineC07 (AWs: every entry was pushed as a dependency of the nearest grey entry
   below it; an active entry that is not on top is grey) hold as for a stack of its own; the bottom of a segment is the
   root the level waits for, which the caller on top of the segment below called synchronously. *)
Inductive awaits (s : st) (fr : list frame) : fid -> fid -> Prop :=
| aws_refl u : awaits s fr u u
| aws_dep u w tk v : awaits s fr u w -> get w s = Some (mkFut None (KTask tk)) -> In v (tk_deps tk) -> awaits s fr u v
| aws_call u w k r pre post : awaits s fr u w -> fr = pre ++ FWait r :: FValue w k :: post -> awaits s fr u r.

Lemma awaits_trans s fr u v w : awaits s fr u v -> awaits s fr v w -> awaits s fr u w.
Proof.
  intros H1 H2. induction H2 as [v|v w tk z H2 IH Hg Hz|v w k r pre post H2 IH E]; [exact H1| |].
  - apply (aws_dep s fr u w tk z (IH H1) Hg Hz).
  - apply (aws_call s fr u w k r pre post (IH H1) E).
Qed.

Lemma reach_awaits s s' fr u v : heap s = heap s' -> reach s' u v -> awaits s fr u v.
Proof.
  intros Hh H. induction H as [|y tk z H IH Hg Hz]; [apply aws_refl|].
  apply (aws_dep s fr u y tk z IH); [|exact Hz]. unfold get in *. rewrite Hh. exact Hg.
Qed.

(* h is the same uncompleted task entry in both states, or is none in either *)
Definition usame (s s' : st) (h : fid) : Prop :=
  forall tk, get h s' = Some (mkFut None (KTask tk)) <-> get h s = Some (mkFut None (KTask tk)).

Lemma usame_eq s s' h : get h s' = get h s -> usame s s' h.
Proof. intros E tk. rewrite E. reflexivity. Qed.

Lemma usame_tbc s s' h : tbc s s' -> usame s s' h.
Proof. intros (TB & UF & _) tk. split; [apply TB|apply UF]. Qed.

(* AWs passes to a suffix of the stack whose entries below the top are the same uncompleted tasks *)
Lemma aw_subI s s' pre : tasks s = pre ++ tasks s' -> (forall h, In h (tl (tasks s')) -> usame s s' h) -> AWs s -> AWs s'.
Proof.
  intros Ht Hg [Hp Ha]. split.
  - intros above y below E Hb.
    assert (E2 : tasks s = (pre ++ above) ++ y :: below) by (rewrite Ht, E, app_assoc; reflexivity).
    destruct (Hp _ _ _ E2 Hb) as (b1 & w & b2 & tk & Eb & Hw & Hds & Hy & Hb1).
    assert (Hin : forall v, In v below -> usame s s' v) by (intros v Hv; apply Hg; apply (in_tl_below _ _ _ _ _ E Hv)).
    exists b1, w, b2, tk. split; [exact Eb|].
    split; [apply (proj2 (Hin w ltac:(rewrite Eb; apply in_or_app; right; left; reflexivity) tk)); exact Hw|].
    split; [exact Hds|]. split; [exact Hy|]. intros v Hv (tkv & Hgv & Hdv). apply (Hb1 v Hv). exists tkv. split; [|exact Hdv].
    apply (proj1 (Hin v ltac:(rewrite Eb; apply in_or_app; left; exact Hv) tkv)). exact Hgv.
  - intros above u below tk E Hab Hgu Hc.
    assert (E2 : tasks s = (pre ++ above) ++ u :: below) by (rewrite Ht, E, app_assoc; reflexivity).
    apply (proj1 (Hg u (in_tl_nontop _ _ _ _ E Hab) tk)) in Hgu.
    apply (Ha _ _ _ tk E2); [|exact Hgu|exact Hc]. destruct pre; [exact Hab|discriminate].
Qed.

(* first visit of the top entry x: it becomes grey, its uncomputed dependencies are pushed *)
Lemma aw_push s s' x ts tk tk' todo :
  AWs s -> tasks s = x :: ts -> ~ In x ts ->
  get x s' = Some (mkFut None (KTask tk')) -> tk_ds tk' = true -> tk_deps tk' = tk_deps tk ->
  (forall h, h <> x -> get h s' = get h s) ->
  tasks s' = rev todo ++ x :: ts ->
  (forall d, In d todo -> In d (tk_deps tk) /\ d <> x /\
             forall tkd, get d s = Some (mkFut None (KTask tkd)) -> tk_ds tkd = false /\ tk_cact tkd = false) ->
  AWs s'.
Proof.
  intros HA Hts Hnx Hgx Hds Hdeps Hoth Hts' Htodo.
  (* on the old part of the stack the two facts hold in s' as in s *)
  assert (HA' : AWs (with_tasks s' (x :: ts))).
  { apply (aw_subI s _ []); [exact Hts| |exact HA]. cbn [tasks with_tasks tl]. intros h Hh. apply usame_eq.
    change (get h (with_tasks s' (x :: ts))) with (get h s'). apply Hoth. intros ->. contradiction. }
  destruct HA' as [Hp Ha]. split.
  - intros above y below E Hb. rewrite Hts' in E.
    destruct (split_app _ _ _ _ _ E) as [(above' & -> & Hold)|(p1 & p2 & Hp1 & -> & ->)]; [exact (Hp above' y below Hold Hb)|].
    exists p2, x, ts, tk'. split; [reflexivity|]. split; [exact Hgx|]. split; [exact Hds|]. split.
    + rewrite Hdeps. apply Htodo. apply in_rev. rewrite Hp1. apply in_or_app. right. left. reflexivity.
    + intros v Hv (tkv & Hgv & Hdv).
      assert (Hvt : In v todo) by (apply in_rev; rewrite Hp1; apply in_or_app; right; right; exact Hv).
      destruct (Htodo v Hvt) as (_ & Nv & Hfl). rewrite (Hoth v Nv) in Hgv. destruct (Hfl tkv Hgv) as [Hf _]. congruence.
  - intros above u below tku E Hab Hgu Hc. rewrite Hts' in E.
    destruct (split_app _ _ _ _ _ E) as [(above' & -> & Hold)|(p1 & p2 & Hp1 & -> & ->)].
    + destruct above' as [|a a']; [|exact (Ha (a :: a') u below tku Hold ltac:(discriminate) Hgu Hc)].
      injection Hold as <- _. rewrite Hgx in Hgu. inversion Hgu; subst. exact Hds.
    + assert (Hut : In u todo) by (apply in_rev; rewrite Hp1; apply in_or_app; right; left; reflexivity).
      destruct (Htodo u Hut) as (_ & Nu & Hfl). rewrite (Hoth u Nu) in Hgu. destruct (Hfl tku Hgu) as [_ Hf]. congruence.
Qed.

Definition bottom (r : fid) (seg : list fid) : Prop := exists above, seg = above ++ [r].

Lemma bottom_tl r x seg : bottom r (x :: seg) -> seg = [] \/ bottom r seg.
Proof.
  intros (above & E). destruct above as [|a above]; cbn in E; inversion E; [left; reflexivity|right; exists above; reflexivity].
Qed.

Lemma bottom_push r l seg : bottom r seg -> bottom r (l ++ seg).
Proof. intros (above & ->). exists (l ++ above). rewrite app_assoc. reflexivity. Qed.

(* the levels suspended in value() *)
Inductive awl (s : st) : list fid -> list frame -> Prop :=
| awl_top : awl s [] [FTop]
| awl_val t k old i r vs rest below :
    length below = i -> AWs (with_tasks s (t :: rest)) -> bottom r (t :: rest) -> awl s below vs ->
    awl s ((t :: rest) ++ below) (FValue t k :: FCont t old :: FExec i :: FWait r :: vs).

Lemma awl_same s s' ts fr : awl s ts fr -> (forall h, In h ts -> usame s s' h) -> awl s' ts fr.
Proof.
  intros H. induction H as [|t k old i r vs rest below Hlen HA Hb Hl IH]; intros Hu; [apply awl_top|].
  apply awl_val; [exact Hlen| |exact Hb|].
  - apply (aw_subI (with_tasks s (t :: rest)) _ []); [reflexivity| |exact HA].
    cbn [tasks with_tasks tl]. intros h Hh. apply Hu. right. apply in_or_app. left. exact Hh.
  - apply IH. intros h Hh. apply Hu. apply in_or_app. right. exact Hh.
Qed.

(* the entry of the top t of the innermost segment changes, new entries may appear *)
Lemma aw_level_keep s s2 t rest below vs :
  NoDup ((t :: rest) ++ below) -> (forall h, h <> t -> In h (rest ++ below) -> usame s s2 h) ->
  AWs (with_tasks s (t :: rest)) -> awl s below vs -> AWs (with_tasks s2 (t :: rest)) /\ awl s2 below vs.
Proof.
  intros Hnd Hu HA HL. cbn [app] in Hnd. inversion Hnd as [|a l Hnt Hnd']; subst.
  split.
  - apply (aw_subI (with_tasks s (t :: rest)) _ []); [reflexivity| |exact HA].
    cbn [tasks with_tasks tl]. intros h Hh. apply Hu; [intros ->; apply Hnt; apply in_or_app; left; exact Hh|apply in_or_app; left; exact Hh].
  - apply (awl_same s s2 _ _ HL). intros h Hh. apply Hu; [intros ->; apply Hnt; apply in_or_app; right; exact Hh|apply in_or_app; right; exact Hh].
Qed.

Definition AWm (m : mode) (fr : list frame) (s : st) : Prop :=
  match m with
  | MValue _ | MDeliver _ => awl s (tasks s) fr
  | MWaitHead | MAfterExec => exists r vs, fr = FWait r :: vs /\ awl s (tasks s) vs
  | MExecLoop => exists i r vs seg below, fr = FExec i :: FWait r :: vs /\ tasks s = seg ++ below /\ length below = i /\
      AWs (with_tasks s seg) /\ (seg = [] \/ bottom r seg) /\ awl s below vs
  | MResume t | MRun t _ => exists old i r vs rest below, fr = FCont t old :: FExec i :: FWait r :: vs /\
      tasks s = (t :: rest) ++ below /\ length below = i /\
      AWs (with_tasks s (t :: rest)) /\ bottom r (t :: rest) /\ awl s below vs
  | MContRet => exists t old i r vs rest below, fr = FCont t old :: FExec i :: FWait r :: vs /\
      tasks s = (t :: rest) ++ below /\ length below = i /\
      AWs (with_tasks s (t :: rest)) /\ bottom r (t :: rest) /\ awl s below vs
  | MUnwind _ | MDone _ | MStuck => True
  end.

(* AWs (MachineC07) speaks of one segment, awl of the segments below the innermost one, AWm/AWc of a configuration;
   the lemmas awc_M<mode> preserve AWc mode by mode; [awaits] is the relation the theorem concludes with *)
Definition AWc (c : cfg) : Prop := AWm (c_mode c) (c_frames c) (c_st c).

Lemma AWc_exec i r vs seg below s : tasks s = seg ++ below -> length below = i -> AWs (with_tasks s seg) ->
  seg = [] \/ bottom r seg -> awl s below vs -> AWc (mkC MExecLoop (FExec i :: FWait r :: vs) s).
Proof. intros. exists i, r, vs, seg, below. auto 6. Qed.

Lemma AWm_top t old i r vs rest below s : tasks s = (t :: rest) ++ below -> length below = i -> AWs (with_tasks s (t :: rest)) ->
  bottom r (t :: rest) -> awl s below vs -> AWm (MResume t) (FCont t old :: FExec i :: FWait r :: vs) s.
Proof. intros. exists old, i, r, vs, rest, below. auto 6. Qed.

(* the stack stays and only the entry of the running task t changes (new entries may appear): the clause of
   MResume t, which is also that of MRun t _ and, with t given, of MContRet *)
Lemma AWm_top_keep t fr s s2 : NoDup (tasks s) -> tasks s2 = tasks s ->
  (forall h, h <> t -> In h (tasks s) -> usame s s2 h) -> AWm (MResume t) fr s -> AWm (MResume t) fr s2.
Proof.
  intros Hnd Ht Hu (old & i & r & vs & rest & below & -> & Hts & Hlen & HAs & Hbot & HL).
  rewrite Hts in Hnd, Hu. destruct (aw_level_keep s s2 t rest below vs Hnd) as (X & Y); [|exact HAs|exact HL|].
  - intros h N Hh. apply Hu; [exact N|right; exact Hh].
  - apply (AWm_top t old i r vs rest below); [rewrite Ht; exact Hts|assumption..].
Qed.

Section AwaitingS.
  Variable P : params.
  Hypothesis HP : pointwise P.
  Variable res : outcome.

  Lemma awc_MValue spec S h fr s : DLS res spec S (mkC (MValue h) fr s) -> AWc (mkC (MValue h) fr s) ->
    AWc (step P (mkC (MValue h) fr s)).
  Proof.
    intros (((_ & _ & Ht) & _) & _) HA. cbn [c_mode c_frames c_st mode_ok] in Ht. unfold AWc in *. cbn [c_mode c_frames c_st AWm] in HA.
    cbn [step c_mode c_frames c_st].
    destruct (computed h s); [exact HA|]. destruct Ht as (out & tk & Hg). rewrite Hg. cbn [c_mode c_frames c_st AWm].
    exists h, fr. split; [reflexivity|exact HA].
  Qed.

  Lemma awc_leave o vs s : awl s (tasks s) vs -> AWc (mkC (MDeliver o) vs (drop_sb s)).
  Proof.
    intros HL. unfold AWc. cbn [c_mode c_frames c_st AWm]. rewrite tasks_drop_sb.
    apply (awl_same s _ _ _ HL). intros h _. apply usame_eq. apply get_drop_sb.
  Qed.

  Lemma awc_MWaitHead fr s : AWc (mkC MWaitHead fr s) -> AWc (step P (mkC MWaitHead fr s)).
  Proof.
    intros HA. unfold AWc in HA. cbn [c_mode c_frames c_st AWm] in HA. destruct HA as (r & vs & -> & HL).
    cbn [step c_mode c_frames c_st]. destruct (computed r s); [apply awc_leave; exact HL|].
    apply (AWc_exec _ r vs [r] (tasks s)); [reflexivity|reflexivity|apply aw_short; cbn; lia|right; exists []; reflexivity|].
    apply (awl_same s _ _ _ HL). intros h _. apply usame_eq. reflexivity.
  Qed.

  Lemma awc_MAfterExec spec S fr s : DLS res spec S (mkC MAfterExec fr s) -> AWc (mkC MAfterExec fr s) ->
    AWc (step P (mkC MAfterExec fr s)).
  Proof.
    intros (((_ & HS & _) & _) & _) HA. cbn [c_mode c_frames c_st] in HS.
    unfold AWc in HA. cbn [c_mode c_frames c_st AWm] in HA. destruct HA as (r & vs & -> & HL).
    cbn [step c_mode c_frames c_st]. destruct (computed r s); [apply awc_leave; exact HL|].
    unfold AWc. cbn [c_mode c_frames c_st AWm]. exists r, vs. split; [reflexivity|].
    rewrite (tasks_of_regs _ _ (regs_continue_with_batch P s)).
    apply (awl_same s _ _ _ HL). intros h _. apply usame_tbc. apply (tbc_cwb spec _ P s HP HS).
  Qed.

  Lemma awc_MDeliver o fr s : AWc (mkC (MDeliver o) fr s) -> AWc (step P (mkC (MDeliver o) fr s)).
  Proof.
    intros HA. unfold AWc in HA. cbn [c_mode c_frames c_st AWm] in HA.
    inversion HA as [E1 E2|t k old i r vs rest below Hlen HAs Hb HL E1 E2]; subst; cbn [step c_mode c_frames c_st]; [exact I|].
    apply (AWm_top t old _ r vs rest below); [symmetry; assumption|reflexivity| |exact Hb|].
    - apply (aw_subI (with_tasks s (t :: rest)) _ []); [reflexivity|intros h _; apply usame_eq; reflexivity|exact HAs].
    - apply (awl_same s _ _ _ HL). intros h _. apply usame_eq. reflexivity.
  Qed.

  Lemma awc_MExecLoop spec S fr s : DLS res spec S (mkC MExecLoop fr s) -> AWc (mkC MExecLoop fr s) ->
    AWc (step P (mkC MExecLoop fr s)).
  Proof.
    intros HD HA. destruct (dls_exec_view _ _ _ _ _ HD) as (i & r & vs & -> & HS & (Hnodup & _) & Hwh).
    unfold AWc in HA. cbn [c_mode c_frames c_st AWm] in HA.
    destruct HA as (i' & r' & vs' & seg & below & Efr & Hts & Hlen & HAs & Hbot & HL). injection Efr as <- <- <-.
    (* the top entry x is the top of the innermost segment *)
    assert (Htop : forall x ts, tasks s = x :: ts -> (i < length (tasks s))%nat ->
              exists seg', seg = x :: seg' /\ ts = seg' ++ below /\ ~ In x (seg' ++ below) /\ bottom r (x :: seg')).
    { intros x ts E Hi. rewrite E in Hnodup. inversion Hnodup as [|x0 l Hnd _]; subst x0 l.
      rewrite Hts in E, Hi. destruct seg as [|y seg']; cbn [app] in E; [rewrite app_length in Hi; cbn [length] in Hi; lia|].
      injection E as -> <-. exists seg'. destruct Hbot as [Hb|Hb]; [discriminate|]. auto. }
    assert (Hpop : forall x seg' s2, seg = x :: seg' -> ~ In x (seg' ++ below) -> bottom r (x :: seg') -> tasks s2 = tasks s ->
               (forall h, h <> x -> get h s2 = get h s) -> AWc (mkC MExecLoop (FExec i :: FWait r :: vs) (pop_task s2))).
    { intros x seg' s2 Es Hnd Hb Ht2 Hoth. subst seg.
      apply (AWc_exec i r vs seg' below); [unfold pop_task; cbn [tasks with_tasks]; rewrite Ht2, Hts; reflexivity|exact Hlen| |apply (bottom_tl r x seg' Hb)|].
      - apply (aw_subI (with_tasks s (x :: seg')) _ [x]); [reflexivity| |exact HAs].
        cbn [tasks with_tasks]. intros h Hh. apply usame_eq. change (get h (pop_task s2)) with (get h s2). apply Hoth.
        intros ->. apply Hnd. apply in_or_app. left. apply in_tl. exact Hh.
      - apply (awl_same s _ _ _ HL). intros h Hh. apply usame_eq. change (get h (pop_task s2)) with (get h s2). apply Hoth.
        intros ->. apply Hnd. apply in_or_app. right. exact Hh. }
    destruct (step_MExecLoop P i (FWait r :: vs) s (fun t out tk Hg => plain_noraise _ (SI_plain _ _ _ _ _ _ HS Hg)))
      as [Hle| |x ts E Hi Hx|x ts kind idx key a E Hi Hg|x ts o E Hi Hg
          |x ts tk s2 E Hi Hg Hb Hds U _|x ts tk s2 E Hi Hg Hb Hds U _|x ts tk s2 E Hi Hg Hb U _];
      try (destruct (Htop x ts E Hi) as (seg' & Es & Ets & Hnd & Hbt)).
    - unfold AWc. cbn [c_mode c_frames c_st AWm]. exists r, vs. split; [reflexivity|].
      rewrite Hts, app_length, Hlen in Hle. destruct seg; [rewrite Hts; exact HL|cbn [length] in Hle; lia].
    - exact I.
    - apply (Hpop x seg' s Es Hnd Hbt); auto.
    - apply (Hpop x seg' _ Es Hnd Hbt); [apply tasks_of_regs, regs_schedule_batch|].
      intros h _. unfold get. rewrite heap_schedule_batch. reflexivity.
    - apply (Hpop x seg' _ Es Hnd Hbt); [reflexivity|]. intros h N. apply get_put_other. exact N.
    - exact (Hpop x seg' s2 Es Hnd Hbt (tupd_tasks _ _ _ _ _ U) (tupd_other _ _ _ _ _ U)).
    - (* first visit: x becomes grey, its uncomputed dependencies are pushed above it *)
      subst seg ts. destruct U as (A & Hoth & Hsc). set (todo := filter (fun d => negb (computed d s)) (tk_deps tk)).
      apply (AWc_exec i r vs (rev todo ++ x :: seg') below);
        [cbn [tasks with_tasks]; rewrite <- app_assoc; reflexivity|exact Hlen| |right; apply bottom_push; exact Hbt|].
      + assert (Hns : ~ In x seg') by (intros H; apply Hnd; apply in_or_app; left; exact H).
        apply (aw_push (with_tasks s (x :: seg')) (with_tasks s2 (rev todo ++ x :: seg')) x seg' tk (tk_flags tk true true) todo
                  HAs eq_refl Hns A eq_refl eq_refl Hoth eq_refl (proj2 (Hwh x _ E Hi) tk Hg Hds)).
      + apply (awl_same s _ _ _ HL). intros h Hh. apply usame_eq. change (get h (with_tasks s2 ?l)) with (get h s2). apply Hoth.
        intros ->. apply Hnd. apply in_or_app. right. exact Hh.
    - (* not blocked: the task runs *)
      subst seg ts. rewrite E in Hnodup.
      destruct (aw_level_keep s (with_active s2 (Some x)) x seg' below vs Hnodup) as (X & Y); [|exact HAs|exact HL|].
      + intros h N _. apply usame_eq. apply (tupd_other _ _ _ _ _ U h N).
      + apply (AWm_top x (active s) i r vs seg' below); [cbn [c_st tasks with_active]; rewrite (tupd_tasks _ _ _ _ _ U); exact E|assumption..].
  Qed.

  Lemma awc_MResume spec S t fr s : DLS res spec S (mkC (MResume t) fr s) -> AWc (mkC (MResume t) fr s) ->
    AWc (step P (mkC (MResume t) fr s)).
  Proof.
    intros HD HA. pose proof (dls_facts _ _ _ _ HD) as (Hnodup & _ & _ & _). cbn [c_mode c_st] in Hnodup.
    destruct (dls_resume_view P _ _ _ _ _ _ HD) as (tk & tk' & q & s2 & _ & -> & U & _).
    apply (AWm_top_keep t _ s s2 Hnodup (tupd_tasks _ _ _ _ _ U)); [|exact HA].
    intros h N _. apply usame_eq. apply (tupd_other _ _ _ _ _ U h N).
  Qed.

  Lemma awc_MContRet spec S fr s : DLS res spec S (mkC MContRet fr s) -> AWc (mkC MContRet fr s) ->
    AWc (step P (mkC MContRet fr s)).
  Proof.
    intros HD HA. pose proof (dls_facts _ _ _ _ HD) as (Hnodup & _ & _ & _). cbn [c_mode c_st] in Hnodup.
    unfold AWc in HA. cbn [c_mode c_frames c_st AWm] in HA.
    destruct HA as (t & old & i & r & vs & rest & below & -> & Hts & Hlen & HAs & Hbot & HL). rewrite Hts in Hnodup.
    destruct (step_MContRet P t old (FExec i :: FWait r :: vs) s) as (s2 & -> & Ht2 & _ & _ & _ & _ & _ & _ & Hoth & _).
    destruct (aw_level_keep s s2 t rest below vs Hnodup) as (X & Y); [|exact HAs|exact HL|].
    - intros h N _. apply usame_eq, Hoth, N.
    - apply (AWc_exec i r vs (t :: rest) below); [rewrite Ht2; exact Hts|exact Hlen|exact X|right; exact Hbot|exact Y].
  Qed.

  Lemma awc_MRun spec S t p fr s : DLS res spec S (mkC (MRun t p) fr s) -> AWc (mkC (MRun t p) fr s) ->
    AWc (step P (mkC (MRun t p) fr s)).
  Proof.
    intros HD HA.
    destruct (dls_run_view _ _ _ _ _ _ _ HD) as (old & i & r & vs & rest1 & tk & -> & Hts1 & Hnt & Hg & Hcact & HS & Halloc & Hm & _).
    assert (Hnodup : NoDup (tasks s)) by apply (dls_facts _ _ _ _ HD).
    destruct Hm as [Htree|(h & k & ->)].
    2:{ destruct HA as (old' & i' & r' & vs' & rest & below & Efr & Hts & Hlen & HAs & Hbot & HL). injection Efr as <- <- <- <-.
        cbn [c_st] in Hts. unfold AWc. cbn [step c_mode c_frames c_st AWm]. rewrite Hts. apply awl_val; assumption. }
    (* the entry of t is replaced, new entries may appear: the clause of MRun t _ (that of MContRet, with t given) is kept *)
    assert (Hkeep : forall s2, tasks s2 = tasks s -> (forall h, h <> t -> get h s <> None -> get h s2 = get h s) ->
              AWm (MResume t) (FCont t old :: FExec i :: FWait r :: vs) s2).
    { intros s2 Ht2 Hoth. apply (AWm_top_keep t _ s s2 Hnodup Ht2); [|exact HA].
      intros h N Hh. apply usame_eq, (Hoth h N), Halloc, Hh. }
    assert (Hfin : forall q o, finishes q o -> AWc (step P (mkC (MRun t q) (FCont t old :: FExec i :: FWait r :: vs) s))).
    { intros q o Hq. destruct (step_run_finish P t (FCont t old :: FExec i :: FWait r :: vs) s tk Hg q o Hq) as (s2 & -> & U & _).
      exact (ex_intro _ t (Hkeep s2 (tupd_tasks _ _ _ _ _ U) (fun h N _ => tupd_other _ _ _ _ _ U h N))). }
    inversion Htree as [v Ev|v Ev|e Ev|y k Hl Hk Ev|c k Hc Hk Ev|c k Hc Hk Ev|q k Hq Hk Ev]; subst p.
    - exact (Hfin _ _ (fin_ret v)).
    - exact (Hfin _ _ (fin_result v)).
    - exact (Hfin _ _ (fin_raise e)).
    - destruct (SI_inst _ t y spec s HS Hl) as (spec1 & (_ & _ & Old & _) & _).
      assert (Hg1 : get t (snd (inst t y s)) = Some (mkFut None (KTask tk))) by (rewrite Old; [exact Hg|rewrite Hg; discriminate]).
      destruct (step_run_yield_at P t (FCont t old :: FExec i :: FWait r :: vs) s tk y k Hg1) as (s2 & -> & U & _).
      assert (K : AWm (MResume t) (FCont t old :: FExec i :: FWait r :: vs) s2).
      { apply Hkeep; [rewrite (tupd_tasks _ _ _ _ _ U); apply tasks_of_regs, regs_inst|].
        intros h N Hh. rewrite (tupd_other _ _ _ _ _ U h N). apply Old. exact Hh. }
      destruct (futs (extract _)); [exact K|exact (ex_intro _ t K)].
    - pose proof (enter_tupd t s tk Hg c) as U.
      exact (Hkeep _ (tupd_tasks _ _ _ _ _ U) (fun h N _ => tupd_other _ _ _ _ _ U h N)).
    - pose proof (exit_tupd t s tk Hg c) as U.
      exact (Hkeep _ (tupd_tasks _ _ _ _ _ U) (fun h N _ => tupd_other _ _ _ _ _ U h N)).
    - rewrite step_run_let.
      pose proof (SI_create spec _ t (FTask q) s HS (sf_task q Hq)) as (Hfresh & _ & _ & Hoth & _).
      apply Hkeep; [apply tasks_of_regs, regs_create|]. intros x N Hx. apply Hoth. intros ->. contradiction.
  Qed.

  Theorem awc_step spec S c : is_unwind (c_mode c) = false -> DLS res spec S c -> AWc c -> AWc (step P c).
  Proof.
    destruct c as [m fr s]. destruct m; cbn [c_mode is_unwind]; intros Hu HD HA; try discriminate;
      eauto using awc_MValue, awc_MWaitHead, awc_MAfterExec, awc_MExecLoop, awc_MResume, awc_MRun, awc_MContRet, awc_MDeliver.
  Qed.

  Theorem awc_run n spec S c : DLS res spec S c -> AWc c -> no_unwind P n c -> AWc (run P n c).
  Proof.
    intros HD HA Hn. apply (run_invariant P (fun c => (exists spec S, DLS res spec S c) /\ AWc c)); [|eauto|intros k Hk; apply Hn; lia].
    intros c0 Hu ((sp & S0 & HD0) & HA0). split; [exact (dls_step P HP res sp S0 c0 Hu HD0)|exact (awc_step sp S0 c0 Hu HD0 HA0)].
  Qed.
End AwaitingS.

(* inside one segment: an active entry below the top reaches the top; so does the bottom of the segment *)
Lemma seg_reach s t rest u tku :
  AWs (with_tasks s (t :: rest)) -> In u rest -> get u s = Some (mkFut None (KTask tku)) -> tk_cact tku = true ->
  reach (with_tasks s (t :: rest)) u t.
Proof.
  intros [Hpar Hag] Hu Hg Hc. apply in_split in Hu as (r1 & r2 & ->).
  assert (E : tasks (with_tasks s (t :: r1 ++ u :: r2)) = (t :: r1) ++ u :: r2) by reflexivity.
  assert (Hds : tk_ds tku = true) by (apply (Hag (t :: r1) u r2 tku E); [discriminate|exact Hg|exact Hc]).
  apply (par_reach _ Hpar (S (length r1)) (t :: r1) u r2 tku E Hg Hds [] t r1 eq_refl (le_n _)).
Qed.

Lemma seg_bottom_reach s t rest r :
  AWs (with_tasks s (t :: rest)) -> bottom r (t :: rest) -> reach (with_tasks s (t :: rest)) r t.
Proof.
  intros [Hpar Hag] (above & E). destruct above as [|a above']; cbn in E; inversion E as [[E1 E2]]; [apply reach_refl|].
  subst a rest. clear E.
  destruct (@exists_last _ (t :: above') ltac:(discriminate)) as (a'' & y & Ey).
  assert (Et : tasks (with_tasks s (t :: above' ++ [r])) = a'' ++ y :: [r]).
  { cbn [tasks with_tasks]. change (t :: above' ++ [r]) with ((t :: above') ++ [r]). rewrite Ey, <- app_assoc. reflexivity. }
  destruct (Hpar _ _ _ Et ltac:(discriminate)) as (b1 & w & b2 & tk & Eb & Hw & Hdw & _ & _).
  assert (w = r) as ->.
  { destruct b1 as [|v b1']; cbn in Eb; inversion Eb; [reflexivity|]. destruct b1'; discriminate. }
  assert (E : tasks (with_tasks s (t :: above' ++ [r])) = (t :: above') ++ r :: []) by reflexivity.
  apply (par_reach _ Hpar (S (length above')) (t :: above') r [] tk E Hw Hdw [] t above' eq_refl (le_n _)).
Qed.

Lemma awl_awaits s fr0 : forall ts vs, awl s ts vs -> forall r pre, fr0 = pre ++ FWait r :: vs ->
  forall u tku, In u ts -> get u s = Some (mkFut None (KTask tku)) -> tk_cact tku = true -> awaits s fr0 u r.
Proof.
  intros ts vs H. induction H as [|t k old i r' vs rest below Hlen HAs Hb HL IH]; intros r pre E u tku Hu Hg Hc; [destruct Hu|].
  assert (Htr : awaits s fr0 t r) by (apply (aws_call s fr0 t t k r pre _ (aws_refl _ _ _) E)).
  apply in_app_or in Hu as [[<-|Hu]|Hu].
  - exact Htr.
  - apply (awaits_trans _ _ _ t); [|exact Htr].
    apply (reach_awaits s (with_tasks s (t :: rest))); [reflexivity|]. apply (seg_reach s t rest u tku); assumption.
  - apply (awaits_trans _ _ _ r').
    + apply (IH r' (pre ++ [FWait r; FValue t k; FCont t old; FExec i]) ltac:(rewrite E, <- app_assoc; reflexivity) u tku Hu Hg Hc).
    + apply (awaits_trans _ _ _ t); [|exact Htr].
      apply (reach_awaits s (with_tasks s (t :: rest))); [reflexivity|]. apply (seg_bottom_reach s t rest r'); assumption.
Qed.

Section C07S_awaiting.
  Variable P : params.
  Hypothesis HP : pointwise P.
  Variable p : prog.
  Hypothesis Hp : stree p.

  Let h := fst (create [] (FTask p) (st0 P)).
  Let s1 := snd (create [] (FTask p) (st0 P)).

  (* while code of t runs, every task that owns a layer below t's own (an uncompleted task below t on the scheduler's
     stack whose contexts are active) awaits t: through dependency lists of uncompleted tasks (it yielded them) and
     through the synchronous calls of the callers that are inside value() *)
  Theorem layer_owners_await_stree n t q :
    no_unwind P n (start h s1) -> c_mode (run P n (start h s1)) = MRun t q ->
    let c := run P n (start h s1) in
    let s := c_st c in
    forall rest, tasks s = t :: rest -> forall u cx, In (u, cx) (lower s rest) -> awaits s (c_frames c) u t.
  Proof.
    intros Hn Hm. cbn zeta.
    pose proof (no_unwind_start P p) as H0.
    destruct (dls_reach P HP p Hp 0 H0) as (spec & S & HD). fold h s1 in HD. cbn [run] in HD.
    assert (HA0 : AWc (start h s1)) by (apply awl_top).
    pose proof (awc_run P HP (evals p) n spec S (start h s1) HD HA0 Hn) as HA.
    destruct (run P n (start h s1)) as [m fr s]. cbn [c_mode c_frames c_st] in *. subst m.
    unfold AWc in HA. cbn [c_mode c_frames c_st AWm] in HA.
    destruct HA as (old & i & r & vs & rest0 & below & -> & Hts & Hlen & HAs & Hbot & HL).
    intros rest Hts' u cx Hin. rewrite Hts in Hts'. inversion Hts' as [E]. subst rest.
    destruct (lower_in s _ u cx Hin) as (Hu & tku & Hgu & Hcu & _).
    apply in_app_or in Hu as [Hu|Hu].
    - apply (reach_awaits s (with_tasks s (t :: rest0))); [reflexivity|]. apply (seg_reach s t rest0 u tku); assumption.
    - apply (awaits_trans _ _ _ r).
      + apply (awl_awaits s _ below vs HL r [FCont t old; FExec i] eq_refl u tku Hu Hgu Hcu).
      + apply (reach_awaits s (with_tasks s (t :: rest0))); [reflexivity|]. apply (seg_bottom_reach s t rest0 r); assumption.
  Qed.
End C07S_awaiting.

(* tree p is stree p and wn is wns; what the tree class adds: no task is ever inside value(), the running body is a
   tree program (hence not at a synchronous call), and a chain of awaits has dependency links only *)
Lemma wns_tree_wn op p : wns op p -> tree p -> wn op p.
Proof.
  intros H. induction H as [v|v|e|op s k Hl IHl Hk IHk|op c k Hc Hk IHk|op c k Hk IHk|op q k Hq IHq Hk IHk]; intros Ht;
    try (constructor; fail).
  - inversion Ht as [| | |s' k' Hls Hks| |]; subst. apply wn_yield.
    + intros q Hin. apply IHl; [exact Hin|]. specialize (Hls _ Hin). inversion Hls as [f Hf|]; subst. inversion Hf; assumption.
    + intros o. apply IHk, Hks.
  - inversion Ht; subst. apply wn_enter; auto.
  - inversion Ht; subst. apply wn_exit; auto.
  - inversion Ht.
Qed.

Lemma awaits_reach s fr u v : fvals fr = [] -> awaits s fr u v -> reach s u v.
Proof.
  intros Hf H. induction H as [u|u w tk v H IH Hg Hv|u w k r pre post H IH E];
    [apply reach_refl|exact (reach_dep s u w tk v IH Hg Hv)|].
  exfalso. subst fr. clear -Hf. induction pre as [|a pre IH]; cbn in Hf; [discriminate|]. destruct a; try discriminate; auto.
Qed.

Section C07_theorems.
  Variable P : params.
  Hypothesis HP : pointwise P.
  Variable p : prog.
  Hypothesis Ht : tree p.

  Let h := fst (create [] (FTask p) (st0 P)).
  Let s1 := snd (create [] (FTask p) (st0 P)).
  Let Hs := tree_stree p Ht.

  (* the frame invariant of a tree run (MachineC01.c01_reach) has no FValue frame in any mode *)
  Lemma tree_shape n : no_unwind P n (start h s1) ->
    (is_final (c_mode (run P n (start h s1))) = false -> fvals (c_frames (run P n (start h s1))) = []) /\
    forall t q, c_mode (run P n (start h s1)) = MRun t q -> tree q.
  Proof.
    intros Hn. destruct (c01_reach P _ _ p n HP Ht (SInv_empty P) Hn) as (spec & (_ & HC)). fold h s1 in HC.
    pose proof (Hn n (le_n n)) as Hu.
    destruct (run P n (start h s1)) as [m fr s]. cbn [c_mode c_frames c_st] in *. split.
    - intros Hf. destruct m; try discriminate; destruct HC as (Hfr & _); cbn [frames_ok] in Hfr;
        repeat match goal with H : exists _, _ |- _ => destruct H end; subst fr; reflexivity.
    - intros t q E. subst m. apply HC.
  Qed.

  (* while the body of t runs, every task that owns a layer below t's own (an uncomputed task below t on the
     scheduler stack whose contexts are active) awaits t, directly or through other uncompleted tasks *)
  Theorem layer_owners_await_tree n t q :
    no_unwind P n (start h s1) -> c_mode (run P n (start h s1)) = MRun t q ->
    let s := c_st (run P n (start h s1)) in
    forall rest, tasks s = t :: rest -> forall u c, In (u, c) (lower s rest) -> reach s u t.
  Proof.
    intros Hn Hm. cbn zeta. intros rest Hts u c Hin.
    apply (awaits_reach _ _ _ _ (proj1 (tree_shape n Hn) ltac:(rewrite Hm; reflexivity))).
    exact (layer_owners_await_stree P HP p Hs n t q Hn Hm rest Hts u c Hin).
  Qed.

  Hypothesis Hw : wn [] p.
  Let Hws := wn_wns _ _ Hw.

  (* restoration: at every flush point (the _execute pass has ended) and when the outermost call has
     returned, with a value or an error, every scoped value is what it was before the computation *)
  Theorem values_restored_tree n :
    no_unwind P n (start h s1) ->
    (c_mode (run P n (start h s1)) = MAfterExec \/ exists o, c_mode (run P n (start h s1)) = MDone o) ->
    forall x, var_get x (c_st (run P n (start h s1))) = var_get x s1.
  Proof.
    intros Hn Hm. apply (values_restored_stree P HP p Hs Hws n Hn).
    destruct Hm as [Hm|Hm]; [right; split; [exact Hm|apply (tree_shape n Hn); rewrite Hm; reflexivity]|left; exact Hm].
  Qed.

  (* reads: while the body of t runs, the scoped variables are the initial values overridden by the
     layers in order; the layers are those of uncomputed tasks below t on the scheduler stack whose
     contexts are active, followed by t's own open contexts in entry order *)
  Theorem reads_see_enclosing_overrides_tree n t q :
    no_unwind P n (start h s1) -> c_mode (run P n (start h s1)) = MRun t q ->
    let s := c_st (run P n (start h s1)) in
    (forall x, var_get x s = apply_l (fun x => var_get x s1) (layers s) x) /\
    exists tk rest, get t s = Some (mkFut None (KTask tk)) /\ tk_cact tk = true /\ wn (tk_ctxs tk) q /\
      tasks s = t :: rest /\ layers s = lower s rest ++ map (pair t) (tk_ctxs tk) /\
      forall u c, In (u, c) (lower s rest) ->
        In u rest /\ exists tku, get u s = Some (mkFut None (KTask tku)) /\ tk_cact tku = true /\ In c (tk_ctxs tku).
  Proof.
    intros Hn Hm. cbn zeta.
    destruct (reads_see_enclosing_overrides_stree P HP p Hs Hws n t q Hn Hm)
      as (A & tk & rest & Hg & Hc & Hq & Hts & _ & Hl & Hlow & _).
    pose proof (proj2 (tree_shape n Hn) t q Hm) as Htq.
    split; [exact A|]. exists tk, rest. split; [exact Hg|]. split; [exact Hc|]. split.
    - destruct Hq as [Hq|(h' & k & -> & _)]; [exact (wns_tree_wn _ _ Hq Htq)|inversion Htq].
    - split; [exact Hts|]. split; [exact Hl|]. intros u c Hin. destruct (Hlow u c Hin) as (Hu & tku & G & C & I & _). eauto 6.
  Qed.

  (* corollary: a variable has the value of the innermost (last) override layer for it, or its initial
     value when no active layer overrides it *)
  Theorem reads_innermost_tree n t q x :
    no_unwind P n (start h s1) -> c_mode (run P n (start h s1)) = MRun t q ->
    let s := c_st (run P n (start h s1)) in
    (forall pre u cid v post, layers s = pre ++ (u, COverride cid x v) :: post ->
       (forall l, In l post -> ovar (snd l) <> Some x) -> var_get x s = v) /\
    ((forall l, In l (layers s) -> ovar (snd l) <> Some x) -> var_get x s = var_get x s1).
  Proof. exact (reads_innermost_stree P HP p Hs Hws n t q x). Qed.

  (* nesting: each machine step changes the list of active contexts at its END only - whatever was
     resumed last is paused first, across all tasks *)
  Theorem contexts_nest_lifo_tree n :
    no_unwind P n (start h s1) ->
    lifo (layers (c_st (run P n (start h s1)))) (layers (c_st (run P (S n) (start h s1)))).
  Proof. exact (contexts_nest_lifo_stree P HP p Hs Hws n). Qed.

  (* the full invariant at every reachable configuration that is not final: the variables are the base
     overridden by the layers, each override instance remembers the value below it, layer keys are distinct *)
  Theorem saved_values_tree n :
    no_unwind P n (start h s1) ->
    match c_mode (run P n (start h s1)) with
    | MUnwind _ | MStuck | MDone _ => True
    | _ => vars_ok (fun x => var_get x s1) (c_st (run P n (start h s1)))
    end.
  Proof.
    intros Hn. pose proof (saved_values_stree P HP p Hs Hws n Hn) as H. fold h s1 in H.
    destruct (c_mode (run P n (start h s1))); try exact I; exact H.
  Qed.

  (* C06: while the body of t runs, a context of another task u that is resumed belongs to a task that
     awaits t (t is reachable from u through the dependency lists of uncompleted tasks): a context is paused whenever
     a task its owner is not awaiting runs *)
  Theorem resumed_only_in_awaiting_tasks_tree n t q u cid :
    no_unwind P n (start h s1) -> c_mode (run P n (start h s1)) = MRun t q ->
    let s := c_st (run P n (start h s1)) in
    (exists rest, filter (evk u cid) (trace s) = EvResume u cid :: rest) -> reach s u t.
  Proof.
    intros Hn Hm. cbn zeta. intros Hr.
    apply (newest_is_resume_iff_active_stree P HP p Hs Hws n u cid Hn) in Hr as (tk & f & Hg & Hc & Hin).
    assert (Hl : In (u, CAsync cid f) (layers (c_st (run P n (start h s1))))).
    { apply (layers_are_the_active_contexts_stree P HP p Hs Hws n u _ Hn); [fold h s1; rewrite Hm; reflexivity|]. exists tk. auto. }
    destruct (reads_see_enclosing_overrides_stree P HP p Hs Hws n t q Hn Hm) as (_ & tk0 & rest & _ & _ & _ & Hts & _ & E & _).
    fold h s1 in E. rewrite E in Hl. apply in_app_or in Hl as [Hl|Hl].
    - exact (layer_owners_await_tree n t q Hn Hm rest Hts u _ Hl).
    - apply in_map_iff in Hl as (c & Ec & _). inversion Ec. apply reach_refl.
  Qed.
End C07_theorems.
