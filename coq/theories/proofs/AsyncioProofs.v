(* C15: fn.asyncio() against the same function under asynq's scheduler (model Asyncio.v).  Three facts carry the file:
   the run with a heap of contexts refines the run without it and frames the heap ([refines], runH_ref); a run is
   [confined] - the asyncio-mode flag it ends with is the one it started with, and every body it logs ran under the
   flag in force; for well-formed leaves the run is the [same] as the sequential one (eq_seq).  What a yield delivers
   is characterised once, for an arbitrary await function (resolve_unwrap, resolve_outcome, resolve_raises,
   resolve_trace).  The lemmas that props/C15.v cites by name (mode_confined, sync_call_refused,
   exception_value_is_data, all_awaited_then_first_error, reentrant_mode_confined, caller_continues,
   explicit_asyncio_fn_in_subtree) are conjunctions put together for the statements there; their parts are the lemmas
   above and run_confined. *)
From Asynq Require Import Base Asyncio.

(* induction with the hypothesis for every member of a container; Asyncio.ystruct has YBad, Prog.ystruct (and
   ProgProofs.ystruct_ind2) has not *)
Section YInd.
  Variable A : Type.
  Variable Q : ystruct A -> Prop.
  Hypothesis HNone : Q YNone.
  Hypothesis HLeaf : forall a, Q (YLeaf a).
  Hypothesis HBad : Q YBad.
  Hypothesis HTuple : forall l, Forall Q l -> Q (YTuple l).
  Hypothesis HList : forall l, Forall Q l -> Q (YList l).
  Hypothesis HDict : forall l, Forall (fun kv => Q (snd kv)) l -> Q (YDict l).
  Fixpoint ystruct_ind2 (s : ystruct A) : Q s :=
    let all := fix go (l : list (ystruct A)) : Forall Q l :=
                 match l with [] => Forall_nil _ | x :: r => Forall_cons x (ystruct_ind2 x) (go r) end in
    match s with
    | YNone => HNone
    | YLeaf a => HLeaf a
    | YBad => HBad
    | YTuple l => HTuple l (all l)
    | YList l => HList l (all l)
    | YDict l => HDict l ((fix go (l : list (Z * ystruct A)) : Forall (fun kv => Q (snd kv)) l :=
                             match l with [] => Forall_nil _ | kv :: r => Forall_cons kv (ystruct_ind2 (snd kv)) (go r) end) l)
    end.
End YInd.

(* "f holds of every leaf of the structure" *)
Section YAll.
  Variable A : Type.
  Variable f : A -> Prop.
  Fixpoint yall (s : ystruct A) : Prop :=
    match s with
    | YNone | YBad => True
    | YLeaf a => f a
    | YTuple l | YList l =>
      (fix all (l : list (ystruct A)) : Prop := match l with [] => True | x :: r => yall x /\ all r end) l
    | YDict l =>
      (fix all (l : list (Z * ystruct A)) : Prop := match l with [] => True | kv :: r => yall (snd kv) /\ all r end) l
    end.
  Variable h : forall a, f a.
  Fixpoint yall_build (s : ystruct A) : yall s :=
    match s return yall s with
    | YNone | YBad => I
    | YLeaf a => h a
    | YTuple l | YList l => (fix go l : yall (YList l) := match l with [] => I | x :: r => conj (yall_build x) (go r) end) l
    | YDict l => (fix go l : yall (YDict l) := match l with [] => I | kv :: r => conj (yall_build (snd kv)) (go r) end) l
    end.
End YAll.
Arguments yall {A} f s.

(* Tuples, lists and dicts are treated alike by every function of the model, a dict through [snd]: the three
   container cases of the structural inductions below are each the same argument about the list of members. *)
Lemma yall_leaves A (f : A -> Prop) (s : ystruct A) : yall f s <-> Forall f (yleaves s).
Proof.
  induction s using ystruct_ind2; cbn.
  1, 3: split; auto.
  1: split; intros H; [constructor; auto | inversion H; auto].
  all: induction H as [|x r Hx _ IH]; cbn; [split; auto|];
    (split; [intros [? ?]; apply Forall_app | intros [? ?]%Forall_app]; split; (apply Hx || apply IH); assumption).
Qed.

Lemma yall_and A (f g : A -> Prop) (s : ystruct A) :
  yall f s -> yall g s -> yall (fun a => f a /\ g a) s.
Proof.
  intros H1%yall_leaves H2%yall_leaves. apply yall_leaves, Forall_and; assumption.
Qed.

(* the sub-programs of a leaf: the body of the asynq function and, when the function comes with an explicit
   asyncio_fn, the body of that coroutine function *)
Definition clift (P : prog -> Prop) (c : cfg prog) : Prop :=
  match cafn c with AfNative q => P q | _ => True end.
Definition lift (P : prog -> Prop) (a : leaf prog) : Prop :=
  match a with
  | LConst _ | LPxConst _ _ => True
  | LCall c p | LPxCall _ c p => P p /\ clift P c
  end.

Lemma lift_all (P : prog -> Prop) : (forall p, P p) -> forall a, lift P a.
Proof.
  intros H a. destruct a as [v|c p|i v|i c p]; cbn; auto; split; auto; unfold clift; destruct (cafn c); auto.
Qed.

Section ProgInd.
  Variable P : prog -> Prop.
  Hypothesis HRet : forall v, P (Ret v).
  Hypothesis HRaise : forall e, P (Raise e).
  Hypothesis HYield : forall s k, yall (lift P) s -> (forall o, P (k o)) -> P (Yield s k).
  Hypothesis HSync : forall al a k, lift P a -> (forall o, P (k o)) -> P (Sync al a k).
  Fixpoint prog_ind2 (p : prog) : P p :=
    let cl c : clift P c :=
        match cafn c as x return (match x return Prop with AfNative q => P q | _ => True end) with
        | AfNative q => prog_ind2 q | _ => I end in
    let lf a : lift P a :=
        match a return lift P a with
        | LConst _ | LPxConst _ _ => I
        | LCall c q | LPxCall _ c q => conj (prog_ind2 q) (cl c)
        end in
    match p with
    | Ret v => HRet v
    | Raise e => HRaise e
    | Yield s k => HYield s k (yall_build _ (lift P) lf s) (fun o => prog_ind2 (k o))
    | Sync al a k => HSync al a k (lf a) (fun o => prog_ind2 (k o))
    end.
End ProgInd.

Lemma concat_map_concat X Y W (h : X -> list Y) (g : Y -> list W) (l : list X) :
  concat (map g (concat (map h l))) = concat (map (fun x => concat (map g (h x))) l).
Proof. induction l as [|x l IH]; cbn; auto. rewrite map_app, concat_app, IH. reflexivity. Qed.

Lemma seq_first_map X Y (h : X -> Y) (f : Y -> outcome) l :
  seq_first f (map h l) = seq_first (fun x => f (h x)) l.
Proof. induction l as [|x r IH]; cbn; auto. rewrite IH. reflexivity. Qed.

Lemma seq_first_ext X (f g : X -> outcome) l :
  Forall (fun x => f x = g x) l -> seq_first f l = seq_first g l.
Proof. induction 1 as [|x r Hx Hr IH]; cbn; auto. rewrite Hx, IH. reflexivity. Qed.

(* waiting for all and then taking the first failed task = the sequential walk that stops at
   the first failure *)
Lemma gather_seq_first X (f : X -> outcome) l : gather (map f l) = seq_first f l.
Proof.
  unfold gather. induction l as [|x r IH]; cbn; auto.
  destruct (f x) as [v|e]; cbn; auto.
  rewrite <- IH. destruct (first_error (map f r)); reflexivity.
Qed.

(* the value a structure of values stands for *)
Fixpoint yval (s : ystruct val) : val :=
  match s with
  | YNone | YBad => VNone
  | YLeaf v => v
  | YTuple l => VTuple (map yval l)
  | YList l => VList (map yval l)
  | YDict l => VDict (map (fun kv => (fst kv, yval (snd kv))) l)
  end.

Lemma Forall_concat_split {X Y} {P : Y -> Prop} {g : X -> list Y} {Q : X -> Prop} {l} :
  Forall (fun x => Forall P (g x) -> Q x) l -> Forall P (concat (map g l)) -> Forall Q l.
Proof.
  induction 1 as [|x r Hx Hr IH]; cbn; intros Hc; constructor;
    apply Forall_app in Hc; destruct Hc; auto.
Qed.

Lemma ymap_ymap A B C (f : A -> B) (g : B -> C) (s : ystruct A) :
  ymap g (ymap f s) = ymap (fun a => g (f a)) s.
Proof.
  induction s using ystruct_ind2; cbn; auto; f_equal; rewrite map_map; apply map_ext_Forall.
  all: eapply Forall_impl; [|exact H]; cbn; now intros x ->.
Qed.

Lemma yleaves_ymap A B (f : A -> B) (s : ystruct A) : yleaves (ymap f s) = map f (yleaves s).
Proof.
  induction s using ystruct_ind2; cbn; auto; rewrite map_map, concat_map, map_map; f_equal; apply map_ext_Forall, H.
Qed.

Lemma ymap_ext A B (f g : A -> B) (s : ystruct A) :
  Forall (fun a => f a = g a) (yleaves s) -> ymap f s = ymap g s.
Proof.
  induction s using ystruct_ind2; cbn; intros Hy; auto; f_equal.
  1: now inversion Hy.
  all: apply map_ext_Forall; eapply Forall_impl; [|exact (Forall_concat_split H Hy)]; cbn; now intros x ->.
Qed.

Lemma combine_fst_map X Y W (l : list (X * Y)) (h : X * Y -> W) :
  combine (map fst l) (map h l) = map (fun kv => (fst kv, h kv)) l.
Proof. induction l as [|kv r IH]; cbn; auto. rewrite IH; reflexivity. Qed.

(* the outcomes met by a left-to-right walk of the structure; a non-future counts as a TypeError *)
Fixpoint youts (s : ystruct outcome) : list outcome :=
  match s with
  | YNone => []
  | YLeaf o => [o]
  | YBad => [Err E_TYPEERROR]
  | YTuple l | YList l => concat (map youts l)
  | YDict l => concat (map (fun kv => youts (snd kv)) l)
  end.

Lemma first_error_app a b :
  first_error (a ++ b) = match first_error a with Some e => Some e | None => first_error b end.
Proof. induction a as [|[v|e] a IH]; cbn; auto. Qed.

Definition unwrap_spec (s : ystruct outcome) : Prop :=
  unwrap s = match first_error (youts s) with Some e => Err e | None => Ok (yval (ymap value_of s)) end.

Lemma seq_first_spec X (f : X -> outcome) (outs : X -> list outcome) (g : X -> val) l :
  Forall (fun x => f x = match first_error (outs x) with Some e => Err e | None => Ok (g x) end) l ->
  seq_first f l = match first_error (concat (map outs l)) with Some e => inl e | None => inr (map g l) end.
Proof.
  induction 1 as [|x r Hx Hr IH]; cbn; auto.
  rewrite first_error_app, Hx. destruct (first_error (outs x)); auto.
  rewrite IH. destruct (first_error (concat (map outs r))); reflexivity.
Qed.

Lemma unwrap_first_error (s : ystruct outcome) : unwrap_spec s.
Proof.
  unfold unwrap_spec. induction s using ystruct_ind2; cbn; auto.
  1: destruct a; reflexivity.
  all: rewrite (seq_first_spec _ _ _ _ l H); destruct (first_error _); auto; rewrite !map_map, ?combine_fst_map; reflexivity.
Qed.

Fixpoint has_bad A (s : ystruct A) : bool :=
  match s with
  | YBad => true
  | YNone | YLeaf _ => false
  | YTuple l | YList l => existsb (has_bad A) l
  | YDict l => existsb (fun kv => has_bad A (snd kv)) l
  end.
Arguments has_bad {A} s.

Lemma first_error_in rs e : first_error rs = Some e -> In (Err e) rs.
Proof.
  induction rs as [|[v|e'] r IH]; cbn; [discriminate | auto | intros [= ->]; auto].
Qed.

(* what a walk of the members' outcomes meets is a member's outcome, or the TypeError of a non-future that is there *)
Lemma youts_in A (f : A -> outcome) (s : ystruct A) o :
  In o (youts (ymap f s)) -> (has_bad s = true /\ o = Err E_TYPEERROR) \/ In o (map f (yleaves s)).
Proof.
  induction s using ystruct_ind2; cbn; try tauto.
  1: intros [<-|[]]; auto.
  all: rewrite map_map; induction H as [|x r Hx _ IH]; cbn in *; [tauto|]; rewrite map_app.
  all: intros [Hi|Hi]%in_app_or; [destruct (Hx Hi) as [[-> ?]|?] | destruct (IH Hi) as [[-> ?]|?]];
    rewrite ?orb_true_r; auto using in_or_app.
Qed.

Section ResolveFacts.
  Variable A : Type.
  Variable aw : A -> bool -> tr3.

  (* whatever the structure, resolve_awaitables delivers unwrap(structure of the leaves' own
     outcomes) - the first failure in structure order ... *)
  Lemma resolve_unwrap (s : ystruct A) fl : o3 (resolve aw s fl) = unwrap (ymap (fun a => o3 (aw a fl)) s).
  Proof.
    induction s using ystruct_ind2; cbn [resolve ymap unwrap]; try reflexivity.
    all: unfold o3 at 1; cbn [fst]; rewrite !map_map, gather_seq_first, seq_first_map, (seq_first_ext _ _ _ _ H); reflexivity.
  Qed.

  (* ... and its trace is the complete trace of every leaf, in order: nothing is skipped or cut short
     because another leaf failed *)
  Lemma resolve_trace (s : ystruct A) fl : t3 (resolve aw s fl) = concat (map (fun a => t3 (aw a fl)) (yleaves s)).
  Proof.
    induction s using ystruct_ind2; cbn [resolve yleaves]; try reflexivity.
    1: cbn; now rewrite app_nil_r.
    all: unfold t3 at 1; cbn [snd]; rewrite map_map, concat_map_concat; f_equal; apply map_ext_Forall, H.
  Qed.

  (* ... hence, by unwrap_first_error: the first failure met, else the structure of the members' values *)
  Lemma resolve_outcome (s : ystruct A) fl :
    o3 (resolve aw s fl) =
    match first_error (youts (ymap (fun a => o3 (aw a fl)) s)) with
    | Some e => Err e
    | None => Ok (yval (ymap (fun a => value_of (o3 (aw a fl))) s))
    end.
  Proof. rewrite resolve_unwrap, unwrap_first_error, ymap_ymap. reflexivity. Qed.

  (* A member that finished successfully is data, whatever its value is: an exception instance that
     was *returned* ([Ok (VExc e)]) is never raised at the yield.  What a yield raises is always the
     failure of one of its own members, or the TypeError of a non-future. *)
  Lemma resolve_raises (s : ystruct A) fl e :
    o3 (resolve aw s fl) = Err e ->
    (has_bad s = true /\ e = E_TYPEERROR) \/ exists a, In a (yleaves s) /\ o3 (aw a fl) = Err e.
  Proof.
    rewrite resolve_outcome. destruct (first_error _) as [e'|] eqn:Ef; [|discriminate]. intros [= ->].
    destruct (youts_in _ _ _ _ (first_error_in _ _ Ef)) as [[Hb [= ->]]|Hin]; [now left | right].
    apply in_map_iff in Hin. destruct Hin as [a [Ha Hin]]. exists a; auto.
  Qed.

  (* every leaf is awaited to its end, whatever the other leaves do *)
  Lemma all_done (s : ystruct A) fl a ev :
    In a (yleaves s) -> In ev (t3 (aw a fl)) -> In ev (t3 (resolve aw s fl)).
  Proof.
    intros Ha Hev. rewrite resolve_trace.
    apply in_concat. exists (t3 (aw a fl)). split; auto. apply in_map_iff. exists a; auto.
  Qed.

  (* items of a list / tuple / dict run on copies of the context; only a bare awaitable is awaited in the caller's own *)
  Lemma resolve_flag (s : ystruct A) fl :
    Forall (fun a => f3 (aw a fl) = fl) (yleaves s) -> f3 (resolve aw s fl) = fl.
  Proof. destruct s; cbn; auto. now inversion 1. Qed.
End ResolveFacts.

Lemma drive_Yield s k fl :
  let R := resolve (await_leaf drive) s fl in
  let R2 := drive (k (o3 R)) (f3 R) in
  drive (Yield s k) fl = (o3 R2, f3 R2, t3 R ++ t3 R2).
Proof.
  cbn [drive]. destruct (resolve (await_leaf drive) s fl) as [[o f] t]. cbn [o3 f3 t3 fst snd].
  destruct (drive (k o) f) as [[o2 f2] t2]. reflexivity.
Qed.

Lemma eval_Yield s k :
  let R2 := eval (k (unwrap (ymap (fun a => fst (eval_leaf eval a)) s))) in
  eval (Yield s k) = (fst R2, concat (map (fun a => snd (eval_leaf eval a)) (yleaves s)) ++ snd R2).
Proof.
  cbn [eval]. rewrite ymap_ymap, yleaves_ymap, map_map. destruct (eval (k _)) as [o t]. reflexivity.
Qed.

(* AsyncDecorator.__call__ (decorators.py:219-230): what a plain synchronous call hands to the code after it, and
   what it logs *)
Definition sync_step (al : bool) (a : leaf prog) (fl : bool) : outcome * list event :=
  if fl then if al then (Ok VNone, [EvSync SAllowed]) else (Err E_RUNTIME, [EvSync SRefused])
  else (fst (eval_leaf eval a), EvSync SRan :: snd (eval_leaf eval a)).

Lemma drive_Sync al a k fl :
  let r := drive (k (fst (sync_step al a fl))) fl in
  drive (Sync al a k) fl = (o3 r, f3 r, snd (sync_step al a fl) ++ t3 r).
Proof.
  cbn [drive]. unfold sync_step. destruct fl; [destruct al | destruct (eval_leaf eval a) as [o tr]]; cbn [fst snd];
    destruct (drive _ _) as [[o2 f2] t2]; reflexivity.
Qed.

Definition converted (c : cfg prog) : Prop := match cafn c with AfNative _ => False | _ => True end.

Lemma call_asyncio_conv drv c p fl :
  converted c ->
  call_asyncio drv c p fl =
  (o3 (drv p true), fl, EvBody (cid c) true :: t3 (drv p true) ++ [EvDone (cid c) (o3 (drv p true))]).
Proof.
  unfold call_asyncio, converted. destruct (cafn c); intros H; try contradiction;
    cbn; destruct (drv p true) as [[o f] t]; reflexivity.
Qed.

Lemma call_asyncio_native {drv c p fl q} :
  cafn c = AfNative q ->
  call_asyncio drv c p fl =
  (o3 (drv q fl), f3 (drv q fl), EvBody (cid c) fl :: t3 (drv q fl) ++ [EvDone (cid c) (o3 (drv q fl))]).
Proof. unfold call_asyncio. intros ->. destruct (drv q fl) as [[o f] t]. reflexivity. Qed.

Lemma cafn_cases (c : cfg prog) : converted c \/ exists q, cafn c = AfNative q.
Proof. unfold converted. destruct (cafn c); eauto. Qed.

(* what may be seen while a converted coroutine runs: every body sees the flag on, and no plain
   synchronous call ever runs its callee *)
Definition ev_ok (ev : event) : Prop :=
  match ev with
  | EvBody _ b => b = true
  | EvSync SRan => False
  | _ => True
  end.

(* the root coroutine was made by convert_asynq_to_async (not a user-supplied asyncio_fn, whose
   body is not under AsyncioMode; behind a proxy it is awaited after the proxy's with-block) *)
Definition converted_leaf (a : leaf prog) : Prop :=
  match a with LCall c _ | LPxCall _ c _ => converted c | _ => True end.

(* [mode_confined] as one invariant of a run r started where the flag is fl: the flag afterwards is fl again, and if the
   run is that of a converted coroutine ([conv]) or the flag was on, everything in it happens in asyncio mode.  The
   induction over programs runs at conv := False (a body is confined by the flag it is entered with); [conv] is only
   ever converted_leaf a, for a leaf whose call enters its body with the flag on *)
Definition confined (fl : bool) (conv : Prop) (r : tr3) : Prop :=
  f3 r = fl /\ (conv \/ fl = true -> Forall ev_ok (t3 r)).

Lemma ev_ok_call i o tr : Forall ev_ok tr -> Forall ev_ok (EvBody i true :: tr ++ [EvDone i o]).
Proof. intros H. constructor; [reflexivity|]. apply Forall_app; split; [exact H | repeat constructor]. Qed.

Lemma call_confined c p fl :
  (forall fl, confined fl False (drive p fl)) -> clift (fun q => forall fl, confined fl False (drive q fl)) c ->
  confined fl (converted c) (call_asyncio drive c p fl).
Proof.
  intros IH IHq. destruct (cafn_cases c) as [Hc|[q E]].
  - rewrite call_asyncio_conv by exact Hc. split; [reflexivity|]. intros _. apply ev_ok_call, (IH true). auto.
  - (* an explicit asyncio_fn enters no AsyncioMode: its body runs with the flag of its awaiter and hands it back *)
    unfold clift, converted in *. rewrite E in *. rewrite (call_asyncio_native E).
    destruct (IHq fl) as [Hf Ht]. split; [exact Hf|]. intros [[]| ->]. apply ev_ok_call, Ht. auto.
Qed.

Lemma await_confined a fl :
  lift (fun p => forall fl, confined fl False (drive p fl)) a -> confined fl (converted_leaf a) (await_leaf drive a fl).
Proof.
  destruct a as [v|c p|c v|c c' p]; cbn [lift await_leaf converted_leaf]; intros IH.
  - split; [reflexivity | constructor].
  - apply call_confined; apply IH.
  - split; [reflexivity | repeat constructor].
  - destruct (call_confined c' p fl (proj1 IH) (proj2 IH)) as [Hf Ht]. unfold mode_enter, mode_exit.
    destruct (call_asyncio drive c' p fl) as [[o f] t]. split; [exact Hf|]. intros H. constructor; [reflexivity | exact (Ht H)].
Qed.

Lemma drive_confined : forall p fl, confined fl False (drive p fl).
Proof.
  induction p using prog_ind2; intros fl.
  - split; [reflexivity | constructor].
  - split; [reflexivity | constructor].
  - apply yall_leaves in H. apply (Forall_impl _ (fun a => await_confined a fl)), Forall_and_inv in H as [Hf Ht].
    rewrite drive_Yield. cbn [f3 t3 fst snd]. rewrite (resolve_flag _ _ s fl Hf).
    destruct (H0 (o3 (resolve (await_leaf drive) s fl)) fl) as [Kf Kt]. split; [exact Kf|].
    intros Hon. apply Forall_app; split; [|exact (Kt Hon)].
    rewrite resolve_trace. apply Forall_concat, Forall_map.
    eapply Forall_impl; [|exact Ht]. intros a Ha. apply Ha. tauto.
  - rewrite drive_Sync. cbn [f3 t3 fst snd]. destruct (H0 (fst (sync_step al a fl)) fl) as [Kf Kt]. split; [exact Kf|].
    intros Hon. apply Forall_app; split; [|exact (Kt Hon)].
    destruct Hon as [[]| ->]. destruct al; repeat constructor.
Qed.

Lemma run_confined a fl : confined fl (converted_leaf a) (run_asyncio a fl).
Proof. apply await_confined, lift_all, drive_confined. Qed.

Lemma mode_confined :
  (forall a fl, f3 (run_asyncio a fl) = fl) /\
  (forall p fl, f3 (drive p fl) = fl) /\
  (forall a fl, converted_leaf a -> Forall ev_ok (t3 (run_asyncio a fl))).
Proof.
  split; [intros a fl; apply run_confined|]. split; [intros p fl; apply drive_confined|].
  intros a fl Hc. apply (run_confined a fl). auto.
Qed.

Lemma sync_call_refused :
  (forall a k, let r := drive (k (Err E_RUNTIME)) true in
               drive (Sync false a k) true = (o3 r, f3 r, EvSync SRefused :: t3 r)) /\
  (forall a fl, converted_leaf a -> ~ In (EvSync SRan) (t3 (run_asyncio a fl))) /\
  (forall a k, let r := drive (k (Ok VNone)) true in
               drive (Sync true a k) true = (o3 r, f3 r, EvSync SAllowed :: t3 r)).
Proof.
  split; [exact (fun a k => drive_Sync false a k true)|]. split; [|exact (fun a k => drive_Sync true a k true)].
  intros a fl Hc Hin. pose proof (proj2 (run_confined a fl) (or_introl Hc)) as H. rewrite Forall_forall in H.
  exact (H _ Hin).
Qed.

Definition is_done (ev : event) : bool := match ev with EvDone _ _ => true | _ => false end.
Definition dones (tr : list event) : list event := filter is_done tr.

(* an explicit asyncio_fn has to agree with the asynq function it stands for *)
Definition agree (rec : prog -> Prop) (c : cfg prog) (p : prog) : Prop :=
  match cafn c with
  | AfNative q =>
    (* the coroutine body, read as an asynq program, is in the class itself and computes what the asynq function
       computes: same outcome, the same calls complete with the same outcomes *)
    rec q /\ fst (eval q) = fst (eval p) /\ dones (snd (eval q)) = dones (snd (eval p))
  | _ => True
  end.

Definition lwf (rec : prog -> Prop) (a : leaf prog) : Prop :=
  match a with
  | LConst _ | LPxConst _ _ => True
  | LCall c p | LPxCall _ c p => rec p /\ agree rec c p
  end.

(* the statement's program class: no plain synchronous calls; explicit asyncio_fns agree *)
Fixpoint wf (p : prog) : Prop :=
  match p with
  | Ret _ | Raise _ => True
  | Yield s k => yall (lwf wf) s /\ forall o, wf (k o)
  | Sync _ _ _ => False
  end.

Definition same (r : tr3) (e : outcome * list event) : Prop :=
  o3 r = fst e /\ dones (t3 r) = dones (snd e).

Lemma dones_app a b : dones (a ++ b) = dones a ++ dones b.
Proof. apply filter_app. Qed.

Lemma dones_concat_ext X (g1 g2 : X -> list event) l :
  Forall (fun a => dones (g1 a) = dones (g2 a)) l ->
  dones (concat (map g1 l)) = dones (concat (map g2 l)).
Proof. induction 1 as [|x r Hx Hr IH]; cbn; auto. rewrite !dones_app, Hx, IH. reflexivity. Qed.

(* a call on either side: the run of the body between EvBody and EvDone *)
Lemma same_call r e i b b' fl :
  same r e -> same (o3 r, fl, EvBody i b :: t3 r ++ [EvDone i (o3 r)]) (fst e, EvBody i b' :: snd e ++ [EvDone i (fst e)]).
Proof.
  unfold same, dones. cbn [o3 t3 fst snd filter is_done]. intros [Ho Ht]. now rewrite !filter_app, Ht, Ho.
Qed.

Lemma call_same c p fl :
  (forall fl, same (drive p fl) (eval p)) ->
  clift (fun q => wf q -> forall fl, same (drive q fl) (eval q)) c -> agree wf c p ->
  same (call_asyncio drive c p fl)
       (fst (eval p), EvBody (cid c) false :: snd (eval p) ++ [EvDone (cid c) (fst (eval p))]).
Proof.
  intros IH IHq Ha. destruct (cafn_cases c) as [Hc|[q E]].
  - rewrite call_asyncio_conv by exact Hc. apply same_call, IH.
  - rewrite (call_asyncio_native E). unfold agree, clift in *. rewrite E in *.
    destruct Ha as [Hw [Ho Hd]]. destruct (IHq Hw fl) as [Qo Qt]. apply same_call. split; congruence.
Qed.

Lemma leaf_same a fl :
  lift (fun p => wf p -> forall fl, same (drive p fl) (eval p)) a -> lwf wf a ->
  same (await_leaf drive a fl) (eval_leaf eval a).
Proof.
  destruct a as [v|c p|c v|c c' p]; cbn [lift lwf await_leaf eval_leaf]; intros IH Hw.
  - split; reflexivity.
  - pose proof (call_same c p fl (proj1 IH (proj1 Hw)) (proj2 IH) (proj2 Hw)) as H.
    destruct (eval p) as [o tr]. exact H.
  - split; reflexivity.
  - pose proof (call_same c' p fl (proj1 IH (proj1 Hw)) (proj2 IH) (proj2 Hw)) as H. unfold mode_enter, mode_exit.
    destruct (eval p) as [o tr]. destruct (call_asyncio drive c' p fl) as [[o2 f2] t2]. exact H.
Qed.

Lemma eq_seq : forall p, wf p -> forall fl, same (drive p fl) (eval p).
Proof.
  induction p using prog_ind2; intros Hw fl.
  - split; reflexivity.
  - split; reflexivity.
  - destruct Hw as [Hs Hk].
    assert (HL : Forall (fun a => same (await_leaf drive a fl) (eval_leaf eval a)) (yleaves s)).
    { apply yall_leaves in H. apply yall_leaves in Hs. rewrite Forall_forall in *.
      intros a Ha. apply leaf_same; auto. }
    rewrite drive_Yield, eval_Yield. cbn zeta.
    rewrite resolve_unwrap, (ymap_ext _ _ _ (fun a => fst (eval_leaf eval a)) s) by (eapply Forall_impl; [|exact HL]; now intros a [Ha _]).
    split; cbn [o3 t3 fst snd]; [apply H0, Hk|]. rewrite !dones_app, resolve_trace. f_equal; [|apply H0, Hk].
    apply dones_concat_ext. eapply Forall_impl; [|exact HL]. now intros a [_ Ha].
  - destruct Hw.
Qed.

Definition ex_child (i : Z) (a : afn prog) (p : prog) : ystruct (leaf prog) := YLeaf (LCall (mkcfg i KGen a) p).
Definition ex_prog : prog :=
  Yield (YTuple [ex_child 2 AfNone (Raise 7); YDict [(1, ex_child 3 (AfNative (Ret (VInt 5))) (Ret (VInt 5))); (0, YNone)];
                 YLeaf (LPxCall 4 (mkcfg 5 KMethod AfTwin) (Raise 8))])
        (fun o => match o with
                  | Ok v => Ret v
                  | Err e => Yield (YLeaf (LConst (VInt e))) (fun o2 => match o2 with Ok v => Ret (VList [v]) | Err e2 => Raise e2 end)
                  end).
Example ex_wf : wf ex_prog.
Proof.
  cbn. repeat split; auto. intros [v|e]; cbn; auto. split; auto. intros [v|e2]; exact I.
Qed.
Example ex_runs : o3 (drive ex_prog false) = Ok (VList [VInt 7]) /\ fst (eval ex_prog) = Ok (VList [VInt 7]).
Proof. split; reflexivity. Qed.

(* the class with exception values is inhabited: a validator that returns its error, next to one
   that raises and is caught by the parent, which keeps the caught instance as data too *)
Definition ex_xprog : prog :=
  Yield (YList [ex_child 2 AfNone (Ret (VExc 7)); YTuple [YLeaf (LConst (VExc 8)); ex_child 3 (AfNative (Ret (VExc 9))) (Ret (VExc 9))]])
        (fun o => match o with
                  | Ok v => Yield (ex_child 4 AfNone (Raise 5))
                                  (fun o2 => match o2 with Ok _ => Ret v | Err e => Ret (VTuple [v; VExc e]) end)
                  | Err e => Raise e
                  end).
Example ex_xwf : wf ex_xprog.
Proof.
  cbn. repeat split; auto. intros [v|e]; cbn; auto. repeat split; auto. intros [v2|e2]; exact I.
Qed.
Example ex_xruns :
  o3 (drive ex_xprog false) = Ok (VTuple [VList [VExc 7; VTuple [VExc 8; VExc 9]]; VExc 5]) /\
  fst (eval ex_xprog) = Ok (VTuple [VList [VExc 7; VTuple [VExc 8; VExc 9]]; VExc 5]).
Proof. split; reflexivity. Qed.

Lemma shape_kept : forall (s : ystruct (leaf prog)) fl v,
  o3 (resolve (await_leaf drive) s fl) = Ok v ->
  v = yval (ymap (fun a => value_of (o3 (await_leaf drive a fl))) s).
Proof. intros s fl v. rewrite resolve_outcome. destruct (first_error _); [discriminate | now intros [= <-]]. Qed.

Lemma exception_value_is_data :
  (forall vs, gather (map Ok vs) = inr vs) /\
  (forall (s : ystruct (leaf prog)) fl, has_bad s = false ->
      Forall (fun a => exists v, o3 (await_leaf drive a fl) = Ok v) (yleaves s) ->
      o3 (resolve (await_leaf drive) s fl) = Ok (yval (ymap (fun a => value_of (o3 (await_leaf drive a fl))) s))) /\
  (forall (s : ystruct (leaf prog)) fl e, o3 (resolve (await_leaf drive) s fl) = Err e ->
      e = E_TYPEERROR \/ exists a, In a (yleaves s) /\ o3 (await_leaf drive a fl) = Err e) /\
  (forall c e k fl, converted c ->
      drive (Yield (YList [YLeaf (LCall c (Ret (VExc e)))]) k) fl =
      (let r := drive (k (Ok (VList [VExc e]))) fl in
       (o3 r, f3 r, EvBody (cid c) true :: EvDone (cid c) (Ok (VExc e)) :: t3 r))) /\
  (wf ex_xprog /\ o3 (drive ex_xprog false) = fst (eval ex_xprog) /\
   fst (eval ex_xprog) = Ok (VTuple [VList [VExc 7; VTuple [VExc 8; VExc 9]]; VExc 5])).
Proof.
  split; [|split; [|split; [|split]]].
  - intros vs. rewrite gather_seq_first. induction vs as [|v r IH]; cbn; [|rewrite IH]; reflexivity.
  - (* a value has the shape of the structure; had the yield raised, a member would have failed or a non-future be there *)
    intros s fl Hb Hl. destruct (o3 (resolve _ s fl)) as [v|e] eqn:Er; [f_equal; apply shape_kept, Er|].
    destruct (resolve_raises _ _ s fl e Er) as [[Hb' _]|[a [Ha He]]]; [congruence|].
    rewrite Forall_forall in Hl. destruct (Hl a Ha) as [v Hv]. congruence.
  - intros s fl e H. destruct (resolve_raises _ _ s fl e H) as [[_ ->]|Ha]; auto.
  - intros c e k fl Hc. rewrite drive_Yield. cbn [resolve map await_leaf].
    rewrite call_asyncio_conv by exact Hc. cbn.
    destruct (drive (k (Ok (VList [VExc e]))) fl) as [[o f] t]. reflexivity.
  - split; [exact ex_xwf|]. destruct ex_xruns as [H1 H2]. split; [rewrite H1, H2; reflexivity | exact H2].
Qed.

Lemma all_awaited_then_first_error : forall (s : ystruct (leaf prog)) k fl,
  let R := resolve (await_leaf drive) s fl in
  o3 R = unwrap (ymap (fun a => o3 (await_leaf drive a fl)) s) /\
  (forall so : ystruct outcome,
      unwrap so = match first_error (youts so) with Some e => Err e | None => Ok (yval (ymap value_of so)) end) /\
  t3 R = concat (map (fun a => t3 (await_leaf drive a fl)) (yleaves s)) /\
  (forall c p, In (LCall c p) (yleaves s) ->
               In (EvDone (cid c) (o3 (call_asyncio drive c p fl))) (t3 R)) /\
  drive (Yield s k) fl = (let R2 := drive (k (o3 R)) (f3 R) in (o3 R2, f3 R2, t3 R ++ t3 R2)).
Proof.
  intros s k fl R. split; [apply resolve_unwrap|]. split; [exact unwrap_first_error|].
  split; [apply resolve_trace|]. split; [|apply drive_Yield].
  intros c p Hin. apply (all_done _ (await_leaf drive) s fl (LCall c p) _ Hin). cbn [await_leaf].
  unfold call_asyncio. destruct (cafn c); cbn; destruct (drive _ _) as [[o f] t]; cbn; rewrite in_app_iff; cbn; auto.
Qed.

(* h' extends h: every AsyncioMode object that existed in h has the same `_token` in h' *)
Definition hext (h h' : heap) : Prop :=
  (hnext h <= hnext h')%nat /\ forall j, (j < hnext h)%nat -> hget j h' = hget j h.

Lemma hext_refl h : hext h h.
Proof. split; auto. Qed.

Lemma hext_trans a b c : hext a b -> hext b c -> hext a c.
Proof.
  intros [H1 H2] [H3 H4]. split; [lia|]. intros j Hj. rewrite H4, H2; auto; lia.
Qed.

Lemma hext_enter fl h : hext h (snd (enterH (hnext h) fl h)).
Proof.
  split; cbn; auto. intros j Hj. unfold hget; cbn. destruct (Nat.eqb_spec (hnext h) j); [lia | reflexivity].
Qed.

(* __exit__ of the object entered at h finds the token its own __enter__ stored, whatever ran in between *)
Lemma exit_after_enter fl fl' h h2 :
  hext (mkheap (S (hnext h)) ((hnext h, fl) :: hslots h)) h2 -> exitH (hnext h) fl' h2 = fl.
Proof.
  intros [_ H]. unfold exitH. rewrite H by (cbn; auto). unfold hget; cbn. rewrite Nat.eqb_refl. reflexivity.
Qed.

(* re-entered functions in one relation: started at heap h, the refined run X gives the result r of the abstract run and leaves
   every object of h as it was *)
Definition refines {R} (X : R * heap) (r : R) (h : heap) : Prop := fst X = r /\ hext h (snd X).

Lemma refines_ret R (r : R) h : refines (r, h) r h.
Proof. split; [reflexivity | apply hext_refl]. Qed.

(* sequencing: the second run may start at any heap h0 that extends h *)
Lemma refines_let {R R'} {m : R * heap} {r h h0} {K : R -> heap -> R' * heap} {r'} :
  hext h h0 -> refines m r h0 -> (forall h1, hext h0 h1 -> refines (K r h1) r' h1) ->
  refines (let '(x, h1) := m in K x h1) r' h.
Proof.
  intros H0 [<- H1] HK. destruct m as [x h1]. destruct (HK h1 H1) as [E H2].
  split; [exact E | eauto using hext_trans].
Qed.

Lemma thread_ref X R (f : X -> heap -> R * heap) (g : X -> R) l :
  Forall (fun x => forall h, refines (f x h) (g x) h) l -> forall h, refines (thread f l h) (map g l) h.
Proof.
  induction 1 as [|x r Hx Hr IH]; intros h; cbn [thread map]; [apply refines_ret|].
  refine (refines_let (hext_refl h) (Hx h) _). intros h1 _.
  refine (refines_let (hext_refl h1) (IH h1) _). intros h2 _. apply refines_ret.
Qed.

Section ResolveRef.
  Variable A : Type.
  Variable awH : A -> bool -> heap -> tr3 * heap.
  Variable aw : A -> bool -> tr3.
  Variable fl : bool.

  Lemma resolveH_ref (s : ystruct A) :
    Forall (fun a => forall h, refines (awH a fl h) (aw a fl) h) (yleaves s) ->
    forall h, refines (resolveH awH s fl h) (resolve aw s fl) h.
  Proof.
    induction s using ystruct_ind2; cbn [yleaves]; intros Hy h; cbn [resolveH resolve].
    1, 3: apply refines_ret.
    1: now inversion Hy.
    all: refine (refines_let (hext_refl h) (thread_ref _ _ _ _ l (Forall_concat_split H Hy) h) _);
      intros; apply refines_ret.
  Qed.
End ResolveRef.

Definition prog_ref (p : prog) : Prop := forall fl h, refines (driveH fresh_inst p fl h) (drive p fl) h.

Lemma callH_ref c p : prog_ref p -> clift prog_ref c ->
  forall fl h, refines (call_asyncioH fresh_inst (driveH fresh_inst) c p fl h) (call_asyncio drive c p fl) h.
Proof.
  intros IH IHq fl h. destruct (cafn_cases c) as [Hc|[q E]].
  - (* a converted coroutine enters a new AsyncioMode object, the one numbered [hnext h] *)
    rewrite call_asyncio_conv by exact Hc. unfold call_asyncioH, converted, fresh_inst in *.
    destruct (cafn c); [| |destruct Hc]; cbn [enterH];
      refine (refines_let (hext_enter fl h) (IH true _) _); intros h2 H2;
      rewrite (exit_after_enter fl _ h h2 H2); apply refines_ret.
  - (* explicit asyncio_fn: no AsyncioMode object of its own *)
    unfold clift, call_asyncioH in *. rewrite E in *. rewrite (call_asyncio_native E).
    refine (refines_let (hext_refl h) (IHq fl h) _). intros; apply refines_ret.
Qed.

Lemma awaitH_ref a : lift prog_ref a ->
  forall fl h, refines (await_leafH fresh_inst (driveH fresh_inst) a fl h) (await_leaf drive a fl) h.
Proof.
  destruct a as [v|c p|c v|c c' p]; cbn [lift]; intros IH fl h; cbn [await_leafH await_leaf].
  1: apply refines_ret.
  1: apply callH_ref; apply IH.
  (* a proxy function enters and leaves its own new object before anything is awaited *)
  all: unfold mode_enter, mode_exit, enterH, fresh_inst; rewrite (exit_after_enter fl _ h _ (hext_refl _)).
  - split; [reflexivity | apply (hext_enter fl h)].
  - refine (refines_let (hext_enter fl h) (callH_ref c' p (proj1 IH) (proj2 IH) fl _) _).
    intros h2 _. destruct (call_asyncio drive c' p fl) as [[o f] t]. apply refines_ret.
Qed.

Lemma driveH_ref : forall p, prog_ref p.
Proof.
  induction p using prog_ind2; intros fl h.
  - apply refines_ret.
  - apply refines_ret.
  - cbn [driveH]. rewrite drive_Yield.
    refine (refines_let (hext_refl h) (resolveH_ref _ _ (await_leaf drive) fl s _ h) _).
    { apply yall_leaves in H. eapply Forall_impl; [|exact H]. intros a Ha. apply awaitH_ref, Ha. }
    intros h1 _. refine (refines_let (hext_refl h1) (H0 _ _ h1) _). intros; apply refines_ret.
  - rewrite drive_Sync. cbn [driveH]. unfold sync_step.
    destruct fl; [destruct al | destruct (eval_leaf eval a) as [o tr]];
      refine (refines_let (hext_refl h) (H0 _ _ h) _); intros; apply refines_ret.
Qed.

Lemma runH_ref a fl h : refines (run_asyncioH fresh_inst a fl h) (run_asyncio a fl) h.
Proof. apply awaitH_ref, lift_all, driveH_ref. Qed.

(* a function that is re-entered while it runs: f(n) = if n = 0: return 1 (or raise) else: r = yield f.asynq(n - 1); return [r]
   - every activation belongs to the same function *)
Fixpoint ex_fact (bottom : prog) (n : nat) : prog :=
  match n with
  | O => bottom
  | S m => Yield (YLeaf (LCall (mkcfg (Z.of_nat m) KGen AfNone) (ex_fact bottom m)))
                 (fun o => match o with Ok v => Ret (VList [v]) | Err e => Raise e end)
  end.
Definition ex_rec_root (bottom : prog) (n : nat) : leaf prog := LCall (mkcfg (Z.of_nat n) KGen AfNone) (ex_fact bottom n).

(* NOT the code: one AsyncioMode object per *function* (here: all activations are the same function),
   entered by every activation of it.  Shows that the per-activation object of decorators.py:114/137
   is what the theorem rests on: with a shared object the inner __enter__ overwrites the outer token. *)
Definition per_function (fnof : Z -> nat) : inst_policy := fun id _ => fnof id.

Example ex_shared_instance_leaks :
  f3 (fst (run_asyncioH (per_function (fun _ => O)) (ex_rec_root (Ret (VInt 1)) 2) false heap0)) = true /\
  f3 (fst (run_asyncioH (per_function (fun _ => O)) (ex_rec_root (Raise 7) 2) false heap0)) = true /\
  f3 (fst (run_asyncioH (per_function (fun _ => O)) (ex_rec_root (Ret (VInt 1)) 0) false heap0)) = false /\
  fst (run_asyncioH fresh_inst (ex_rec_root (Ret (VInt 1)) 2) false heap0)
  = (Ok (VList [VList [VInt 1]]), false,
     [EvBody 2 true; EvBody 1 true; EvBody 0 true; EvDone 0 (Ok (VInt 1)); EvDone 1 (Ok (VList [VInt 1]));
      EvDone 2 (Ok (VList [VList [VInt 1]]))]) /\
  o3 (fst (run_asyncioH fresh_inst (ex_rec_root (Raise 7) 3) false heap0)) = Err 7 /\
  f3 (fst (run_asyncioH fresh_inst (ex_rec_root (Raise 7) 3) false heap0)) = false.
Proof. repeat split; reflexivity. Qed.

Lemma reentrant_mode_confined :
  (forall a fl h, fst (run_asyncioH fresh_inst a fl h) = run_asyncio a fl) /\
  (forall p fl h, fst (driveH fresh_inst p fl h) = drive p fl) /\
  (forall a fl h, hext h (snd (run_asyncioH fresh_inst a fl h))) /\
  (forall p fl h, hext h (snd (driveH fresh_inst p fl h))) /\
  (forall a fl h, f3 (fst (run_asyncioH fresh_inst a fl h)) = fl) /\
  (forall bottom n fl h, f3 (fst (run_asyncioH fresh_inst (ex_rec_root bottom n) fl h)) = fl).
Proof.
  split; [intros; apply runH_ref|]. split; [intros; apply driveH_ref|].
  split; [intros; apply runH_ref|]. split; [intros; apply driveH_ref|].
  assert (F : forall a fl h, f3 (fst (run_asyncioH fresh_inst a fl h)) = fl).
  { intros a fl h. rewrite (proj1 (runH_ref a fl h)). apply run_confined. }
  split; [exact F | intros; apply F].
Qed.

(* the caller keeps running after the await: its plain synchronous calls.  They leave the flag as it is, so each
   of them runs as if it were the only one *)
Lemma run_probes_map ps fl : run_probes ps fl = map (fun ap => drive (probe_prog ap) fl) ps.
Proof.
  induction ps as [|ap r IH]; cbn [run_probes map]; [reflexivity|]. now rewrite (proj1 (drive_confined _ fl)), IH.
Qed.

Lemma probe_off ap :
  o3 (drive (probe_prog ap) false) = fst (eval_leaf eval (snd ap)) /\
  In (EvSync SRan) (t3 (drive (probe_prog ap) false)).
Proof.
  unfold probe_prog. cbn [drive]. destruct (eval_leaf eval (snd ap)) as [[v|e] tr]; cbn; auto.
Qed.

Lemma caller_continues :
  (forall a h g k,
      drive (Sync false g k) (f3 (fst (run_asyncioH fresh_inst a false h))) =
      (let r2 := drive (k (fst (eval_leaf eval g))) false in
       (o3 r2, f3 r2, EvSync SRan :: snd (eval_leaf eval g) ++ t3 r2))) /\
  (forall a h ps,
      let xs := run_probes ps (f3 (fst (run_asyncioH fresh_inst a false h))) in
      map o3 xs = map (fun ap => fst (eval_leaf eval (snd ap))) ps /\
      Forall (fun x => In (EvSync SRan) (t3 x)) xs) /\
  (forall a h ps, Forall (fun ap => fst ap = false) ps ->
      Forall (fun x => o3 x = Err E_RUNTIME /\ t3 x = [EvSync SRefused])
             (run_probes ps (f3 (fst (run_asyncioH fresh_inst a true h))))).
Proof.
  destruct reentrant_mode_confined as [_ [_ [_ [_ [F _]]]]].
  split; [|split].
  - intros a h g k. rewrite F. exact (drive_Sync false g k false).
  - intros a h ps. cbn zeta. rewrite F, run_probes_map, map_map.
    split; [apply map_ext; intros ap | apply Forall_map, Forall_forall; intros ap _]; apply probe_off.
  - intros a h ps Hp. rewrite F, run_probes_map. apply Forall_map. eapply Forall_impl; [|exact Hp].
    intros ap Ha. unfold probe_prog. rewrite Ha. cbn. auto.
Qed.

(* the class is inhabited: `child` has an explicit asyncio_fn that calls `leaf` synchronously and hands back what
   happened; a parent yields it inside a dict of a list and alone *)
Definition ex_sync_body (i : Z) : prog :=
  Sync false (LCall (mkcfg (i + 1)%Z KGen AfNone) (Ret (VInt 1)))
       (fun o => match o with Ok v => Ret (VTuple [VInt 0; v]) | Err e => Ret (VTuple [VInt 1; VInt e]) end).
Definition ex_sync_child (i : Z) : leaf prog := LCall (mkcfg i KGen (AfNative (ex_sync_body i))) (ex_sync_body i).
Definition ex_native_root : leaf prog :=
  LCall (mkcfg 1 KMethod AfNone)
        (Yield (YDict [(0%Z, YList [YLeaf (ex_sync_child 2); YNone]); (1%Z, YLeaf (ex_sync_child 4))])
               (fun o => match o with Ok v => Ret v | Err e => Raise e end)).
Example ex_native_runs :
  o3 (run_asyncio ex_native_root false)
  = Ok (VDict [(0%Z, VList [VTuple [VInt 1; VInt E_RUNTIME]; VNone]); (1%Z, VTuple [VInt 1; VInt E_RUNTIME])]) /\
  fst (run_seq ex_native_root)
  = Ok (VDict [(0%Z, VList [VTuple [VInt 0; VInt 1]; VNone]); (1%Z, VTuple [VInt 0; VInt 1])]) /\
  o3 (run_asyncio (ex_sync_child 2) false) = Ok (VTuple [VInt 0; VInt 1]) /\
  o3 (run_asyncio (ex_sync_child 2) true) = Ok (VTuple [VInt 1; VInt E_RUNTIME]).
Proof. repeat split; reflexivity. Qed.

(* ... and an explicit asyncio_fn whose body awaits `g.asyncio(args)` where the asynq function yields g.asynq(args)
   is inside the class [wf] of eq_seq: both engines agree *)
Definition ex_await_body : prog :=
  Yield (YLeaf (LCall (mkcfg 7 KGen AfNone) (Ret (VInt 3))))
        (fun o => match o with Ok v => Ret (VList [v]) | Err e => Raise e end).
Definition ex_await_prog : prog :=
  Yield (YTuple [YLeaf (LCall (mkcfg 6 KGen (AfNative ex_await_body)) ex_await_body); YLeaf (LConst VNone)])
        (fun o => match o with Ok v => Ret v | Err e => Raise e end).
Example ex_await_wf : wf ex_await_prog /\ o3 (drive ex_await_prog false) = Ok (VTuple [VList [VInt 3]; VNone]).
Proof.
  split; [|reflexivity]. cbn. repeat split; auto; intros [v|e]; exact I.
Qed.

(* An explicit asyncio_fn does not enter AsyncioMode itself: what its body sees is the flag of whoever awaits it. *)
Lemma explicit_asyncio_fn_in_subtree :
  (forall c p g k, cafn c = AfNative (Sync false g k) ->
      call_asyncio drive c p true =
      (let r := drive (k (Err E_RUNTIME)) true in
       (o3 r, f3 r, EvBody (cid c) true :: EvSync SRefused :: t3 r ++ [EvDone (cid c) (o3 r)]))) /\
  (forall c0 s k0 fl c p g k,
      converted c0 -> In (LCall c p) (yleaves s) -> cafn c = AfNative (Sync false g k) ->
      let R := call_asyncio drive c0 (Yield s k0) fl in
      In (EvBody (cid c) true) (t3 R) /\ In (EvSync SRefused) (t3 R) /\ ~ In (EvSync SRan) (t3 R) /\ f3 R = fl) /\
  (forall a fl, converted_leaf a -> Forall ev_ok (t3 (run_asyncio a fl))) /\
  (forall c p g k, cafn c = AfNative (Sync false g k) ->
      In (EvBody (cid c) false) (t3 (call_asyncio drive c p false)) /\
      In (EvSync SRan) (t3 (call_asyncio drive c p false))) /\
  (o3 (run_asyncio ex_native_root false)
   = Ok (VDict [(0%Z, VList [VTuple [VInt 1; VInt E_RUNTIME]; VNone]); (1%Z, VTuple [VInt 1; VInt E_RUNTIME])]) /\
   fst (run_seq ex_native_root)
   = Ok (VDict [(0%Z, VList [VTuple [VInt 0; VInt 1]; VNone]); (1%Z, VTuple [VInt 0; VInt 1])]) /\
   o3 (run_asyncio (ex_sync_child 2) false) = Ok (VTuple [VInt 0; VInt 1]) /\
   o3 (run_asyncio (ex_sync_child 2) true) = Ok (VTuple [VInt 1; VInt E_RUNTIME])) /\
  (wf ex_await_prog /\ o3 (drive ex_await_prog false) = Ok (VTuple [VList [VInt 3]; VNone])).
Proof.
  split; [|split; [|split; [exact (proj2 (proj2 mode_confined))|split]]].
  - (* awaited where the flag is on, its plain synchronous call of an @asynq() function is refused ... *)
    intros c p g k E. rewrite (call_asyncio_native E), drive_Sync. reflexivity.
  - intros c0 s k0 fl c p g k Hc Hin E R.
    assert (HR : forall ev, In ev (t3 (call_asyncio drive c p true)) -> In ev (t3 R)).
    { intros ev Hev. unfold R. rewrite call_asyncio_conv by exact Hc. cbn [t3 snd].
      right. apply in_or_app. left. rewrite drive_Yield. cbn [t3 snd]. apply in_or_app. left.
      apply (all_done _ (await_leaf drive) s true (LCall c p)); auto. }
    rewrite (call_asyncio_native E), drive_Sync in HR. split; [|split; [|split]].
    + apply HR. cbn. auto.
    + apply HR. cbn. auto.
    + exact (proj1 (proj2 sync_call_refused) (LCall c0 (Yield s k0)) fl Hc).
    + unfold R. rewrite call_asyncio_conv by exact Hc. reflexivity.
  - (* ... while awaited from a context outside asyncio mode the same call runs its callee on the scheduler
       (so the two situations are told apart by what is observed) *)
    intros c p g k E. rewrite (call_asyncio_native E), drive_Sync. cbn. auto.
  - exact (conj ex_native_runs ex_await_wf).
Qed.
