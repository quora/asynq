(* Trace-level facts for every program (not only trees): a batch's flush body runs at most once in any
   run of the machine.  Every helper other than flush_batch is "quiet": it leaves the batch table
   alone (or only appends an item to a batch) and emits no EvFlush event. *)
From Asynq Require Import Machine proofs.MachineFrame proofs.MachineC05 proofs.MachineHelpers.

Definition noflush (e : event) : Prop := match e with EvFlush _ _ _ => False | _ => True end.

Definition dn (s : st) (k : Z * Z) : bool := b_done (get_batch k s).

(* s' extends s quietly: done flags never reset, only non-flush events appended *)
Definition quiet (s s' : st) : Prop :=
  (forall k, dn s k = true -> dn s' k = true) /\ (forall k, dn s' k = true -> dn s k = true) /\
  exists evs, trace s' = evs ++ trace s /\ Forall noflush evs.

Lemma quiet_refl s : quiet s s.
Proof. split; [auto|]. split; [auto|]. exists []. split; [reflexivity|constructor]. Qed.

Lemma quiet_trans a b c : quiet a b -> quiet b c -> quiet a c.
Proof.
  intros (A1 & A2 & ea & Ta & Fa) (B1 & B2 & eb & Tb & Fb). split; [auto|]. split; [auto|].
  exists (eb ++ ea). split; [rewrite Tb, Ta, app_assoc; reflexivity|apply Forall_app; auto].
Qed.

Lemma quiet_view s s' : batches s' = batches s -> trace s' = trace s -> quiet s s'.
Proof.
  intros Hb Ht. unfold quiet, dn, get_batch. rewrite Hb. split; [auto|]. split; [auto|].
  exists []. split; [exact Ht|constructor].
Qed.

Lemma quiet_emit e s : noflush e -> quiet s (emit e s).
Proof. intros H. split; [auto|]. split; [auto|]. exists [e]. split; [reflexivity|repeat constructor; exact H]. Qed.

(* creating a future: a batch may get one more item, its done flag is kept *)
Lemma quiet_create p f s : quiet s (snd (create p f s)).
Proof.
  unfold create, alloc. cbn zeta. destruct f; cbn [snd]; try (apply quiet_view; reflexivity).
  (* FItem *)
  set (s0 := with_top_next s (top_next s + 1)).
  set (idx := cur_idx kind s0). set (b := get_batch (kind, idx) s0).
  assert (D : forall k0, dn (put_batch (kind, idx) (mkB (b_items b ++ [[top_next s]]) (b_done b))
                                      (put [top_next s] (mkFut None (KItem kind idx key a)) s0)) k0 = dn s k0).
  { intros k0. unfold dn. destruct (key_eqb_spec k0 (kind, idx)) as [->|N];
      [rewrite get_batch_put_same|rewrite get_batch_put_other by exact N]; reflexivity. }
  split; [|split].
  - intros k0. rewrite D. auto.
  - intros k0. rewrite D. auto.
  - exists []. split; [reflexivity|constructor].
Qed.

Definition is_flush (k : Z * Z) (e : event) : bool :=
  match e with EvFlush kind idx _ => key_eqb (kind, idx) k | _ => false end.
Definition count_flush (k : Z * Z) (tr : list event) : nat := length (filter (is_flush k) tr).

Definition FInv (s : st) : Prop :=
  forall k, (count_flush k (trace s) <= 1)%nat /\ (dn s k = false -> count_flush k (trace s) = O).

Lemma count_noflush k evs tr : Forall noflush evs -> count_flush k (evs ++ tr) = count_flush k tr.
Proof.
  intros H. unfold count_flush. rewrite filter_app, app_length.
  assert (filter (is_flush k) evs = []) as ->; [|reflexivity].
  induction H as [|e evs He Hf IH]; [reflexivity|]. cbn. destruct e; cbn in *; try exact IH. destruct He.
Qed.

Lemma FInv_quiet s s' : FInv s -> quiet s s' -> FInv s'.
Proof.
  intros HF (A & B & evs & T & F) k. rewrite T, count_noflush by exact F. destruct (HF k) as [H1 H2].
  split; [exact H1|]. intros Hd. apply H2. destruct (dn s k) eqn:E; [|reflexivity].
  rewrite (A k E) in Hd. discriminate.
Qed.

Lemma item_noflush evs : Forall flush_event evs -> Forall noflush evs.
Proof. apply Forall_impl. intros e. destruct e; cbn; auto. Qed.

Lemma flush_dn_other P k s k' : k' <> k -> dn (flush_batch P k s) k' = dn s k'.
Proof.
  intros N. unfold flush_batch. destruct (b_done (get_batch k s)); [reflexivity|].
  match goal with |- context [flush_body ?a ?b ?c ?d] =>
    pose proof (flush_body_spec a b c d) as H; destruct (flush_body a b c d) as [s2 err] end.
  cbn zeta in H. cbn [fst] in H. destruct H as (_ & _ & _ & B2 & _).
  set (fill := match err with Some e => Err e | None => Err E_NOTSET end).
  pose proof (fold_complete_spec fill (b_items (get_batch k s)) s2) as H3. cbn zeta in H3.
  set (s3 := fold_left (fun s h => complete_item h fill s) (b_items (get_batch k s)) s2) in *.
  destruct H3 as (_ & _ & _ & _ & B3 & _).
  unfold dn. rewrite get_batch_put_other by exact N.
  assert (E : get_batch k' s3 = get_batch k' s).
  { unfold get_batch. rewrite B3, B2. destruct (Z.eqb _ _); reflexivity. }
  rewrite E. reflexivity.
Qed.

Lemma FInv_flush_batch P k s : FInv s -> FInv (flush_batch P k s).
Proof.
  intros HF. destruct (dn s k) eqn:Hd; [unfold dn in Hd; rewrite (flush_done_is_noop P k s Hd); exact HF|].
  destruct (flush_pending P k s Hd) as ((evs & T & F) & D & _). cbn zeta in *.
  intros k'. destruct (HF k') as [H1 H2]. rewrite T, (count_noflush _ _ _ (item_noflush _ F)).
  unfold count_flush. cbn [filter is_flush].
  destruct k as [k1 k2]. cbn [fst snd]. destruct (key_eqb_spec (k1, k2) k') as [<-|N].
  - cbn [length]. specialize (H2 Hd). unfold count_flush in H2. rewrite H2. split; [lia|]. unfold dn. rewrite D. discriminate.
  - split; [exact H1|]. rewrite (flush_dn_other P _ s k' (fun E => N (eq_sym E))). exact H2.
Qed.

Lemma FInv_continue_with_batch P s : FInv s -> FInv (continue_with_batch P s).
Proof.
  intros HF. unfold continue_with_batch.
  assert (Q : quiet s (snd (select P s))).
  { apply (rel_select quiet quiet_trans); intros; first [apply quiet_emit; exact I|apply quiet_view; reflexivity]. }
  destruct (select P s) as [[k|] s1]; cbn [snd] in Q; [|exact (FInv_quiet _ _ HF Q)].
  eapply FInv_quiet; [|apply quiet_emit; exact I]. apply FInv_flush_batch.
  eapply FInv_quiet; [exact (FInv_quiet _ _ HF Q)|]. eapply quiet_trans; [|apply quiet_emit; exact I]. apply quiet_view; reflexivity.
Qed.

(* every transition of the machine preserves "each batch's flush body has run at most once, and only
   for batches that are now done": outside the two flushing helpers a transition is quiet *)
Lemma FInv_hstep P A s s' : hstep P A s s' -> FInv s -> FInv s'.
Proof.
  assert (Qs : forall t tk s, quiet s (set_task t tk s))
    by (intros; unfold set_task; destruct (get _ _); apply quiet_view; reflexivity).
  (* the heap, the scoped variables, the context instances and events other than EvFlush are invisible to FInv *)
  induction 1; intros HF; auto; try exact HF;
    try (apply FInv_flush_batch, HF); try (apply FInv_continue_with_batch, HF); apply (FInv_quiet s); try exact HF.
  - (* hs_regs *) apply quiet_view; assumption.
  - (* hs_emit *) apply quiet_emit. destruct e; try exact I. contradiction.
  - (* hs_task *) apply Qs.
  - (* hs_create *) apply quiet_create.
  - (* hs_sched *) unfold schedule_batch. destruct (b_done _); [apply quiet_refl|]. destruct (existsb _ _); apply quiet_view; reflexivity.
  - (* hs_resume *) eapply quiet_trans; [apply Qs|apply quiet_emit; exact I].
  - (* hs_yield *) apply Qs.
Qed.

Theorem FInv_step P c : FInv (c_st c) -> FInv (c_st (step P c)).
Proof. exact (FInv_hstep P _ _ _ (step_hstep P c)). Qed.

Lemma FInv_st0 P : FInv (st0 P).
Proof. intros k. cbn. split; [lia|reflexivity]. Qed.

(* C05: in every run of the machine from a state satisfying FInv (the initial state does), for every program,
   service behaviour, oracle and fuel: each batch's flush body ran at most once *)
Theorem flush_at_most_once P n c :
  FInv (c_st c) -> forall k, (count_flush k (trace (c_st (run P n c))) <= 1)%nat.
Proof. intros HF k. destruct (inv_run P FInv (FInv_step P) n c HF k) as [H _]. exact H. Qed.

Lemma count_flush_rev k tr : count_flush k (rev tr) = count_flush k tr.
Proof.
  unfold count_flush. induction tr as [|e tr IH]; [reflexivity|]. cbn [rev]. rewrite filter_app, app_length, IH.
  cbn [filter]. destruct (is_flush k e); cbn; lia.
Qed.

(* whole histories of computations, as run by the correspondence (Machine.run_case) *)
Theorem run_case_flush_at_most_once P fuel ps k : (count_flush k (snd (run_case P fuel ps)) <= 1)%nat.
Proof.
  destruct (inv_run_case P FInv (FInv_step P)) with (fuel := fuel) (ps := ps) as (s & -> & H).
  - intros p f s HF. exact (FInv_quiet _ _ HF (quiet_create p f s)).
  - intros a b c s HF. apply (FInv_quiet s); [exact HF|apply quiet_emit; exact I].
  - apply FInv_st0.
  - rewrite count_flush_rev. apply H.
Qed.
