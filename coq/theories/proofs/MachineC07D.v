(* C07 on a DAG-shaped program (outside the tree / stree classes of MachineC07.v and MachineC07S.v): a SHARED pending
   task - a stored handle awaited by two tasks - holds an override across a suspension.  It is started under the override
   of one awaiter and, after the flush, continued and completed under the override of the other one.  The run of the
   machine on this program is computed (vm_compute): every read is the innermost enclosing override of the reading task
   or of the task below it on the scheduler's stack, and the value the shared task's override has saved is the one found
   at its LAST resume (scoped_value.py: resume() saves, pause() writes back) - which is what makes the first awaiter read
   its own override again after the shared task has left its block.

     root [0] : h := task shared;  with x := 110: (yield (late, early); read x);  read x
     late [2] : with x := 120: (yield item; yield h; read x)           listed first, so continued first after the flush
     early [3]: with x := 130: (yield h; read x)                       starts the shared task
     shared [1]: with x := 140: (yield item; read x)
     second computation [6]: read x

   This program is the corpus case _SHARED_HOLDS_OVERRIDE of harness/props/c07.py (same AST, printed by
   harness/lib/machprog.py), which every run of the check executes on the implementation. *)
From Asynq Require Import Machine proofs.MachineC08.
Import ListNotations.
Local Open Scope Z_scope.

Definition c07d_P : params := mkP [] 1000000 false [(0, 0)].

Definition c07d_shared : prog :=
  Enter (COverride 4 0 (VInt 140))
    (Yield (YLeaf (LNew (FItem 0 1 (ASet (VInt 1)))))
       (fun o => match o with
                 | Ok _ => ReadVar 0 (fun _ => Exit (COverride 4 0 (VInt 140)) (Ret (VInt 0)))
                 | Err e => Exit (COverride 4 0 (VInt 140)) (Raise e)
                 end)).

Definition c07d_late (h : fid) : prog :=
  Enter (COverride 2 0 (VInt 120))
    (Yield (YLeaf (LNew (FItem 0 2 (ASet (VInt 2)))))
       (fun o => match o with
                 | Ok _ => Yield (YLeaf (LOld h))
                             (fun o' => match o' with
                                        | Ok _ => ReadVar 0 (fun _ => Exit (COverride 2 0 (VInt 120)) (Ret (VInt 0)))
                                        | Err e => Exit (COverride 2 0 (VInt 120)) (Raise e)
                                        end)
                 | Err e => Exit (COverride 2 0 (VInt 120)) (Raise e)
                 end)).

Definition c07d_early (h : fid) : prog :=
  Enter (COverride 3 0 (VInt 130))
    (Yield (YLeaf (LOld h))
       (fun o => match o with
                 | Ok _ => ReadVar 0 (fun _ => Exit (COverride 3 0 (VInt 130)) (Ret (VInt 0)))
                 | Err e => Exit (COverride 3 0 (VInt 130)) (Raise e)
                 end)).

Definition c07d_root : prog :=
  Let (FTask c07d_shared)
    (fun h => Enter (COverride 1 0 (VInt 110))
       (Yield (YTuple [YLeaf (LNew (FTask (c07d_late h))); YLeaf (LNew (FTask (c07d_early h)))])
          (fun o => match o with
                    | Ok _ => ReadVar 0 (fun _ => Exit (COverride 1 0 (VInt 110)) (ReadVar 0 (fun _ => Ret (VInt 0))))
                    | Err e => Exit (COverride 1 0 (VInt 110)) (Raise e)
                    end))).

Definition c07d_after : prog := ReadVar 0 (fun _ => Ret (VInt 0)).

(* the events that say who ran when and what was read *)
Definition c07d_view (e : event) : bool :=
  match e with
  | EvStep _ _ _ | EvRead _ _ _ => true
  | _ => false
  end.

Lemma c07d_diamond_runs :
  let r := run_case c07d_P 2000 [c07d_root; c07d_after] in
  fst r = [Some (Ok (VInt 0)); Some (Ok (VInt 0))] /\
  filter c07d_view (snd r) =
    [EvStep [0] 0 (Ok VNone); EvStep [2] 0 (Ok VNone); EvStep [3] 0 (Ok VNone); EvStep [1] 0 (Ok VNone);
     (* flush; late continues first and now awaits the shared task, which continues above it *)
     EvStep [2] 1 (Ok (VInt 2)); EvStep [1] 1 (Ok (VInt 1)); EvRead [1] 0 (VInt 140);
     EvStep [2] 2 (Ok (VInt 0)); EvRead [2] 0 (VInt 120);
     EvStep [3] 1 (Ok (VInt 0)); EvRead [3] 0 (VInt 130);
     EvStep [0] 1 (Ok (VTuple [VInt 0; VInt 0])); EvRead [0] 0 (VInt 110); EvRead [0] 0 (VInt 0);
     EvStep [6] 0 (Ok VNone); EvRead [6] 0 (VInt 0)].
Proof. vm_compute. split; reflexivity. Qed.

(* the value saved by the shared task's override: 130 (early's) while it is suspended for the flush (step 34), 120 (late's)
   after its last resume - the value written back when it leaves its block; at the flush point, at the last pass of the
   loop (step 72, nothing left to flush) and at the end the variable itself is back to its initial value *)
Lemma c07d_saved_value_follows_the_last_resume :
  let h := fst (create [] (FTask c07d_root) (st0 c07d_P)) in
  let s1 := snd (create [] (FTask c07d_root) (st0 c07d_P)) in
  let c k := run c07d_P k (start h s1) in
  let after_exec := filter (fun k => match c_mode (c k) with MAfterExec => true | _ => false end) (seq 0 200) in
  map (fun k => (k, ci_old (ci_get ([1], 4) (c_st (c k))), var_get 0 (c_st (c k)))) after_exec =
    [(34%nat, VInt 130, VInt 0); (72%nat, VInt 120, VInt 0)] /\
  c_mode (c 200%nat) = MDone (Ok (VInt 0)) /\
  var_get 0 (c_st (c 200%nat)) = VInt 0.
Proof.
  cbv beta zeta.
  rewrite (filter_map_run c07d_P (fun c => match c_mode c with MAfterExec => true | _ => false end)
             (fun k c => (k, ci_old (ci_get ([1], 4) (c_st c)), var_get 0 (c_st c)))).
  vm_compute. repeat split; reflexivity.
Qed.
