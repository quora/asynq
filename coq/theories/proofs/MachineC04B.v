(* C04, second part (tree programs): the batch items the stuck tasks wait for belong to batches that are
   known to the scheduler (in TaskScheduler._batches), not yet flushed, and contain them.
   Layer BL on top of MachineC04.DL:  batch_ok (every uncomputed item is a member of its batch, which is not
   done; done batches are older than the registry's current batch) and sched_ok (the batch of every settled
   item has been handed to _schedule_batch in this pass). *)
From Asynq Require Import Machine Seq proofs.ProgProofs proofs.MachineFrame proofs.MachineC05 proofs.MachineC08 proofs.MachineHelpers
     proofs.MachineCases proofs.MachineC01 proofs.MachineDFS proofs.MachineC04.

Definition bview (s : st) := (sb s, cur s, batches s).

Lemma bv_heap s h : bview (with_heap s h) = bview s. Proof. reflexivity. Qed.
Lemma bv_emit s e : bview (emit e s) = bview s. Proof. reflexivity. Qed.
Lemma bv_vars s v : bview (with_vars s v) = bview s. Proof. reflexivity. Qed.
Lemma bv_cis s c : bview (with_cis s c) = bview s. Proof. reflexivity. Qed.

Lemma bv_set_task t tk s : bview (set_task t tk s) = bview s. Proof. apply (pr_set_task bview bv_heap). Qed.
Lemma bv_resume_contexts t s : bview (resume_contexts t s) = bview s.
Proof. apply (pr_resume_contexts bview bv_heap bv_emit bv_vars bv_cis). Qed.
Lemma bv_pause_contexts t s : bview (pause_contexts t s) = bview s.
Proof. apply (pr_pause_contexts bview bv_heap bv_emit bv_vars bv_cis). Qed.
Lemma bv_complete_task t o s : bview (complete_task t o s) = bview s.
Proof. apply (pr_complete_task bview bv_heap bv_emit bv_vars). Qed.
Lemma bv_enter_ctx t c s : bview (enter_ctx t c s) = bview s.
Proof. apply (pr_enter_ctx bview bv_heap bv_emit bv_vars bv_cis). Qed.
Lemma bv_exit_ctx t c s : bview (exit_ctx t c s) = bview s.
Proof. apply (pr_exit_ctx bview bv_heap bv_emit bv_vars). Qed.
Lemma bv_complete_item h o s : bview (complete_item h o s) = bview s.
Proof. apply (pr_complete_item bview bv_heap bv_emit). Qed.
Lemma bv_flush_body items i ra s : bview (fst (flush_body items i ra s)) = bview s.
Proof. apply (pr_flush_body bview bv_heap bv_emit). Qed.

Lemma bview_parts s s' : bview s' = bview s -> sb s' = sb s /\ cur s' = cur s /\ batches s' = batches s.
Proof. unfold bview. intros H. inversion H. auto. Qed.

Lemma cur_idx_view kind s s' : cur s' = cur s -> cur_idx kind s' = cur_idx kind s.
Proof. intros H. unfold cur_idx. rewrite H. reflexivity. Qed.

Record batch_ok (s : st) : Prop := {
  bo_member : forall h kind idx key a, get h s = Some (mkFut None (KItem kind idx key a)) ->
      In h (b_items (get_batch (kind, idx) s)) /\ b_done (get_batch (kind, idx) s) = false;
  (* so a new item, which joins the current batch of its kind, never joins a flushed one *)
  bo_done : forall kind idx, b_done (get_batch (kind, idx) s) = true -> (idx < cur_idx kind s)%Z;
  bo_le : forall h o kind idx key a, get h s = Some (mkFut o (KItem kind idx key a)) -> (idx <= cur_idx kind s)%Z;
  bo_sb : forall kind idx, In (kind, idx) (sb s) -> (idx <= cur_idx kind s)%Z
}.

(* entries of s' come from entries of s of the same kind; an uncomputed one is unchanged *)
Definition kback (s s' : st) : Prop :=
  forall u f', get u s' = Some f' -> exists f, get u s = Some f /\ f_kind f' = f_kind f /\ (f_out f' = None -> f' = f).

Lemma kback_refl s : kback s s. Proof. intros u f' H. exists f'. auto. Qed.
Lemma kback_trans a b c : kback a b -> kback b c -> kback a c.
Proof.
  intros H1 H2 u f'' Hg. destruct (H2 u f'' Hg) as (f' & Hg' & K2 & U2). destruct (H1 u f' Hg') as (f & Hg0 & K1 & U1).
  exists f. split; [exact Hg0|]. split; [congruence|]. intros Hn. specialize (U2 Hn). subst f''. apply U1. exact Hn.
Qed.
Lemma kback_view s s' : heap s' = heap s -> kback s s'.
Proof. intros H u f' Hg. unfold get in Hg. rewrite H in Hg. exists f'. auto. Qed.

Lemma kback_item s s' : kback s s' -> forall h o kind idx key a,
  get h s' = Some (mkFut o (KItem kind idx key a)) -> exists o0, get h s = Some (mkFut o0 (KItem kind idx key a)) /\ (o = None -> o0 = None).
Proof.
  intros K h o kind idx key a Hg. destruct (K h _ Hg) as ([o0 k0] & Hg0 & Hk & Hu). cbn in Hk. subst k0. exists o0. split; [exact Hg0|].
  intros ->. specialize (Hu eq_refl). inversion Hu. reflexivity.
Qed.

Lemma kback_upd s s' x o tk : upd_entry s s' x (mkFut o (KTask tk)) -> (exists o0 tk0, get x s = Some (mkFut o0 (KTask tk0)) /\ (o = None -> o0 = None)) ->
  forall u f', get u s' = Some f' -> (exists tk', f_kind f' = KTask tk') \/ get u s = Some f'.
Proof.
  intros (A & B & _) _ u f' Hg. destruct (fid_eqb_spec u x) as [->|N].
  - rewrite A in Hg. injection Hg as <-. left. exists tk. reflexivity.
  - rewrite (B u N) in Hg. right. exact Hg.
Qed.

(* the frame batch_ok needs where no item is completed: item entries of s' are item entries of s, outcome included *)
Definition iback (s s' : st) : Prop :=
  forall h o kind idx key a, get h s' = Some (mkFut o (KItem kind idx key a)) -> get h s = Some (mkFut o (KItem kind idx key a)).

Lemma iback_refl s : iback s s. Proof. intros h o kind idx key a H. exact H. Qed.
Lemma iback_view s s' : heap s' = heap s -> iback s s'.
Proof. intros H h o kind idx key a Hg. unfold get in *. rewrite H in Hg. exact Hg. Qed.
Lemma iback_upd s s' x o tk : upd_entry s s' x (mkFut o (KTask tk)) -> iback s s'.
Proof.
  intros (A & B & _) h o' kind idx key a Hg. destruct (fid_eqb_spec h x) as [->|N].
  - rewrite A in Hg. discriminate.
  - rewrite (B h N) in Hg. exact Hg.
Qed.
Lemma iback_kback s s' : iback s s' -> forall h o kind idx key a, get h s' = Some (mkFut o (KItem kind idx key a)) ->
  exists o0, get h s = Some (mkFut o0 (KItem kind idx key a)) /\ (o = None -> o0 = None).
Proof. intros H h o kind idx key a Hg. exists o. split; [apply H; exact Hg|auto]. Qed.

(* the batch table and the registry are the same and no batch is newly scheduled *)
Lemma batch_ok_frame s s' : batch_ok s -> batches s' = batches s -> cur s' = cur s -> (forall k, In k (sb s') -> In k (sb s)) ->
  iback s s' -> batch_ok s'.
Proof.
  intros [B1 B2 B3 B4] Hb Hc Hs K. constructor.
  - intros h kind idx key a Hg. rewrite (get_batch_view _ s s' Hb). apply (B1 h kind idx key a). apply K. exact Hg.
  - intros kind idx. rewrite (get_batch_view _ s s' Hb), (cur_idx_view kind s s' Hc). apply B2.
  - intros h o kind idx key a Hg. rewrite (cur_idx_view kind s s' Hc). apply (B3 h o kind idx key a). apply K. exact Hg.
  - intros kind idx Hin. rewrite (cur_idx_view kind s s' Hc). apply B4. apply Hs. exact Hin.
Qed.

Lemma batch_ok_iframe s s' : batch_ok s -> bview s' = bview s -> iback s s' -> batch_ok s'.
Proof.
  intros HB Hv K. destruct (bview_parts s s' Hv) as (Hs & Hc & Hb).
  apply (batch_ok_frame s s' HB Hb Hc); [rewrite Hs; auto|exact K].
Qed.

Lemma batch_ok_drop_sb s : batch_ok s -> batch_ok (drop_sb s).
Proof.
  intros HB. apply (batch_ok_frame s _ HB);
    [apply batches_drop_sb|apply cur_drop_sb|intros k; apply sb_drop_sb_incl|apply iback_view; apply heap_drop_sb].
Qed.

Lemma cur_idx_with_cur_same kind n s : cur_idx kind (with_cur s (upd Z.eqb kind n (cur s))) = n.
Proof. unfold cur_idx. cbn [cur with_cur]. rewrite (find_upd_same Z.eqb Z.eqb_eq). reflexivity. Qed.

Lemma cur_idx_with_cur_other kind kind2 n s : kind2 <> kind -> cur_idx kind2 (with_cur s (upd Z.eqb kind n (cur s))) = cur_idx kind2 s.
Proof. intros N. unfold cur_idx. cbn [cur with_cur]. rewrite (find_upd_other Z.eqb Z.eqb_eq) by exact N. reflexivity. Qed.

Lemma kback_item_done h f o s : get h s = Some f -> f_out f = None ->
  kback s (emit (EvItemDone h o) (put h (mkFut (Some o) (f_kind f)) s)).
Proof.
  intros G _ u f' Hg. rewrite get_emit, get_put in Hg. destruct (fid_eqb_spec u h) as [->|N]; [|exists f'; auto].
  injection Hg as <-. exists f. split; [exact G|]. split; [reflexivity|discriminate].
Qed.

Lemma kback_flush_batch P k s : kback s (flush_batch P k s).
Proof. apply (rel_flush_batch kback kback_refl kback_trans kback_item_done); intros; apply kback_view; reflexivity. Qed.

Lemma flush_batch_batches P k s : b_done (get_batch k s) = false ->
  let s' := flush_batch P k s in
  (forall k2, k2 <> k -> get_batch k2 s' = get_batch k2 s) /\
  b_items (get_batch k s') = b_items (get_batch k s) /\ b_done (get_batch k s') = true /\
  (forall kind, (cur_idx kind s <= cur_idx kind s')%Z) /\
  (cur_idx (fst k) s = snd k -> cur_idx (fst k) s' = (snd k + 1)%Z) /\
  sb s' = sb s /\ kback s s'.
Proof.
  intros Hd. cbn zeta. pose proof (kback_flush_batch P k s) as K. revert K. unfold flush_batch. rewrite Hd.
  set (s0 := if Z.eqb (cur_idx (fst k) s) (snd k) then with_cur s (upd Z.eqb (fst k) (snd k + 1) (cur s)) else s).
  assert (H0 : batches s0 = batches s /\ sb s0 = sb s) by (unfold s0; destruct (Z.eqb _ _); auto).
  destruct H0 as (Hb0 & Hs0).
  assert (Hc0 : (forall kind, (cur_idx kind s <= cur_idx kind s0)%Z) /\ (cur_idx (fst k) s = snd k -> cur_idx (fst k) s0 = (snd k + 1)%Z)).
  { unfold s0. destruct (Z.eqb_spec (cur_idx (fst k) s) (snd k)) as [E|E].
    - split.
      + intros kind. destruct (Z.eq_dec kind (fst k)) as [->|N].
        * rewrite cur_idx_with_cur_same. lia.
        * rewrite cur_idx_with_cur_other by exact N. lia.
      + intros _. apply cur_idx_with_cur_same.
    - split; [intros; lia|intros E2; congruence]. }
  destruct Hc0 as (Hc1 & Hc2).
  set (items := b_items (get_batch k s)). set (s1 := emit (EvFlush (fst k) (snd k) items) s0).
  pose proof (bv_flush_body items 0 (ks_raise (kspec_of P (fst k))) s1) as VB.
  destruct (flush_body items 0 (ks_raise (kspec_of P (fst k))) s1) as [s2 err]. cbn [fst] in VB.
  set (fill := match err with Some e => Err e | None => Err E_NOTSET end).
  set (s3 := fold_left (fun s h => complete_item h fill s) items s2). intros K.
  assert (VF : bview s3 = bview s0).
  { transitivity (bview s2); [|exact VB]. apply (fold_left_pres (fun s h => complete_item h fill s) bview). intros. apply bv_complete_item. }
  destruct (bview_parts s0 s3 VF) as (S3 & C3 & B3). rewrite Hb0 in B3. rewrite Hs0 in S3.
  assert (Hcur : forall kind b, cur_idx kind (put_batch k b s3) = cur_idx kind s0) by (intros; apply (cur_idx_view _ s0 s3 C3)).
  split; [intros k2 N; rewrite get_batch_put_other by exact N; apply get_batch_view; exact B3|].
  split; [rewrite get_batch_put_same; cbn; rewrite (get_batch_view k s s3 B3); reflexivity|].
  split; [rewrite get_batch_put_same; reflexivity|].
  split; [intros kind; rewrite Hcur; apply Hc1|].
  split; [intros E; rewrite Hcur; apply Hc2; exact E|].
  split; [exact S3|exact K].
Qed.

Lemma batch_ok_flush P k s : batch_ok s -> (snd k <= cur_idx (fst k) s)%Z -> batch_ok (flush_batch P k s).
Proof.
  intros HB Hle. destruct (b_done (get_batch k s)) eqn:Hd; [unfold flush_batch; rewrite Hd; exact HB|].
  destruct (flush_batch_batches P k s Hd) as (Hoth & Hit & Hdn & Hmono & Hbump & Hsb & K). cbn zeta in *.
  destruct (flush_pending P k s Hd) as (_ & _ & Hall & _). cbn zeta in Hall.
  destruct HB as [B1 B2 B3 B4]. destruct k as [kk ki]. cbn [fst snd] in *. constructor.
  - intros h kind idx key a Hg. destruct (kback_item _ _ K h None kind idx key a Hg) as (o0 & Hg0 & Ho). rewrite (Ho eq_refl) in Hg0.
    destruct (B1 h kind idx key a Hg0) as [Hin Hnd].
    destruct (key_eqb_spec (kind, idx) (kk, ki)) as [E|N].
    + injection E as -> ->. exfalso.
      assert (Hc : computed h (flush_batch P (kk, ki) s) = true) by (apply Hall; [exact Hin|rewrite Hg0; discriminate]).
      rewrite (computed_get _ _ _ Hg) in Hc. discriminate.
    + rewrite (Hoth _ N). auto.
  - intros kind idx Hdone. destruct (key_eqb_spec (kind, idx) (kk, ki)) as [E|N].
    + injection E as -> ->.
      destruct (Z.eq_dec (cur_idx kk s) ki) as [E2|N2]; [rewrite (Hbump E2); lia|]. specialize (Hmono kk). lia.
    + rewrite (Hoth _ N) in Hdone. specialize (B2 kind idx Hdone). specialize (Hmono kind). lia.
  - intros h o kind idx key a Hg. destruct (kback_item _ _ K h o kind idx key a Hg) as (o0 & Hg0 & _).
    specialize (B3 h o0 kind idx key a Hg0). specialize (Hmono kind). lia.
  - intros kind idx Hin. rewrite Hsb in Hin. specialize (B4 kind idx Hin). specialize (Hmono kind). lia.
Qed.

Lemma batch_ok_select P s : batch_ok s -> batch_ok (snd (select P s)).
Proof.
  intros HB. destruct (select_batches P s) as [Hb Hh]. apply (batch_ok_frame s _ HB Hb); [| |apply iback_view; exact Hh];
    destruct (select_st P s) as (o & [->|(a & b & ->)]); try reflexivity; cbn; intros k H; apply filter_In in H; tauto.
Qed.

Lemma batch_ok_continue_with_batch P s : batch_ok s -> batch_ok (continue_with_batch P s).
Proof.
  intros HB. unfold continue_with_batch. apply (batch_ok_select P) in HB.
  destruct (select P s) as [[k|] s1] eqn:Sel; cbn [snd] in HB; [|exact HB].
  destruct (select_spec _ _ _ _ Sel) as (Hin & Hel & _ & Hsb).
  set (s2 := emit (EvBefore (fst k) (snd k)) (with_sb s1 (filter (fun k' => negb (key_eqb k' k)) (sb s1)))).
  assert (HB2 : batch_ok s2).
  { apply (batch_ok_frame s1 s2 HB); try reflexivity; [|apply iback_view; reflexivity].
    intros k0 Hk0. unfold s2 in Hk0. cbn in Hk0. apply filter_In in Hk0. tauto. }
  apply (batch_ok_frame (flush_batch P k s2)); try reflexivity; [|auto|apply iback_view; reflexivity].
  apply batch_ok_flush; [exact HB2|].
  (* the chosen batch is among the scheduled ones *)
  destruct k as [kk ki]. apply (bo_sb s1 HB kk ki). rewrite Hsb. apply filter_In. split; assumption.
Qed.

(* batch_ok is kept and the set of scheduled batches is the same *)
Definition brel (s s' : st) : Prop := (batch_ok s -> batch_ok s') /\ sb s' = sb s.

Lemma brel_refl s : brel s s. Proof. split; auto. Qed.
Lemma brel_trans a b c : brel a b -> brel b c -> brel a c.
Proof. intros (A1 & A2) (B1 & B2). split; [auto|congruence]. Qed.

Lemma brel_create parent f s : get [top_next s] s = None -> brel s (snd (create parent f s)).
Proof.
  intros Hfresh. unfold create, alloc. cbn zeta. set (h := [top_next s]) in *. set (s0 := with_top_next s (top_next s + 1)).
  assert (Hother : forall e, (forall kind idx key a, f_kind e <> KItem kind idx key a) ->
            brel s (put h e s0)).
  { intros e Hk. split; [|reflexivity]. intros HB. apply (batch_ok_iframe s _ HB); [reflexivity|].
    intros u o kind idx key a Hg. rewrite get_put in Hg. destruct (fid_eqb u h); [|exact Hg].
    injection Hg as ->. destruct (Hk kind idx key a eq_refl). }
  destruct f as [q|kind key a|v|e|o]; cbn [snd]; try (apply Hother; intros; cbn; discriminate).
  (* an item joins the registry's current batch: that batch gains a member, nothing else changes *)
  split; [|reflexivity]. intros [B1 B2 B3 B4].
  set (idx := cur_idx kind s). set (b := get_batch (kind, idx) s).
  match goal with |- batch_ok ?x => set (s2 := x) end.
  assert (Hnd : b_done b = false).
  { destruct (b_done b) eqn:E; [|reflexivity]. specialize (B2 kind idx E). unfold idx in B2. lia. }
  assert (Hg1 : forall u, u <> h -> get u s2 = get u s).
  { intros u N. unfold s2. change (get u (put_batch ?k ?bb ?z)) with (get u z). rewrite get_put_other by exact N. reflexivity. }
  assert (Hgh : get h s2 = Some (mkFut None (KItem kind idx key a))).
  { unfold s2. change (get h (put_batch ?k ?bb ?z)) with (get h z). apply get_put_same. }
  assert (Hbat : forall k2, (forall u, In u (b_items (get_batch k2 s)) -> In u (b_items (get_batch k2 s2))) /\
                            b_done (get_batch k2 s2) = b_done (get_batch k2 s)).
  { intros k2. unfold s2. destruct (key_eqb_spec k2 (kind, idx)) as [->|N];
      [rewrite get_batch_put_same|rewrite get_batch_put_other by exact N]; split; auto.
    intros u Hu. apply in_or_app. left. exact Hu. }
  assert (Hin : In h (b_items (get_batch (kind, idx) s2))).
  { unfold s2. rewrite get_batch_put_same. apply in_or_app. right. left. reflexivity. }
  assert (Hcur : forall kind2, cur_idx kind2 s2 = cur_idx kind2 s) by reflexivity.
  assert (Hsb2 : sb s2 = sb s) by reflexivity.
  clearbody s2.
  constructor.
  - intros u kind2 idx2 key2 a2 Hg. rewrite (proj2 (Hbat _)). destruct (fid_eqb_spec u h) as [->|N].
    + rewrite Hgh in Hg. injection Hg as <- <- <- <-. split; [exact Hin|exact Hnd].
    + rewrite (Hg1 u N) in Hg. destruct (B1 u kind2 idx2 key2 a2 Hg) as (Hu & Hd). split; [apply Hbat; exact Hu|exact Hd].
  - intros kind2 idx2 Hd. rewrite Hcur. rewrite (proj2 (Hbat _)) in Hd. apply (B2 kind2 idx2 Hd).
  - intros u o kind2 idx2 key2 a2 Hg. rewrite Hcur. destruct (fid_eqb_spec u h) as [->|N].
    + rewrite Hgh in Hg. injection Hg as <- <- <- <- <-. unfold idx. lia.
    + rewrite (Hg1 u N) in Hg. apply (B3 u o kind2 idx2 key2 a2 Hg).
  - intros kind2 idx2 Hk. rewrite Hcur. rewrite Hsb2 in Hk. apply (B4 kind2 idx2 Hk).
Qed.

Lemma brel_inst parent (y : ystruct leaf) s : above_free s -> brel s (snd (inst parent y s)).
Proof.
  intros Hf. apply (inst_pres (fun s' => brel s s' /\ above_free s')); [|split; [apply brel_refl|exact Hf]].
  intros p0 f s1 (B1 & F1). split; [|exact (proj1 (create_old p0 f s1 F1))].
  eapply brel_trans; [exact B1|]. apply brel_create. apply F1. lia.
Qed.

Lemma batch_ok_schedule s x o kind idx key a : batch_ok s -> get x s = Some (mkFut o (KItem kind idx key a)) ->
  batch_ok (schedule_batch (kind, idx) s) /\ (forall k, In k (sb s) -> In k (sb (schedule_batch (kind, idx) s))) /\
  (b_done (get_batch (kind, idx) s) = false -> In (kind, idx) (sb (schedule_batch (kind, idx) s))).
Proof.
  intros HB Hg. unfold schedule_batch. destruct (b_done (get_batch (kind, idx) s)) eqn:Hd; [split; [exact HB|split; [auto|discriminate]]|].
  destruct (existsb (key_eqb (kind, idx)) (sb s)) eqn:Hex.
  - split; [exact HB|]. split; [auto|]. intros _. apply existsb_exists in Hex as (k & Hin & Hk). apply key_eqb_eq in Hk. subst k. exact Hin.
  - split; [|split; [intros k Hk; cbn; apply in_or_app; left; exact Hk|intros _; cbn; apply in_or_app; right; left; reflexivity]].
    destruct HB as [B1 B2 B3 B4]. constructor.
    + exact B1.
    + exact B2.
    + exact B3.
    + intros kind2 idx2 Hin. cbn in Hin. apply in_app_or in Hin as [Hin|[E|[]]]; [apply (B4 kind2 idx2 Hin)|].
      inversion E; subst kind2 idx2. apply (B3 x o kind idx key a Hg).
Qed.

(* the batch of every settled item has been handed to _schedule_batch *)
Definition sched_ok (S : Sset) (s : st) : Prop :=
  forall d kind idx key a, S d -> get d s = Some (mkFut None (KItem kind idx key a)) -> In (kind, idx) (sb s).

Lemma keep_ok S s s' : batch_ok s -> sched_ok S s -> bview s' = bview s -> iback s s' -> batch_ok s' /\ sched_ok S s'.
Proof.
  intros HB HS Hv K. split; [apply (batch_ok_iframe s s'); assumption|].
  intros d kind idx key a Hd Hg. destruct (bview_parts s s' Hv) as (E & _). rewrite E. apply (HS d kind idx key a Hd). apply K. exact Hg.
Qed.

Lemma tupd_bview s s' x o tk : tupd s s' x o tk -> bview s' = bview s.
Proof. intros (_ & _ & H). destruct (sched_parts _ _ H) as (_ & _ & A & B & C & _). unfold bview. congruence. Qed.

Lemma iback_tupd s s' x o tk : tupd s s' x o tk -> iback s s'.
Proof. intros U. exact (iback_upd _ _ _ _ _ (tupd_upd_entry _ _ _ _ _ U)). Qed.

Lemma keep_tupd S s s' x o tk : batch_ok s -> sched_ok S s -> tupd s s' x o tk -> batch_ok s' /\ sched_ok S s'.
Proof. intros HB HS U. exact (keep_ok S s s' HB HS (tupd_bview _ _ _ _ _ U) (iback_tupd _ _ _ _ _ U)). Qed.

Section C04B.
  Variable P : params.
  Hypothesis HP : pointwise P.
  Variable root : fid.
  Variable res : outcome.

  Definition BL (spec : specmap) (S : Sset) (c : cfg) : Prop :=
    DL root res spec S c /\
    match c_mode c with
    | MUnwind _ | MDone _ | MStuck => True
    | m => batch_ok (c_st c) /\
      match m with
      | MExecLoop | MResume _ | MRun _ _ | MContRet | MAfterExec => sched_ok S (c_st c)
      | _ => True
      end
    end.

  Lemma bl_MValue spec S h fr s : BL spec S (mkC (MValue h) fr s) -> BL spec S (step P (mkC (MValue h) fr s)).
  Proof.
    intros (HDL & HB & _). split; [apply (dl_MValue P); exact HDL|].
    destruct (DL_CInv _ _ _ _ _ HDL) as (_ & Hf & _ & Ht & ->). cbn in Hf, Ht, HB. subst fr. cbn [step c_mode c_frames c_st].
    destruct (computed root s); [cbn; auto|]. destruct Ht as (out & tk & Hg). rewrite Hg. cbn. auto.
  Qed.

  Lemma bl_MDeliver spec S o fr s : BL spec S (mkC (MDeliver o) fr s) -> BL spec S (step P (mkC (MDeliver o) fr s)).
  Proof.
    intros (HDL & HB & _). split; [apply (dl_MDeliver P); exact HDL|].
    destruct (DL_CInv _ _ _ _ _ HDL) as (_ & Hf & _). cbn in Hf. subst fr. cbn. exact I.
  Qed.

  Lemma bl_MWaitHead spec S fr s : BL spec S (mkC MWaitHead fr s) -> exists S', BL spec S' (step P (mkC MWaitHead fr s)).
  Proof.
    intros (HDL & HB & _). destruct (dl_MWaitHead P root res spec S fr s HDL) as (S' & HDL' & Hemp). exists S'. split; [exact HDL'|]. clear HDL'.
    destruct (DL_CInv _ _ _ _ _ HDL) as (_ & Hf & _). cbn in Hf, HB. subst fr. cbn [step c_mode c_frames c_st] in *.
    destruct (computed root s) eqn:Hc; [cbn; split; [apply batch_ok_drop_sb; exact HB|exact I]|]. cbn [c_mode c_st]. split.
    - apply (batch_ok_iframe s); [exact HB|reflexivity|apply iback_view; reflexivity].
    - intros d kind idx key a Hd. destruct (Hemp eq_refl d Hd).
  Qed.

  Lemma bl_MAfterExec spec S fr s : BL spec S (mkC MAfterExec fr s) -> BL spec S (step P (mkC MAfterExec fr s)).
  Proof.
    intros (HDL & HB & _). split; [apply (dl_MAfterExec P HP); exact HDL|].
    destruct (DL_CInv _ _ _ _ _ HDL) as (_ & Hf & _). cbn in Hf, HB. subst fr. cbn [step c_mode c_frames c_st].
    destruct (computed root s); [cbn; split; [apply batch_ok_drop_sb; exact HB|exact I]|]. cbn. split; [apply batch_ok_continue_with_batch; exact HB|exact I].
  Qed.

  Lemma bl_MExecLoop spec S fr s : BL spec S (mkC MExecLoop fr s) -> exists S', BL spec S' (step P (mkC MExecLoop fr s)).
  Proof.
    intros (HDL & HB & HSc). destruct (dl_MExecLoop P root res spec S fr s HDL) as (S' & HDL' & Hnew). exists S'. split; [exact HDL'|]. clear HDL'.
    destruct (DL_CInv _ _ _ _ _ HDL) as (_ & _ & HS & _). pose proof (DL_stack _ _ _ _ _ HDL) as HK. cbn in HS, HK, HB, HSc. subst fr.
    (* a member of S' is a member of S or the top of the stack; if that is an uncomputed item, its batch has to be scheduled *)
    assert (Hgen : forall s', (forall k, In k (sb s) -> In k (sb s')) -> iback s s' ->
              (forall x ts kind idx key a, tasks s = x :: ts -> get x s = Some (mkFut None (KItem kind idx key a)) -> In (kind, idx) (sb s')) ->
              sched_ok S' s').
    { intros s' Hsb K Hx d kind idx key a Hd Hg. destruct (Hnew d Hd) as [HSd|(ts & Hts)].
      - apply Hsb. apply (HSc d kind idx key a HSd). apply K. exact Hg.
      - apply (Hx d ts kind idx key a Hts). apply K. exact Hg. }
    assert (Hsame : forall s', bview s' = bview s -> iback s s' ->
              (forall x ts kind idx key a, tasks s = x :: ts -> get x s <> Some (mkFut None (KItem kind idx key a))) ->
              batch_ok s' /\ sched_ok S' s').
    { intros s' Hv K Hx. destruct (bview_parts s s' Hv) as (E & _). split; [apply (batch_ok_iframe s s'); assumption|].
      apply Hgen; [intros k Hk; rewrite E; exact Hk|exact K|].
      intros x ts kind idx key a Hts Hg. destruct (Hx x ts kind idx key a Hts Hg). }
    destruct (step_MExecLoop P 0 [FWait root; FTop] s (fun t out tk => SInv_noraise _ _ _ t out tk HS))
      as [Hle| |x ts Hts _ Hx|x ts kind idx key a Hts _ Hg|x ts o Hts _ Hg|x ts tk s2 Hts _ Hg Hb Hds U|x ts tk s2 Hts _ Hg Hb Hds U|x ts tk s2 Hts _ Hg Hb U];
      cbn [c_mode c_st]; try exact I;
      try (apply Hsame; [exact (tupd_bview _ _ _ _ _ U)|exact (iback_tupd _ _ _ _ _ U)|intros; congruence]).
    - apply Hsame; [reflexivity|apply iback_refl|]. intros x ts kind idx key a Hts _. rewrite Hts in Hle. cbn in Hle. lia.
    - apply Hsame; [reflexivity|apply iback_view; reflexivity|].
      intros x0 ts0 kind idx key a E Hg0. rewrite Hts in E. injection E as <- <-.
      destruct Hx as [Hx|[Hx|(o & Hx)]]; [unfold computed in Hx|..]; rewrite Hg0 in Hx; discriminate.
    - (* item: its batch is scheduled *)
      destruct (batch_ok_schedule s x None kind idx key a HB Hg) as (HB' & Hsub & Hin).
      split; [apply (batch_ok_iframe (schedule_batch (kind, idx) s)); [exact HB'|reflexivity|apply iback_view; reflexivity]|].
      apply Hgen; [exact Hsub|exact (rel_schedule_batch iback iback_refl (fun s0 l => iback_view s0 _ eq_refl) (kind, idx) s)|].
      intros x0 ts0 kind0 idx0 key0 a0 E Hg0. rewrite Hts in E. injection E as <- <-.
      rewrite Hg in Hg0. injection Hg0 as <- <- <- <-. apply Hin, (bo_member s HB x kind idx key a Hg).
    - apply Hsame; [reflexivity| |intros; congruence].
      intros u o0 kind idx key a Hgu. change (get u (pop_task ?z)) with (get u z) in Hgu. rewrite get_put in Hgu.
      destruct (fid_eqb u x); [discriminate|exact Hgu].
  Qed.

  Lemma bl_MResume spec S t fr s : BL spec S (mkC (MResume t) fr s) -> BL spec S (step P (mkC (MResume t) fr s)).
  Proof.
    intros (HDL & HB & HSc). split; [apply (dl_MResume P); exact HDL|].
    destruct (DL_CInv _ _ _ _ _ HDL) as (_ & _ & HS & _ & (tk & Hg & _)). pose proof (DL_stack _ _ _ _ _ HDL) as HK.
    cbn in HK, HS, Hg, HB, HSc. destruct HK as ((old & ->) & _).
    destruct (SInv_entry _ _ _ _ _ HS Hg) as (_ & ot & _ & _ & _ & Hk). destruct (Hk eq_refl ltac:(discriminate)) as (k & K1 & _).
    destruct (step_MResume P t [FCont t old; FExec 0; FWait root; FTop] s tk k Hg K1) as (s2 & -> & U & _).
    exact (keep_tupd S s s2 _ _ _ HB HSc U).
  Qed.

  Lemma bl_MRun spec S t p fr s : BL spec S (mkC (MRun t p) fr s) -> exists spec', BL spec' S (step P (mkC (MRun t p) fr s)).
  Proof.
    intros (HDL & HB & HSc). destruct (dl_MRun P root res spec S t p fr s HDL) as (spec' & HDL'). exists spec'. split; [exact HDL'|]. clear HDL'.
    destruct (DL_CInv _ _ _ _ _ HDL) as (_ & _ & HS & _ & (Htree & _ & (tk & Hg))). pose proof (DL_stack _ _ _ _ _ HDL) as HK.
    destruct HDL as (_ & _ & HPk & _). cbn in HK, HS, Hg, HB, HSc, HPk.
    destruct HK as ((old & ->) & _). set (fr := [FCont t old; FExec 0; FWait root; FTop]).
    inversion Htree as [v Ev|v Ev|e Ev|y k Hl Hk Ev|c k Hc Hk Ev|c k Hc Hk Ev]; subst p.
    - destruct (step_run_finish P t fr s tk Hg _ _ (fin_ret v)) as (s2 & -> & U & _). exact (keep_tupd S s s2 _ _ _ HB HSc U).
    - destruct (step_run_finish P t fr s tk Hg _ _ (fin_result v)) as (s2 & -> & U & _). exact (keep_tupd S s s2 _ _ _ HB HSc U).
    - destruct (step_run_finish P t fr s tk Hg _ _ (fin_raise e)) as (s2 & -> & U & _). exact (keep_tupd S s s2 _ _ _ HB HSc U).
    - (* Yield: the new items join their batches; the settled items are old entries *)
      destruct (step_run_yield P t fr s tk Hg y k (SInv_above_free _ _ _ HS)) as (s2 & -> & _ & U).
      destruct (brel_inst t y s (SInv_above_free _ _ _ HS)) as (Br & Bsb).
      destruct (inst_old t y s (SInv_above_free _ _ _ HS)) as (_ & Old).
      assert (X : batch_ok s2 /\ sched_ok S s2); [|destruct (futs (extract (fst (inst t y s)))); exact X].
      split; [apply (batch_ok_iframe (snd (inst t y s))); [apply Br; exact HB|exact (tupd_bview _ _ _ _ _ U)|exact (iback_tupd _ _ _ _ _ U)]|].
      intros d kind idx key a Hd Hgd. destruct (bview_parts _ _ (tupd_bview _ _ _ _ _ U)) as (E & _). rewrite E, Bsb.
      apply (HSc d kind idx key a Hd). rewrite <- (Old d (S_ok_alloc S s d (pk_ok _ _ _ _ HPk d Hd))).
      apply (iback_tupd _ _ _ _ _ U). exact Hgd.
    - destruct (step_run_enter P t fr s tk Hg c k) as (s2 & -> & U). exact (keep_tupd S s s2 _ _ _ HB HSc U).
    - destruct (step_run_exit P t fr s tk Hg c k) as (s2 & -> & U). exact (keep_tupd S s s2 _ _ _ HB HSc U).
  Qed.

  Lemma bl_MContRet spec S fr s : BL spec S (mkC MContRet fr s) -> BL spec S (step P (mkC MContRet fr s)).
  Proof.
    intros (HDL & HB & HSc). split; [apply (dl_MContRet P); exact HDL|].
    pose proof (DL_stack _ _ _ _ _ HDL) as HK. cbn in HK, HB, HSc. destruct HK as (t & old & rest & -> & _).
    destruct (step_MContRet_cases P t old [FExec 0; FWait root; FTop] s) as (s2 & -> & [(-> & _)|(out & tk & Hg & U)]); cbn [c_mode c_st].
    - apply (keep_ok S s); [exact HB|exact HSc|reflexivity|apply iback_view; reflexivity].
    - apply (keep_ok S s); [exact HB|exact HSc|exact (tupd_bview _ _ _ _ _ U)|exact (iback_tupd _ _ _ _ _ U)].
  Qed.

  Theorem bl_step spec S c : is_unwind (c_mode c) = false -> BL spec S c -> exists spec' S', BL spec' S' (step P c).
  Proof.
    destruct c as [m fr s]. destruct m; cbn [c_mode is_unwind]; intros Hu HI; try discriminate.
    - exists spec, S. apply bl_MValue; exact HI.
    - destruct (bl_MWaitHead spec S fr s HI) as (S' & H). exists spec, S'. exact H.
    - exists spec, S. apply bl_MAfterExec; exact HI.
    - destruct (bl_MExecLoop spec S fr s HI) as (S' & H). exists spec, S'. exact H.
    - exists spec, S. apply bl_MResume; exact HI.
    - destruct (bl_MRun spec S _ _ fr s HI) as (spec' & H). exists spec', S. exact H.
    - exists spec, S. apply bl_MContRet; exact HI.
    - exists spec, S. apply bl_MDeliver; exact HI.
    - exists spec, S. exact HI.
    - exists spec, S. exact HI.
  Qed.

  Theorem bl_run n spec S c : BL spec S c -> no_unwind P n c -> exists spec' S', BL spec' S' (run P n c).
  Proof.
    intros HI Hn. apply (run_invariant P (fun c => exists spec S, BL spec S c)); [|eauto|intros k Hk; apply Hn; lia].
    intros c0 Hu (spec0 & S0 & H0). exact (bl_step spec0 S0 c0 Hu H0).
  Qed.
End C04B.

Section C04B_theorems.
  Variable P : params.
  Hypothesis HP : pointwise P.
  Variable p : prog.
  Hypothesis Ht : tree p.

  Let h := fst (create [] (FTask p) (st0 P)).
  Let s1 := snd (create [] (FTask p) (st0 P)).

  Lemma bl_reach n : no_unwind P n (start h s1) -> exists spec S, BL h (eval p) spec S (run P n (start h s1)).
  Proof.
    intros Hn. destruct (dl_start P HP p Ht) as (spec & HDL).
    apply (bl_run P HP h (eval p) n spec (fun _ => False) (start h s1)); [|exact Hn].
    split; [exact HDL|]. cbn. split; [|exact I].
    (* the heap of the start state holds the root task only, no batch exists *)
    assert (Hent : forall u f, get u s1 = Some f -> exists o tk, f = mkFut o (KTask tk)).
    { intros u f Hgu. unfold s1, create, alloc in Hgu. cbn [snd] in Hgu. rewrite get_put in Hgu.
      destruct (fid_eqb u [top_next (st0 P)]); [inversion Hgu; eauto|discriminate]. }
    constructor.
    - intros u kind idx key a Hg. destruct (Hent u _ Hg) as (o & tk & E). discriminate.
    - intros kind idx Hd. cbn in Hd. discriminate.
    - intros u o kind idx key a Hg. destruct (Hent u _ Hg) as (o' & tk & E). discriminate.
    - intros kind idx [].
  Qed.

  (* as MachineC04.flush_only_when_stuck_tree, and moreover every batch item in S belongs to a batch that the
     scheduler knows (it is in TaskScheduler._batches), that has not been flushed, and that contains the item -
     so the flush that follows can make progress on exactly these items *)
  Theorem flush_only_when_stuck_pending_tree n :
    no_unwind P n (start h s1) -> c_mode (run P n (start h s1)) = MAfterExec ->
    computed h (c_st (run P n (start h s1))) = false ->
    exists S : fid -> Prop, S h /\ (forall d, S d -> S_ok S (c_st (run P n (start h s1))) d) /\
      forall d kind idx key a, S d -> get d (c_st (run P n (start h s1))) = Some (mkFut None (KItem kind idx key a)) ->
        In (kind, idx) (sb (c_st (run P n (start h s1)))) /\
        In d (b_items (get_batch (kind, idx) (c_st (run P n (start h s1))))) /\
        b_done (get_batch (kind, idx) (c_st (run P n (start h s1)))) = false.
  Proof.
    intros Hn Hm Hc. destruct (bl_reach n Hn) as (spec & S & ((_ & HDL) & HBL)).
    destruct (run P n (start h s1)) as [m fr s]. cbn [c_mode c_st] in *. subst m.
    destruct HDL as (_ & [Hc'|(HSh & HSok)]); [congruence|]. destruct HBL as (HB & HSc).
    exists S. split; [exact HSh|]. split; [exact HSok|].
    intros d kind idx key a Hd Hg. split; [apply (HSc d kind idx key a Hd Hg)|apply (bo_member s HB d kind idx key a Hg)].
  Qed.
End C04B_theorems.
