(* Trace-level facts about task steps, for every program (not only trees), every parameter record,
   history and fuel: each resume of task t is the one transition from mode [MResume t] that emits
   [EvStep t (tk_iter tk) o] and stores [tk_iter tk + 1]; nothing else changes an iteration index or
   emits EvStep.  Hence (T1) an event [EvStep t i _] occurs at most once, (T2) steps of a task are
   numbered consecutively from 0 in chronological order, (T3) no step of t follows [EvDone t] PROVIDED
   every resume finds its task uncomputed (true for tree programs; false in general, see
   props/C03.v).  [calm s s']: no EvStep is emitted and iteration indices are left alone; every write of a
   transition but the resume of a generator is calm (hstep_calm, by induction on MachineHelpers.hstep); the
   invariants [RInv] and [TInv]. *)
From Asynq Require Import Machine proofs.ProgProofs proofs.MachineFrame proofs.MachineC05 proofs.MachineC08
  proofs.MachineC01 proofs.MachineC02 proofs.MachineHelpers.

Definition iter_of (f : fut) : option Z :=
  match f_kind f with KTask tk => Some (tk_iter tk) | _ => None end.

(* None: no entry; Some None: an entry that is not a task; Some (Some j): a task with iteration_index j *)
Definition it (h : fid) (s : st) : option (option Z) := option_map iter_of (get h s).

Definition dom_ok (s : st) : Prop := forall h, it h s <> None -> exists n, h = [n] /\ n < top_next s.

Definition fresh0 (x : option (option Z)) : Prop := x = Some None \/ x = Some (Some 0).

(* events a helper may emit: no EvStep; an EvDone only for a task that is computed afterwards *)
Definition good (s' : st) (e : event) : Prop :=
  match e with
  | EvStep _ _ _ => False
  | EvDone t _ => computed t s' = true
  | _ => True
  end.

(* [dom_ok s] is a premise inside the relation: that new ids are fresh is relative to the ids in use, and
   transitivity needs it of the middle state (calm_dom) *)
Definition calm (s s' : st) : Prop :=
  dom_ok s ->
  (forall h, it h s <> None -> it h s' = it h s) /\
  (forall h, it h s = None -> it h s' <> None ->
     exists n, h = [n] /\ top_next s <= n < top_next s' /\ fresh0 (it h s')) /\
  top_next s <= top_next s' /\
  (forall h, computed h s = true -> computed h s' = true) /\
  exists evs, trace s' = evs ++ trace s /\ Forall (good s') evs.

Lemma calm_dom s s' : dom_ok s -> calm s s' -> dom_ok s'.
Proof.
  intros D C. destruct (C D) as (C1 & C2 & C3 & _). intros h Hh.
  destruct (it h s) as [x|] eqn:E.
  - destruct (D h) as (n & -> & Hn); [rewrite E; discriminate|]. exists n. split; [reflexivity|lia].
  - destruct (C2 h E Hh) as (n & -> & Hn & _). exists n. split; [reflexivity|lia].
Qed.

Lemma calm_refl s : calm s s.
Proof.
  intros _. split; [auto|]. split; [intros h E N; congruence|]. split; [lia|]. split; [auto|].
  exists []. split; [reflexivity|constructor].
Qed.

Lemma good_mono s s' e : (forall h, computed h s = true -> computed h s' = true) -> good s e -> good s' e.
Proof. intros M. destruct e; cbn; auto. Qed.

Lemma calm_trans a b c : calm a b -> calm b c -> calm a c.
Proof.
  intros A B Da. pose proof (calm_dom a b Da A) as Db.
  destruct (A Da) as (A1 & A2 & A3 & A4 & ea & Ta & Fa).
  destruct (B Db) as (B1 & B2 & B3 & B4 & eb & Tb & Fb).
  split; [|split; [|split; [|split]]].
  - intros h Hh. rewrite <- (A1 h Hh). apply B1. rewrite (A1 h Hh). exact Hh.
  - intros h E N. destruct (it h b) as [x|] eqn:Eb.
    + destruct (A2 h E) as (n & -> & Hn & Hf); [rewrite Eb; discriminate|].
      exists n. split; [reflexivity|]. split; [lia|].
      rewrite (B1 [n]); [exact Hf|rewrite Eb; discriminate].
    + destruct (B2 h Eb N) as (n & -> & Hn & Hf). exists n. split; [reflexivity|]. split; [lia|exact Hf].
  - lia.
  - auto.
  - exists (eb ++ ea). split; [rewrite Tb, Ta, app_assoc; reflexivity|].
    apply Forall_app. split; [exact Fb|]. revert Fa. apply Forall_impl. intros e. apply good_mono. exact B4.
Qed.

Lemma calm_view s s' : heap s' = heap s -> top_next s' = top_next s -> trace s' = trace s -> calm s s'.
Proof.
  intros Hh Hn Ht _.
  pose proof (get_view s s' Hh) as G.
  assert (I : forall h, it h s' = it h s) by (intros h; unfold it; rewrite G; reflexivity).
  split; [intros h _; apply I|]. split; [intros h E N; rewrite I in N; congruence|]. split; [lia|].
  split; [intros h; unfold computed; rewrite G; auto|].
  exists []. split; [exact Ht|constructor].
Qed.

Lemma calm_emit e s : good (emit e s) e -> calm s (emit e s).
Proof.
  intros H _. split; [auto|]. split; [intros h E N; unfold it in *; rewrite get_emit in N; congruence|].
  split; [cbn; lia|]. split; [auto|]. exists [e]. split; [reflexivity|]. constructor; [exact H|constructor].
Qed.

Lemma it_put h h' f s : it h (put h' f s) = if fid_eqb h h' then Some (iter_of f) else it h s.
Proof.
  unfold it. destruct (fid_eqb_spec h h') as [->|N]; [rewrite get_put_same|rewrite get_put_other by exact N]; reflexivity.
Qed.

Lemma calm_put h f f' s :
  get h s = Some f -> iter_of f' = iter_of f -> (f_out f <> None -> f_out f' <> None) -> calm s (put h f' s).
Proof.
  intros G I O _.
  assert (Ih : it h s = Some (iter_of f)) by (unfold it; rewrite G; reflexivity).
  assert (E : forall h0, it h0 (put h f' s) = it h0 s).
  { intros h0. rewrite it_put. destruct (fid_eqb_spec h0 h) as [->|_]; [|reflexivity]. rewrite Ih, I. reflexivity. }
  split; [intros h0 _; apply E|]. split; [intros h0 E0 N; rewrite E in N; congruence|].
  split; [cbn; lia|]. split.
  - intros h0 Hc. rewrite computed_put. destruct (fid_eqb_spec h0 h) as [->|_]; [|exact Hc]. unfold computed in Hc. rewrite G in Hc.
    destruct (f_out f); [|discriminate]. destruct (f_out f'); [reflexivity|]. exfalso. apply O; [discriminate|reflexivity].
  - exists []. split; [reflexivity|constructor].
Qed.

Lemma calm_set_task t tk tk' s : get_task t s = Some tk -> tk_iter tk' = tk_iter tk -> calm s (set_task t tk' s).
Proof.
  intros G I. apply get_task_some in G as (out & G). unfold set_task. rewrite G.
  apply (calm_put t (mkFut out (KTask tk))); [exact G|cbn; rewrite I; reflexivity|cbn; auto].
Qed.

Lemma calm_alloc_put s f :
  fresh0 (Some (iter_of f)) -> calm s (put [top_next s] f (with_top_next s (top_next s + 1))).
Proof.
  intros F D. set (h0 := [top_next s]). set (s0 := with_top_next s (top_next s + 1)).
  assert (N0 : it h0 s = None).
  { destruct (it h0 s) as [x|] eqn:E; [|reflexivity]. destruct (D h0) as (n & En & Hn); [rewrite E; discriminate|].
    unfold h0 in En. inversion En. lia. }
  assert (I : forall h, it h (put h0 f s0) = if fid_eqb h h0 then Some (iter_of f) else it h s).
  { intros h. rewrite it_put. reflexivity. }
  split; [|split; [|split; [|split]]].
  - intros h Hh. rewrite I. destruct (fid_eqb_spec h h0) as [->|_]; [|reflexivity]. congruence.
  - intros h E. rewrite !I. destruct (fid_eqb_spec h h0) as [->|_]; intros N; [|congruence].
    exists (top_next s). split; [reflexivity|]. split; [cbn; lia|exact F].
  - cbn. lia.
  - intros h Hc. rewrite computed_put. destruct (fid_eqb_spec h h0) as [->|_]; [|exact Hc]. unfold it in N0. unfold computed in Hc. destruct (get h0 s); discriminate.
  - exists []. split; [reflexivity|constructor].
Qed.

Lemma calm_create p f s : calm s (snd (create p f s)).
Proof.
  unfold create, alloc. cbn zeta. destruct f; cbn [snd]; try (eapply calm_trans; [|apply calm_view; reflexivity]);
    apply calm_alloc_put; first [right; reflexivity | left; reflexivity].
Qed.

Lemma calm_item h f o s : get h s = Some f -> f_out f = None ->
  calm s (emit (EvItemDone h o) (put h (mkFut (Some o) (f_kind f)) s)).
Proof.
  intros G O. eapply calm_trans; [|apply calm_emit; exact I]. eapply calm_put; [exact G|reflexivity|cbn; discriminate].
Qed.

Lemma calm_flush_batch P k s : calm s (flush_batch P k s).
Proof.
  apply (rel_flush_batch calm calm_refl calm_trans calm_item);
    intros; first [apply calm_view; reflexivity|apply calm_emit; exact I].
Qed.

Lemma calm_continue_with_batch P s : calm s (continue_with_batch P s).
Proof.
  apply (rel_continue_with_batch calm calm_refl calm_trans calm_item);
    intros; first [apply calm_view; reflexivity|apply calm_emit; exact I].
Qed.

Definition is_step (t : fid) (i : Z) (e : event) : bool :=
  match e with EvStep t' i' _ => fid_eqb t' t && Z.eqb i' i | _ => false end.
Definition count_step (t : fid) (i : Z) (tr : list event) : nat := length (filter (is_step t i) tr).

(* on a newest-first trace: the step numbered i > 0 of a task has its step i-1 below (= before) it *)
Fixpoint ordered (tr : list event) : Prop :=
  match tr with
  | [] => True
  | e :: tr' =>
    match e with
    | EvStep t i _ => 0 < i -> exists o', In (EvStep t (i - 1) o') tr'
    | _ => True
    end /\ ordered tr'
  end.

(* on a newest-first trace: a step of t has no EvDone t below (= before) it *)
Fixpoint nsad (tr : list event) : Prop :=
  match tr with
  | [] => True
  | e :: tr' =>
    match e with
    | EvStep t _ _ => forall o', ~ In (EvDone t o') tr'
    | _ => True
    end /\ nsad tr'
  end.

(* the stored iteration index of a task counts its EvStep events.  The clauses, under the names the proofs give
   them: D ids below the counter; R1 an emitted step has an index below the stored one; R3 every index below the
   stored one was emitted; R2 each at most once; RO in order; RD EvDone only of computed tasks. *)
Definition RInv (s : st) : Prop :=
  dom_ok s /\
  (forall t i o, In (EvStep t i o) (trace s) -> exists j, it t s = Some (Some j) /\ 0 <= i < j) /\
  (forall t j, it t s = Some (Some j) -> 0 <= j /\ forall i, 0 <= i < j -> exists o, In (EvStep t i o) (trace s)) /\
  (forall t i, (count_step t i (trace s) <= 1)%nat) /\
  ordered (trace s) /\
  (forall t o, In (EvDone t o) (trace s) -> computed t s = true).

Lemma good_nostep s' evs : Forall (good s') evs -> forall t i, filter (is_step t i) evs = [].
Proof.
  intros H t i. induction H as [|e evs He Hf IH]; [reflexivity|]. cbn [filter].
  destruct e; cbn [is_step]; try exact IH. destruct He.
Qed.

Lemma count_good s' evs tr t i : Forall (good s') evs -> count_step t i (evs ++ tr) = count_step t i tr.
Proof. intros H. unfold count_step. rewrite filter_app, (good_nostep s' evs H). reflexivity. Qed.

Lemma in_good s' evs tr t i o : Forall (good s') evs -> In (EvStep t i o) (evs ++ tr) -> In (EvStep t i o) tr.
Proof.
  intros H Hin. apply in_app_or in Hin as [Hin|Hin]; [|exact Hin].
  rewrite Forall_forall in H. destruct (H _ Hin).
Qed.

Lemma count_zero t i tr : (forall o, ~ In (EvStep t i o) tr) -> count_step t i tr = O.
Proof.
  unfold count_step. induction tr as [|e tr IH]; intros H; [reflexivity|]. cbn [filter].
  destruct (is_step t i e) eqn:E.
  - destruct e; cbn in E; try discriminate. apply andb_true_iff in E as [E1 E2].
    apply fid_eqb_eq in E1. apply Z.eqb_eq in E2. subst. exfalso. apply (H o). left. reflexivity.
  - apply IH. intros o Hin. apply (H o). right. exact Hin.
Qed.

Lemma ordered_app_good s' evs tr : Forall (good s') evs -> ordered tr -> ordered (evs ++ tr).
Proof.
  intros H Ho. induction H as [|e evs He Hf IH]; [exact Ho|]. cbn [app ordered]. split; [|exact IH].
  destruct e; try exact I. destruct He.
Qed.

Lemma nsad_app_good s' evs tr : Forall (good s') evs -> nsad tr -> nsad (evs ++ tr).
Proof.
  intros H Ho. induction H as [|e evs He Hf IH]; [exact Ho|]. cbn [app nsad]. split; [|exact IH].
  destruct e; try exact I. destruct He.
Qed.

Lemma RInv_calm s s' : RInv s -> calm s s' -> RInv s'.
Proof.
  intros (D & R1 & R3 & R2 & RO & RD) C. destruct (C D) as (C1 & C2 & C3 & C4 & evs & T & F).
  split; [exact (calm_dom s s' D C)|]. split; [|split; [|split; [|split]]].
  - intros t i o Hin. rewrite T in Hin. apply (in_good s') in Hin; [|exact F].
    destruct (R1 _ _ _ Hin) as (j & Ej & Hj). exists j. split; [|exact Hj].
    rewrite C1; [exact Ej|rewrite Ej; discriminate].
  - intros t j Ej. destruct (it t s) as [x|] eqn:E.
    + rewrite C1 in Ej by (rewrite E; discriminate). rewrite E in Ej. inversion Ej; subst x.
      destruct (R3 t j E) as [P1 P2]. split; [exact P1|]. intros i Hi. destruct (P2 i Hi) as (o & Ho).
      exists o. rewrite T. apply in_or_app. right. exact Ho.
    + destruct (C2 t E) as (n & -> & Hn & [Hf|Hf]); [rewrite Ej; discriminate| |]; rewrite Ej in Hf; [discriminate|].
      inversion Hf; subst j. split; [lia|]. intros i Hi. lia.
  - intros t i. rewrite T, (count_good s') by exact F. apply R2.
  - rewrite T. apply (ordered_app_good s'); assumption.
  - intros t o Hin. rewrite T in Hin. apply in_app_or in Hin as [Hin|Hin].
    + rewrite Forall_forall in F. exact (F _ Hin).
    + apply C4. exact (RD t o Hin).
Qed.

Lemma it_emit h e s : it h (emit e s) = it h s. Proof. reflexivity. Qed.

(* the resume transition: EvStep t (tk_iter tk) o is emitted and tk_iter tk + 1 is stored *)
Section Resume.
  Variables (s : st) (t : fid) (tk tk1 : task) (o : outcome).
  Hypothesis G : get_task t s = Some tk.
  Hypothesis I1 : tk_iter tk1 = tk_iter tk + 1.

  Let s' := emit (EvStep t (tk_iter tk) o) (set_task t tk1 s).

  Lemma resume_it h : it h s' = if fid_eqb h t then Some (Some (tk_iter tk + 1)) else it h s.
  Proof.
    apply get_task_some in G as (out & G'). unfold s', set_task. rewrite G'.
    rewrite it_emit, it_put. cbn. rewrite I1. reflexivity.
  Qed.

  Lemma resume_it_t : it t s = Some (Some (tk_iter tk)).
  Proof. apply get_task_some in G as (out & G'). unfold it. rewrite G'. reflexivity. Qed.

  Lemma resume_computed h : computed h s' = computed h s.
  Proof.
    apply get_task_some in G as (out & G'). unfold s', set_task. rewrite G'.
    rewrite computed_emit, computed_put. destruct (fid_eqb_spec h t) as [->|_]; [|reflexivity]. unfold computed. rewrite G'. reflexivity.
  Qed.

  Lemma resume_top : top_next s' = top_next s.
  Proof. unfold s', set_task. destruct (get t s); reflexivity. Qed.

  Lemma resume_dom : dom_ok s -> dom_ok s'.
  Proof.
    intros D h. rewrite resume_it, resume_top. destruct (fid_eqb_spec h t) as [->|_]; intros Hh; [|exact (D h Hh)].
    apply D. rewrite resume_it_t. discriminate.
  Qed.

  Lemma resume_trace : trace s' = EvStep t (tk_iter tk) o :: trace s.
  Proof. unfold s', set_task. destruct (get t s); reflexivity. Qed.

  Lemma RInv_resume : RInv s -> RInv s'.
  Proof.
    intros (D & R1 & R3 & R2 & RO & RD). pose proof resume_it_t as Et.
    destruct (R3 t _ Et) as [J0 J1].
    assert (NJ : forall o', ~ In (EvStep t (tk_iter tk) o') (trace s)).
    { intros o' Hin. destruct (R1 _ _ _ Hin) as (j & Ej & Hj). rewrite Et in Ej. inversion Ej. lia. }
    split; [|split; [|split; [|split; [|split]]]].
    - exact (resume_dom D).
    - intros t' i o' Hin0. rewrite resume_trace in Hin0. destruct Hin0 as [Heq|Hin].
      + inversion Heq; subst t' i o'. exists (tk_iter tk + 1). rewrite resume_it, fid_eqb_refl.
        split; [reflexivity|lia].
      + destruct (R1 _ _ _ Hin) as (j & Ej & Hj). rewrite resume_it. destruct (fid_eqb_spec t' t) as [->|_].
        * rewrite Et in Ej. inversion Ej; subst j.
          exists (tk_iter tk + 1). split; [reflexivity|lia].
        * exists j. split; assumption.
    - intros t' j. rewrite resume_it. destruct (fid_eqb_spec t' t) as [->|_]; intros Ej.
      + inversion Ej; subst j. split; [lia|]. intros i Hi.
        destruct (Z.eq_dec i (tk_iter tk)) as [->|Ne]; [exists o; rewrite resume_trace; left; reflexivity|].
        destruct (J1 i) as (o' & Ho'); [lia|]. exists o'. rewrite resume_trace. right. exact Ho'.
      + destruct (R3 t' j Ej) as [P1 P2]. split; [exact P1|]. intros i Hi.
        destruct (P2 i Hi) as (o' & Ho'). exists o'. rewrite resume_trace. right. exact Ho'.
    - intros t' i. rewrite resume_trace.
      unfold count_step. cbn [filter is_step]. destruct (fid_eqb t t' && Z.eqb (tk_iter tk) i) eqn:E.
      + apply andb_true_iff in E as [E1 E2]. apply fid_eqb_eq in E1. apply Z.eqb_eq in E2. subst t' i.
        cbn [length]. pose proof (count_zero t (tk_iter tk) (trace s) NJ) as Z0. unfold count_step in Z0.
        rewrite Z0. lia.
      + apply R2.
    - rewrite resume_trace. cbn [ordered]. split; [|exact RO].
      intros Hpos. apply J1. lia.
    - intros t' o' Hin. rewrite resume_trace in Hin. destruct Hin as [Heq|Hin]; [discriminate|]. rewrite resume_computed. exact (RD t' o' Hin).
  Qed.

  Lemma nsad_resume : RInv s -> computed t s = false -> nsad (trace s) -> nsad (trace s').
  Proof.
    intros (_ & _ & _ & _ & _ & RD) Hc Hn. rewrite resume_trace.
    cbn [nsad]. split; [|exact Hn]. intros o' Hin. rewrite (RD t o' Hin) in Hc. discriminate.
  Qed.
End Resume.

(* the only transition that is not calm: MResume t with a live generator *)
Definition emits (c : cfg) : bool :=
  match c_mode c with
  | MResume t => match get_task t (c_st c) with
                 | Some tk => match tk_gen tk with Some _ => true | None => false end
                 | None => false
                 end
  | _ => false
  end.

Lemma emits_true c : emits c = true ->
  exists t tk k, c_mode c = MResume t /\ get_task t (c_st c) = Some tk /\ tk_gen tk = Some k.
Proof.
  unfold emits. destruct (c_mode c) as [h| | | |t|t p| |o|e|o|] eqn:Em; try discriminate.
  destruct (get_task t (c_st c)) as [tk|] eqn:G; [|discriminate]. destruct (tk_gen tk) as [k|] eqn:E; [|discriminate].
  intros _. exists t, tk, k. auto.
Qed.

(* every write of a transition keeps the ids below the counter and computed futures computed; all but the
   resume of a generator are calm *)
Lemma hstep_calm P A s s' : hstep P A s s' -> dom_ok s ->
  dom_ok s' /\ (forall h, computed h s = true -> computed h s' = true) /\ (~ A TStep -> calm s s').
Proof.
  assert (M : forall a b, calm a b -> dom_ok a ->
                          dom_ok b /\ (forall h, computed h a = true -> computed h b = true) /\ (~ A TStep -> calm a b)).
  { intros a b C D. split; [exact (calm_dom a b D C)|]. split; [|intros _; exact C]. destruct (C D) as (_ & _ & _ & H & _). exact H. }
  induction 1 as [s|a b c _ IH1 _ IH2|s s' Hh _ _ _ _ Hn Ht|v x s|k c s|e s He|t tk tk' s G Bk|t tk o s G C|x out o s G C
                  |p f s _|k s|k s F|s F|t tk o d s T G _|t tk k y' F s _ G].
  - (* hs_refl *) apply M, calm_refl.
  - (* hs_trans *) intros D. destruct (IH1 D) as (Db & Mb & Cb). destruct (IH2 Db) as (Dc & Mc & Cc).
    split; [exact Dc|]. split; [auto|]. intros N. exact (calm_trans a b c (Cb N) (Cc N)).
  - (* hs_regs *) apply M, calm_view; assumption.
  - (* hs_var_set *) apply M, calm_view; reflexivity.
  - (* hs_ci_put *) apply M, calm_view; reflexivity.
  - (* hs_emit *) apply M, calm_emit. destruct e; try exact I; destruct He.
  - (* hs_task *) apply M, (calm_set_task t tk); [exact G|apply Bk].
  - (* hs_done *) apply M. apply get_task_some in G as (out & G).
    eapply calm_trans; [|apply calm_emit; cbn [good]; rewrite computed_emit; apply computed_put_same].
    eapply calm_put; [exact G|reflexivity|cbn; discriminate].
  - (* hs_lazy *) apply M. eapply calm_put; [exact G|reflexivity|cbn; discriminate].
  - (* hs_create *) apply M, calm_create.
  - (* hs_sched *) apply M, (rel_schedule_batch calm calm_refl). intros. apply calm_view; reflexivity.
  - (* hs_flush *) apply M, calm_flush_batch.
  - (* hs_cwb *) apply M, calm_continue_with_batch.
  - (* hs_resume *) set (tk1 := mkTask (tk_gen tk) YNone d (tk_ctxs tk) (tk_cact tk) (tk_ds tk) (tk_iter tk + 1) (tk_next tk)).
    intros D. split; [|split; [|intros N; destruct (N T)]].
    + exact (resume_dom s t tk tk1 o G eq_refl D).
    + intros h Hc. rewrite (resume_computed s t tk tk1 o G). exact Hc.
  - (* hs_yield *) apply M, (calm_set_task t tk); [exact G|reflexivity].
Qed.

Theorem step_calm P c : emits c = false -> calm (c_st c) (c_st (step P c)).
Proof.
  intros E D. destruct (hstep_calm P _ _ _ (step_hstep P c) D) as (_ & _ & C). refine (C _ D).
  intros (t & tk & k & Hm & G & Hk). unfold emits in E. rewrite Hm, G, Hk in E. discriminate.
Qed.

Theorem RInv_step P c : RInv (c_st c) -> RInv (c_st (step P c)).
Proof.
  intros HR. destruct (emits c) eqn:E; [|exact (RInv_calm _ _ HR (step_calm P c E))].
  destruct (emits_true c E) as (t & tk & k & Hm & G & Hk). destruct c as [m fr s]. cbn [c_mode c_st] in *. subst m.
  cbn [step c_mode c_frames c_st]. rewrite G, Hk. cbn [c_st]. apply RInv_resume; [exact G|reflexivity|exact HR].
Qed.

Lemma RInv_st0 P : RInv (st0 P).
Proof.
  split; [intros h Hh; cbn in Hh; congruence|]. split; [intros t i o []|]. split; [intros t j E; discriminate|].
  split; [intros t i; cbn; lia|]. split; [exact I|intros t o []].
Qed.

Lemma RInv_run_root P fuel p s : RInv s -> RInv (snd (run_root P fuel p s)).
Proof.
  apply inv_run_root; [apply RInv_step|intros p0 f s0 H; exact (RInv_calm _ _ H (calm_create p0 f s0))|].
  intros a b c s0 H. apply (RInv_calm _ _ H), calm_emit. exact I.
Qed.

Lemma RInv_run_case P fuel ps : exists s, snd (run_case P fuel ps) = rev (trace s) /\ RInv s.
Proof.
  apply inv_run_case; [apply RInv_step|intros p0 f s0 H; exact (RInv_calm _ _ H (calm_create p0 f s0))| |apply RInv_st0].
  intros a b c s0 H. apply (RInv_calm _ _ H), calm_emit. exact I.
Qed.

Lemma count_step_rev t i tr : count_step t i (rev tr) = count_step t i tr.
Proof.
  unfold count_step. induction tr as [|e tr IH]; [reflexivity|]. cbn [rev]. rewrite filter_app, app_length, IH.
  cbn [filter]. destruct (is_step t i e); cbn; lia.
Qed.

Theorem run_case_step_at_most_once P fuel ps t i : (count_step t i (snd (run_case P fuel ps)) <= 1)%nat.
Proof.
  destruct (RInv_run_case P fuel ps) as (s & -> & (_ & _ & _ & R2 & _)). rewrite count_step_rev. apply R2.
Qed.

Lemma ordered_split a : forall t i o b, ordered (a ++ EvStep t i o :: b) -> 0 < i -> exists o', In (EvStep t (i - 1) o') b.
Proof.
  induction a as [|e a IH]; intros t i o b H Hi.
  - cbn in H. destruct H as [H _]. exact (H Hi).
  - cbn [app ordered] in H. destruct H as [_ H]. exact (IH t i o b H Hi).
Qed.

Lemma rev_split {A} (tr l1 l2 : list A) (e : A) : rev tr = l1 ++ e :: l2 -> tr = rev l2 ++ e :: rev l1.
Proof.
  intros H. rewrite <- (rev_involutive tr), H, rev_app_distr. cbn [rev]. rewrite <- app_assoc. reflexivity.
Qed.

Theorem run_case_steps_consecutive P fuel ps t i o l1 l2 :
  snd (run_case P fuel ps) = l1 ++ EvStep t i o :: l2 ->
  0 <= i /\ (0 < i -> exists o', In (EvStep t (i - 1) o') l1).
Proof.
  destruct (RInv_run_case P fuel ps) as (s & -> & (_ & R1 & _ & _ & RO & _)). intros H.
  apply rev_split in H. split.
  - destruct (R1 t i o) as (j & _ & Hj); [rewrite H; apply in_or_app; right; left; reflexivity|lia].
  - intros Hi. rewrite H in RO. destruct (ordered_split _ _ _ _ _ RO Hi) as (o' & Ho').
    exists o'. apply in_rev. exact Ho'.
Qed.

(* Not an invariant of the machine for arbitrary programs (a task that is re-entered while its body is
   inside a synchronous .value() can complete in the inner activation and yield again in the outer
   one; see props/C03.v).  It is one as soon as every resume finds its task uncomputed. *)
Definition TInv (s : st) : Prop := RInv s /\ nsad (trace s).

Lemma TInv_calm s s' : TInv s -> calm s s' -> TInv s'.
Proof.
  intros [HR HN] C. split; [exact (RInv_calm s s' HR C)|].
  destruct HR as (D & _). destruct (C D) as (_ & _ & _ & _ & evs & T & F). rewrite T.
  apply (nsad_app_good s'); assumption.
Qed.

Definition resume_guarded (P : params) (n : nat) (c : cfg) : Prop :=
  forall k t, (k <= n)%nat -> c_mode (run P k c) = MResume t -> computed t (c_st (run P k c)) = false.

Theorem TInv_step P c :
  TInv (c_st c) -> (forall t, c_mode c = MResume t -> computed t (c_st c) = false) -> TInv (c_st (step P c)).
Proof.
  intros HT Hg. destruct (emits c) eqn:E; [|exact (TInv_calm _ _ HT (step_calm P c E))].
  destruct (emits_true c E) as (t & tk & k & Hm & G & Hk). specialize (Hg t Hm).
  destruct c as [m fr s]. cbn [c_mode c_st] in *. subst m. destruct HT as [HR HN].
  cbn [step c_mode c_frames c_st]. rewrite G, Hk. cbn [c_st]. split.
  - apply RInv_resume; [exact G|reflexivity|exact HR].
  - apply nsad_resume; [exact HR|exact Hg|exact HN].
Qed.

Lemma TInv_run P n : forall c, TInv (c_st c) -> resume_guarded P n c -> TInv (c_st (run P n c)).
Proof.
  induction n as [|n IH]; intros c HT Hg; [exact HT|]. rewrite run_S.
  destruct (is_final (c_mode c)) eqn:Hf; [exact HT|]. apply IH.
  - apply TInv_step; [exact HT|]. intros t Hm. apply (Hg O t); [lia|exact Hm].
  - intros k t Hk Hm. specialize (Hg (S k) t ltac:(lia)). rewrite run_S, Hf in Hg. exact (Hg Hm).
Qed.

Lemma TInv_st0 P : TInv (st0 P).
Proof. split; [apply RInv_st0|exact I]. Qed.

(* a history in which every root computation is resume-guarded *)
Fixpoint history_guarded (P : params) (fuel : nat) (ps : list prog) (s : st) : Prop :=
  match ps with
  | [] => True
  | p :: ps' =>
    resume_guarded P fuel (start (fst (create [] (FTask p) s)) (snd (create [] (FTask p) s))) /\
    history_guarded P fuel ps' (snd (run_root P fuel p s))
  end.

Lemma TInv_run_root P fuel p s :
  TInv s -> resume_guarded P fuel (start (fst (create [] (FTask p) s)) (snd (create [] (FTask p) s))) ->
  TInv (snd (run_root P fuel p s)).
Proof.
  intros HF Hg. unfold run_root.
  pose proof (calm_create [] (FTask p) s) as Qc. destruct (create [] (FTask p) s) as [h s1]. cbn [fst snd] in Qc, Hg.
  assert (H1 : TInv s1) by (apply (TInv_calm s); auto).
  pose proof (TInv_run P fuel (start h s1) H1 Hg) as H2. unfold start in H2.
  set (c := run P fuel (mkC (MValue h) [FTop] s1)) in *.
  assert (H3 : TInv (emit (EvSched (Z.of_nat (length (tasks (c_st c)))) (Z.of_nat (length (sb (c_st c)))) (active (c_st c))) (c_st c))).
  { apply (TInv_calm (c_st c)); [exact H2|]. apply calm_emit. exact I. }
  destruct (c_mode c); exact H3.
Qed.

Lemma TInv_run_history P fuel ps : forall s,
  TInv s -> history_guarded P fuel ps s -> TInv (snd (run_history P fuel ps s)).
Proof.
  induction ps as [|p ps IH]; intros s HF Hg; [exact HF|]. cbn [run_history]. destruct Hg as [Hg1 Hg2].
  pose proof (TInv_run_root P fuel p s HF Hg1) as H1. destruct (run_root P fuel p s) as [o s1]. cbn [snd] in H1, Hg2.
  specialize (IH s1 H1 Hg2). destruct (run_history P fuel ps s1) as [os s2]. exact IH.
Qed.

Lemma nsad_split a : forall t i o b, nsad (a ++ EvStep t i o :: b) -> forall o', ~ In (EvDone t o') b.
Proof.
  induction a as [|e a IH]; intros t i o b H.
  - cbn in H. destruct H as [H _]. exact H.
  - cbn [app nsad] in H. destruct H as [_ H]. exact (IH t i o b H).
Qed.

Theorem run_case_no_step_after_done P fuel ps :
  history_guarded P fuel ps (st0 P) ->
  forall t i o l1 l2, snd (run_case P fuel ps) = l1 ++ EvStep t i o :: l2 -> forall o', ~ In (EvDone t o') l1.
Proof.
  intros Hg t i o l1 l2. unfold run_case.
  pose proof (TInv_run_history P fuel ps (st0 P) (TInv_st0 P) Hg) as H.
  destruct (run_history P fuel ps (st0 P)) as [os s]. cbn [snd] in *. destruct H as [_ HN].
  intros E o' Hin. apply rev_split in E. rewrite E in HN.
  apply (nsad_split _ _ _ _ _ HN o'). apply in_rev in Hin. exact Hin.
Qed.

(* the same for one run of the machine from any state satisfying the invariant *)
Theorem run_no_step_after_done P n c :
  TInv (c_st c) -> resume_guarded P n c ->
  forall t i o l1 l2, rev (trace (c_st (run P n c))) = l1 ++ EvStep t i o :: l2 -> forall o', ~ In (EvDone t o') l1.
Proof.
  intros HT Hg t i o l1 l2 E o' Hin. destruct (TInv_run P n c HT Hg) as [_ HN].
  apply rev_split in E. rewrite E in HN. apply (nsad_split _ _ _ _ _ HN o'). apply in_rev in Hin. exact Hin.
Qed.

(* by the C01 invariant (MachineC02.resume_guard_tree) a tree program's run resumes only uncomputed tasks *)
Lemma tree_resume_guarded P p n :
  pointwise P -> tree p ->
  no_unwind P n (start (fst (create [] (FTask p) (st0 P))) (snd (create [] (FTask p) (st0 P)))) ->
  resume_guarded P n (start (fst (create [] (FTask p) (st0 P))) (snd (create [] (FTask p) (st0 P)))).
Proof.
  intros HP Ht Hn k t Hk Hm.
  destruct (resume_guard_tree P HP p Ht k t) as (tk & G & _); [intros j Hj; apply Hn; lia|exact Hm|].
  unfold computed. rewrite G. reflexivity.
Qed.

Theorem tree_no_step_after_done P p n :
  pointwise P -> tree p ->
  no_unwind P n (start (fst (create [] (FTask p) (st0 P))) (snd (create [] (FTask p) (st0 P)))) ->
  forall t i o l1 l2, snd (run_case P n [p]) = l1 ++ EvStep t i o :: l2 -> forall o', ~ In (EvDone t o') l1.
Proof.
  intros HP Ht Hn. apply run_case_no_step_after_done. cbn [history_guarded].
  split; [apply tree_resume_guarded; assumption|exact I].
Qed.

(* The root task [0] creates h = [1] (which awaits [0]) and calls h.value(): the nested scheduler loop
   finds [0] unblocked and resumes it a second time from its stored generator; this inner activation
   creates [2], returns, and so completes [0]; back in the outer activation [0] yields again and is
   stepped once more - after its EvDone. *)
Definition cx_prog : prog :=
  Let (FTask (Yield (YLeaf (LOld [0])) (fun _ => Ret VNone)))
      (fun h => if fid_eqb h [1] then Sync h (fun _ => Yield YNone (fun _ => Ret VNone)) else Ret VNone).
Definition cx_P : params := mkP [] 1000 false [].

Lemma cx_trace :
  snd (run_case cx_P 200%nat [cx_prog]) =
  [EvStep [0] 0 (Ok VNone); EvStep [1] 0 (Ok VNone); EvStep [0] 1 (Ok VNone); EvDone [0] (Ok VNone);
   EvStep [1] 1 (Ok VNone); EvDone [1] (Ok VNone); EvGot [0] (Ok VNone)] ++
  EvStep [0] 2 (Ok VNone) :: [EvSched 1 0 (Some [0])].
Proof. vm_compute. reflexivity. Qed.

Theorem no_step_after_done_fails :
  ~ (forall P fuel ps t i o l1 l2,
       snd (run_case P fuel ps) = l1 ++ EvStep t i o :: l2 -> forall o', ~ In (EvDone t o') l1).
Proof.
  intros H. apply (H _ _ _ _ _ _ _ _ cx_trace (Ok VNone)). cbn. right. right. right. left. reflexivity.
Qed.

Definition steps_demo : prog :=
  Yield (YLeaf (LNew (FItem 0 1 (ASet (VInt 5)))))
        (fun _ => Yield (YLeaf (LNew (FItem 0 2 (ASet (VInt 6)))))
                        (fun o => match o with Ok v => Ret v | Err e => Raise e end)).

Lemma steps_demo_tree : tree steps_demo.
Proof.
  unfold steps_demo. apply tree_yield; [intros l [<-|[]]; repeat constructor|]. intros _.
  apply tree_yield; [intros l [<-|[]]; repeat constructor|]. intros [v|e]; constructor.
Qed.

Example steps_demo_runs :
  let P := mkP [] 1000 false [] in
  let h := fst (create [] (FTask steps_demo) (st0 P)) in
  let s1 := snd (create [] (FTask steps_demo) (st0 P)) in
  no_unwind_b P 100%nat (start h s1) = true /\
  fst (run_case P 100%nat [steps_demo]) = [Some (Ok (VInt 6))] /\
  filter (fun e => match e with EvStep _ _ _ | EvDone _ _ => true | _ => false end) (snd (run_case P 100%nat [steps_demo])) =
  [EvStep [0] 0 (Ok VNone); EvStep [0] 1 (Ok (VInt 5)); EvStep [0] 2 (Ok (VInt 6)); EvDone [0] (Ok (VInt 6))].
Proof. vm_compute. repeat split. Qed.
