(* C08 on the scheduler machine: the active task is the running one (also after a nested
   synchronous call returns), it is restored to what it was once the outermost call returns, and the
   task stack is empty again - for every program, service behaviour, flush order and fuel, as long as
   no Python exception unwinds through asynq frames (the only sources of such unwinding in the model
   are the MAX_TASK_STACK_SIZE guard and FutureIsAlreadyComputed from _queue_exit). *)
From Asynq Require Import Machine proofs.MachineFrame.

Inductive ftag := TV | TW | TE | TC (t : option fid).

(* the grammar of asynq frames on Python's stack:
   value() { wait_for { _execute { _continue_with_task(t) { body of t: value() { ... *)
Fixpoint shape (tag : ftag) (fr : list frame) : Prop :=
  match fr, tag with
  | FTop :: [], TV => True
  | FValue t k :: fr', TV => shape (TC (Some t)) fr'
  | FWait r :: fr', TW => shape TV fr'
  | FExec i :: fr', TE => shape TW fr'
  | FCont t old :: fr', TC (Some t') => t = t' /\ shape TE fr'
  | FCont t old :: fr', TC None => shape TE fr'
  | _, _ => False
  end.

Definition tag_of (m : mode) : option ftag :=
  match m with
  | MValue _ | MDeliver _ => Some TV
  | MWaitHead | MAfterExec => Some TW
  | MExecLoop => Some TE
  | MResume t | MRun t _ => Some (TC (Some t))
  | MContRet => Some (TC None)
  | MUnwind _ | MDone _ | MStuck => None
  end.

Definition is_unwind (m : mode) : bool := match m with MUnwind _ => true | _ => false end.

Lemma regs_with_tasks s t : regs (with_tasks s t) = (t, snd (regs s)). Proof. reflexivity. Qed.
Lemma regs_with_active s a : regs (with_active s a) = (fst (regs s), a). Proof. reflexivity. Qed.
Lemma regs_pop_task s : regs (pop_task s) = (tl (fst (regs s)), snd (regs s)). Proof. reflexivity. Qed.
Lemma regs_eta s : regs s = (tasks s, active s). Proof. reflexivity. Qed.

Section Inv.
  Variable a0 : option fid.          (* active_task before the outermost call *)

  Fixpoint nearest_cont (fr : list frame) : option fid :=
    match fr with
    | [] => a0
    | FCont t _ :: _ => Some t
    | _ :: fr' => nearest_cont fr'
    end.

  Fixpoint conts_ok (fr : list frame) : Prop :=
    match fr with
    | [] => True
    | FCont t old :: fr' => old = nearest_cont fr' /\ conts_ok fr'
    | _ :: fr' => conts_ok fr'
    end.

  (* the outermost _execute frame was entered with an empty task stack *)
  Fixpoint last_exec0 (fr : list frame) : Prop :=
    match fr with
    | [] => True
    | FExec i :: fr' => match fr' with [FWait _; FTop] => i = O | _ => last_exec0 fr' end
    | _ :: fr' => last_exec0 fr'
    end.

  (* last_exec0 and the last clause give [tasks = []] at MDone: at most two frames means [FTop] or [FWait r; FTop],
     outside every _execute; the outermost _execute was entered with an empty stack (init = 0) and returns when
     the stack is that short again *)
  Definition Inv (c : cfg) : Prop :=
    match c_mode c with
    | MUnwind _ => True
    | MDone _ => snd (regs (c_st c)) = a0 /\ fst (regs (c_st c)) = []
    | m =>
      match tag_of m with
      | Some tg =>
        shape tg (c_frames c) /\ conts_ok (c_frames c) /\
        snd (regs (c_st c)) = nearest_cont (c_frames c) /\ last_exec0 (c_frames c) /\
        ((length (c_frames c) <= 2)%nat -> fst (regs (c_st c)) = [])
      | None => True
      end
    end.
End Inv.

Section Preservation.
  Variable a0 : option fid.
  Variable P : params.
  Notation Inv := (Inv a0).

  Ltac regs_simpl :=
    repeat first
      [ rewrite regs_with_tasks | rewrite regs_with_active | rewrite regs_pop_task
      | rewrite regs_flush_batch | rewrite regs_continue_with_batch | rewrite regs_schedule_batch
      | rewrite regs_pause_contexts | rewrite regs_resume_contexts | rewrite regs_complete_task
      | rewrite regs_accept_error | rewrite regs_enter_ctx | rewrite regs_exit_ctx
      | rewrite regs_set_task | rewrite regs_put | rewrite regs_emit | rewrite regs_drop_sb ];
    cbn [fst snd].

  (* the invariant sees the state through the registers only *)
  Lemma inv_regs m fr s s' : regs s' = regs s -> Inv (mkC m fr s) -> Inv (mkC m fr s').
  Proof. intros E. unfold Inv. cbn [c_mode c_frames c_st]. rewrite E. auto. Qed.

  Lemma inv_MValue h fr s : Inv (mkC (MValue h) fr s) -> Inv (step P (mkC (MValue h) fr s)).
  Proof.
    intros HI. cbn [step c_mode c_frames c_st].
    (* value() returns at once, with or without a flush: same frames, same registers *)
    assert (HD : forall o s', regs s' = regs s -> Inv (mkC (MDeliver o) fr s')) by (intros o s' E; exact (inv_regs (MValue h) _ _ _ E HI)).
    destruct (computed h s); [apply HD; reflexivity|].
    destruct (get h s) as [[o [tk|kind idx key a| o'|]]|]; try (apply HD; reflexivity); [|apply HD, regs_flush_batch].
    (* a task: wait_for is entered *)
    destruct HI as (Hs & Hc & Ha & Hl & Ht). cbn [c_mode c_frames c_st tag_of] in *.
    unfold Inv. cbn [c_mode c_frames c_st tag_of shape conts_ok nearest_cont last_exec0 length]. repeat split; auto.
    intros Hlen. apply Ht. lia.
  Qed.

  Lemma shape_TV_inv fr : shape TV fr -> fr = [FTop] \/ exists t k fr', fr = FValue t k :: fr' /\ shape (TC (Some t)) fr'.
  Proof.
    destruct fr as [|[|t k|r|i|t old] fr']; cbn; try tauto.
    - destruct fr'; [auto|tauto].
    - intros H. right. eauto.
  Qed.

  Lemma shape_TW_inv fr : shape TW fr -> exists r fr', fr = FWait r :: fr' /\ shape TV fr'.
  Proof.
    destruct fr as [|[|t k|r|i|t old] fr']; cbn; try tauto; try (destruct fr'; tauto). eauto.
  Qed.
  Lemma shape_TE_inv fr : shape TE fr -> exists i fr', fr = FExec i :: fr' /\ shape TW fr'.
  Proof.
    destruct fr as [|[|t k|r|i|t old] fr']; cbn; try tauto; try (destruct fr'; tauto). eauto.
  Qed.
  Lemma shape_TC_inv o fr : shape (TC o) fr ->
    exists t old fr', fr = FCont t old :: fr' /\ shape TE fr' /\ (forall t', o = Some t' -> t = t').
  Proof.
    destruct fr as [|[|t k|r|i|t old] fr']; cbn; try tauto; try (destruct fr'; tauto).
    destruct o as [t'|].
    - intros [-> H]. exists t', old, fr'. repeat split; auto. congruence.
    - intros H. exists t, old, fr'. repeat split; auto. discriminate.
  Qed.

  Lemma shape_TV_short fr : shape TV fr -> (length fr <= 2)%nat -> fr = [FTop].
  Proof.
    intros H L. destruct (shape_TV_inv _ H) as [->|(t & k & fr' & -> & H')]; [reflexivity|].
    destruct (shape_TC_inv _ _ H') as (t' & old & fr'' & -> & H'' & _).
    destruct (shape_TE_inv _ H'') as (i & fr3 & -> & _). cbn in L. lia.
  Qed.

  Ltac norm := cbn [shape conts_ok nearest_cont last_exec0 length c_mode c_frames c_st tag_of] in *.

  (* the end of wait_for, from either of its two tests *)
  Lemma inv_wait_return root fr s o : Inv (mkC MWaitHead (FWait root :: fr) s) -> Inv (mkC (MDeliver o) fr (drop_sb s)).
  Proof.
    intros HI. apply (inv_regs _ _ s); [apply regs_drop_sb|]. unfold Inv in *. norm. destruct HI as (Hs & Hc & Ha & Hl & Ht).
    repeat split; auto. intros Hlen. apply Ht. rewrite (shape_TV_short _ Hs Hlen). cbn. lia.
  Qed.

  Lemma inv_MWaitHead fr s : Inv (mkC MWaitHead fr s) -> Inv (step P (mkC MWaitHead fr s)).
  Proof.
    intros HI. pose proof HI as (Hs & Hc & Ha & Hl & Ht). norm.
    destruct (shape_TW_inv _ Hs) as (root & fr' & -> & Hs'). cbn [step c_mode c_frames c_st].
    destruct (computed root s); [apply (inv_wait_return root), HI|].
    (* enter _execute *)
    unfold Inv. norm. change (fst (regs s)) with (tasks s) in Ht. cbn [regs fst snd].
    repeat split; auto; [|intros L; destruct fr'; [cbn in Hs'; tauto|cbn in L; lia]].
    destruct (shape_TV_inv _ Hs') as [->|(t & k & fr'' & -> & Hs'')]; [|exact Hl].
    rewrite Ht by (cbn; lia). reflexivity.
  Qed.

  Lemma inv_MAfterExec fr s : Inv (mkC MAfterExec fr s) -> Inv (step P (mkC MAfterExec fr s)).
  Proof.
    intros HI. pose proof HI as (Hs & _). norm.
    destruct (shape_TW_inv _ Hs) as (root & fr' & -> & Hs'). cbn [step c_mode c_frames c_st].
    destruct (computed root s); [apply (inv_wait_return root), HI|].
    exact (inv_regs MWaitHead _ _ _ (regs_continue_with_batch P s) HI).
  Qed.

  Lemma shape_TE_long fr : shape TE fr -> (length fr <= 2)%nat -> False.
  Proof.
    intros H L. destruct (shape_TE_inv _ H) as (i & fr' & -> & H').
    destruct (shape_TW_inv _ H') as (r & fr'' & -> & H''). destruct fr''; cbn in *; [tauto|lia].
  Qed.

  Lemma shape_TW_short fr : shape TW fr -> (length fr <= 2)%nat -> exists r, fr = [FWait r; FTop].
  Proof.
    intros H L. destruct (shape_TW_inv _ H) as (r & fr' & -> & H').
    rewrite (shape_TV_short _ H') by (cbn in L; lia). eauto.
  Qed.

  Lemma last_exec0_pop i fr : shape TW fr -> last_exec0 (FExec i :: fr) ->
    last_exec0 fr /\ ((length fr <= 2)%nat -> i = O).
  Proof.
    intros H Hl. split.
    - destruct (shape_TW_inv _ H) as (r & fr' & -> & H'). cbn [last_exec0] in *.
      destruct fr' as [|f fr'']; [exact I|]. destruct f; try exact Hl; destruct fr''; try exact Hl; exact I.
    - intros L. destruct (shape_TW_short _ H L) as (r & ->). exact Hl.
  Qed.

  (* Inv for a state at the head of the _execute loop only depends on the frames and active_task *)
  Lemma inv_exec fr s s' :
    Inv (mkC MExecLoop fr s) -> snd (regs s') = snd (regs s) -> Inv (mkC MExecLoop fr s').
  Proof.
    unfold Inv; norm. intros (Hs & Hc & Ha & Hl & Ht) E. repeat split; auto; [congruence|].
    intros L. destruct (shape_TE_long _ Hs L).
  Qed.

  Lemma inv_MExecLoop fr s : Inv (mkC MExecLoop fr s) -> Inv (step P (mkC MExecLoop fr s)).
  Proof.
    intros HI. pose proof HI as HI0. unfold Inv in HI; norm. destruct HI as (Hs & Hc & Ha & Hl & Ht).
    destruct (shape_TE_inv _ Hs) as (init & fr' & -> & Hs'). cbn [step c_mode c_frames c_st].
    assert (Hret : forall s', regs s' = regs s -> (length (fst (regs s)) <= init)%nat \/ fst (regs s) = [] -> Inv (mkC MAfterExec fr' s')).
    { intros s' E Hlen. unfold Inv; norm. destruct (last_exec0_pop _ _ Hs' Hl) as (Hl' & Hi).
      rewrite E. repeat split; auto. intros L. specialize (Hi L). subst init.
      destruct Hlen as [Hlen|Hlen]; [|exact Hlen].
      destruct (fst (regs s)); [reflexivity|cbn in Hlen; lia]. }
    destruct (Nat.leb (length (tasks s)) init) eqn:Hle.
    { apply Hret; [reflexivity|]. left. apply Nat.leb_le. exact Hle. }
    destruct (Z.ltb (p_maxstack P) (Z.of_nat (length (tasks s)))); [exact I|].
    destruct (tasks s) as [|x ts] eqn:Hts.
    { apply Hret; [reflexivity|]. right. exact Hts. }
    destruct (computed x s). { apply (inv_exec _ s); [exact HI0|]. regs_simpl. reflexivity. }
    destruct (get x s) as [[o [tk|kind idx key a|o'|]]|]; try (apply (inv_exec _ s); [exact HI0|]; regs_simpl; reflexivity).
    destruct (is_blocked tk s).
    - destruct (tk_ds tk); apply (inv_exec _ s); try exact HI0; regs_simpl; reflexivity.
    - destruct (computed x (resume_contexts x s)).
      + apply (inv_exec _ s); [exact HI0|]. regs_simpl. reflexivity.
      + unfold Inv; norm. regs_simpl. repeat split; auto.
        * change (active (resume_contexts x s)) with (snd (regs (resume_contexts x s))).
          rewrite regs_resume_contexts. exact Ha.
        * intros L. destruct fr'; [cbn in Hs'; tauto | cbn in L; lia].
  Qed.

  Lemma inv_cont t fr s s' m :
    Inv (mkC (MRun t m) fr s) -> snd (regs s') = snd (regs s) ->
    forall m', tag_of m' = Some (TC (Some t)) \/ tag_of m' = Some (TC None) ->
    Inv (mkC m' fr s').
  Proof.
    unfold Inv; norm. intros (Hs & Hc & Ha & Hl & Ht) E m' Hm.
    assert (Hlong : (length fr <= 2)%nat -> False).
    { intros L. destruct (shape_TC_inv _ _ Hs) as (t' & old & fr' & -> & Hs' & _).
      apply (shape_TE_long _ Hs'). cbn in L. lia. }
    destruct m'; cbn in Hm; destruct Hm as [Hm|Hm]; try discriminate; inversion Hm; subst;
      norm; repeat split; auto; try congruence; try (intros L; destruct (Hlong L)).
    - destruct (shape_TC_inv _ _ Hs) as (t' & old & fr' & -> & Hs' & _). cbn. exact Hs'.
  Qed.

  Definition InvT (tg : ftag) (fr : list frame) (s : st) : Prop :=
    shape tg fr /\ conts_ok a0 fr /\ snd (regs s) = nearest_cont a0 fr /\ last_exec0 fr /\
    ((length fr <= 2)%nat -> fst (regs s) = []).

  Lemma Inv_tag m fr s tg : tag_of m = Some tg -> (Inv (mkC m fr s) <-> InvT tg fr s).
  Proof. destruct m; intros H; inversion H; subst; reflexivity. Qed.

  Lemma Inv_of m fr s tg : tag_of m = Some tg -> InvT tg fr s -> Inv (mkC m fr s).
  Proof. intros H. apply Inv_tag. exact H. Qed.
  Lemma Inv_to m fr s tg : tag_of m = Some tg -> Inv (mkC m fr s) -> InvT tg fr s.
  Proof. intros H. apply Inv_tag. exact H. Qed.

  Lemma invT_TC_long o fr s : InvT (TC o) fr s -> (length fr <= 2)%nat -> False.
  Proof.
    intros (Hs & _) L. destruct (shape_TC_inv _ _ Hs) as (t' & old & fr' & -> & Hs' & _).
    apply (shape_TE_long _ Hs'). cbn in L. lia.
  Qed.

  (* C08: inside the body of t, get_active_task() is t *)
  Lemma invT_TC_active t fr s : InvT (TC (Some t)) fr s -> active s = Some t.
  Proof.
    intros (Hs & Hc & Ha & _). destruct (shape_TC_inv _ _ Hs) as (t' & old & fr' & -> & Hs' & E).
    rewrite (E t eq_refl) in Ha. exact Ha.
  Qed.

  (* inside the body of t only t's continuation frame matters, and no transition there writes a register *)
  Lemma inv_MResume t fr s : Inv (mkC (MResume t) fr s) -> Inv (step P (mkC (MResume t) fr s)).
  Proof.
    intros HI. cbn [step c_mode c_frames c_st].
    destruct (get_task t s) as [tk|]; [|exact I].
    destruct (tk_gen tk) as [k|]; [|destruct (unwrap (look s) (tk_last tk)); [destruct (computed t s); [exact I|]|]];
      (apply (inv_cont t fr s _ (Ret VNone) HI); [regs_simpl; reflexivity|cbn; auto]).
  Qed.

  Lemma inv_MRun t p fr s : Inv (mkC (MRun t p) fr s) -> Inv (step P (mkC (MRun t p) fr s)).
  Proof.
    intros HI. cbn [step c_mode c_frames c_st].
    assert (Hclose : regs (match get_task t s with
                           | Some tk => set_task t (mkTask None (tk_last tk) (tk_deps tk) (tk_ctxs tk) (tk_cact tk) (tk_ds tk)
                                                           (tk_iter tk) (tk_next tk)) s
                           | None => s end) = regs s) by (destruct (get_task t s); regs_simpl; reflexivity).
    destruct p as [v|v|e|y k|f k|h k|cx k|cx k|var k|k].
    - destruct (computed t _); [exact I|].
      apply (inv_cont t fr s _ _ HI); [rewrite regs_complete_task, Hclose; reflexivity|cbn; auto].
    - destruct (computed t _); [exact I|].
      apply (inv_cont t fr s _ _ HI); [rewrite regs_complete_task, Hclose; reflexivity|cbn; auto].
    - apply (inv_cont t fr s _ _ HI); [rewrite regs_accept_error, Hclose; reflexivity|cbn; auto].
    - pose proof (regs_inst t y s) as Hi. destruct (inst t y s) as [y' s1]. cbn [snd] in Hi.
      destruct (get_task t s1) as [tk|]; [|exact I].
      destruct (futs (extract y')); (apply (inv_cont t fr s _ _ HI); [regs_simpl; rewrite Hi; reflexivity|cbn; auto]).
    - pose proof (regs_create t f s) as Hi. destruct (create t f s) as [h s1]. cbn [snd] in Hi.
      apply (inv_cont t fr s _ _ HI); [rewrite Hi; reflexivity|cbn; auto].
    - apply (Inv_to _ _ _ (TC (Some t))) in HI; [|reflexivity]. apply (Inv_of _ _ _ TV); [reflexivity|].
      pose proof (invT_TC_long _ _ _ HI) as Hlong. destruct HI as (Hs & Hc & Ha & Hl & Ht).
      unfold InvT. norm. repeat split; auto. intros L. destruct Hlong. cbn in L. lia.
    - apply (inv_cont t fr s _ _ HI); [regs_simpl; reflexivity|cbn; auto].
    - apply (inv_cont t fr s _ _ HI); [regs_simpl; reflexivity|cbn; auto].
    - apply (inv_cont t fr s _ _ HI); [reflexivity|cbn; auto].
    - apply (inv_cont t fr s _ _ HI); [reflexivity|cbn; auto].
  Qed.

  Lemma inv_MContRet fr s : Inv (mkC MContRet fr s) -> Inv (step P (mkC MContRet fr s)).
  Proof.
    intros HI. apply (Inv_to _ _ _ (TC None)) in HI; [|reflexivity]. cbn [step c_mode c_frames c_st].
    destruct HI as (Hs & Hc & Ha & Hl & Ht).
    destruct (shape_TC_inv _ _ Hs) as (t & old & fr' & -> & Hs' & _). norm. destruct Hc as (Ho & Hc).
    apply (Inv_of _ _ _ TE); [reflexivity|]. unfold InvT.
    assert (E : regs (match get_task t (with_active s old) with
                      | Some tk => set_task t (tk_set_ds tk false) (with_active s old)
                      | None => with_active s old end) = (fst (regs s), old)).
    { destruct (get_task t (with_active s old)); regs_simpl; reflexivity. }
    rewrite E. cbn [fst snd]. repeat split; auto.
    intros L. destruct (shape_TE_long _ Hs' L).
  Qed.

  Lemma inv_MDeliver o fr s : Inv (mkC (MDeliver o) fr s) -> Inv (step P (mkC (MDeliver o) fr s)).
  Proof.
    intros HI. apply (Inv_to _ _ _ TV) in HI; [|reflexivity]. cbn [step c_mode c_frames c_st].
    destruct HI as (Hs & Hc & Ha & Hl & Ht).
    destruct (shape_TV_inv _ Hs) as [->|(t & k & fr' & -> & Hs')].
    - unfold Inv. cbn. split; [exact Ha|]. apply Ht. cbn. lia.
    - apply (Inv_of _ _ _ (TC (Some t))); [reflexivity|]. norm. unfold InvT. regs_simpl. repeat split; auto.
      intros L. exfalso. destruct (shape_TC_inv _ _ Hs') as (t' & old & fr'' & -> & Hs'' & _).
      apply (shape_TE_long _ Hs''). cbn in L. lia.
  Qed.

  (* one step preserves the invariant (an unwinding or stuck result satisfies it trivially) *)
  Theorem step_inv c : is_unwind (c_mode c) = false -> Inv c -> Inv (step P c).
  Proof.
    destruct c as [m fr s]. destruct m; cbn [c_mode is_unwind]; intros Hu HI; try discriminate.
    - apply inv_MValue; exact HI.
    - apply inv_MWaitHead; exact HI.
    - apply inv_MAfterExec; exact HI.
    - apply inv_MExecLoop; exact HI.
    - apply inv_MResume; exact HI.
    - apply inv_MRun; exact HI.
    - apply inv_MContRet; exact HI.
    - apply inv_MDeliver; exact HI.
    - exact HI.
    - exact HI.
  Qed.
End Preservation.

Definition no_unwind (P : params) (n : nat) (c : cfg) : Prop :=
  forall k, (k <= n)%nat -> is_unwind (c_mode (run P k c)) = false.

Definition is_final (m : mode) : bool := match m with MDone _ | MStuck => true | _ => false end.

Lemma run_S P n c : run P (S n) c = if is_final (c_mode c) then c else run P n (step P c).
Proof. cbn [run]. destruct (c_mode c); reflexivity. Qed.

Lemma run_final P n c : is_final (c_mode c) = true -> run P n c = c.
Proof. destruct n; [reflexivity|]. rewrite run_S. intros ->. reflexivity. Qed.

Lemma step_final P c : is_final (c_mode c) = true -> step P c = c.
Proof. destruct c as [[] fr s]; try discriminate; reflexivity. Qed.

Lemma run_add P a : forall b c, run P (a + b) c = run P b (run P a c).
Proof.
  induction a as [|a IH]; intros b c; [reflexivity|]. cbn [Nat.add]. rewrite !run_S.
  destruct (is_final (c_mode c)) eqn:E; [symmetry; apply run_final; exact E|apply IH].
Qed.

Lemma run_step P n c : run P (S n) c = step P (run P n c).
Proof.
  rewrite <- Nat.add_1_r, run_add, run_S. cbn [run].
  destruct (is_final (c_mode (run P n c))) eqn:E; [symmetry; apply step_final; exact E|reflexivity].
Qed.

(* The configurations run P 0 c, ..., run P (n-1) c in one pass.  Statements that inspect a run at every k of a
   [seq] evaluate in n steps through [traj_run] and its two corollaries, instead of 0 + 1 + ... + (n-1). *)
Fixpoint traj (P : params) (n : nat) (c : cfg) : list cfg :=
  match n with
  | O => []
  | S n => c :: traj P n (if is_final (c_mode c) then c else step P c)
  end.

Lemma traj_run P : forall n c, map (fun k => run P k c) (seq 0 n) = traj P n c.
Proof.
  induction n as [|n IH]; intros c; [reflexivity|].
  cbn [seq map traj]. f_equal. rewrite <- seq_shift, map_map, <- IH.
  apply map_ext. intros k. rewrite run_S. destruct (is_final (c_mode c)) eqn:E; [|reflexivity].
  symmetry. apply run_final. exact E.
Qed.

Lemma run_traj P n c : run P n c = nth n (traj P (S n) c) c.
Proof.
  rewrite <- traj_run. change c with (run P 0 c) at 3.
  rewrite (map_nth (fun k => run P k c)), seq_nth by lia. reflexivity.
Qed.

Lemma forallb_run_from P (g : cfg -> bool) : forall n a c,
  forallb (fun k => g (run P k c)) (seq a n) = forallb g (traj P n (run P a c)).
Proof.
  induction n as [|n IH]; intros a c; [reflexivity|]. cbn [seq forallb traj]. rewrite IH, run_step. do 2 f_equal.
  destruct (is_final (c_mode (run P a c))) eqn:E; [rewrite (step_final P _ E)|]; reflexivity.
Qed.

Lemma forallb_run P (g : cfg -> bool) n c : forallb (fun k => g (run P k c)) (seq 0 n) = forallb g (traj P n c).
Proof. apply (forallb_run_from P g n 0 c). Qed.

Lemma filter_map_run P {A} (g : cfg -> bool) (f : nat -> cfg -> A) n c :
  map (fun k => f k (run P k c)) (filter (fun k => g (run P k c)) (seq 0 n)) =
  map (fun kc => f (fst kc) (snd kc)) (filter (fun kc => g (snd kc)) (combine (seq 0 n) (traj P n c))).
Proof.
  rewrite <- traj_run. induction (seq 0 n) as [|k l IH]; [reflexivity|].
  cbn [map filter combine fst snd]. destruct (g (run P k c)); cbn [map fst snd]; congruence.
Qed.

(* a property that every transition from an [ok] configuration preserves holds along a run for as long as
   the earlier configurations are [ok]; in [run_invariant], ok = not unwinding *)
Lemma run_ind P (ok I : cfg -> Prop) :
  (forall c, ok c -> I c -> I (step P c)) ->
  forall n c, I c -> (forall k, (k < n)%nat -> ok (run P k c)) -> I (run P n c).
Proof.
  intros HS. induction n as [|n IH]; intros c HI Hn; [exact HI|].
  rewrite run_step. apply HS; [apply Hn; lia|]. apply IH; [exact HI|]. intros k Hk. apply Hn. lia.
Qed.

Lemma run_invariant P (I : cfg -> Prop) :
  (forall c, is_unwind (c_mode c) = false -> I c -> I (step P c)) ->
  forall n c, I c -> (forall k, (k < n)%nat -> is_unwind (c_mode (run P k c)) = false) -> I (run P n c).
Proof. apply (run_ind P (fun c => is_unwind (c_mode c) = false)). Qed.

Theorem run_inv a0 P n : forall c, Inv a0 c -> no_unwind P n c -> Inv a0 (run P n c).
Proof.
  intros c HI Hn. apply (run_invariant P (Inv a0)); [apply step_inv|exact HI|]. intros k Hk. apply Hn. lia.
Qed.

Definition start (h : fid) (s : st) : cfg := mkC (MValue h) [FTop] s.

Lemma start_inv h s : tasks s = [] -> Inv (active s) (start h s).
Proof. intros Ht. unfold Inv, start; cbn. repeat split; auto. Qed.

(* inside a task's code the active task is that task - at every point of every run, also after
   nested synchronous calls returned *)
Theorem active_is_running P h s n t p :
  tasks s = [] -> no_unwind P n (start h s) ->
  c_mode (run P n (start h s)) = MRun t p -> active (c_st (run P n (start h s))) = Some t.
Proof.
  intros Ht Hn Hm. pose proof (run_inv (active s) P n _ (start_inv h s Ht) Hn) as HI.
  destruct (run P n (start h s)) as [m fr s']. cbn in Hm. subst m.
  apply (Inv_to _ _ _ _ (TC (Some t))) in HI; [|reflexivity].
  apply (invT_TC_active _ _ _ _ HI).
Qed.

(* when the outermost call returns (value or exception delivered through value()), the
   scheduler holds no task and active_task is what it was before the call (None at top level) *)
Theorem clean_after_outcome P h s n o :
  tasks s = [] -> no_unwind P n (start h s) ->
  c_mode (run P n (start h s)) = MDone o ->
  active (c_st (run P n (start h s))) = active s /\ tasks (c_st (run P n (start h s))) = [].
Proof.
  intros Ht Hn Hm. pose proof (run_inv (active s) P n _ (start_inv h s Ht) Hn) as HI.
  destruct (run P n (start h s)) as [m fr s']. cbn in Hm. subst m. exact HI.
Qed.

(* the MAX_TASK_STACK_SIZE guard leaves a reset scheduler behind; the active task - the caller, whose code
   goes on once it has received the RuntimeError - is kept *)
Lemma guard_step P init fr s :
  (init < length (tasks s))%nat -> (p_maxstack P < Z.of_nat (length (tasks s)))%Z ->
  step P (mkC MExecLoop (FExec init :: fr) s) = mkC (MUnwind E_RUNTIME) (FExec init :: fr) (reset_sched s).
Proof.
  intros Hi Hm. cbn [step c_mode c_frames c_st].
  destruct (Nat.leb (length (tasks s)) init) eqn:E; [apply Nat.leb_le in E; lia|].
  destruct (Z.ltb (p_maxstack P) (Z.of_nat (length (tasks s)))) eqn:E2; [reflexivity|apply Z.ltb_ge in E2; lia].
Qed.

Theorem guard_resets P init fr s :
  (init < length (tasks s))%nat -> (p_maxstack P < Z.of_nat (length (tasks s)))%Z ->
  let c' := step P (mkC MExecLoop (FExec init :: fr) s) in
  c_mode c' = MUnwind E_RUNTIME /\ tasks (c_st c') = [] /\ sb (c_st c') = [] /\ active (c_st c') = active s.
Proof. intros Hi Hm. cbv zeta. rewrite (guard_step P init fr s Hi Hm). cbn. auto. Qed.

(* non-vacuity: a program with a nested synchronous call and a batch flush runs to completion
   without unwinding, so the hypotheses of the theorems above are satisfiable *)
Definition no_unwind_b (P : params) (n : nat) (c : cfg) : bool :=
  forallb (fun k => negb (is_unwind (c_mode (run P k c)))) (seq 0 (S n)).

Lemma no_unwind_b_iff P n c : no_unwind_b P n c = true <-> no_unwind P n c.
Proof.
  unfold no_unwind_b, no_unwind. rewrite forallb_forall. split; intros H k Hk.
  - apply negb_true_iff, H, in_seq. lia.
  - apply negb_true_iff, H. apply in_seq in Hk. lia.
Qed.

Lemma no_unwind_b_sound P n c : no_unwind_b P n c = true -> no_unwind P n c.
Proof. apply no_unwind_b_iff. Qed.

Lemma no_unwind_b_traj P n c : no_unwind_b P n c = forallb (fun c => negb (is_unwind (c_mode c))) (traj P (S n) c).
Proof. apply (forallb_run P (fun c => negb (is_unwind (c_mode c)))). Qed.

Definition demo_prog : prog :=
  Let (FTask (Yield (YLeaf (LNew (FItem 0 1 (ASet (VInt 5))))) (fun o => match o with Ok v => Ret v | Err e => Raise e end)))
      (fun h => Sync h (fun o => Probe (fun _ => match o with Ok v => Ret v | Err e => Raise e end))).
Definition demo_P : params := mkP [] 1000 false [].
Definition demo_start : cfg :=
  let '(h, s1) := create [] (FTask demo_prog) (st0 demo_P) in start h s1.

Example demo_runs_clean :
  no_unwind_b demo_P 200 demo_start = true /\
  c_mode (run demo_P 200 demo_start) = MDone (Ok (VInt 5)).
Proof.
  rewrite no_unwind_b_traj, run_traj.
  assert (E : let l := traj demo_P 201 demo_start in
              forallb (fun c => negb (is_unwind (c_mode c))) l = true /\
              c_mode (nth 200 l demo_start) = MDone (Ok (VInt 5))) by (vm_compute; split; reflexivity).
  exact E.
Qed.
