(* C06: a context whose pause() raises when __exit__ makes it (harness fault {"exit": e}).
   AsyncContext.__exit__ (contexts.py 93-104) deregisters the context from its task (leave_context) and then calls
   pause(); when that call raises, the with-statement ends with the error, whatever it was left with.  For the model
   this is a PROGRAM, not a new kind of context: Machine.exit_ctx removes the context and emits the pause, and the
   continuation of  Exit c  is the error continuation on every exit path - Exit c (Raise e), or Exit c (handler e) under a
   try.  harness/lib/machprog.py emits exactly that.  Such programs are tree programs with well-nested with-blocks
   (wn_exit puts no condition on what follows the Exit), so statements (3)-(7) of props/C06.v hold for them; here the
   hypotheses are shown to be met by the minimal instance and its trace is computed: the task catches the error, is
   suspended for one more batch flush, and the context's LAST event stays the pause made on exit. *)
From Asynq Require Import Machine proofs.MachineC08 proofs.MachineC01 proofs.MachineC07 proofs.MachineC06T.

(* the handler of `try: with ctx: ... except BaseException as e1: pass`, followed by the rest of the task: one more yield
   of a batch item (a suspension and a flush), then the caught error's id is returned *)
Definition c06x_rest (e : exn) : prog :=
  Yield (YLeaf (LNew (FItem 0 2 (ASet (VInt 6)))))
        (fun o => match o with Ok _ => Ret (VTuple [VInt (-999); VInt e]) | Err e' => Raise e' end).

(* with ctx(1, exit fault 7): x = yield item(0, 1)   - the block spans a suspension; both exit paths end in the fault *)
Definition c06x_demo : prog :=
  Enter (CAsync 1 NoFault)
    (Yield (YLeaf (LNew (FItem 0 1 (ASet (VInt 5))))) (fun _ => Exit (CAsync 1 NoFault) (c06x_rest 7))).

Lemma c06x_demo_ok : tree c06x_demo /\ wn [] c06x_demo.
Proof.
  apply block_ok; [reflexivity|apply tl_new, tf_item|discriminate|]. intros _. unfold c06x_rest. split.
  - apply tree_yield; [intros l [<-|[]]; apply tl_new, tf_item|]. intros o. destruct o; constructor.
  - apply wn_yield; [intros q [E|[]]; discriminate|]. intros o. destruct o; constructor.
Qed.

Lemma c06x_demo_runs :
  let P := mkP [] 1000 false [] in
  let h := fst (create [] (FTask c06x_demo) (st0 P)) in
  let s1 := snd (create [] (FTask c06x_demo) (st0 P)) in
  let tr := trace (c_st (run P 200 (start h s1))) in
  tree c06x_demo /\ wn [] c06x_demo /\ pointwise P /\ no_unwind_b P 200 (start h s1) = true /\
  c_mode (run P 200 (start h s1)) = MDone (Ok (VTuple [VInt (-999); VInt 7])) /\
  length (filter (fun e => match e with EvFlush _ _ _ => true | _ => false end) tr) = 2%nat /\
  ctx_events [0] 1 tr = [EvResume [0] 1; EvPause [0] 1; EvResume [0] 1; EvPause [0] 1].
Proof.
  split; [apply c06x_demo_ok|]. split; [apply c06x_demo_ok|]. split; [intros k; reflexivity|]. cbv zeta. rewrite no_unwind_b_traj. vm_compute.
  repeat match goal with |- _ /\ _ => split end; reflexivity.
Qed.
