(* C07 for programs that actually READ scoped values (ReadVar = AsyncScopedValue.get()).

   Non-branching reads (the 0 in the names).  [rtree0] = tree programs plus reads whose continuation does not depend on the value
   read, [rstree0] = the same with synchronous calls; [wnr] = wn plus reads; [erase] removes the reads.  Route:
     - [erase] maps rtree0 to tree, rstree0 to stree and wnr to wn;
     - the state erasure [est]/[ecfg] (generators erased entry-wise, EvRead events filtered out of the trace)
       commutes with every state-transforming helper of Machine.v and with [step] except at a read (step_est);
     - the class invariant (Section ClassInv): every program the machine holds during a run of a program of the
       class is in the class, so at a read the erased configuration does not move; hence the erased run of p is a
       run of [erase p] with at most as many steps, prefix by prefix (run_est; no_unwind carries over);
     - Section Transport: the C07 tree theorems and the C01 value theorem for rtree0 programs, and the value an
       actual read returns (actual_read_value_rtree0); the C01S value theorem for rstree0 programs.
   Programs BRANCHING on read values are in neither class; for rstree0 only the value theorem is transported
   (see props/C07.v). *)
From Asynq Require Import Machine Seq proofs.ProgProofs proofs.MachineFrame proofs.MachineC08 proofs.MachineC01
  proofs.MachineC04 proofs.MachineC04B proofs.MachineC01S proofs.MachineC04S proofs.MachineC07
  proofs.MachineC07S proofs.MachineHelpers.

Inductive rtree0 : prog -> Prop :=
| rtree0_ret v : rtree0 (Ret v)
| rtree0_result v : rtree0 (Result v)
| rtree0_raise e : rtree0 (Raise e)
| rtree0_yield s k : (forall l, In l (leaves s) -> rtree0_leaf l) -> (forall o, rtree0 (k o)) -> rtree0 (Yield s k)
| rtree0_enter c k : plain_ctx c = true -> rtree0 k -> rtree0 (Enter c k)
| rtree0_exit c k : plain_ctx c = true -> rtree0 k -> rtree0 (Exit c k)
| rtree0_read var k : (forall v, rtree0 (k v)) -> (forall v v', k v = k v') -> rtree0 (ReadVar var k)
with rtree0_leaf : leaf -> Prop :=
| rl0_new f : rtree0_fexpr f -> rtree0_leaf (LNew f)
| rl0_bad : rtree0_leaf LBad
with rtree0_fexpr : fexpr -> Prop :=
| rf0_task p : rtree0 p -> rtree0_fexpr (FTask p)
| rf0_item kind key a : rtree0_fexpr (FItem kind key a)
| rf0_const v : rtree0_fexpr (FConst v)
| rf0_error e : rtree0_fexpr (FError e)
| rf0_lazy o : rtree0_fexpr (FLazy o).

Scheme rtree0_mut := Minimality for rtree0 Sort Prop
with rtree0_leaf_mut := Minimality for rtree0_leaf Sort Prop
with rtree0_fexpr_mut := Minimality for rtree0_fexpr Sort Prop.

(* well nested with-blocks, reads allowed *)
Inductive wnr : list ctxk -> prog -> Prop :=
| wnr_ret v : wnr [] (Ret v)
| wnr_result v : wnr [] (Result v)
| wnr_raise e : wnr [] (Raise e)
| wnr_yield op s k : (forall p, In (LNew (FTask p)) (leaves s) -> wnr [] p) -> (forall o, wnr op (k o)) -> wnr op (Yield s k)
| wnr_enter op c k : ~ In (cid_of c) (map cid_of op) -> wnr (op ++ [c]) k -> wnr op (Enter c k)
| wnr_exit op c k : wnr op k -> wnr (op ++ [c]) (Exit c k)
| wnr_read op var k : (forall v, wnr op (k v)) -> wnr op (ReadVar var k).

Section YMap.
  Context {A B : Type} (f : A -> B).
  Fixpoint ymap (s : ystruct A) : ystruct B :=
    let fix go (l : list (ystruct A)) : list (ystruct B) :=
        match l with [] => [] | x :: l' => ymap x :: go l' end in
    let fix god (l : list (Z * ystruct A)) : list (Z * ystruct B) :=
        match l with [] => [] | (k, x) :: l' => (k, ymap x) :: god l' end in
    match s with
    | YNone => YNone
    | YLeaf a => YLeaf (f a)
    | YTuple l => YTuple (go l)
    | YList l => YList (go l)
    | YDict l => YDict (god l)
    end.

  Lemma ymap_seq (b : bool) l : ymap (if b then YTuple l else YList l) = if b then YTuple (map ymap l) else YList (map ymap l).
  Proof. destruct b; reflexivity. Qed.
  Lemma ymap_ydict l : ymap (YDict l) = YDict (map (fun kv => (fst kv, ymap (snd kv))) l).
  Proof. simpl. f_equal. induction l as [|[k x] l IH]; [reflexivity|]. simpl. f_equal. exact IH. Qed.

  Lemma leaves_ymap s : leaves (ymap s) = map f (leaves s).
  Proof.
    induction s as [| a | b l IH | l IH] using ystruct_ind_seq.
    - reflexivity.
    - reflexivity.
    - rewrite ymap_seq, (leaves_seq b l), (leaves_seq b (map ymap l)).
      induction IH as [|x l Hx Hl IHl]; [reflexivity|]. cbn [map flat_map]. rewrite map_app, Hx, IHl. reflexivity.
    - rewrite ymap_ydict, !leaves_ydict. induction IH as [|[k x] l Hx Hl IHl]; [reflexivity|].
      cbn [map flat_map fst snd] in *. rewrite map_app, Hx, IHl. reflexivity.
  Qed.
End YMap.

Fixpoint erase (p : prog) : prog :=
  match p with
  | Ret v => Ret v
  | Result v => Result v
  | Raise e => Raise e
  | Yield s k => Yield (ymap erase_leaf s) (fun o => erase (k o))
  | Let f k => Let (erase_fexpr f) (fun h => erase (k h))
  | Sync h k => Sync h (fun o => erase (k o))
  | Enter c k => Enter c (erase k)
  | Exit c k => Exit c (erase k)
  | ReadVar var k => erase (k (VInt 0))
  | Probe k => Probe (fun a => erase (k a))
  end
with erase_fexpr (f : fexpr) : fexpr :=
  match f with
  | FTask p => FTask (erase p)
  | FItem kind key a => FItem kind key a
  | FConst v => FConst v
  | FError e => FError e
  | FLazy o => FLazy o
  end
with erase_leaf (l : leaf) : leaf :=
  match l with
  | LNew f => LNew (erase_fexpr f)
  | LOld h => LOld h
  | LBad => LBad
  end.

Lemma tree_erase p : rtree0 p -> tree (erase p).
Proof.
  apply (rtree0_mut (fun p => tree (erase p)) (fun l => tree_leaf (erase_leaf l)) (fun f => tree_fexpr (erase_fexpr f)));
    cbn [erase erase_leaf erase_fexpr]; intros; try (constructor; auto; fail).
  - apply tree_yield; [|auto]. intros l Hin. rewrite leaves_ymap in Hin. apply in_map_iff in Hin as (a & <- & Ha). auto.
  - auto.
Qed.

Lemma wn_erase op p : wnr op p -> wn op (erase p).
Proof.
  intros H. induction H as [v|v|e|op s k Hl IHl Hk IHk|op c k Hc Hk IHk|op c k Hk IHk|op var k Hk IHk]; cbn [erase];
    try (constructor; assumption).
  - apply wn_yield; [|exact IHk]. intros q Hin. rewrite leaves_ymap in Hin. apply in_map_iff in Hin as (a & E & Ha).
    destruct a as [f|h|]; cbn in E; try discriminate. destruct f; cbn in E; try discriminate. inversion E; subst q.
    apply IHl. exact Ha.
  - apply IHk.
Qed.

(* on rtree0 programs the value fed to a read does not matter *)
Lemma rtree0_read_const var k v : rtree0 (ReadVar var k) -> erase (k v) = erase (ReadVar var k).
Proof. intros H. inversion H as [| | | | | |var' k' Hk Hc]; subst. cbn [erase]. rewrite (Hc v (VInt 0)). reflexivity. Qed.

Inductive rstree0 : prog -> Prop :=
| rstree0_ret v : rstree0 (Ret v)
| rstree0_result v : rstree0 (Result v)
| rstree0_raise e : rstree0 (Raise e)
| rstree0_yield s k : (forall l, In l (leaves s) -> rstree0_leaf l) -> (forall o, rstree0 (k o)) -> rstree0 (Yield s k)
| rstree0_enter c k : plain_ctx c = true -> rstree0 k -> rstree0 (Enter c k)
| rstree0_exit c k : plain_ctx c = true -> rstree0 k -> rstree0 (Exit c k)
| rstree0_read var k : (forall v, rstree0 (k v)) -> (forall v v', k v = k v') -> rstree0 (ReadVar var k)
| rstree0_call q k : rstree0 q -> (forall o, rstree0 (k o)) -> rstree0 (Let (FTask q) (fun h => Sync h k))
with rstree0_leaf : leaf -> Prop :=
| rsl0_new f : rstree0_fexpr f -> rstree0_leaf (LNew f)
| rsl0_bad : rstree0_leaf LBad
with rstree0_fexpr : fexpr -> Prop :=
| sf0_task p : rstree0 p -> rstree0_fexpr (FTask p)
| sf0_item kind key a : rstree0_fexpr (FItem kind key a)
| sf0_const v : rstree0_fexpr (FConst v)
| sf0_error e : rstree0_fexpr (FError e)
| sf0_lazy o : rstree0_fexpr (FLazy o).

Scheme rstree0_mut := Minimality for rstree0 Sort Prop
with rstree0_leaf_mut := Minimality for rstree0_leaf Sort Prop
with rstree0_fexpr_mut := Minimality for rstree0_fexpr Sort Prop.

Lemma stree_erase p : rstree0 p -> stree (erase p).
Proof.
  apply (rstree0_mut (fun p => stree (erase p)) (fun l => stree_leaf (erase_leaf l)) (fun f => stree_fexpr (erase_fexpr f)));
    cbn [erase erase_leaf erase_fexpr]; intros; try (constructor; auto; fail).
  - apply st_yield; [|auto]. intros l Hin. rewrite leaves_ymap in Hin. apply in_map_iff in Hin as (a & <- & Ha). auto.
  - auto.
Qed.

Lemma rstree0_read_const var k v : rstree0 (ReadVar var k) -> erase (k v) = erase (ReadVar var k).
Proof. intros H. inversion H as [| | | | | |var' k' Hk Hc|]; subst. cbn [erase]. rewrite (Hc v (VInt 0)). reflexivity. Qed.

Definition egen (g : option (outcome -> prog)) : option (outcome -> prog) :=
  match g with Some k => Some (fun o => erase (k o)) | None => None end.
Definition etask (tk : task) : task :=
  mkTask (egen (tk_gen tk)) (tk_last tk) (tk_deps tk) (tk_ctxs tk) (tk_cact tk) (tk_ds tk) (tk_iter tk) (tk_next tk).
Definition ekind (fk : fkind) : fkind := match fk with KTask tk => KTask (etask tk) | _ => fk end.
Definition efut (f : fut) : fut := mkFut (f_out f) (ekind (f_kind f)).
Definition is_read (e : event) : bool := match e with EvRead _ _ _ => true | _ => false end.
Definition est (s : st) : st :=
  mkSt (map (fun kv => (fst kv, efut (snd kv))) (heap s)) (batches s) (cur s) (sb s) (tasks s) (active s) (vars s) (cis s)
       (oracle s) (top_next s) (filter (fun e => negb (is_read e)) (trace s)).
Definition eframe (f : frame) : frame := match f with FValue t k => FValue t (fun o => erase (k o)) | _ => f end.
Definition emode (m : mode) : mode := match m with MRun t p => MRun t (erase p) | _ => m end.
Definition ecfg (c : cfg) : cfg := mkC (emode (c_mode c)) (map eframe (c_frames c)) (est (c_st c)).

(* [est s] is a constructor application: whatever does not search the heap computes through it.  The heap is
   reached through get / put / get_task / set_task only, so these four carry the erasure; no rewriting database. *)
Lemma get_est h s : get h (est s) = option_map efut (get h s).
Proof.
  unfold get. cbn [heap est]. induction (heap s) as [|[h' f] l IH]; cbn; [reflexivity|].
  destruct (fid_eqb h' h); [reflexivity|exact IH].
Qed.

Lemma put_est h f s : put h (efut f) (est s) = est (put h f s).
Proof.
  unfold put, with_heap, est. cbn. f_equal. induction (heap s) as [|[h' f'] l IH]; cbn; [reflexivity|].
  destruct (fid_eqb h' h); cbn; [reflexivity|]. f_equal. exact IH.
Qed.

Lemma get_task_est t s : get_task t (est s) = option_map etask (get_task t s).
Proof. unfold get_task. rewrite get_est. destruct (get t s) as [[o [tk| | |]]|]; reflexivity. Qed.

Lemma set_task_est t tk s : set_task t (etask tk) (est s) = est (set_task t tk s).
Proof.
  unfold set_task. rewrite get_est. destruct (get t s) as [f|]; cbn [option_map]; [|reflexivity].
  rewrite <- put_est. reflexivity.
Qed.

(* an update of the task at t that does not look at its generator *)
Lemma upd_task_est (F : task -> task) t s : (forall tk, F (etask tk) = etask (F tk)) ->
  match get_task t (est s) with Some tk => set_task t (F tk) (est s) | None => est s end =
  est (match get_task t s with Some tk => set_task t (F tk) s | None => s end).
Proof.
  intros HF. rewrite get_task_est. destruct (get_task t s) as [tk|]; cbn [option_map]; [|reflexivity].
  rewrite HF. apply set_task_est.
Qed.

Lemma computed_est h s : computed h (est s) = computed h s.
Proof. unfold computed. rewrite get_est. destruct (get h s) as [f|]; reflexivity. Qed.
Lemma outcome_of_est h s : outcome_of h (est s) = outcome_of h s.
Proof. unfold outcome_of. rewrite get_est. destruct (get h s) as [f|]; reflexivity. Qed.
Lemma var_get_est x s : var_get x (est s) = var_get x s. Proof. reflexivity. Qed.
Lemma ci_get_est k s : ci_get k (est s) = ci_get k s. Proof. reflexivity. Qed.
Lemma get_batch_est k s : get_batch k (est s) = get_batch k s. Proof. reflexivity. Qed.
Lemma cur_idx_est k s : cur_idx k (est s) = cur_idx k s. Proof. reflexivity. Qed.
Lemma var_set_est x v s : var_set x v (est s) = est (var_set x v s). Proof. reflexivity. Qed.
Lemma ci_put_est k c s : ci_put k c (est s) = est (ci_put k c s). Proof. reflexivity. Qed.
Lemma put_batch_est k b s : put_batch k b (est s) = est (put_batch k b s). Proof. reflexivity. Qed.
Lemma with_active_est s a : with_active (est s) a = est (with_active s a). Proof. reflexivity. Qed.
Lemma emit_est e s : is_read e = false -> emit e (est s) = est (emit e s).
Proof. intros H. unfold emit, est. cbn. rewrite H. reflexivity. Qed.
(* a read is invisible after erasure *)
Lemma emit_read_est t x v s : est (emit (EvRead t x v) s) = est s.
Proof. reflexivity. Qed.

Lemma tk_with_ctxs_etask tk cs a : tk_with_ctxs (etask tk) cs a = etask (tk_with_ctxs tk cs a). Proof. reflexivity. Qed.
Lemma tk_set_ds_etask tk b : tk_set_ds (etask tk) b = etask (tk_set_ds tk b). Proof. reflexivity. Qed.
Lemma tk_ctxs_etask tk : tk_ctxs (etask tk) = tk_ctxs tk. Proof. reflexivity. Qed.
Lemma tk_cact_etask tk : tk_cact (etask tk) = tk_cact tk. Proof. reflexivity. Qed.
Lemma tk_deps_etask tk : tk_deps (etask tk) = tk_deps tk. Proof. reflexivity. Qed.
Lemma tk_ds_etask tk : tk_ds (etask tk) = tk_ds tk. Proof. reflexivity. Qed.

(* set_task_est and put_est at constructor forms, where [rewrite] cannot find the [etask] / [efut] *)
Lemma set_task_est_none t a b c d e f g s :
  set_task t (mkTask None a b c d e f g) (est s) = est (set_task t (mkTask None a b c d e f g) s).
Proof. exact (set_task_est t (mkTask None a b c d e f g) s). Qed.
Lemma set_task_est_some t k a b c d e f g s :
  set_task t (mkTask (Some (fun o => erase (k o))) a b c d e f g) (est s) = est (set_task t (mkTask (Some k) a b c d e f g) s).
Proof. exact (set_task_est t (mkTask (Some k) a b c d e f g) s). Qed.
Lemma put_est_lazy h o o' s : put h (mkFut o (KLazy o')) (est s) = est (put h (mkFut o (KLazy o')) s).
Proof. exact (put_est h (mkFut o (KLazy o')) s). Qed.
Lemma drop_sb_est s : drop_sb (est s) = est (drop_sb s).
Proof. unfold drop_sb. cbn [tasks est]. destruct (tasks s); reflexivity. Qed.

Lemma pause_plain_est t c s : pause_plain t c (est s) = est (pause_plain t c s).
Proof. destruct c; reflexivity. Qed.

Lemma enter_ctx_est t c s : enter_ctx t c (est s) = est (enter_ctx t c s).
Proof.
  unfold enter_ctx. rewrite upd_task_est by reflexivity. destruct c; reflexivity.
Qed.

Lemma exit_ctx_est t c s : exit_ctx t c (est s) = est (exit_ctx t c s).
Proof.
  unfold exit_ctx. rewrite get_task_est. destruct (get_task t s) as [tk|]; cbn [option_map]; [|apply pause_plain_est].
  rewrite tk_with_ctxs_etask, set_task_est, tk_cact_etask, tk_ctxs_etask. destruct (tk_cact tk); [apply pause_plain_est|reflexivity].
Qed.

Lemma fold_est {X} (f : st -> X -> st) l : (forall s x, f (est s) x = est (f s x)) ->
  forall s, fold_left f l (est s) = est (fold_left f l s).
Proof. intros H. induction l as [|x l IH]; intros s; cbn; [reflexivity|]. rewrite H. apply IH. Qed.

Lemma complete_task_est t o s : complete_task t o (est s) = est (complete_task t o s).
Proof.
  unfold complete_task. rewrite get_task_est. destruct (get_task t s) as [tk|]; cbn [option_map etask tk_gen tk_ctxs]; [|reflexivity].
  (* a live generator is closed first; the completion itself is the same in both cases *)
  destruct (tk_gen tk); cbn [egen]; [rewrite (fold_est (fun s c => exit_ctx t c s)) by (intros; apply exit_ctx_est)|];
    rewrite get_task_est; (destruct (get_task t _) as [tk1|]; cbn [option_map]; [|reflexivity]);
    rewrite <- emit_est by reflexivity; rewrite <- put_est; reflexivity.
Qed.

Lemma accept_error_est t e s : accept_error t e (est s) = est (accept_error t e s).
Proof. unfold accept_error. rewrite computed_est. destruct (computed t s); [reflexivity|apply complete_task_est]. Qed.

Lemma resume1_est t c s : resume1 t c (est s) = (est (fst (resume1 t c s)), snd (resume1 t c s)).
Proof.
  destruct c as [cid [|k e|k e]|cid|cid var v]; try reflexivity; cbn [resume1];
    change (ci_get (t, cid) (est s)) with (ci_get (t, cid) s); destruct (Nat.eqb _ k); reflexivity.
Qed.

Lemma pause1_est t c s : pause1 t c (est s) = (est (fst (pause1 t c s)), snd (pause1 t c s)).
Proof.
  destruct c as [cid [|k e|k e]|cid|cid var v]; try reflexivity; cbn [pause1];
    change (ci_get (t, cid) (est s)) with (ci_get (t, cid) s); destruct (Nat.eqb _ k); reflexivity.
Qed.

Lemma fold_pair_est {X E} (f : st * E -> X -> st * E) l :
  (forall s e x, f (est s, e) x = (est (fst (f (s, e) x)), snd (f (s, e) x))) ->
  forall s e, fold_left f l (est s, e) = (est (fst (fold_left f l (s, e))), snd (fold_left f l (s, e))).
Proof.
  intros H. induction l as [|x l IH]; intros s e; cbn; [reflexivity|]. rewrite H.
  destruct (f (s, e) x) as [s' e']. cbn [fst snd]. apply IH.
Qed.

Lemma resume_contexts_est t s : resume_contexts t (est s) = est (resume_contexts t s).
Proof.
  unfold resume_contexts. rewrite get_task_est. destruct (get_task t s) as [tk|]; cbn [option_map]; [|reflexivity].
  cbn [tk_cact tk_ctxs etask]. destruct (tk_cact tk); [reflexivity|].
  rewrite tk_with_ctxs_etask, set_task_est, fold_pair_est.
  - destruct (fold_left _ _ _) as [s1 [e|]]; cbn [fst snd];
      [apply accept_error_est|reflexivity].
  - intros s0 e0 c. rewrite resume1_est. destruct (resume1 t c s0). reflexivity.
Qed.

Lemma pause_contexts_est t s : pause_contexts t (est s) = est (pause_contexts t s).
Proof.
  unfold pause_contexts. rewrite get_task_est. destruct (get_task t s) as [tk|]; cbn [option_map]; [|reflexivity].
  cbn [tk_cact tk_ctxs etask]. destruct (negb (tk_cact tk)); [reflexivity|].
  rewrite tk_with_ctxs_etask, set_task_est, fold_pair_est.
  - destruct (fold_left _ _ _) as [s1 [e|]]; cbn [fst snd];
      [apply accept_error_est|reflexivity].
  - intros s0 e0 c. rewrite pause1_est. destruct (pause1 t c s0). reflexivity.
Qed.

Lemma complete_item_est h o s : complete_item h o (est s) = est (complete_item h o s).
Proof.
  unfold complete_item. rewrite get_est. destruct (get h s) as [f|]; cbn [option_map]; [|reflexivity].
  cbn [efut f_out]. destruct (f_out f); [reflexivity|]. rewrite <- emit_est by reflexivity. rewrite <- put_est. reflexivity.
Qed.

Lemma schedule_batch_est k s : schedule_batch k (est s) = est (schedule_batch k s).
Proof. unfold schedule_batch. rewrite get_batch_est. destruct (b_done _); [reflexivity|]. cbn [sb est]. destruct (existsb _ _); reflexivity. Qed.

Lemma flush_body_est items : forall i ra s,
  flush_body items i ra (est s) = (est (fst (flush_body items i ra s)), snd (flush_body items i ra s)).
Proof.
  induction items as [|h rest IH]; intros i ra s; cbn [flush_body]; [reflexivity|].
  (* unless the scripted error stops the body here, item h is completed if it is a set item, and the body goes on *)
  destruct ra as [[k e]|]; [destruct (Z.eqb i k); [reflexivity|]|];
    (rewrite get_est; destruct (get h s) as [[o [tk|kind idx key [v|e'|]| |]]|]; cbn [option_map efut ekind f_kind f_out];
     rewrite ?complete_item_est; apply IH).
Qed.

Lemma flush_batch_est P k s : flush_batch P k (est s) = est (flush_batch P k s).
Proof.
  unfold flush_batch. rewrite get_batch_est. destruct (b_done (get_batch k s)); [reflexivity|].
  rewrite cur_idx_est.
  assert (E0 : (if Z.eqb (cur_idx (fst k) s) (snd k) then with_cur (est s) (upd Z.eqb (fst k) (snd k + 1) (cur (est s))) else est s) =
               est (if Z.eqb (cur_idx (fst k) s) (snd k) then with_cur s (upd Z.eqb (fst k) (snd k + 1) (cur s)) else s)).
  { destruct (Z.eqb _ _); reflexivity. }
  rewrite E0. rewrite emit_est by reflexivity. rewrite flush_body_est.
  destruct (flush_body _ _ _ _) as [s2 err]. cbn [fst snd].
  rewrite (fold_est (fun s h => complete_item h _ s)) by (intros; apply complete_item_est).
  rewrite get_batch_est. reflexivity.
Qed.

Lemma first_max_est P l : forall best s, first_max P l best (est s) = first_max P l best s.
Proof.
  induction l as [|k l IH]; intros best s; cbn [first_max]; [reflexivity|].
  destruct best as [b|]; [|apply IH].
  change (prio_of P b (est s)) with (prio_of P b s). change (prio_of P k (est s)) with (prio_of P k s).
  destruct (prio_lt _ _); apply IH.
Qed.

Lemma select_est P s : select P (est s) = (fst (select P s), est (snd (select P s))).
Proof.
  unfold select. cbn [sb est].
  change (filter (fun k => eligible k (est s)) (sb s)) with (filter (fun k => eligible k s) (sb s)).
  destruct (filter (fun k => eligible k s) (sb s)) as [|k0 el]; [reflexivity|].
  change (with_sb (est s) (k0 :: el)) with (est (with_sb s (k0 :: el))).
  set (s1 := with_sb s (k0 :: el)).
  change (oracle (est s1)) with (oracle s1). destruct (oracle s1) as [|c rest].
  - rewrite first_max_est. reflexivity.
  - change (is_max P c (k0 :: el) (est s1)) with (is_max P c (k0 :: el) s1).
    destruct (existsb (key_eqb c) (k0 :: el) && is_max P c (k0 :: el) s1); [reflexivity|].
    rewrite first_max_est. reflexivity.
Qed.

Lemma continue_with_batch_est P s : continue_with_batch P (est s) = est (continue_with_batch P s).
Proof.
  unfold continue_with_batch. rewrite select_est. destruct (select P s) as [[k|] s1]; cbn [fst snd]; [|reflexivity].
  change (with_sb (est s1) (filter (fun k' => negb (key_eqb k' k)) (sb (est s1))))
    with (est (with_sb s1 (filter (fun k' => negb (key_eqb k' k)) (sb s1)))).
  rewrite emit_est by reflexivity. rewrite flush_batch_est. rewrite emit_est by reflexivity. reflexivity.
Qed.

Lemma create_est parent f s : create parent (erase_fexpr f) (est s) = (fst (create parent f s), est (snd (create parent f s))).
Proof.
  unfold create, alloc. cbn zeta. destruct f as [p|kind key a|v|e|o]; cbn [erase_fexpr fst snd];
    try (rewrite <- put_est; reflexivity).
  rewrite <- put_batch_est, <- put_est. reflexivity.
Qed.

Lemma inst_est parent y : forall s,
  inst parent (ymap erase_leaf y) (est s) = (fst (inst parent y s), est (snd (inst parent y s))).
Proof.
  induction y as [| a | b l IH | l IH] using ystruct_ind_seq; intros s.
  - reflexivity.
  - destruct a as [f|h|]; try reflexivity. cbn [ymap erase_leaf inst]. rewrite create_est.
    destruct (create parent f s) as [h s1]. reflexivity.
  - (* tuples and lists run the same inner recursion [go] *)
    destruct b; simpl; match goal with |- context [(?g l s)] => set (go := g) end;
      (enough (H : forall s, go (map (ymap erase_leaf) l) (est s) = (fst (go l s), est (snd (go l s))))
        by (rewrite H; destruct (go l s); reflexivity));
      clear s; (induction IH as [|x l Hx Hl IHl]; intros s; [reflexivity|]); simpl;
      rewrite Hx; destruct (inst parent x s) as [x' s1]; cbn [fst snd]; rewrite IHl; destruct (go l s1) as [l'' s2]; reflexivity.
  - rewrite ymap_ydict. simpl. match goal with |- context [(?g l s)] => set (go := g) end.
    enough (H : forall s, go (map (fun kv => (fst kv, ymap erase_leaf (snd kv))) l) (est s) = (fst (go l s), est (snd (go l s))))
      by (rewrite H; destruct (go l s); reflexivity).
    clear s. induction IH as [|[k x] l Hx Hl IHl]; intros s; [reflexivity|]. simpl. cbn [snd] in Hx.
    rewrite Hx. destruct (inst parent x s) as [x' s1]. cbn [fst snd]. rewrite IHl. destruct (go l s1) as [l'' s2]. reflexivity.
Qed.

Lemma unwrap_look_est s y : unwrap (look (est s)) y = unwrap (look s) y.
Proof. apply unwrap_ext. intros [h|] _; [apply outcome_of_est|reflexivity]. Qed.
Lemma is_blocked_est tk s : is_blocked (etask tk) (est s) = is_blocked tk s.
Proof.
  unfold is_blocked. cbn [tk_deps etask]. induction (tk_deps tk) as [|d l IH]; [reflexivity|].
  cbn [existsb]. rewrite computed_est, IH. reflexivity.
Qed.
Lemma filter_computed_est l s : filter (fun d => negb (computed d (est s))) l = filter (fun d => negb (computed d s)) l.
Proof. induction l as [|d l IH]; [reflexivity|]. cbn [filter]. rewrite computed_est, IH. reflexivity. Qed.

Definition is_readm (m : mode) : bool := match m with MRun _ (ReadVar _ _) => true | _ => false end.

Lemma step_est P c : is_readm (c_mode c) = false -> step P (ecfg c) = ecfg (step P c).
Proof.
  destruct c as [m fr s]. unfold ecfg at 1. cbn [c_mode c_frames c_st]. intros Hr.
  destruct m as [h| | | |t|t p| |o|e|o|]; cbn [emode step c_mode c_frames c_st]; try reflexivity.
  - rewrite computed_est, outcome_of_est. destruct (computed h s); [reflexivity|].
    rewrite get_est. destruct (get h s) as [[o [tk|kind idx key a|o'|]]|]; cbn [option_map efut f_kind f_out ekind]; try reflexivity.
    + rewrite flush_batch_est, outcome_of_est. reflexivity.
    + rewrite put_est_lazy. reflexivity.
  - destruct fr as [|[|t k|root|i|t old] fr']; cbn [map eframe]; try reflexivity.
    rewrite computed_est, outcome_of_est, drop_sb_est. destruct (computed root s); reflexivity.
  - destruct fr as [|[|t k|root|i|t old] fr']; cbn [map eframe]; try reflexivity.
    rewrite computed_est, outcome_of_est, drop_sb_est, continue_with_batch_est. destruct (computed root s); reflexivity.
  - destruct fr as [|[|t k|root|i|t old] fr']; cbn [map eframe]; try reflexivity.
    change (tasks (est s)) with (tasks s).
    destruct (Nat.leb (length (tasks s)) i); [reflexivity|].
    destruct (Z.ltb (p_maxstack P) (Z.of_nat (length (tasks s)))); [reflexivity|].
    destruct (tasks s) as [|x rest]; [reflexivity|].
    rewrite computed_est. destruct (computed x s); [reflexivity|].
    rewrite get_est. destruct (get x s) as [[o [tk|kind idx key a|o'|]]|]; cbn [option_map efut f_kind f_out ekind]; try reflexivity.
    + rewrite is_blocked_est. destruct (is_blocked tk s).
      * rewrite tk_ds_etask, !tk_set_ds_etask, !set_task_est. destruct (tk_ds tk).
        -- rewrite pause_contexts_est. reflexivity.
        -- rewrite resume_contexts_est, get_task_est, filter_computed_est.
           destruct (get_task x (resume_contexts x (set_task x (tk_set_ds tk true) s))) as [tk1|]; reflexivity.
      * rewrite resume_contexts_est, computed_est. destruct (computed x (resume_contexts x s)); reflexivity.
    + rewrite schedule_batch_est. reflexivity.
    + rewrite put_est_lazy. reflexivity.
  - rewrite get_task_est.
    destruct (get_task t s) as [tk|]; cbn [option_map]; [|reflexivity].
    change (tk_last (etask tk)) with (tk_last tk). rewrite unwrap_look_est.
    change (tk_gen (etask tk)) with (egen (tk_gen tk)).
    destruct (tk_gen tk) as [k|]; cbn [egen].
    + rewrite set_task_est_some. reflexivity.
    + destruct (unwrap (look s) (tk_last tk)) as [v|e].
      * rewrite computed_est. destruct (computed t s); [reflexivity|]. rewrite complete_task_est. reflexivity.
      * rewrite accept_error_est. reflexivity.
  - destruct p as [v|v|e|y k|f k|h k|c k|c k|var k|k]; cbn [erase].
    + rewrite upd_task_est, computed_est by reflexivity. destruct (computed t _); [reflexivity|]. rewrite complete_task_est. reflexivity.
    + rewrite upd_task_est, computed_est by reflexivity. destruct (computed t _); [reflexivity|]. rewrite complete_task_est. reflexivity.
    + rewrite upd_task_est, accept_error_est by reflexivity. reflexivity.
    + rewrite inst_est. destruct (inst t y s) as [y' s1]. cbn [fst snd].
      rewrite get_task_est. destruct (get_task t s1) as [tk|]; cbn [option_map]; [|reflexivity].
      rewrite set_task_est_some. destruct (futs (extract y')); reflexivity.
    + rewrite create_est. destruct (create t f s) as [h s1]. reflexivity.
    + reflexivity.
    + rewrite enter_ctx_est. reflexivity.
    + rewrite exit_ctx_est. reflexivity.
    + discriminate Hr.
    + reflexivity.
  - destruct fr as [|[|t k|root|i|t old] fr']; cbn [map eframe]; try reflexivity.
    rewrite with_active_est, upd_task_est by reflexivity. reflexivity.
  - destruct fr as [|[|t k|root|i|t old] fr']; reflexivity.
  - destruct fr as [|[|t k|root|i|t old] fr']; reflexivity.
Qed.

Lemma is_unwind_emode m : is_unwind (emode m) = is_unwind m. Proof. destruct m; reflexivity. Qed.

Lemma start_est P p :
  ecfg (start (fst (create [] (FTask p) (st0 P))) (snd (create [] (FTask p) (st0 P)))) =
  start (fst (create [] (FTask (erase p)) (st0 P))) (snd (create [] (FTask (erase p)) (st0 P))).
Proof. reflexivity. Qed.

(* C: the class of the programs the machine stores (generators in the heap, continuations in the frames of
   synchronous calls); M: what may stand in the running slot.  For rtree0 both are the class; for rstree0 the
   running slot also holds the [Sync h k] that a call leaves behind, which is no program of the class. *)
Definition fexpr_in (C : prog -> Prop) (f : fexpr) : Prop := match f with FTask q => C q | _ => True end.

(* what one step takes out of the program in the running slot: C for what it stores, M for what it runs next *)
Definition step_closed (C M : prog -> Prop) : Prop := forall p, M p ->
  match p with
  | Ret _ | Result _ | Raise _ => True
  | Yield y k => (forall f, In (LNew f) (leaves y) -> fexpr_in C f) /\ forall o, C (k o)
  | Let f k => fexpr_in C f /\ forall h, M (k h)
  | Sync _ k => forall o, C (k o)
  | Enter _ k | Exit _ k => M k
  | ReadVar _ k => forall v, M (k v)
  | Probe k => forall a, M (k a)
  end.

Section ClassInv.
  Variables C M : prog -> Prop.
  Hypothesis C_M : forall p, C p -> M p.
  Hypothesis M_cases : step_closed C M.
  Hypothesis M_read_const : forall x k v, M (ReadVar x k) -> erase (k v) = erase (ReadVar x k).

  Definition gen_in (tk : task) : Prop := forall k, tk_gen tk = Some k -> forall o, C (k o).
  Definition fut_in (f : fut) : Prop := match f_kind f with KTask tk => gen_in tk | _ => True end.
  Definition heap_in (s : st) : Prop := forall u f, get u s = Some f -> fut_in f.
  Definition fr_in (fr : list frame) : Prop := forall t k, In (FValue t k) fr -> forall o, C (k o).
  Definition ctl_in (c : cfg) : Prop := fr_in (c_frames c) /\ match c_mode c with MRun _ p => M p | _ => True end.
  Definition cfg_in (c : cfg) : Prop := heap_in (c_st c) /\ ctl_in c.

  Lemma heap_in_view s s' : heap s' = heap s -> heap_in s -> heap_in s'.
  Proof. intros E Hs u f Hg. apply (Hs u f). unfold get in *. rewrite <- E. exact Hg. Qed.

  Lemma heap_in_put u f s : fut_in f -> heap_in s -> heap_in (put u f s).
  Proof.
    intros Hf Hs u0 f0 Hg. rewrite get_put in Hg. destruct (fid_eqb u0 u); [|exact (Hs u0 f0 Hg)].
    inversion Hg; subst f0. exact Hf.
  Qed.

  Lemma heap_in_set_task t tk s : gen_in tk -> heap_in s -> heap_in (set_task t tk s).
  Proof. intros Hk Hs. unfold set_task. destruct (get t s); [apply heap_in_put; [exact Hk|exact Hs]|exact Hs]. Qed.

  Lemma heap_in_gen_task s x tk : heap_in s -> get_task x s = Some tk -> gen_in tk.
  Proof. intros Hs Hg. apply get_task_some in Hg as (o & Hg). exact (Hs x _ Hg). Qed.

  (* the heap part is kept by every transition that neither creates a future nor stores a new generator *)
  Lemma heap_in_hstep P A s s' : hstep P A s s' -> ~ A TNew -> (forall t, ~ A (TYield t)) -> heap_in s -> heap_in s'.
  Proof.
    intros H N Y. induction H as [s|a b c _ IH1 _ IH2|s s' E|v x s|k c s|e s _|t tk tk' s G B|t tk o s G _|x out o s _ _
                                 |p f s N'|k s|k s _|s _|t tk o d s _ G _|t tk k y' F s Y' _]; intros Hs;
      try exact (heap_in_view s _ eq_refl Hs).   (* the writes that leave the heap field alone *)
    - exact (IH2 (IH1 Hs)).
    - exact (heap_in_view s s' E Hs).
    - apply heap_in_set_task; [|exact Hs]. intros k E. destruct B as (_ & _ & _ & _ & [B|B]); rewrite B in E; [|discriminate E].
      exact (heap_in_gen_task s t tk Hs G k E).
    - apply (heap_in_view (put t (mkFut (Some o) (KTask (closed_task tk))) s)); [reflexivity|].
      apply heap_in_put; [|exact Hs]. intros k E. discriminate E.
    - apply heap_in_put; [exact I|exact Hs].
    - destruct (N N').
    - apply (heap_in_view s); [apply heap_schedule_batch|exact Hs].
    - intros u f' Hg. destruct (kback_flush_batch P k s u f' Hg) as (f & Hf & Ek & _). unfold fut_in. rewrite Ek. exact (Hs u f Hf).
    - intros u f' Hg. destruct (kback_cwb P s u f' Hg) as (f & Hf & Ek & _). unfold fut_in. rewrite Ek. exact (Hs u f Hf).
    - apply (heap_in_view (set_task t (mkTask (tk_gen tk) YNone d (tk_ctxs tk) (tk_cact tk) (tk_ds tk) (tk_iter tk + 1) (tk_next tk)) s));
        [reflexivity|]. apply heap_in_set_task; [|exact Hs]. exact (heap_in_gen_task s t tk Hs G).
    - destruct (Y t Y').
  Qed.

  Lemma heap_in_create parent f s : fexpr_in C f -> heap_in s -> heap_in (snd (create parent f s)).
  Proof.
    intros Hf Hs. assert (H1 : heap_in (with_top_next s (top_next s + 1))) by exact (heap_in_view s _ eq_refl Hs).
    unfold create, alloc. destruct f as [q|kind key a|v|e|o]; cbn [snd];
      try (apply (heap_in_view (put [top_next s] (mkFut None (KItem kind (cur_idx kind (with_top_next s (top_next s + 1))) key a))
                               (with_top_next s (top_next s + 1)))); [reflexivity|]);
      apply heap_in_put; try exact H1; try exact I.
    intros k E o. inversion E; subst k. exact Hf.
  Qed.

  Lemma heap_in_inst parent y s : (forall f, In (LNew f) (leaves y) -> fexpr_in C f) -> heap_in s -> heap_in (snd (inst parent y s)).
  Proof.
    rewrite inst_snd. revert s. induction (leaves y) as [|l ls IH]; intros s Hl Hs; [exact Hs|]. cbn [fold_left].
    apply IH; [intros f Hin; apply Hl; right; exact Hin|].
    destruct l as [f| |]; try exact Hs. apply heap_in_create; [apply Hl; left; reflexivity|exact Hs].
  Qed.

  (* frames of synchronous calls are pushed by Sync and popped by MDeliver / MUnwind only: elsewhere the new frames
     are the old ones, their tail, one frame of another kind on top of them, or none *)
  Ltac frames_mode Hfr :=
    let t := fresh "t" in let k := fresh "k" in let H := fresh "H" in
    split; cbn [c_frames c_mode];
    [intros t k H; apply (Hfr t k); cbn [In] in *;
     first [exact H | right; exact H | destruct H as [H|H]; [discriminate H|exact H] | destruct H]
    |try exact I].

  Lemma cfg_in_step P c : cfg_in c -> cfg_in (step P c).
  Proof.
    destruct c as [m fr s]. intros (Hs & Hfr & Hm). cbn [c_mode c_frames c_st] in Hs, Hfr, Hm. split.
    - assert (Hgen : (forall t y k, m <> MRun t (Yield y k)) -> (forall t f k, m <> MRun t (Let f k)) ->
                     heap_in (c_st (step P (mkC m fr s)))).
      { intros N1 N2. apply (heap_in_hstep P _ _ _ (step_hstep P (mkC m fr s))); [| |exact Hs].
        - intros (t & [(y & k & E)|(f & k & E)]); [exact (N1 _ _ _ E)|exact (N2 _ _ _ E)].
        - intros t (y & k & E). exact (N1 _ _ _ E). }
      destruct m as [h| | | |t|t p| |o|e|o|]; try (apply Hgen; intros; discriminate).
      destruct p as [v|v|e|y k|f k|h k|c k|c k|var k|k]; try (apply Hgen; intros; discriminate);
        apply M_cases in Hm; cbn [step c_mode c_frames c_st].
      + pose proof (heap_in_inst t y s (proj1 Hm) Hs) as Hi. destruct (inst t y s) as [y' si]. cbn [snd] in Hi.
        destruct (get_task t si) as [tk|]; [|exact Hi].
        assert (H2 : heap_in (set_task t (mkTask (Some k) y' (tk_deps tk ++ futs (extract y')) (tk_ctxs tk) (tk_cact tk) (tk_ds tk)
                                            (tk_iter tk) (tk_next tk)) si)).
        { apply heap_in_set_task; [|exact Hi]. intros k0 E0. inversion E0; subst k0. exact (proj2 Hm). }
        destruct (futs (extract y')); exact H2.
      + pose proof (heap_in_create t f s (proj1 Hm) Hs) as Hi. destruct (create t f s). exact Hi.
    - (* only MResume, MRun, MDeliver and MUnwind put a program into the running slot or touch an FValue frame *)
      destruct m as [h| | | |t|t p| |o|e|o|]; cbn [step c_mode c_frames c_st].
      1-4,7,10,11: destr_eq; frames_mode Hfr.
      + destruct (get_task t s) as [tk|] eqn:G; [|frames_mode Hfr].
        destruct (tk_gen tk) as [k|] eqn:Ek; [|destr_eq; frames_mode Hfr].
        split; [exact Hfr|]. apply C_M. exact (heap_in_gen_task s t tk Hs G k Ek _).
      + apply M_cases in Hm. destruct p as [v|v|e|y k|f k|h k|c k|c k|var k|k]; try (destr_eq; frames_mode Hfr; fail).
        * destruct (create t f s). split; [exact Hfr|apply Hm].
        * split; [|exact I]. intros t1 k1 [E|Hin]; [inversion E; subst; exact Hm|exact (Hfr t1 k1 Hin)].
        * split; [exact Hfr|exact Hm].
        * split; [exact Hfr|exact Hm].
        * split; [exact Hfr|apply Hm].
        * split; [exact Hfr|apply Hm].
      + destruct fr as [|[|t k| | |] fr']; try (frames_mode Hfr; fail).
        split; [intros t1 k1 Hin; exact (Hfr t1 k1 (or_intror Hin))|apply C_M, (Hfr t k (or_introl eq_refl))].
      + destruct fr as [|[|t k| | |] fr']; try (frames_mode Hfr; fail).
        split; [intros t1 k1 Hin; exact (Hfr t1 k1 (or_intror Hin))|apply C_M, (Hfr t k (or_introl eq_refl))].
  Qed.

  Lemma cfg_in_run P n c : cfg_in c -> cfg_in (run P n c).
  Proof. intros H. induction n as [|n IH]; [exact H|]. rewrite run_step. exact (cfg_in_step P _ IH). Qed.

  Lemma cfg_in_start P p : C p -> cfg_in (start (fst (create [] (FTask p) (st0 P))) (snd (create [] (FTask p) (st0 P)))).
  Proof.
    intros Hp. split; [|split; [intros t k [E|[]]; discriminate E|exact I]].
    apply heap_in_create; [exact Hp|]. intros u f Hg. discriminate Hg.
  Qed.

  (* The stuttering simulation: the erased run of c is a run of [ecfg c] (a read does not move the erased
     configuration, every other step is matched by one step), and no unwinding carries over. *)
  Lemma run_est P n c : cfg_in c -> no_unwind P n c ->
    exists m, ecfg (run P n c) = run P m (ecfg c) /\ no_unwind P m (ecfg c).
  Proof.
    intros H. induction n as [|n IH]; intros Hn.
    - exists O. split; [reflexivity|]. intros k Hk. replace k with O by lia. cbn [run ecfg c_mode].
      rewrite is_unwind_emode. exact (Hn O (le_n O)).
    - destruct IH as (m & E & Hm); [intros k Hk; apply Hn; lia|].
      rewrite run_step. destruct (is_readm (c_mode (run P n c))) eqn:Hr.
      + exists m. split; [|exact Hm].
        rewrite <- E. destruct (cfg_in_run P n c H) as (_ & _ & Hq). destruct (run P n c) as [md fr s]. cbn [c_mode] in Hr, Hq.
        destruct md as [| | | | |t [| | | | | | | |x k|]| | | | |]; try discriminate Hr.
        cbn [step c_mode c_frames c_st]. unfold ecfg. cbn [c_mode c_frames c_st emode].
        rewrite (M_read_const x k _ Hq). reflexivity.
      + assert (E' : ecfg (step P (run P n c)) = run P (S m) (ecfg c)) by (rewrite run_step, <- E; symmetry; apply step_est; exact Hr).
        exists (S m). split; [exact E'|]. intros k Hk. destruct (Nat.eq_dec k (S m)) as [->|Ne]; [|apply Hm; lia].
        rewrite <- E', <- run_step. cbn [ecfg c_mode]. rewrite is_unwind_emode. exact (Hn (S n) (le_n _)).
  Qed.
End ClassInv.

Lemma rtree0_cases : step_closed rtree0 rtree0.
Proof.
  intros p H. destruct H as [v|v|e|y k Hl Hk|c k _ Hk|c k _ Hk|x k Hk _]; try exact I; try exact Hk.
  split; [|exact Hk]. intros f Hin. pose proof (Hl _ Hin) as Hf. inversion Hf as [f' Hf'|]; subst f'.
  destruct Hf'; try exact I. assumption.
Qed.

(* every program the machine runs during an rtree0 computation is rtree0; in particular a read never branches *)
Theorem rtree0_run_class P p n t q :
  rtree0 p ->
  let h := fst (create [] (FTask p) (st0 P)) in
  let s1 := snd (create [] (FTask p) (st0 P)) in
  c_mode (run P n (start h s1)) = MRun t q ->
  rtree0 q /\ forall x k, q = ReadVar x k -> forall v, erase (k v) = erase q.
Proof.
  intros Hp. cbn zeta. intros Hm.
  destruct (cfg_in_run rtree0 rtree0 (fun p H => H) rtree0_cases P n _ (cfg_in_start rtree0 rtree0 P p Hp)) as (_ & _ & Hq).
  rewrite Hm in Hq. split; [exact Hq|]. intros x k -> v. apply rtree0_read_const. exact Hq.
Qed.

Definition sgen_ok (tk : task) : Prop := forall k, tk_gen tk = Some k -> forall o, rstree0 (k o).

Definition sfut_ok (f : fut) : Prop :=
  match f_kind f with
  | KTask tk => sgen_ok tk
  | _ => True
  end.

Definition SHh (s : st) : Prop := forall u f, get u s = Some f -> sfut_ok f.

(* the continuation of every pending synchronous call is in the class *)
Definition sfr_ok (fr : list frame) : Prop := forall t k, In (FValue t k) fr -> forall o, rstree0 (k o).
Definition smode_ok (p : prog) : Prop := rstree0 p \/ exists h k, p = Sync h k /\ forall o, rstree0 (k o).

Definition SHc (c : cfg) : Prop :=
  SHh (c_st c) /\ sfr_ok (c_frames c) /\ match c_mode c with MRun _ p => smode_ok p | _ => True end.

Lemma smode_ok_cases : step_closed rstree0 smode_ok.
Proof.
  intros p [H|(h & k & -> & H)]; [|exact H].
  destruct H as [v|v|e|y k Hl Hk|c k _ Hk|c k _ Hk|x k Hk _|q k Hq Hk]; try exact I; try (left; exact Hk).
  - split; [|exact Hk]. intros f Hin. pose proof (Hl _ Hin) as Hf. inversion Hf as [f' Hf'|]; subst f'.
    destruct Hf'; try exact I. assumption.
  - intros v. left. apply Hk.
  - split; [exact Hq|]. intros h. right. exists h, k. split; [reflexivity|exact Hk].
Qed.

Lemma smode_ok_read_const x k v : smode_ok (ReadVar x k) -> erase (k v) = erase (ReadVar x k).
Proof. intros [H|(h0 & k0 & E & _)]; [apply rstree0_read_const; exact H|discriminate E]. Qed.

Lemma sh_run P n : forall c, SHc c -> SHc (run P n c).
Proof. exact (cfg_in_run rstree0 smode_ok (fun p H => or_introl H) smode_ok_cases P n). Qed.

(* what est does not touch *)
Lemma task_layers_est s t : task_layers (est s) t = task_layers s t.
Proof. unfold task_layers. rewrite get_est. destruct (get t s) as [[[o|] [tk| | |]]|]; reflexivity. Qed.
Lemma lower_est s ts : lower (est s) ts = lower s ts.
Proof. unfold lower. apply flat_map_ext. intros t. apply task_layers_est. Qed.
Lemma layers_est s : layers (est s) = layers s.
Proof. unfold layers. change (tasks (est s)) with (tasks s). apply flat_map_ext. intros t. apply task_layers_est. Qed.
Lemma get_est_inv t s o tk' : get t (est s) = Some (mkFut o (KTask tk')) ->
  exists tk, get t s = Some (mkFut o (KTask tk)) /\ tk' = etask tk.
Proof.
  rewrite get_est. destruct (get t s) as [[o0 [tk| | |]]|]; cbn; intros E; inversion E. exists tk. split; reflexivity.
Qed.
Lemma reach_est s u t : reach (est s) u t -> reach s u t.
Proof.
  intros H. induction H as [|y tk' z Hr IH Hg Hin]; [apply reach_refl|].
  apply get_est_inv in Hg as (tk & Hg & ->). exact (reach_dep s u y tk z IH Hg Hin).
Qed.

Section Transport.
  Variable P : params.
  Hypothesis HP : pointwise P.
  Variable p : prog.
  Hypothesis Hp : rtree0 p.
  Let h := fst (create [] (FTask p) (st0 P)).
  Let s1 := snd (create [] (FTask p) (st0 P)).

  (* the run of [erase p] that a run of p erases to; each theorem below is the theorem about tree programs at
     that run, read back through what est does not touch *)
  Lemma erased_run n : no_unwind P n (start h s1) ->
    let d0 := start (fst (create [] (FTask (erase p)) (st0 P))) (snd (create [] (FTask (erase p)) (st0 P))) in
    exists m, no_unwind P m d0 /\ ecfg (run P n (start h s1)) = run P m d0 /\
      forall t q, c_mode (run P n (start h s1)) = MRun t q -> c_mode (run P m d0) = MRun t (erase q).
  Proof.
    intros Hn d0.
    destruct (run_est rtree0 rtree0 (fun p H => H) rtree0_cases rtree0_read_const P n (start h s1) (cfg_in_start rtree0 rtree0 P p Hp) Hn)
      as (m & E & Hnm).
    exists m. split; [exact Hnm|]. split; [exact E|].
    intros t q Hm. change d0 with (ecfg (start h s1)). rewrite <- E. cbn [ecfg c_mode]. rewrite Hm. reflexivity.
  Qed.

  (* C01: the value of the computation is the sequential value of the program with its reads erased *)
  Theorem async_eq_seq_rtree0 n o :
    no_unwind P n (start h s1) -> c_mode (run P n (start h s1)) = MDone o -> o = eval (erase p).
  Proof.
    intros Hn Hm. destruct (erased_run n Hn) as (m & Hnm & E & _).
    apply (async_eq_seq_tree P (erase p) m o HP (tree_erase p Hp) Hnm).
    rewrite <- E. cbn [ecfg c_mode]. rewrite Hm. reflexivity.
  Qed.

  (* the owners of the lower layers await the running task *)
  Theorem layer_owners_await_rtree0 n t q :
    no_unwind P n (start h s1) -> c_mode (run P n (start h s1)) = MRun t q ->
    let s := c_st (run P n (start h s1)) in
    forall rest, tasks s = t :: rest -> forall u c, In (u, c) (lower s rest) -> reach s u t.
  Proof.
    intros Hn Hm. cbn zeta. intros rest Hts u c Hin. destruct (erased_run n Hn) as (m & Hnm & E & Hmq).
    pose proof (layer_owners_await_tree P HP (erase p) (tree_erase p Hp) m t (erase q) Hnm (Hmq t q Hm)) as T. cbn zeta in T.
    rewrite <- E in T. cbn [ecfg c_st] in T. apply reach_est. apply (T rest Hts u c). rewrite lower_est. exact Hin.
  Qed.

  Hypothesis Hw : wnr [] p.

  (* programs with actual reads: whenever code of t runs - in particular when it is AT a read - every scoped
     variable is the initial value overridden by the layers of the tasks below t and t's own open overrides *)
  Theorem reads_see_enclosing_overrides_rtree0 n t q :
    no_unwind P n (start h s1) -> c_mode (run P n (start h s1)) = MRun t q ->
    let s := c_st (run P n (start h s1)) in
    (forall x, var_get x s = apply_l (fun x => var_get x s1) (layers s) x) /\
    exists tk rest, get t s = Some (mkFut None (KTask tk)) /\ tk_cact tk = true /\ wn (tk_ctxs tk) (erase q) /\
      tasks s = t :: rest /\ layers s = lower s rest ++ map (pair t) (tk_ctxs tk) /\
      forall u c, In (u, c) (lower s rest) ->
        In u rest /\ exists tku, get u s = Some (mkFut None (KTask tku)) /\ tk_cact tku = true /\ In c (tk_ctxs tku).
  Proof.
    intros Hn Hm. cbn zeta. destruct (erased_run n Hn) as (m & Hnm & E & Hmq).
    pose proof (reads_see_enclosing_overrides_tree P HP (erase p) (tree_erase p Hp) (wn_erase [] p Hw) m t (erase q) Hnm (Hmq t q Hm)) as T.
    cbn zeta in T. rewrite <- E in T. cbn [ecfg c_st] in T.
    set (s := c_st (run P n (start h s1))) in *.
    rewrite layers_est in T. destruct T as (A & tk' & rest & Hg & Hca & Hwn & Hts & Hl & Hlow).
    rewrite lower_est in Hl, Hlow. split; [exact A|]. apply get_est_inv in Hg as (tk & Hg & ->).
    exists tk, rest. refine (conj Hg (conj Hca (conj Hwn (conj Hts (conj Hl _))))).
    intros u c Hin. destruct (Hlow u c Hin) as (Hu & tku' & Hgu & Hcu). apply get_est_inv in Hgu as (tku & Hgu & ->).
    exact (conj Hu (ex_intro _ tku (conj Hgu Hcu))).
  Qed.

  (* the value an actual read returns: the EvRead event appended by the next step carries the initial value of x
     overridden by the layers *)
  Theorem actual_read_value_rtree0 n t x k :
    no_unwind P n (start h s1) -> c_mode (run P n (start h s1)) = MRun t (ReadVar x k) ->
    let s := c_st (run P n (start h s1)) in
    let v := apply_l (fun x => var_get x s1) (layers s) x in
    c_mode (run P (S n) (start h s1)) = MRun t (k v) /\
    trace (c_st (run P (S n) (start h s1))) = EvRead t x v :: trace s.
  Proof.
    intros Hn Hm. cbn zeta. destruct (reads_see_enclosing_overrides_rtree0 n t _ Hn Hm) as (A & _). cbn zeta in A.
    rewrite run_step. destruct (run P n (start h s1)) as [md fr s]. cbn [c_mode c_st] in *. subst md.
    cbn [step c_mode c_frames c_st]. rewrite (A x). split; reflexivity.
  Qed.

  Theorem reads_innermost_rtree0 n t q x :
    no_unwind P n (start h s1) -> c_mode (run P n (start h s1)) = MRun t q ->
    let s := c_st (run P n (start h s1)) in
    (forall pre u cid v post, layers s = pre ++ (u, COverride cid x v) :: post ->
       (forall l, In l post -> ovar (snd l) <> Some x) -> var_get x s = v) /\
    ((forall l, In l (layers s) -> ovar (snd l) <> Some x) -> var_get x s = var_get x s1).
  Proof.
    intros Hn Hm. cbn zeta. destruct (erased_run n Hn) as (m & Hnm & E & Hmq).
    pose proof (reads_innermost_tree P HP (erase p) (tree_erase p Hp) (wn_erase [] p Hw) m t (erase q) x Hnm (Hmq t q Hm)) as T.
    cbn zeta in T. rewrite <- E in T. cbn [ecfg c_st] in T. rewrite layers_est in T. exact T.
  Qed.

  Theorem values_restored_rtree0 n :
    no_unwind P n (start h s1) ->
    (c_mode (run P n (start h s1)) = MAfterExec \/ exists o, c_mode (run P n (start h s1)) = MDone o) ->
    forall x, var_get x (c_st (run P n (start h s1))) = var_get x s1.
  Proof.
    intros Hn Hm x. destruct (erased_run n Hn) as (m & Hnm & E & _).
    pose proof (values_restored_tree P HP (erase p) (tree_erase p Hp) (wn_erase [] p Hw) m Hnm) as T.
    rewrite <- E in T. cbn [ecfg c_st c_mode] in T. apply T.
    destruct Hm as [Hm|(o & Hm)]; rewrite Hm; [left; reflexivity|right; exists o; reflexivity].
  Qed.

  Theorem contexts_nest_lifo_rtree0 n :
    no_unwind P n (start h s1) ->
    lifo (layers (c_st (run P n (start h s1)))) (layers (c_st (run P (S n) (start h s1)))).
  Proof.
    intros Hn. destruct (erased_run n Hn) as (m & Hnm & E & _). rewrite run_step.
    destruct (is_readm (c_mode (run P n (start h s1)))) eqn:Hr.
    - (* a read only appends an event *)
      destruct (run P n (start h s1)) as [md fr s]. cbn [c_mode] in Hr.
      destruct md as [| | | | |t [| | | | | | | |x k|]| | | | |]; try discriminate Hr. apply lifo_same. reflexivity.
    - pose proof (contexts_nest_lifo_tree P HP (erase p) (tree_erase p Hp) (wn_erase [] p Hw) m Hnm) as T.
      rewrite run_step, <- E, (step_est P _ Hr) in T. cbn [ecfg c_st] in T. rewrite !layers_est in T. exact T.
  Qed.

  (* the save-and-restore invariant *)
  Theorem saved_values_rtree0 n :
    no_unwind P n (start h s1) ->
    match c_mode (run P n (start h s1)) with
    | MUnwind _ | MStuck | MDone _ => True
    | _ => vars_ok (fun x => var_get x s1) (c_st (run P n (start h s1)))
    end.
  Proof.
    intros Hn. destruct (erased_run n Hn) as (m & Hnm & E & _).
    pose proof (saved_values_tree P HP (erase p) (tree_erase p Hp) (wn_erase [] p Hw) m Hnm) as T.
    rewrite <- E in T. cbn [ecfg c_st c_mode] in T.
    assert (V : forall s, vars_ok (fun x => var_get x s1) (est s) -> vars_ok (fun x => var_get x s1) s).
    { intros s. unfold vars_ok, VOs. rewrite layers_est. intros H. exact H. }
    destruct (c_mode (run P n (start h s1))); cbn [emode] in T; try exact I; apply V; exact T.
  Qed.
End Transport.

(* C01S: value() = evals (erase p) *)
Theorem async_eq_seq_rstree0 P p n o :
  pointwise P -> rstree0 p ->
  let h := fst (create [] (FTask p) (st0 P)) in
  let s1 := snd (create [] (FTask p) (st0 P)) in
  no_unwind P n (start h s1) -> c_mode (run P n (start h s1)) = MDone o -> o = evals (erase p).
Proof.
  intros HP Hp. cbn zeta. intros Hn Hm.
  destruct (run_est rstree0 smode_ok (fun p H => or_introl H) smode_ok_cases smode_ok_read_const P n _
                    (cfg_in_start rstree0 smode_ok P p Hp) Hn) as (m & E & Hnm).
  apply (async_eq_seq_stree P (erase p) m o HP (stree_erase p Hp) Hnm).
  rewrite <- start_est, <- E. cbn [ecfg c_mode]. rewrite Hm. reflexivity.
Qed.

Definition c07r_fin (o : outcome) : prog := match o with Ok v => Ret v | Err e => Raise e end.
Definition c07r_child : prog :=
  ReadVar 0 (fun _ =>
  Enter (COverride 1 0 (VInt 30))
    (ReadVar 0 (fun _ =>
     Yield (YLeaf (LNew (FItem 0 1 (ASet (VInt 5)))))
       (fun o => ReadVar 0 (fun _ =>
          Exit (COverride 1 0 (VInt 30)) (ReadVar 0 (fun _ => c07r_fin o))))))).
Definition c07r_demo : prog :=
  ReadVar 0 (fun _ =>
  Enter (COverride 1 0 (VInt 10)) (Enter (COverride 2 0 (VInt 20))
    (ReadVar 0 (fun _ =>
     Yield (YLeaf (LNew (FTask c07r_child)))
       (fun o => ReadVar 0 (fun _ =>
          Exit (COverride 2 0 (VInt 20)) (ReadVar 0 (fun _ =>
          Exit (COverride 1 0 (VInt 10)) (ReadVar 0 (fun _ => c07r_fin o)))))))))).

Definition c07r_obs (e : event) : bool :=
  match e with EvRead _ _ _ | EvFlush _ _ _ => true | _ => false end.

(* a read whose value is ignored *)
Lemma rtree0_read_any x q : rtree0 q -> rtree0 (ReadVar x (fun _ => q)).
Proof. intros H. apply rtree0_read; [intros _; exact H|reflexivity]. Qed.

Lemma c07r_fin_ok o : rtree0 (c07r_fin o) /\ wnr [] (c07r_fin o).
Proof. destruct o; split; constructor. Qed.

Lemma c07r_child_ok : rtree0 c07r_child /\ wnr [] c07r_child.
Proof.
  unfold c07r_child. split.
  - apply rtree0_read_any. apply rtree0_enter; [reflexivity|].
    apply rtree0_read_any.
    apply rtree0_yield; [intros l [<-|[]]; repeat constructor|]. intros o.
    apply rtree0_read_any. apply rtree0_exit; [reflexivity|].
    apply rtree0_read_any. apply c07r_fin_ok.
  - apply wnr_read. intros _. apply wnr_enter; [intros []|]. cbn [app]. apply wnr_read. intros _.
    apply wnr_yield; [intros q [E|[]]; discriminate|]. intros o. apply wnr_read. intros _.
    apply (wnr_exit [] (COverride 1 0 (VInt 30))). apply wnr_read. intros _. apply c07r_fin_ok.
Qed.

Lemma c07r_demo_ok : rtree0 c07r_demo /\ wnr [] c07r_demo.
Proof.
  unfold c07r_demo. split.
  - apply rtree0_read_any. apply rtree0_enter; [reflexivity|]. apply rtree0_enter; [reflexivity|].
    apply rtree0_read_any.
    apply rtree0_yield; [intros l [<-|[]]; apply rl0_new, rf0_task, c07r_child_ok|]. intros o.
    apply rtree0_read_any. apply rtree0_exit; [reflexivity|].
    apply rtree0_read_any. apply rtree0_exit; [reflexivity|].
    apply rtree0_read_any. apply c07r_fin_ok.
  - apply wnr_read. intros _. apply wnr_enter; [intros []|]. cbn [app].
    apply wnr_enter; [cbn; intros [E|[]]; discriminate|]. cbn [app]. apply wnr_read. intros _.
    apply wnr_yield; [intros q [E|[]]; inversion E; subst; apply c07r_child_ok|]. intros o. apply wnr_read. intros _.
    apply (wnr_exit [COverride 1 0 (VInt 10)] (COverride 2 0 (VInt 20))). apply wnr_read. intros _.
    apply (wnr_exit [] (COverride 1 0 (VInt 10))). apply wnr_read. intros _. apply c07r_fin_ok.
Qed.

(* the parent [0] reads 0, then 20 inside its two overrides; the child [1] reads the parent's 20, its own 30, blocks on a
   batch item; after the flush it reads 30 again (its layer and the parent's were re-applied), 20 after leaving its block;
   the parent reads 20, 10, 0 on the way out *)
Lemma c07r_demo_runs :
  let P := mkP [] 1000 false [] in
  let h := fst (create [] (FTask c07r_demo) (st0 P)) in
  let s1 := snd (create [] (FTask c07r_demo) (st0 P)) in
  rtree0 c07r_demo /\ wnr [] c07r_demo /\ pointwise P /\ no_unwind_b P 100 (start h s1) = true /\
  c_mode (run P 100 (start h s1)) = MDone (Ok (VInt 5)) /\ eval (erase c07r_demo) = Ok (VInt 5) /\
  filter c07r_obs (rev (trace (c_st (run P 100 (start h s1))))) =
    [EvRead [0] 0 (VInt 0); EvRead [0] 0 (VInt 20); EvRead [1] 0 (VInt 20); EvRead [1] 0 (VInt 30);
     EvFlush 0 0 [[2]]; EvRead [1] 0 (VInt 30); EvRead [1] 0 (VInt 20); EvRead [0] 0 (VInt 20);
     EvRead [0] 0 (VInt 10); EvRead [0] 0 (VInt 0)]%Z.
Proof.
  split; [apply c07r_demo_ok|]. split; [apply c07r_demo_ok|]. split; [intros kind; reflexivity|].
  cbv zeta. rewrite no_unwind_b_traj. vm_compute. repeat split.
Qed.
