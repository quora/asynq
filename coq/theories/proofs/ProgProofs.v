(* Pure facts: equality of identifiers decided, two list lemmas, and yielded structures: unwrap (C01/C02),
   extract and leaves (C03). *)
From Coq Require Import Permutation.
From Asynq Require Import Prog.

Lemma fid_eqb_spec a : forall b, reflect (a = b) (fid_eqb a b).
Proof.
  induction a as [|x a IH]; intros [|y b]; cbn; try (constructor; congruence).
  destruct (Z.eqb_spec x y); cbn; [destruct (IH b)|]; constructor; congruence.
Qed.

Lemma filter_filter {A} (f g : A -> bool) l : (forall a, f a = true -> g a = true) -> filter f (filter g l) = filter f l.
Proof.
  intros H. induction l as [|a l IH]; [reflexivity|]. cbn [filter]. destruct (g a) eqn:G; cbn [filter]; [rewrite IH; reflexivity|].
  destruct (f a) eqn:F; [rewrite (H a F) in G; discriminate|exact IH].
Qed.

Lemma existsb_filter {A} (f g : A -> bool) l : (forall a, f a = true -> g a = true) -> existsb f (filter g l) = existsb f l.
Proof.
  intros H. induction l as [|a l IH]; [reflexivity|]. cbn [filter existsb]. destruct (g a) eqn:G; cbn [existsb]; [rewrite IH; reflexivity|].
  destruct (f a) eqn:F; [rewrite (H a F) in G; discriminate|exact IH].
Qed.

Section YInd.
  Variable A : Type.
  Variable P : ystruct A -> Prop.
  Hypothesis HNone : P YNone.
  Hypothesis HLeaf : forall a, P (YLeaf a).
  Hypothesis HTuple : forall l, Forall P l -> P (YTuple l).
  Hypothesis HList : forall l, Forall P l -> P (YList l).
  Hypothesis HDict : forall l, Forall (fun kv => P (snd kv)) l -> P (YDict l).

  Fixpoint ystruct_ind2 (s : ystruct A) : P s :=
    match s with
    | YNone => HNone
    | YLeaf a => HLeaf a
    | YTuple l => HTuple l ((fix go (l : list (ystruct A)) : Forall P l :=
                               match l with
                               | [] => Forall_nil _
                               | x :: l' => Forall_cons x (ystruct_ind2 x) (go l')
                               end) l)
    | YList l => HList l ((fix go (l : list (ystruct A)) : Forall P l :=
                             match l with
                             | [] => Forall_nil _
                             | x :: l' => Forall_cons x (ystruct_ind2 x) (go l')
                             end) l)
    | YDict l => HDict l ((fix go (l : list (Z * ystruct A)) : Forall (fun kv => P (snd kv)) l :=
                             match l with
                             | [] => Forall_nil _
                             | kv :: l' => Forall_cons kv (ystruct_ind2 (snd kv)) (go l')
                             end) l)
    end.
End YInd.

(* tuples and lists are one case: every function of the model treats them alike up to the constructor *)
Lemma ystruct_ind_seq {A} (P : ystruct A -> Prop) :
  P YNone -> (forall a, P (YLeaf a)) ->
  (forall (b : bool) l, Forall P l -> P (if b then YTuple l else YList l)) ->
  (forall l, Forall (fun kv => P (snd kv)) l -> P (YDict l)) -> forall s, P s.
Proof.
  intros H0 H1 H2 H3 s. induction s using ystruct_ind2; auto; [apply (H2 true)|apply (H2 false)]; assumption.
Qed.

(* list-level views of the nested fixpoints *)
Section Views.
  Context {A : Type} (look : A -> outcome).

  Fixpoint unwrap_list (l : list (ystruct A)) : list val + exn :=
    match l with
    | [] => inl []
    | x :: l' => match unwrap look x with
                 | Err e => inr e
                 | Ok v => match unwrap_list l' with inl vs => inl (v :: vs) | inr e => inr e end
                 end
    end.

  Fixpoint unwrap_dict (l : list (Z * ystruct A)) : list (Z * val) + exn :=
    match l with
    | [] => inl []
    | (k, x) :: l' => match unwrap look x with
                      | Err e => inr e
                      | Ok v => match unwrap_dict l' with inl vs => inl ((k, v) :: vs) | inr e => inr e end
                      end
    end.

  (* tuples and lists are unwrapped by the same inner recursion *)
  Lemma unwrap_seq (b : bool) l :
    unwrap look (if b then YTuple l else YList l) =
    match unwrap_list l with inl vs => Ok (if b then VTuple vs else VList vs) | inr e => Err e end.
  Proof.
    destruct b; simpl;
      match goal with |- context [match ?f l with _ => _ end] => set (go := f) end;
      (assert (H : forall l0, go l0 = unwrap_list l0);
       [induction l0 as [|x l0 IH]; [reflexivity|]; simpl; destruct (unwrap look x); [|reflexivity];
        rewrite <- IH; reflexivity|rewrite H; reflexivity]).
  Qed.

  Lemma unwrap_tuple l : unwrap look (YTuple l) = match unwrap_list l with inl vs => Ok (VTuple vs) | inr e => Err e end.
  Proof. exact (unwrap_seq true l). Qed.

  Lemma unwrap_ylist l : unwrap look (YList l) = match unwrap_list l with inl vs => Ok (VList vs) | inr e => Err e end.
  Proof. exact (unwrap_seq false l). Qed.

  Lemma unwrap_ydict l : unwrap look (YDict l) = match unwrap_dict l with inl vs => Ok (VDict vs) | inr e => Err e end.
  Proof.
    simpl.
    match goal with |- context [match ?f l with _ => _ end] => set (go := f) end.
    assert (H : forall l0, go l0 = unwrap_dict l0).
    { induction l0 as [|[k x] l0 IH]; [reflexivity|]. simpl. destruct (unwrap look x); [|reflexivity].
      rewrite <- IH. reflexivity. }
    rewrite H. reflexivity.
  Qed.
End Views.

Section LeavesViews.
  Context {A : Type}.

  Lemma leaves_seq (b : bool) (l : list (ystruct A)) : leaves (if b then YTuple l else YList l) = flat_map leaves l.
  Proof.
    destruct b; simpl; (induction l as [|x l IH]; [reflexivity|]; simpl; rewrite <- IH; reflexivity).
  Qed.
  Lemma leaves_tuple (l : list (ystruct A)) : leaves (YTuple l) = flat_map leaves l.
  Proof. exact (leaves_seq true l). Qed.
  Lemma leaves_ylist (l : list (ystruct A)) : leaves (YList l) = flat_map leaves l.
  Proof. exact (leaves_seq false l). Qed.
  Lemma leaves_ydict (l : list (Z * ystruct A)) : leaves (YDict l) = flat_map (fun kv => leaves (snd kv)) l.
  Proof.
    simpl. induction l as [|[k x] l IH]; [reflexivity|]. simpl. rewrite <- IH. reflexivity.
  Qed.

  Lemma extract_seq (b : bool) (l : list (ystruct A)) :
    extract (if b then YTuple l else YList l) = flat_map extract (rev l).
  Proof.
    destruct b; simpl; (induction l as [|x l IH]; [reflexivity|]; simpl; rewrite flat_map_app; simpl;
                        rewrite app_nil_r, <- IH; reflexivity).
  Qed.
  Lemma extract_tuple (l : list (ystruct A)) : extract (YTuple l) = flat_map extract (rev l).
  Proof. exact (extract_seq true l). Qed.
  Lemma extract_ylist (l : list (ystruct A)) : extract (YList l) = flat_map extract (rev l).
  Proof. exact (extract_seq false l). Qed.
  Lemma extract_ydict (l : list (Z * ystruct A)) : extract (YDict l) = flat_map (fun kv => extract (snd kv)) l.
  Proof.
    simpl. induction l as [|[k x] l IH]; [reflexivity|]. simpl. rewrite <- IH. reflexivity.
  Qed.
End LeavesViews.

Lemma unwrap_ext {A} (f g : A -> outcome) (s : ystruct A) :
  (forall a, In a (leaves s) -> f a = g a) -> unwrap f s = unwrap g s.
Proof.
  assert (HL : forall l, Forall (fun s => (forall a, In a (leaves s) -> f a = g a) -> unwrap f s = unwrap g s) l ->
                 (forall a, In a (flat_map leaves l) -> f a = g a) -> unwrap_list f l = unwrap_list g l).
  { intros l IH H. induction IH as [|x l Hx Hl IHl]; [reflexivity|]. simpl.
    rewrite Hx by (intros a Ha; apply H; simpl; apply in_or_app; auto).
    rewrite IHl by (intros a Ha; apply H; simpl; apply in_or_app; auto). reflexivity. }
  induction s as [| a | b l IH | l IH] using ystruct_ind_seq; intros H.
  - reflexivity.
  - simpl. apply H. simpl. auto.
  - rewrite !unwrap_seq. rewrite leaves_seq in H. rewrite (HL l IH H). reflexivity.
  - rewrite !unwrap_ydict. rewrite leaves_ydict in H.
    assert (E : unwrap_dict f l = unwrap_dict g l).
    { induction IH as [|[k x] l Hx Hl IHl]; [reflexivity|]. simpl. simpl in Hx.
      rewrite Hx by (intros a Ha; apply H; simpl; apply in_or_app; auto).
      rewrite IHl by (intros a Ha; apply H; simpl; apply in_or_app; auto). reflexivity. }
    rewrite E. reflexivity.
Qed.

(* C02: the first failing leaf in structure order wins *)
Fixpoint first_err (l : list outcome) : option exn :=
  match l with
  | [] => None
  | Err e :: _ => Some e
  | Ok _ :: l' => first_err l'
  end.

Lemma first_err_app a b : first_err (a ++ b) = match first_err a with Some e => Some e | None => first_err b end.
Proof. induction a as [|[v|e] a IH]; simpl; auto. Qed.

Section UnwrapFacts.
  Context {A : Type} (look : A -> outcome).

  Definition unwrap_spec (s : ystruct A) : Prop :=
    match unwrap look s with
    | Err e => first_err (map look (leaves s)) = Some e
    | Ok _ => first_err (map look (leaves s)) = None
    end.

  Lemma unwrap_list_spec l :
    Forall unwrap_spec l ->
    match unwrap_list look l with
    | inr e => first_err (map look (flat_map leaves l)) = Some e
    | inl _ => first_err (map look (flat_map leaves l)) = None
    end.
  Proof.
    induction 1 as [|x l Hx Hl IH]; simpl; [reflexivity|].
    unfold unwrap_spec in Hx. rewrite map_app, first_err_app.
    destruct (unwrap look x) as [v|e]; rewrite Hx; [|reflexivity].
    destruct (unwrap_list look l); exact IH.
  Qed.

  Lemma unwrap_dict_spec l :
    Forall (fun kv => unwrap_spec (snd kv)) l ->
    match unwrap_dict look l with
    | inr e => first_err (map look (flat_map (fun kv => leaves (snd kv)) l)) = Some e
    | inl _ => first_err (map look (flat_map (fun kv => leaves (snd kv)) l)) = None
    end.
  Proof.
    induction 1 as [|[k x] l Hx Hl IH]; simpl; [reflexivity|].
    unfold unwrap_spec in Hx. simpl in Hx. rewrite map_app, first_err_app.
    destruct (unwrap look x) as [v|e]; rewrite Hx; [|reflexivity].
    destruct (unwrap_dict look l); exact IH.
  Qed.

  (* unwrap fails iff some leaf fails, and then with the error of the FIRST failing leaf in written
     order; it succeeds iff every leaf succeeds *)
  Theorem unwrap_first_error s : unwrap_spec s.
  Proof.
    induction s as [| a | b l IH | l IH] using ystruct_ind_seq; unfold unwrap_spec.
    - reflexivity.
    - simpl. destruct (look a); reflexivity.
    - rewrite unwrap_seq, leaves_seq. pose proof (unwrap_list_spec l IH) as H.
      destruct (unwrap_list look l); exact H.
    - rewrite unwrap_ydict, leaves_ydict. pose proof (unwrap_dict_spec l IH) as H.
      destruct (unwrap_dict look l); exact H.
  Qed.
End UnwrapFacts.

(* C01: same shape, each future replaced by its value *)
Fixpoint fill {A} (f : A -> val) (s : ystruct A) : val :=
  match s with
  | YNone => VNone
  | YLeaf a => f a
  | YTuple l => VTuple (map (fill f) l)
  | YList l => VList (map (fill f) l)
  | YDict l => VDict (map (fun kv => (fst kv, fill f (snd kv))) l)
  end.

Section FillFacts.
  Context {A : Type} (look : A -> outcome) (f : A -> val).

  Definition fill_spec (s : ystruct A) : Prop :=
    (forall a, In a (leaves s) -> look a = Ok (f a)) -> unwrap look s = Ok (fill f s).

  Lemma unwrap_list_fill l :
    Forall fill_spec l -> (forall a, In a (flat_map leaves l) -> look a = Ok (f a)) ->
    unwrap_list look l = inl (map (fill f) l).
  Proof.
    induction 1 as [|x l Hx Hl IH]; intros H; simpl; [reflexivity|].
    rewrite Hx by (intros a Ha; apply H; simpl; apply in_or_app; auto).
    rewrite IH by (intros a Ha; apply H; simpl; apply in_or_app; auto). reflexivity.
  Qed.

  Lemma unwrap_dict_fill l :
    Forall (fun kv => fill_spec (snd kv)) l ->
    (forall a, In a (flat_map (fun kv => leaves (snd kv)) l) -> look a = Ok (f a)) ->
    unwrap_dict look l = inl (map (fun kv => (fst kv, fill f (snd kv))) l).
  Proof.
    induction 1 as [|[k x] l Hx Hl IH]; intros H; simpl; [reflexivity|].
    simpl in Hx. rewrite Hx by (intros a Ha; apply H; simpl; apply in_or_app; auto).
    rewrite IH by (intros a Ha; apply H; simpl; apply in_or_app; auto). reflexivity.
  Qed.

  Theorem unwrap_ok_fill s : fill_spec s.
  Proof.
    induction s as [| a | b l IH | l IH] using ystruct_ind_seq; unfold fill_spec; intros H.
    - reflexivity.
    - simpl. apply H. simpl. auto.
    - rewrite unwrap_seq, (unwrap_list_fill l IH); [destruct b; reflexivity|]. rewrite <- (leaves_seq b). exact H.
    - rewrite unwrap_ydict, (unwrap_dict_fill l IH); [reflexivity|]. rewrite <- leaves_ydict. exact H.
  Qed.
End FillFacts.

(* C03: dependencies = the yielded futures; reversed written order for list/tuple structures *)
Fixpoint dict_free {A} (s : ystruct A) : bool :=
  match s with
  | YNone | YLeaf _ => true
  | YTuple l | YList l => forallb dict_free l
  | YDict _ => false
  end.

Lemma flat_map_rev_rev {A B} (g : A -> list B) (l : list A) :
  rev (flat_map g l) = flat_map (fun x => rev (g x)) (rev l).
Proof.
  induction l as [|x l IH]; simpl; [reflexivity|].
  rewrite rev_app_distr, IH, flat_map_app. simpl. rewrite app_nil_r. reflexivity.
Qed.

Lemma flat_map_ext_in' {A B} (g h : A -> list B) (l : list A) :
  (forall x, In x l -> g x = h x) -> flat_map g l = flat_map h l.
Proof.
  induction l as [|x l IH]; intros H; simpl; [reflexivity|].
  rewrite H by (simpl; auto). rewrite IH; [reflexivity|]. intros; apply H; simpl; auto.
Qed.

Theorem extract_rev_leaves {A} (s : ystruct A) : dict_free s = true -> extract s = rev (leaves s).
Proof.
  induction s as [| a | b l IH | l IH] using ystruct_ind_seq; intros H; try reflexivity; try discriminate.
  rewrite extract_seq, leaves_seq, flat_map_rev_rev. assert (H' : forallb dict_free l = true) by (destruct b; exact H).
  rewrite forallb_forall in H'. apply flat_map_ext_in'. intros x Hx. apply in_rev in Hx.
  rewrite Forall_forall in IH. apply IH; auto.
Qed.

(* extract is a permutation of the leaves *)
Lemma Permutation_flat_map_ext {A B} (g h : A -> list B) (l : list A) :
  (forall x, In x l -> Permutation (g x) (h x)) -> Permutation (flat_map g l) (flat_map h l).
Proof.
  induction l as [|x l IH]; intros H; [constructor|]. simpl. apply Permutation_app; [apply H; simpl; auto|].
  apply IH. intros y Hy. apply H. simpl. auto.
Qed.

Theorem extract_permutation {A} (s : ystruct A) : Permutation (extract s) (leaves s).
Proof.
  induction s as [| a | b l IH | l IH] using ystruct_ind_seq; try apply Permutation_refl.
  - rewrite extract_seq, leaves_seq. eapply Permutation_trans; [apply Permutation_flat_map, Permutation_sym, Permutation_rev|].
    apply Permutation_flat_map_ext. rewrite Forall_forall in IH. exact IH.
  - rewrite extract_ydict, leaves_ydict. apply Permutation_flat_map_ext. rewrite Forall_forall in IH. intros x Hx. apply IH. exact Hx.
Qed.

Theorem extract_same_elements {A} (s : ystruct A) : forall a, In a (extract s) <-> In a (leaves s).
Proof.
  intros a. split; apply Permutation_in; [|apply Permutation_sym]; apply extract_permutation.
Qed.
