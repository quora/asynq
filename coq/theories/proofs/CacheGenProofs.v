(* Proofs about alru_cache on a method whose instances have different lifetimes (Cache.v, "instance generations"). *)
From Asynq Require Import Base Cache proofs.CacheProofs.

Lemma ikey_eqb_spec a b : ikey_eqb a b = true <-> a = b.
Proof.
  destruct a as [[i n] k], b as [[j m] k']. unfold ikey_eqb. cbn [fst snd].
  rewrite !andb_true_iff, !Z.eqb_eq, key_eqb_spec. intuition congruence.
Qed.

Lemma gen_bump_of g i j : gen_of (gen_bump g i) j = if j =? i then gen_of g j + 1 else gen_of g j.
Proof.
  induction g as [|[a n] g IH]; cbn.
  - destruct (Z.eqb_spec i j), (Z.eqb_spec j i); try congruence; reflexivity.
  - destruct (Z.eqb_spec a i); cbn.
    + destruct (Z.eqb_spec a j), (Z.eqb_spec j i); try congruence; reflexivity.
    + destruct (Z.eqb_spec a j), (Z.eqb_spec j i); try congruence; try reflexivity.
Qed.

Lemma gen_bump_mono g i j : gen_of g j <= gen_of (gen_bump g i) j.
Proof. rewrite gen_bump_of. destruct (j =? i); lia. Qed.

(* no entry and no blocked body belongs to a generation that does not exist yet *)
Definition gfits (g : list (Z * Z)) (k : ikey) : Prop := igen k <= gen_of g (islot k).
Definition ginv (st : gstate) : Prop :=
  (forall e, In e (store (ga st)) -> gfits (ggen st) (ekey ikey e)) /\
  (forall id k b, In (id, k, b) (infl (ga st)) -> gfits (ggen st) k).

Lemma ginv_init : ginv ginit.
Proof. split; [intros ? []|intros ? ? ? []]. Qed.

Section GenProofs.
  Variable src : bool.
  Variable s : sig.
  Variable cap : nat.

  Lemma gstep_call st id i c bl b :
    gstep src s cap st (GCall id i c bl b) =
    (mkG (fst (astep ikey ikey_eqb (gkf src s i (gen_of (ggen st) i)) (bindable s) cap (ga st) (ACall id (with_self i c) bl b))) (ggen st),
     snd (astep ikey ikey_eqb (gkf src s i (gen_of (ggen st) i)) (bindable s) cap (ga st) (ACall id (with_self i c) bl b))).
  Proof. unfold gstep. destruct (astep _ _ _ _ _ _ _). reflexivity. Qed.

  Lemma gstep_finish st id :
    gstep src s cap st (GFinish id) =
    (mkG (fst (astep ikey ikey_eqb (fun _ => None) (bindable s) cap (ga st) (AFinish id))) (ggen st),
     snd (astep ikey ikey_eqb (fun _ => None) (bindable s) cap (ga st) (AFinish id))).
  Proof. unfold gstep. destruct (astep _ _ _ _ _ _ _). reflexivity. Qed.

  (* a hit is served from an entry stored for the very instance the method is called on: same slot, same generation *)
  Lemma gen_hit_same_instance st id i c bl b st' v :
    gstep src s cap st (GCall id i c bl b) = (st', RHit v) ->
    exists e, In e (store (ga st)) /\ islot (ekey ikey e) = i /\ igen (ekey ikey e) = gen_of (ggen st) i /\
              eval ikey e = v.
  Proof.
    rewrite gstep_call. intros H. apply (f_equal snd) in H. cbn [snd] in H.
    apply hit_inv in H as (id' & c' & bl' & b' & k & Ho & Hk & Hf). inversion Ho; subst c'. unfold gkf in Hk.
    destruct (alru_key src KmDefault s (with_self i c)) as [k0|]; inversion Hk; subst k.
    destruct (find_some_entry ikey ikey_eqb ikey_eqb_spec _ _ _ Hf) as (e & A & B & C).
    exists e. rewrite B. auto.
  Qed.

  Lemma gstep_inv st o : ginv st -> ginv (fst (gstep src s cap st o)).
  Proof.
    intros [Hs Hi]. destruct o as [id i c bl b|id|i].
    - rewrite gstep_call.
      apply (astep_pres ikey ikey_eqb ikey_eqb_spec _ _ cap (fun k _ => gfits (ggen st) k) (fun _ k _ => gfits (ggen st) k)); auto.
      intros id' c' bl' b' k E Hk _. inversion E; subst c'. unfold gkf in Hk.
      destruct (alru_key src KmDefault s (with_self i c)); inversion Hk. unfold gfits, igen, islot. cbn. lia.
    - rewrite gstep_finish.
      apply (astep_pres ikey ikey_eqb ikey_eqb_spec _ _ cap (fun k _ => gfits (ggen st) k) (fun _ k _ => gfits (ggen st) k)); auto.
      intros id' c' bl' b' k E. discriminate E.
    - unfold gstep. destruct (slot_busy (infl (ga st)) i); [split; auto|]. split; cbn; unfold gfits in *.
      + intros e He. specialize (Hs _ He). pose proof (gen_bump_mono (ggen st) i (islot (ekey ikey e))). lia.
      + intros id k b Hx. specialize (Hi _ _ _ Hx). pose proof (gen_bump_mono (ggen st) i (islot k)). lia.
  Qed.

  Lemma grun_inv ops : forall st, ginv st -> ginv (fst (grun src s cap st ops)).
  Proof.
    induction ops as [|o ops IH]; intros st H; [exact H|]. cbn.
    pose proof (gstep_inv st o H) as H1. destruct (gstep src s cap st o) as [s1 r].
    specialize (IH s1 H1). destruct (grun src s cap s1 ops). exact IH.
  Qed.

  (* After any history: the instance in slot i is dropped, and the first call on the fresh instance in that slot is
     not a hit, whatever the LRU still holds for the dead generations (same arguments included). *)
  Lemma gen_fresh_instance_not_served ops st i st1 id c bl b :
    fst (grun src s cap ginit ops) = st ->
    gstep src s cap st (GDrop i) = (st1, RUnit) ->
    forall v, snd (gstep src s cap st1 (GCall id i c bl b)) <> RHit v.
  Proof.
    intros Hr Hd v Hh.
    assert (Hinv : ginv st) by (rewrite <- Hr; apply grun_inv, ginv_init).
    unfold gstep in Hd. destruct (slot_busy (infl (ga st)) i); [inversion Hd|]. inversion Hd; subst st1. clear Hd.
    destruct (gstep src s cap {| ga := ga st; ggen := gen_bump (ggen st) i |} (GCall id i c bl b)) as [st2 r] eqn:E.
    cbn in Hh. subst r. apply gen_hit_same_instance in E as (e & A & B & C & _). cbn in A, C.
    destruct Hinv as [Hs _]. specialize (Hs _ A). unfold gfits in Hs. rewrite B in Hs.
    rewrite gen_bump_of, Z.eqb_refl in C. lia.
  Qed.
End GenProofs.

Example ex_generations :
  run_case (CAlruG 128 (mkSig [(99, None); (0, Some 2)] [] false)
              [GCall 0 0 (mkCall [1] []) false (BRet 100); GDrop 0; GCall 1 0 (mkCall [1] []) false (BRet 101);
               GCall 2 0 (mkCall [] [(0, 1)]) false (BRet 102)]) =
  OAlru [(RMiss 100, 1); (RUnit, 1); (RMiss 101, 2); (RHit 101, 2)] [0; 1].
Proof. vm_compute. reflexivity. Qed.
