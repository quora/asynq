(* Invariants of configurations [cfg] along the pass of a tree program whose contexts do not raise: which
   configuration follows, and what became of the state, said once per case.  The state part is [tupd s s' x o tk]:
   the heap entry of task x now holds outcome o and task record tk, every other entry and everything the scheduler
   keeps beside heap, trace, scoped variables and context instances ([sched]) is as before.  Covered: MExecLoop
   (exec_case), MResume of a live generator, MContRet, and MRun for Ret / Result / Raise, Yield, Enter, Exit, Let.
   Not covered: MValue, MWaitHead, MAfterExec, MDeliver, MUnwind, MRun for Sync / ReadVar / Probe, MResume of a closed
   generator; there the clients unfold [step].  Relations on the state alone, for every program: MachineHelpers.v. *)
From Asynq Require Import Machine proofs.ProgProofs proofs.MachineFrame proofs.MachineC05
  proofs.MachineHelpers.
(* from MachineFrame: get_view, get_task_some, pr_resume1, pr_pause1, vars_drop_sb, cis_drop_sb; from MachineC05:
   get_put_same, get_put_other *)

(* the scheduler's registers: all components but heap, trace, vars, cis.  MachineFrame.regs is the part (tasks, active). *)
Definition sched (s : st) := (tasks s, active s, sb s, cur s, batches s, top_next s, oracle s).

Lemma sched_parts s s' : sched s' = sched s ->
  tasks s' = tasks s /\ active s' = active s /\ sb s' = sb s /\ cur s' = cur s /\ batches s' = batches s /\
  top_next s' = top_next s /\ oracle s' = oracle s.
Proof. unfold sched. intros H. inversion H. repeat split; assumption. Qed.

Definition tupd (s s' : st) (x : fid) (o : option outcome) (tk : task) : Prop :=
  get x s' = Some (mkFut o (KTask tk)) /\ (forall h, h <> x -> get h s' = get h s) /\ sched s' = sched s.

Lemma tupd_tasks s s' x o tk : tupd s s' x o tk -> tasks s' = tasks s.
Proof. intros (_ & _ & H). apply (sched_parts s s' H). Qed.
Lemma tupd_get s s' x o tk : tupd s s' x o tk -> get x s' = Some (mkFut o (KTask tk)).
Proof. intros H. apply H. Qed.
Lemma tupd_other s s' x o tk : tupd s s' x o tk -> forall h, h <> x -> get h s' = get h s.
Proof. intros H. apply H. Qed.
Lemma tupd_sched s s' x o tk : tupd s s' x o tk -> sched s' = sched s.
Proof. intros H. apply H. Qed.

Lemma tupd_trans s s1 s2 x o1 tk1 o2 tk2 : tupd s s1 x o1 tk1 -> tupd s1 s2 x o2 tk2 -> tupd s s2 x o2 tk2.
Proof.
  intros (_ & B1 & C1) (A2 & B2 & C2). split; [exact A2|]. split; [|congruence].
  intros h N. rewrite (B2 h N). apply B1. exact N.
Qed.

Lemma tupd_view s s1 s2 x o tk : tupd s s1 x o tk -> heap s2 = heap s1 -> sched s2 = sched s1 -> tupd s s2 x o tk.
Proof.
  intros (A & B & C) Hh Hs. pose proof (get_view s1 s2 Hh) as G.
  split; [rewrite G; exact A|]. split; [intros h N; rewrite G; apply B; exact N|congruence].
Qed.

Lemma tupd_refl s x o tk : get x s = Some (mkFut o (KTask tk)) -> tupd s s x o tk.
Proof. intros H. split; [exact H|]. split; [reflexivity|reflexivity]. Qed.

Lemma put_tupd x o tk s : tupd s (put x (mkFut o (KTask tk)) s) x o tk.
Proof. split; [apply get_put_same|]. split; [intros h N; apply get_put_other; exact N|reflexivity]. Qed.

Lemma set_task_tupd x s out tk tk' : get x s = Some (mkFut out (KTask tk)) -> tupd s (set_task x tk' s) x out tk'.
Proof. intros Hg. unfold set_task. rewrite Hg. apply put_tupd. Qed.

(* an uncomputed entry stays uncomputed: no future changes its computed status *)
Lemma tupd_computed s s' x tk tk' : get x s = Some (mkFut None (KTask tk)) -> tupd s s' x None tk' ->
  forall e, computed e s' = computed e s.
Proof.
  intros Hg (A & B & _) e. unfold computed. destruct (fid_eqb_spec e x) as [->|N]; [rewrite A, Hg|rewrite (B e N)]; reflexivity.
Qed.

(* (ds, act) = (_dependencies_scheduled, _contexts_active); the record has them in the other order *)
Definition tk_flags (tk : task) (ds act : bool) : task :=
  mkTask (tk_gen tk) (tk_last tk) (tk_deps tk) (tk_ctxs tk) act ds (tk_iter tk) (tk_next tk).

Lemma tk_flags_same tk : tk_flags tk (tk_ds tk) (tk_cact tk) = tk.
Proof. destruct tk; reflexivity. Qed.

(* contexts none of whose resume()/pause() raises *)
Definition noraise (cs : list ctxk) : Prop :=
  forall c, In c cs -> forall t s, snd (resume1 t c s) = None /\ snd (pause1 t c s) = None.

Lemma heap_sched_resume1 t c s : heap (fst (resume1 t c s)) = heap s /\ sched (fst (resume1 t c s)) = sched s.
Proof. split; [apply (pr_resume1 heap)|apply (pr_resume1 sched)]; reflexivity. Qed.
Lemma heap_sched_pause1 t c s : heap (fst (pause1 t c s)) = heap s /\ sched (fst (pause1 t c s)) = sched s.
Proof. split; [apply (pr_pause1 heap)|apply (pr_pause1 sched)]; reflexivity. Qed.

(* a sweep over contexts that do not raise: no error, heap and [sched] untouched *)
Lemma sweep_quiet (step1 : ctxk -> st -> st * option exn) (merge : option exn -> option exn -> option exn) l :
  (forall c s, heap (fst (step1 c s)) = heap s /\ sched (fst (step1 c s)) = sched s) ->
  (forall c, In c l -> forall s, snd (step1 c s) = None) -> merge None None = None ->
  forall s0, let r := fold_left (fun acc c => let '(s, err) := acc in let '(s', e) := step1 c s in (s', merge err e)) l (s0, None) in
  snd r = None /\ heap (fst r) = heap s0 /\ sched (fst r) = sched s0.
Proof.
  intros Hv Hn Hm. induction l as [|c l IH]; intros s0; cbn zeta; cbn [fold_left]; [auto|].
  pose proof (Hv c s0) as [V1 V2]. pose proof (Hn c (or_introl eq_refl) s0) as E.
  destruct (step1 c s0) as [s1 e]. cbn [fst snd] in *. subst e. rewrite Hm.
  destruct (IH (fun c' H => Hn c' (or_intror H)) s1) as (A & B & C). cbn zeta in *. split; [exact A|]. split; congruence.
Qed.

Lemma resume_tupd x s out tk : noraise (tk_ctxs tk) -> get x s = Some (mkFut out (KTask tk)) ->
  tupd s (resume_contexts x s) x out (tk_flags tk (tk_ds tk) true).
Proof.
  intros Hq Hg. unfold resume_contexts, get_task. rewrite Hg. destruct (tk_cact tk) eqn:Hc.
  { rewrite <- Hc, tk_flags_same. apply tupd_refl. exact Hg. }
  pose proof (sweep_quiet (resume1 x) (fun err e => match err with Some _ => err | None => e end) (tk_ctxs tk)
                (heap_sched_resume1 x) (fun c H s0 => proj1 (Hq c H x s0)) eq_refl
                (set_task x (tk_with_ctxs tk (tk_ctxs tk) true) s)) as H. cbn zeta in H.
  destruct (fold_left _ (tk_ctxs tk) _) as [s1 err]. cbn [fst snd] in H. destruct H as (-> & Hh & Hs).
  exact (tupd_view _ _ _ _ _ _ (set_task_tupd x s out tk _ Hg) Hh Hs).
Qed.

Lemma pause_tupd x s out tk : noraise (tk_ctxs tk) -> get x s = Some (mkFut out (KTask tk)) ->
  tupd s (pause_contexts x s) x out (tk_flags tk (tk_ds tk) false).
Proof.
  intros Hq Hg. unfold pause_contexts, get_task. rewrite Hg. destruct (tk_cact tk) eqn:Hc; cbn [negb].
  2:{ rewrite <- Hc, tk_flags_same. apply tupd_refl. exact Hg. }
  pose proof (sweep_quiet (pause1 x) (fun err e => match e with Some _ => e | None => err end) (rev (tk_ctxs tk))
                (heap_sched_pause1 x)
                (fun c H s0 => proj2 (Hq c (proj2 (in_rev _ c) H) x s0)) eq_refl
                (set_task x (tk_with_ctxs tk (tk_ctxs tk) false) s)) as H. cbn zeta in H.
  destruct (fold_left _ (rev (tk_ctxs tk)) _) as [s1 err]. cbn [fst snd] in H. destruct H as (-> & Hh & Hs).
  exact (tupd_view _ _ _ _ _ _ (set_task_tupd x s out tk _ Hg) Hh Hs).
Qed.

(* every id from the counter on is unallocated (ids are [n]: Machine.alloc does not use its parent argument) *)
Definition above_free (s : st) : Prop := forall n, (top_next s <= n)%Z -> get [n] s = None.

Lemma create_old p f s : above_free s ->
  above_free (snd (create p f s)) /\ (forall x, get x s <> None -> get x (snd (create p f s)) = get x s).
Proof.
  intros Hf. pose proof (Hf (top_next s) (Z.le_refl _)) as Hh.
  assert (G : forall e x, x <> [top_next s] -> get x (put [top_next s] e (with_top_next s (top_next s + 1))) = get x s)
    by (intros e x N; rewrite get_put_other by exact N; reflexivity).
  assert (N1 : forall n, (top_next s + 1 <= n)%Z -> [n] <> [top_next s]) by (intros n Hn E; inversion E; lia).
  assert (N2 : forall x, get x s <> None -> x <> [top_next s]) by (intros x Hx ->; exact (Hx Hh)).
  unfold create, alloc. destruct f; cbn [snd]; (split; [intros n Hn|intros x Hx]);
    try change (get ?z (put_batch ?k ?b ?w)) with (get z w); rewrite G; auto; apply Hf; cbn in Hn; lia.
Qed.

Lemma inst_old p y s : above_free s ->
  above_free (snd (inst p y s)) /\ (forall x, get x s <> None -> get x (snd (inst p y s)) = get x s).
Proof.
  intros Hf. apply (inst_pres (fun s' => above_free s' /\ forall x, get x s <> None -> get x s' = get x s)); [|auto].
  intros p0 f s0 (F0 & O0). destruct (create_old p0 f s0 F0) as (F1 & O1). split; [exact F1|].
  intros x Hx. rewrite O1, O0; auto. rewrite O0; auto.
Qed.

(* One iteration of the _execute loop.  A case gives the new state twice: as [tupd], which is what the invariants
   use, and as the term it is (Es2), for what [tupd] does not mention (trace, scoped variables, context instances).
   ec_guard has no premise: the invariants ask nothing of why the recursion guard fired (when it does is
   MachineC08.guard_step), so P occurs in no case.  ec_skip joins three branches of [step].  ec_push filters the
   dependencies in s, [step] in s2: resume_contexts changes no computed status (tupd_computed). *)
Inductive exec_case (P : params) (init : nat) (fr' : list frame) (s : st) : cfg -> Prop :=
| ec_exit : (length (tasks s) <= init)%nat -> exec_case P init fr' s (mkC MAfterExec fr' s)
| ec_guard : exec_case P init fr' s (mkC (MUnwind E_RUNTIME) (FExec init :: fr') (reset_sched s))
| ec_skip x ts : tasks s = x :: ts -> (init < length (tasks s))%nat ->
    computed x s = true \/ get x s = None \/ (exists o, get x s = Some (mkFut o KOther)) ->
    exec_case P init fr' s (mkC MExecLoop (FExec init :: fr') (pop_task s))
| ec_item x ts kind idx key a : tasks s = x :: ts -> (init < length (tasks s))%nat ->
    get x s = Some (mkFut None (KItem kind idx key a)) ->
    exec_case P init fr' s (mkC MExecLoop (FExec init :: fr') (pop_task (schedule_batch (kind, idx) s)))
| ec_lazy x ts o : tasks s = x :: ts -> (init < length (tasks s))%nat ->
    get x s = Some (mkFut None (KLazy o)) ->
    exec_case P init fr' s (mkC MExecLoop (FExec init :: fr') (pop_task (put x (mkFut (Some o) (KLazy o)) s)))
| ec_settle x ts tk s2 : tasks s = x :: ts -> (init < length (tasks s))%nat ->
    get x s = Some (mkFut None (KTask tk)) -> is_blocked tk s = true -> tk_ds tk = true ->
    tupd s s2 x None (tk_flags tk false false) -> forall Es2 : s2 = pause_contexts x (set_task x (tk_set_ds tk false) s),
    exec_case P init fr' s (mkC MExecLoop (FExec init :: fr') (pop_task s2))
| ec_push x ts tk s2 : tasks s = x :: ts -> (init < length (tasks s))%nat ->
    get x s = Some (mkFut None (KTask tk)) -> is_blocked tk s = true -> tk_ds tk = false ->
    tupd s s2 x None (tk_flags tk true true) -> forall Es2 : s2 = resume_contexts x (set_task x (tk_set_ds tk true) s),
    exec_case P init fr' s
      (mkC MExecLoop (FExec init :: fr') (with_tasks s2 (rev (filter (fun d => negb (computed d s)) (tk_deps tk)) ++ x :: ts)))
| ec_run x ts tk s2 : tasks s = x :: ts -> (init < length (tasks s))%nat ->
    get x s = Some (mkFut None (KTask tk)) -> is_blocked tk s = false ->
    tupd s s2 x None (tk_flags tk (tk_ds tk) true) -> forall Es2 : s2 = resume_contexts x s,
    exec_case P init fr' s (mkC (MResume x) (FCont x (active s) :: FExec init :: fr') (with_active s2 (Some x))).

Lemma computed_none x s o k : computed x s = false -> get x s = Some (mkFut o k) -> o = None.
Proof. unfold computed. intros H Hg. rewrite Hg in H. destruct o; [discriminate|reflexivity]. Qed.

Lemma step_MExecLoop P init fr' s :
  (forall t out tk, get t s = Some (mkFut out (KTask tk)) -> noraise (tk_ctxs tk)) ->
  exec_case P init fr' s (step P (mkC MExecLoop (FExec init :: fr') s)).
Proof.
  intros Hpl. cbn [step c_mode c_frames c_st].
  destruct (Nat.leb (length (tasks s)) init) eqn:Hle; [apply ec_exit; apply Nat.leb_le; exact Hle|].
  apply Nat.leb_gt in Hle.
  destruct (Z.ltb (p_maxstack P) (Z.of_nat (length (tasks s)))); [apply ec_guard|].
  destruct (tasks s) as [|x ts] eqn:Hts; [cbn in Hle; lia|]. rewrite <- Hts in Hle.
  destruct (computed x s) eqn:Hcx; [apply (ec_skip _ _ _ _ x ts); auto|].
  destruct (get x s) as [[out [tk|kind idx key a|o'|]]|] eqn:Hg;
    try (rewrite (computed_none x s _ _ Hcx Hg) in Hg).
  - pose proof (Hpl x _ _ Hg) as Hp.
    destruct (is_blocked tk s) eqn:Hb; [destruct (tk_ds tk) eqn:Hds|].
    + apply (ec_settle _ _ _ _ x ts tk); auto.
      pose proof (set_task_tupd x s None tk (tk_set_ds tk false) Hg) as U1.
      eapply tupd_trans; [exact U1|]. apply (pause_tupd x _ None (tk_set_ds tk false) Hp). apply U1.
    + pose proof (set_task_tupd x s None tk (tk_set_ds tk true) Hg) as U1.
      assert (U : tupd s (resume_contexts x (set_task x (tk_set_ds tk true) s)) x None (tk_flags tk true true)).
      { eapply tupd_trans; [exact U1|]. apply (resume_tupd x _ None (tk_set_ds tk true) Hp). apply U1. }
      set (s2 := resume_contexts x (set_task x (tk_set_ds tk true) s)) in *.
      replace (get_task x s2) with (Some (tk_flags tk true true)) by (unfold get_task; rewrite (tupd_get _ _ _ _ _ U); reflexivity).
      cbn [tk_deps tk_flags]. rewrite (filter_ext _ _ (fun d => f_equal negb (tupd_computed s s2 x tk _ Hg U d))).
      rewrite (tupd_tasks _ _ _ _ _ U), Hts. apply (ec_push _ _ _ _ x ts tk s2); auto.
    + pose proof (resume_tupd x s None tk Hp Hg) as U.
      rewrite (tupd_computed s _ x tk _ Hg U x), Hcx.
      replace (active (resume_contexts x s)) with (active s) by (symmetry; apply (sched_parts _ _ (tupd_sched _ _ _ _ _ U))).
      apply (ec_run _ _ _ _ x ts tk); auto.
  - apply (ec_item _ _ _ _ x ts kind idx key a); auto.
  - apply (ec_lazy _ _ _ _ x ts o'); auto.
  - apply (ec_skip _ _ _ _ x ts); eauto.
  - apply (ec_skip _ _ _ _ x ts); auto.
Qed.

Lemma step_MResume P t fr s tk k : get t s = Some (mkFut None (KTask tk)) -> tk_gen tk = Some k ->
  let o := unwrap (look s) (tk_last tk) in
  exists s2, step P (mkC (MResume t) fr s) = mkC (MRun t (k o)) fr s2 /\
    tupd s s2 t None (mkTask (Some k) YNone (if p_keep P then tk_deps tk else []) (tk_ctxs tk) (tk_cact tk) (tk_ds tk)
                             (tk_iter tk + 1) (tk_next tk)) /\
    trace s2 = EvStep t (tk_iter tk) o :: trace s.
Proof.
  intros Hg Hk. cbn zeta. cbn [step c_mode c_frames c_st]. unfold get_task. rewrite Hg, Hk. eexists. split; [reflexivity|].
  split; [|unfold set_task; rewrite Hg; reflexivity].
  eapply tupd_view; [apply (set_task_tupd t s None tk _ Hg)|reflexivity|reflexivity].
Qed.

Lemma step_MContRet P t old fr' s :
  exists s2, step P (mkC MContRet (FCont t old :: fr') s) = mkC MExecLoop fr' s2 /\
    tasks s2 = tasks s /\ active s2 = old /\ sb s2 = sb s /\ cur s2 = cur s /\ batches s2 = batches s /\
    top_next s2 = top_next s /\ trace s2 = trace s /\
    (forall h, h <> t -> get h s2 = get h s) /\
    match get t s with
    | Some (mkFut out (KTask tk)) => get t s2 = Some (mkFut out (KTask (tk_set_ds tk false)))
    | _ => get t s2 = get t s
    end.
Proof.
  cbn [step c_mode c_frames c_st]. unfold get_task. change (get t (with_active s old)) with (get t s).
  destruct (get t s) as [[out [tk| | |]]|] eqn:Hg; eexists; (split; [reflexivity|]);
    try (repeat split; try reflexivity; exact Hg).
  destruct (set_task_tupd t (with_active s old) out tk (tk_set_ds tk false) Hg) as (A & B & C).
  destruct (sched_parts _ _ C) as (C1 & C2 & C3 & C4 & C5 & C6 & _). repeat split; try assumption.
  unfold set_task. change (get t (with_active s old)) with (get t s). rewrite Hg. reflexivity.
Qed.

(* the same in [tupd] form, for invariants stated with tupd: t is not a task entry and nothing but the active task
   changes, or its entry loses the flag.  step_MContRet lists the components for clients that read single fields. *)
Lemma step_MContRet_cases P t old fr' s :
  exists s2, step P (mkC MContRet (FCont t old :: fr') s) = mkC MExecLoop fr' s2 /\
    ((s2 = with_active s old /\ forall out tk, get t s <> Some (mkFut out (KTask tk))) \/
     exists out tk, get t s = Some (mkFut out (KTask tk)) /\ tupd (with_active s old) s2 t out (tk_set_ds tk false)).
Proof.
  cbn [step c_mode c_frames c_st]. unfold get_task. change (get t (with_active s old)) with (get t s).
  destruct (get t s) as [[out [tk| | |]]|] eqn:Hg; eexists; (split; [reflexivity|]);
    try (left; split; [reflexivity|intros; discriminate]).
  right. exists out, tk. split; [reflexivity|]. apply (set_task_tupd t (with_active s old) out tk). exact Hg.
Qed.

Inductive finishes : prog -> outcome -> Prop :=
| fin_ret v : finishes (Ret v) (Ok v)
| fin_result v : finishes (Result v) (Ok v)
| fin_raise e : finishes (Raise e) (Err e).

Section Run.
  Variables (P : params) (t : fid) (fr : list frame) (s : st) (tk : task).
  Hypothesis Hg : get t s = Some (mkFut None (KTask tk)).

  Lemma step_run_finish p o : finishes p o ->
    exists s2, step P (mkC (MRun t p) fr s) = mkC MContRet fr s2 /\ tupd s s2 t (Some o) (closed_task tk) /\
      trace s2 = EvDone t o :: trace s.
  Proof.
    intros Hf.
    set (tkc := mkTask None (tk_last tk) (tk_deps tk) (tk_ctxs tk) (tk_cact tk) (tk_ds tk) (tk_iter tk) (tk_next tk)).
    pose proof (set_task_tupd t s None tk tkc Hg) as U1. pose proof U1 as (G1 & _).
    assert (Hnc : computed t (set_task t tkc s) = false) by (unfold computed; rewrite G1; reflexivity).
    assert (Hc : complete_task t o (set_task t tkc s) =
                 emit (EvDone t o) (put t (mkFut (Some o) (KTask (closed_task tk))) (set_task t tkc s)))
      by (unfold complete_task, get_task; rewrite G1; cbn [tk_gen tkc]; rewrite G1; reflexivity).
    exists (complete_task t o (set_task t tkc s)). split.
    - destruct Hf; cbn [step c_mode c_frames c_st]; unfold get_task, accept_error; rewrite Hg; fold tkc; rewrite Hnc; reflexivity.
    - rewrite Hc. split; [|cbn [trace emit]; unfold set_task; rewrite Hg; reflexivity].
      eapply tupd_trans; [exact U1|]. eapply tupd_view; [apply put_tupd|reflexivity|reflexivity].
  Qed.

  (* the yield expression is evaluated, then the entry of t gets the new continuation and the new dependencies.
     This form assumes that t's entry survives [inst] and gives s2 as a term; step_run_yield derives the survival
     from above_free. *)
  Lemma step_run_yield_at y k :
    let y' := fst (inst t y s) in let s1 := snd (inst t y s) in
    get t s1 = Some (mkFut None (KTask tk)) ->
    exists s2, step P (mkC (MRun t (Yield y k)) fr s) =
                 mkC (match futs (extract y') with [] => MResume t | _ => MContRet end) fr s2 /\
      tupd s1 s2 t None (mkTask (Some k) y' (tk_deps tk ++ futs (extract y')) (tk_ctxs tk) (tk_cact tk) (tk_ds tk)
                                (tk_iter tk) (tk_next tk)) /\
      s2 = set_task t (mkTask (Some k) y' (tk_deps tk ++ futs (extract y')) (tk_ctxs tk) (tk_cact tk) (tk_ds tk)
                              (tk_iter tk) (tk_next tk)) s1.
  Proof.
    cbn zeta. intros Hg1. cbn [step c_mode c_frames c_st]. destruct (inst t y s) as [y' s1]. cbn [fst snd] in *.
    unfold get_task. rewrite Hg1.
    exists (set_task t (mkTask (Some k) y' (tk_deps tk ++ futs (extract y')) (tk_ctxs tk) (tk_cact tk) (tk_ds tk) (tk_iter tk) (tk_next tk)) s1).
    split; [destruct (futs (extract y')); reflexivity|]. split; [apply (set_task_tupd t s1 None tk _ Hg1)|reflexivity].
  Qed.

  Lemma step_run_yield y k : above_free s ->
    let y' := fst (inst t y s) in let s1 := snd (inst t y s) in
    exists s2, step P (mkC (MRun t (Yield y k)) fr s) =
                 mkC (match futs (extract y') with [] => MResume t | _ => MContRet end) fr s2 /\
      get t s1 = Some (mkFut None (KTask tk)) /\
      tupd s1 s2 t None (mkTask (Some k) y' (tk_deps tk ++ futs (extract y')) (tk_ctxs tk) (tk_cact tk) (tk_ds tk)
                                (tk_iter tk) (tk_next tk)).
  Proof.
    intros Hf. cbn zeta. destruct (inst_old t y s Hf) as (_ & Old).
    assert (Hg1 : get t (snd (inst t y s)) = Some (mkFut None (KTask tk))) by (rewrite Old; [exact Hg|rewrite Hg; discriminate]).
    destruct (step_run_yield_at y k Hg1) as (s2 & E & U & _). exists s2. auto.
  Qed.

  Lemma enter_tupd c : tupd s (enter_ctx t c s) t None (tk_with_ctxs tk (tk_ctxs tk ++ [c]) (tk_cact tk)).
  Proof.
    unfold enter_ctx, get_task. rewrite Hg.
    eapply tupd_view; [apply (set_task_tupd t s None tk _ Hg)| |]; destruct c; reflexivity.
  Qed.

  Lemma exit_tupd c : tupd s (exit_ctx t c s) t None (tk_with_ctxs tk (remove_ctx c (tk_ctxs tk)) (tk_cact tk)).
  Proof.
    unfold exit_ctx, get_task. rewrite Hg.
    eapply tupd_view; [apply (set_task_tupd t s None tk _ Hg)| |]; destruct (tk_cact tk); try reflexivity; destruct c; reflexivity.
  Qed.

  Lemma step_run_enter c k :
    exists s2, step P (mkC (MRun t (Enter c k)) fr s) = mkC (MRun t k) fr s2 /\
      tupd s s2 t None (tk_with_ctxs tk (tk_ctxs tk ++ [c]) (tk_cact tk)).
  Proof. exists (enter_ctx t c s). split; [reflexivity|apply enter_tupd]. Qed.

  Lemma step_run_exit c k :
    exists s2, step P (mkC (MRun t (Exit c k)) fr s) = mkC (MRun t k) fr s2 /\
      tupd s s2 t None (tk_with_ctxs tk (remove_ctx c (tk_ctxs tk)) (tk_cact tk)).
  Proof. exists (exit_ctx t c s). split; [reflexivity|apply exit_tupd]. Qed.

  Lemma step_run_let f k :
    step P (mkC (MRun t (Let f k)) fr s) = mkC (MRun t (k (fst (create t f s)))) fr (snd (create t f s)).
  Proof. cbn [step c_mode c_frames c_st]. destruct (create t f s). reflexivity. Qed.
End Run.

(* Only resuming or pausing a task's contexts (the _execute iteration) and entering or leaving a with-block write
   them: a generator that reaches complete_task here has been closed, so no with-block is left by close(). *)
Definition scoped (s : st) := (vars s, cis s).

Lemma scoped_set_task t tk s : scoped (set_task t tk s) = scoped s.
Proof. unfold set_task. destruct (get t s); reflexivity. Qed.

Lemma scoped_create p f s : scoped (snd (create p f s)) = scoped s.
Proof. destruct f; reflexivity. Qed.

Lemma scoped_inst p y s : scoped (snd (inst p y s)) = scoped s.
Proof. apply (inst_rel (fun a b => scoped b = scoped a)); [reflexivity|intros; congruence|apply scoped_create]. Qed.

Lemma scoped_flush_batch P k s : scoped (flush_batch P k s) = scoped s.
Proof. apply (rel_flush_batch (fun a b => scoped b = scoped a)); intros; try reflexivity; congruence. Qed.

Lemma scoped_continue_with_batch P s : scoped (continue_with_batch P s) = scoped s.
Proof. apply (rel_continue_with_batch (fun a b => scoped b = scoped a)); intros; try reflexivity; congruence. Qed.

Lemma scoped_complete_closed t o s : (forall tk, get_task t s = Some tk -> tk_gen tk = None) -> scoped (complete_task t o s) = scoped s.
Proof.
  intros H. unfold complete_task. destruct (get_task t s) as [tk|] eqn:G; [|reflexivity]. rewrite (H tk eq_refl), G. reflexivity.
Qed.

Lemma step_scoped P c :
  match c_mode c with
  | MExecLoop | MRun _ (Enter _ _) | MRun _ (Exit _ _) => True
  | _ => scoped (c_st (step P c)) = scoped (c_st c)
  end.
Proof.
  destruct c as [m fr s]. destruct m as [h| | | |t|t p| |o|e|o|]; cbn [c_mode]; try exact I; cbn [step c_mode c_frames c_st]; try reflexivity.
  - (* MValue *) destruct (computed h s); [reflexivity|]. destruct (get h s) as [[out [tk|kind idx key a|o'|]]|]; try reflexivity.
    apply scoped_flush_batch.
  - (* MWaitHead *) destruct fr as [|[ |t k|root|i|t old] fr']; try reflexivity.
    destruct (computed root s); [unfold scoped; cbn [c_st]; rewrite vars_drop_sb, cis_drop_sb|]; reflexivity.
  - (* MAfterExec *) destruct fr as [|[ |t k|root|i|t old] fr']; try reflexivity.
    destruct (computed root s); [unfold scoped; cbn [c_st]; rewrite vars_drop_sb, cis_drop_sb; reflexivity|].
    apply scoped_continue_with_batch.
  - (* MResume: a closed generator completes *)
    destruct (get_task t s) as [tk|] eqn:G; [|reflexivity]. destruct (tk_gen tk) eqn:Eg; [apply scoped_set_task|].
    assert (Hc : forall tk', get_task t s = Some tk' -> tk_gen tk' = None) by (intros tk' E; congruence).
    destruct (unwrap (look s) (tk_last tk)); [destruct (computed t s); [reflexivity|]|unfold accept_error; destruct (computed t s); [reflexivity|]];
      apply (scoped_complete_closed t _ s Hc).
  - (* MRun: the generator is closed (s1) before complete_task *)
    set (s1 := match get_task t s with Some tk => set_task t _ s | None => s end).
    assert (E1 : scoped s1 = scoped s) by (unfold s1; destruct (get_task t s); [apply scoped_set_task|reflexivity]).
    assert (Hc : forall tk', get_task t s1 = Some tk' -> tk_gen tk' = None).
    { unfold s1. destruct (get_task t s) as [tk|] eqn:G; [|congruence]. apply get_task_some in G as (out & G).
      intros tk'. unfold get_task, set_task. rewrite G, get_put_same. intros E. inversion E. reflexivity. }
    destruct p as [v|v|e|y k|f k|h k|cx k|cx k|var k|k]; try exact I; try reflexivity.
    + destruct (computed t s1); cbn [c_st]; [exact E1|]. rewrite (scoped_complete_closed t _ s1 Hc). exact E1.
    + destruct (computed t s1); cbn [c_st]; [exact E1|]. rewrite (scoped_complete_closed t _ s1 Hc). exact E1.
    + unfold accept_error. destruct (computed t s1); cbn [c_st]; [exact E1|]. rewrite (scoped_complete_closed t _ s1 Hc). exact E1.
    + pose proof (scoped_inst t y s) as Ei. destruct (inst t y s) as [y' si]. cbn [snd] in Ei.
      destruct (get_task t si); [|exact Ei]. destruct (futs (extract y')); cbn [c_st]; rewrite scoped_set_task; exact Ei.
    + pose proof (scoped_create t f s) as Ec. destruct (create t f s). exact Ec.
  - (* MContRet *) destruct fr as [|[ |t k|root|i|t old] fr']; try reflexivity.
    destruct (get_task t (with_active s old)); [cbn [c_st]; rewrite scoped_set_task|]; reflexivity.
  - (* MDeliver *) destruct fr as [|[ |t k|root|i|t old] fr']; reflexivity.
  - (* MUnwind *) destruct fr as [|[ |t k|root|i|t old] fr']; reflexivity.
Qed.
