(* C08, persistent pause() failures: closing the generator of a task whose contexts are already paused calls
   no pause() again.  AsyncTask._pause_contexts (async_task.py 405-420) clears _contexts_active BEFORE it calls
   the pause() methods; when one of them raises, _accept_error completes the task, _computed closes the
   generator, and every open with block's __exit__ (contexts.py 93-104) finds _contexts_active = False and
   skips its pause().  So a context whose pause() fails on every call from some call on is asked only once:
   in the model the fault `PauseRaises k e` (raises exactly once) and a persistent one cannot be told apart. *)
From Asynq Require Import Machine proofs.MachineC05.

Lemma exit_ctx_paused t c s tk :
  get_task t s = Some tk -> tk_cact tk = false ->
  trace (exit_ctx t c s) = trace s /\
  exists tk', get_task t (exit_ctx t c s) = Some tk' /\ tk_cact tk' = false.
Proof.
  intros H A. unfold exit_ctx. rewrite H, A.
  unfold get_task in H. unfold set_task.
  destruct (get t s) as [f|] eqn:G; [|discriminate].
  split; [reflexivity|].
  unfold get_task. rewrite get_put_same. cbn. eexists; split; [reflexivity|reflexivity].
Qed.

Lemma close_paused cs : forall t s tk,
  get_task t s = Some tk -> tk_cact tk = false ->
  trace (fold_left (fun s c => exit_ctx t c s) cs s) = trace s /\
  exists tk', get_task t (fold_left (fun s c => exit_ctx t c s) cs s) = Some tk' /\ tk_cact tk' = false.
Proof.
  induction cs as [|c cs IH]; intros t s tk H A; cbn [fold_left].
  - split; [reflexivity|]. eexists; split; eauto.
  - destruct (exit_ctx_paused t c s tk H A) as [T [tk' [H' A']]].
    destruct (IH t _ tk' H' A') as [T2 R]. split; [congruence|exact R].
Qed.

(* completing a task whose contexts are paused emits its EvDone and nothing else: no pause(), no resume() *)
Lemma complete_paused_task t o s tk :
  get_task t s = Some tk -> tk_cact tk = false ->
  trace (complete_task t o s) = EvDone t o :: trace s.
Proof.
  intros H A. unfold complete_task. rewrite H.
  destruct (tk_gen tk).
  - destruct (close_paused (rev (tk_ctxs tk)) t s tk H A) as [T [tk' [H' _]]].
    rewrite H'. cbn. rewrite T. reflexivity.
  - rewrite H. reflexivity.
Qed.

(* hypotheses are satisfiable: a paused task with a live generator and an open faulty context *)
Example complete_paused_task_example :
  let c := CAsync 1%Z (PauseRaises 1 7%Z) in
  let tk := mkTask (Some (fun _ => Ret VNone)) YNone [] [c] false false 0%Z 0%Z in
  let s := put [0%Z] (mkFut None (KTask tk)) (st0 (mkP [] 1000%Z false [])) in
  get_task [0%Z] s = Some tk /\ tk_cact tk = false /\
  trace (complete_task [0%Z] (Err 7%Z) s) = [EvDone [0%Z] (Err 7%Z)].
Proof. vm_compute. repeat split. Qed.
