(* C08, second part: the scheduler is clean after ANY outcome that the MAX_TASK_STACK_SIZE guard can
   produce, and no scheduled batch is left behind - for every program (no tree restriction).

   MachineC08.v proves "active task = running task" and "task stack empty at the end" for runs in which
   no exception unwinds through asynq's frames ([no_unwind]).  Here the hypothesis is weakened to
   [guard_unwind_only]: the only exception that unwinds is the guard's RuntimeError (the other source of
   unwinding in [step] is FutureIsAlreadyComputed raised by _queue_exit, E_ALREADY; it stays excluded).

   Invariant for an unwinding configuration reached from the guard ([UInv]): the frames are those of an
   _execute / wait_for / value() configuration (tags TE, TW, TV of MachineC08.shape - the guard fires at
   the head of the _execute loop, never inside _continue_with_task, so no FCont frame lies between the
   guard and the nearest FValue frame: [guard_frames]), the task stack and the set of scheduled batches
   are empty (reset_sched) and active_task is the task of the nearest enclosing _continue_with_task
   frame, i.e. the task that made the synchronous call (or the value before the outermost call).

   The side invariant [Extra] adds the scheduled batches to MachineC08.Inv: whenever value() is about to
   return to the top level (MValue / MDeliver on the frame stack [FTop]) the set of scheduled batches is
   empty or still what it was before the call (sb0) - the latter when the call did not enter wait_for;
   otherwise the outermost wait_for ended through drop_sb with an empty task stack, or the guard reset it.

   Results: step_inv2 / run_inv2 (preservation), active_is_running_U, clean_after_outcome_U,
   fresh_after_outcome, clean_after_task_outcome, clean_sb_any_root_is_false (the sb clause needs a
   hypothesis), guard_caught (the catch step by step), run_root_fresh / run_history_fresh, the theorems
   of MachineC08.v as corollaries, and two vm_compute examples (corpus _GUARD_CAUGHT, _GUARD_BATCH).
   Not covered: runs in which E_ALREADY unwinds. *)
From Asynq Require Import Machine proofs.MachineFrame proofs.MachineC05 proofs.MachineC08.

Definition guard_unwind_only (P : params) (n : nat) (c : cfg) : Prop :=
  forall k, (k <= n)%nat -> forall e, c_mode (run P k c) = MUnwind e -> e = E_RUNTIME.

Lemma no_unwind_guard_only P n c : no_unwind P n c -> guard_unwind_only P n c.
Proof. intros H k Hk e Hm. specialize (H k Hk). rewrite Hm in H. discriminate H. Qed.

Lemma E_ALREADY_not_RUNTIME : E_ALREADY = E_RUNTIME -> False.
Proof. unfold E_ALREADY, E_RUNTIME. intros H. discriminate H. Qed.

(* where [step] starts an unwinding: only at the guard (E_RUNTIME) and at _queue_exit (E_ALREADY) *)
Lemma unwind_sources P c e :
  is_unwind (c_mode c) = false -> c_mode (step P c) = MUnwind e ->
  (e = E_RUNTIME /\ c_mode c = MExecLoop) \/
  (e = E_ALREADY /\ exists t, c_mode c = MResume t \/ exists p, c_mode c = MRun t p).
Proof.
  destruct c as [m fr s]. destruct m; cbn [c_mode is_unwind step c_frames c_st]; intros Hu Hm; try discriminate Hu.
  - (* MValue *)
    destruct (computed h s); [discriminate Hm|].
    destruct (get h s) as [[o [tk|kind idx key a|o'|]]|]; discriminate Hm.
  - destruct fr as [|[|t k|r|i|t old] fr']; try discriminate Hm. destruct (computed r s); discriminate Hm.
  - destruct fr as [|[|t k|r|i|t old] fr']; try discriminate Hm. destruct (computed r s); discriminate Hm.
  - (* MExecLoop *)
    destruct fr as [|[|t k|r|i|t old] fr']; try discriminate Hm.
    destruct (Nat.leb _ _); [discriminate Hm|].
    destruct (Z.ltb _ _). { cbn in Hm. inversion Hm. left. split; reflexivity. }
    destruct (tasks s) as [|x ts]; [discriminate Hm|].
    destruct (computed x s); [discriminate Hm|].
    destruct (get x s) as [[o [tk|kind idx key a|o'|]]|]; try discriminate Hm.
    destruct (is_blocked tk s); [destruct (tk_ds tk); discriminate Hm|].
    destruct (computed x (resume_contexts x s)); discriminate Hm.
  - (* MResume *)
    right. destruct (get_task t s) as [tk|]; [|discriminate Hm].
    destruct (tk_gen tk); [discriminate Hm|].
    destruct (unwrap (look s) (tk_last tk)); [|discriminate Hm].
    destruct (computed t s); [|discriminate Hm]. cbn in Hm. inversion Hm. split; [reflexivity|]. exists t. left. reflexivity.
  - (* MRun *)
    right. destruct p as [v|v|e0|y k|f k|h k|cx k|cx k|var k|k]; try discriminate Hm.
    + match type of Hm with context [computed t ?s1] => destruct (computed t s1) end; [|discriminate Hm].
      cbn in Hm. inversion Hm. split; [reflexivity|]. exists t. right. eexists. reflexivity.
    + match type of Hm with context [computed t ?s1] => destruct (computed t s1) end; [|discriminate Hm].
      cbn in Hm. inversion Hm. split; [reflexivity|]. exists t. right. eexists. reflexivity.
    + destruct (inst t y s) as [y' s1]. destruct (get_task t s1); [|discriminate Hm].
      destruct (futs (extract y')); discriminate Hm.
    + destruct (create t f s). discriminate Hm.
  - destruct fr as [|[|t k|r|i|t old] fr']; discriminate Hm.
  - destruct fr as [|[|t k|r|i|t old] fr']; discriminate Hm.
  - discriminate Hm.
  - discriminate Hm.
Qed.

(* the frames between the guard and the place where its RuntimeError lands: exactly one _execute and one
   wait_for frame, then either the top level or the value() call of the task that made the synchronous call *)
Lemma guard_frames fr : shape TE fr ->
  exists i r fr', fr = FExec i :: FWait r :: fr' /\
    (fr' = [FTop] \/ exists t k old fr'', fr' = FValue t k :: FCont t old :: fr'' /\ shape TE fr'').
Proof.
  intros H. destruct (shape_TE_inv _ H) as (i & fr1 & -> & H1).
  destruct (shape_TW_inv _ H1) as (r & fr2 & -> & H2). exists i, r, fr2. split; [reflexivity|].
  destruct (shape_TV_inv _ H2) as [->|(t & k & fr3 & -> & H3)]; [left; reflexivity|right].
  destruct (shape_TC_inv _ _ H3) as (t' & old & fr4 & -> & H4 & E). rewrite (E t eq_refl).
  exists t, k, old, fr4. split; [reflexivity|exact H4].
Qed.

Section InvU.
  Variable a0 : option fid.          (* active_task before the outermost call *)
  Variable sb0 : list (Z * Z).       (* the scheduled batches before the outermost call *)
  Variable P : params.

  Definition UInv (fr : list frame) (s : st) : Prop :=
    (InvT a0 TE fr s \/ InvT a0 TW fr s \/ InvT a0 TV fr s) /\ tasks s = [] /\ sb s = [].

  Definition Extra (c : cfg) : Prop :=
    match c_mode c with
    | MUnwind e => e = E_RUNTIME -> UInv (c_frames c) (c_st c)
    | MDone _ => sb (c_st c) = [] \/ sb (c_st c) = sb0
    | MValue _ | MDeliver _ => c_frames c = [FTop] -> sb (c_st c) = [] \/ sb (c_st c) = sb0
    | _ => True
    end.

  Definition Inv2 (c : cfg) : Prop := Inv a0 c /\ Extra c.

  Lemma extra_MValue h fr s : Extra (mkC (MValue h) fr s) -> Extra (step P (mkC (MValue h) fr s)).
  Proof.
    unfold Extra; cbn [c_mode c_frames c_st step]. intros H.
    destruct (computed h s); [exact H|].
    destruct (get h s) as [[o [tk|kind idx key a|o'|]]|]; cbn [c_mode c_frames c_st]; try exact H; try exact I.
    intros E. rewrite sb_flush_batch. exact (H E).
  Qed.

  (* the outermost wait_for ends with an empty task stack, so drop_sb empties the set of scheduled batches *)
  Lemma extra_wait_return root fr s o : InvT a0 TW (FWait root :: fr) s -> Extra (mkC (MDeliver o) fr (drop_sb s)).
  Proof. intros (_ & _ & _ & _ & Ht) E. cbn [c_frames] in E. subst fr. left. apply drop_sb_empty, Ht. cbn. lia. Qed.

  Lemma extra_MWaitHead fr s : Inv a0 (mkC MWaitHead fr s) -> Extra (step P (mkC MWaitHead fr s)).
  Proof.
    intros HI. apply (Inv_to _ _ _ _ TW) in HI; [|reflexivity]. destruct (shape_TW_inv _ (proj1 HI)) as (root & fr' & -> & _).
    cbn [c_mode c_frames c_st step]. destruct (computed root s); [exact (extra_wait_return root fr' s _ HI)|exact I].
  Qed.

  Lemma extra_MAfterExec fr s : Inv a0 (mkC MAfterExec fr s) -> Extra (step P (mkC MAfterExec fr s)).
  Proof.
    intros HI. apply (Inv_to _ _ _ _ TW) in HI; [|reflexivity]. destruct (shape_TW_inv _ (proj1 HI)) as (root & fr' & -> & _).
    cbn [c_mode c_frames c_st step]. destruct (computed root s); [exact (extra_wait_return root fr' s _ HI)|exact I].
  Qed.

  (* the guard: the configuration it leaves satisfies UInv *)
  Lemma extra_MExecLoop fr s : Inv a0 (mkC MExecLoop fr s) -> Extra (step P (mkC MExecLoop fr s)).
  Proof.
    intros HI. apply (Inv_to _ _ _ _ TE) in HI; [|reflexivity]. destruct HI as (Hs & Hc & Ha & Hl & Ht).
    destruct (shape_TE_inv _ Hs) as (init & fr' & E & Hs'). subst fr.
    unfold Extra; cbn [c_mode c_frames c_st step].
    destruct (Nat.leb _ _); [exact I|].
    destruct (Z.ltb _ _).
    { cbn [c_mode c_frames c_st]. intros _. split; [left|split; reflexivity].
      unfold InvT. split; [exact Hs|]. split; [exact Hc|]. split; [exact Ha|]. split; [exact Hl|].
      intros _. reflexivity. }
    destruct (tasks s) as [|x ts]; [exact I|].
    destruct (computed x s); [exact I|].
    destruct (get x s) as [[o [tk|kind idx key a|o'|]]|]; try exact I.
    destruct (is_blocked tk s); [destruct (tk_ds tk); exact I|].
    destruct (computed x (resume_contexts x s)); exact I.
  Qed.

  Lemma extra_MResume t fr s : Extra (step P (mkC (MResume t) fr s)).
  Proof.
    unfold Extra; cbn [c_mode c_frames c_st step].
    destruct (get_task t s) as [tk|]; [|exact I].
    destruct (tk_gen tk); [exact I|].
    destruct (unwrap (look s) (tk_last tk)); [|exact I].
    destruct (computed t s); [|exact I].
    cbn [c_mode]. intros E. destruct (E_ALREADY_not_RUNTIME E).
  Qed.

  Lemma extra_MRun t p fr s : Extra (step P (mkC (MRun t p) fr s)).
  Proof.
    unfold Extra; cbn [c_mode c_frames c_st step].
    destruct p as [v|v|e|y k|f k|h k|cx k|cx k|var k|k]; try exact I.
    - match goal with |- context [computed t ?s1] => destruct (computed t s1) end; [|exact I].
      cbn [c_mode]. intros E. destruct (E_ALREADY_not_RUNTIME E).
    - match goal with |- context [computed t ?s1] => destruct (computed t s1) end; [|exact I].
      cbn [c_mode]. intros E. destruct (E_ALREADY_not_RUNTIME E).
    - destruct (inst t y s) as [y' s1]. destruct (get_task t s1); [|exact I].
      destruct (futs (extract y')); exact I.
    - destruct (create t f s). exact I.
    - cbn [c_mode c_frames]. intros E. discriminate E.
  Qed.

  Lemma extra_MContRet fr s : Extra (step P (mkC MContRet fr s)).
  Proof.
    unfold Extra; cbn [c_mode c_frames c_st step].
    destruct fr as [|[|t k|r|i|t old] fr']; exact I.
  Qed.

  Lemma extra_MDeliver o fr s :
    Inv a0 (mkC (MDeliver o) fr s) -> Extra (mkC (MDeliver o) fr s) -> Extra (step P (mkC (MDeliver o) fr s)).
  Proof.
    intros HI HE. apply (Inv_to _ _ _ _ TV) in HI; [|reflexivity]. destruct HI as (Hs & _).
    destruct (shape_TV_inv _ Hs) as [->|(t & k & fr' & -> & _)].
    - unfold Extra in *; cbn [c_mode c_frames c_st step] in *. apply HE. reflexivity.
    - exact I.
  Qed.

  (* one step of the guard's unwinding: frames are popped until the nearest value() call - of the task
     that made the synchronous call, which goes on running with active_task = itself - or the top level *)
  Lemma inv2_MUnwind fr s : UInv fr s -> Inv2 (step P (mkC (MUnwind E_RUNTIME) fr s)).
  Proof.
    intros (HT & Hts & Hsb).
    assert (HU : forall tg fr', InvT a0 tg fr' s -> tg = TE \/ tg = TW \/ tg = TV -> Extra (mkC (MUnwind E_RUNTIME) fr' s)).
    { intros tg fr' H Htg _. split; [|split; assumption]. destruct Htg as [->|[->| ->]]; auto. }
    destruct HT as [HT|[HT|HT]]; destruct HT as (Hs & Hc & Ha & Hl & Ht).
    - (* inside _execute *)
      destruct (shape_TE_inv _ Hs) as (i & fr' & -> & Hs'). destruct (last_exec0_pop _ _ Hs' Hl) as (Hl' & _).
      split; [exact I|]. apply (HU TW); [|auto]. repeat split; auto.
    - (* inside wait_for *)
      destruct (shape_TW_inv _ Hs) as (r & fr' & -> & Hs').
      split; [exact I|]. apply (HU TV); [|auto]. repeat split; auto.
    - (* inside value() *)
      destruct (shape_TV_inv _ Hs) as [->|(t & k & fr' & -> & Hs')]; cbn [step c_mode c_frames c_st].
      + split; [exact (conj Ha Hts)|left; exact Hsb].
      + split; [|exact I]. apply (Inv_of _ _ _ _ (TC (Some t))); [reflexivity|]. repeat split; auto.
  Qed.

  Theorem step_inv2 c : (forall e, c_mode c = MUnwind e -> e = E_RUNTIME) -> Inv2 c -> Inv2 (step P c).
  Proof.
    destruct c as [m fr s]. intros Hu (HI & HE). destruct m; cbn [c_mode] in Hu.
    - split; [apply step_inv; [reflexivity|exact HI]|apply extra_MValue; exact HE].
    - split; [apply step_inv; [reflexivity|exact HI]|apply extra_MWaitHead; exact HI].
    - split; [apply step_inv; [reflexivity|exact HI]|apply extra_MAfterExec; exact HI].
    - split; [apply step_inv; [reflexivity|exact HI]|apply extra_MExecLoop; exact HI].
    - split; [apply step_inv; [reflexivity|exact HI]|apply extra_MResume].
    - split; [apply step_inv; [reflexivity|exact HI]|apply extra_MRun].
    - split; [apply step_inv; [reflexivity|exact HI]|apply extra_MContRet].
    - split; [apply step_inv; [reflexivity|exact HI]|apply extra_MDeliver; [exact HI|exact HE]].
    - rewrite (Hu e eq_refl) in *. apply inv2_MUnwind. apply HE. reflexivity.
    - split; [exact HI|exact HE].
    - split; [exact HI|exact HE].
  Qed.
End InvU.

Theorem run_inv2 a0 sb0 P n : forall c, Inv2 a0 sb0 c -> guard_unwind_only P n c -> Inv2 a0 sb0 (run P n c).
Proof.
  intros c HI Hn. apply (run_ind P (fun c => forall e, c_mode c = MUnwind e -> e = E_RUNTIME) (Inv2 a0 sb0)); [apply step_inv2|exact HI|].
  intros k Hk. apply Hn. lia.
Qed.

Lemma start_inv2 h s : tasks s = [] -> Inv2 (active s) (sb s) (start h s).
Proof. intros Ht. split; [apply start_inv; exact Ht|]. unfold Extra, start; cbn. intros _. right. reflexivity. Qed.

(* inside a task's code the active task is that task - also in the task that catches the
   RuntimeError of the guard after its nested synchronous call tripped it *)
Theorem active_is_running_U P h s n t p :
  tasks s = [] -> guard_unwind_only P n (start h s) ->
  c_mode (run P n (start h s)) = MRun t p -> active (c_st (run P n (start h s))) = Some t.
Proof.
  intros Ht Hn Hm. pose proof (run_inv2 (active s) (sb s) P n _ (start_inv2 h s Ht) Hn) as (HI & _).
  destruct (run P n (start h s)) as [m fr s']. cbn in Hm. subst m.
  apply (Inv_to _ _ _ _ (TC (Some t))) in HI; [|reflexivity].
  apply (invT_TC_active _ _ _ _ HI).
Qed.

(* general root: when the outermost call is over - value, exception delivered through value(),
   or the guard's RuntimeError escaping to the top - no task is left, active_task is what it was, and the
   set of scheduled batches is empty or untouched (untouched only if the call never entered wait_for) *)
Theorem clean_after_outcome_U P h s n o :
  tasks s = [] -> guard_unwind_only P n (start h s) ->
  c_mode (run P n (start h s)) = MDone o ->
  active (c_st (run P n (start h s))) = active s /\ tasks (c_st (run P n (start h s))) = [] /\
  (sb (c_st (run P n (start h s))) = [] \/ sb (c_st (run P n (start h s))) = sb s).
Proof.
  intros Ht Hn Hm. pose proof (run_inv2 (active s) (sb s) P n _ (start_inv2 h s Ht) Hn) as (HI & HE).
  destruct (run P n (start h s)) as [m fr s']. cbn in Hm. subst m.
  unfold Inv in HI; unfold Extra in HE; cbn [c_mode c_st] in *. destruct HI as (Ha & Hts).
  split; [exact Ha|]. split; [exact Hts|exact HE].
Qed.

Definition sched_fresh (s : st) : Prop := tasks s = [] /\ sb s = [] /\ active s = None.

Lemma sched_fresh_st0 P : sched_fresh (st0 P).
Proof. split; [reflexivity|]. split; reflexivity. Qed.

(* ... on a scheduler that holds no scheduled batch: it is as fresh afterwards as it was before *)
Theorem fresh_after_outcome P h s n o :
  sched_fresh s -> guard_unwind_only P n (start h s) ->
  c_mode (run P n (start h s)) = MDone o -> sched_fresh (c_st (run P n (start h s))).
Proof.
  intros (Ht & Hb & Ha) Hn Hm. destruct (clean_after_outcome_U P h s n o Ht Hn Hm) as (Ha' & Ht' & Hb').
  split; [exact Ht'|]. split; [|congruence]. destruct Hb' as [E|E]; congruence.
Qed.

(* ... and when the root is a task that is not computed yet the call does enter wait_for: whatever the set of
   scheduled batches was before, it is empty afterwards *)
Lemma guard_unwind_only_step P n c :
  is_final (c_mode c) = false -> guard_unwind_only P (S n) c -> guard_unwind_only P n (step P c).
Proof. intros Hf H k Hk e He. apply (H (S k)); [lia|]. rewrite run_S, Hf. exact He. Qed.

Theorem clean_after_task_outcome P h s n o out tk :
  tasks s = [] -> get h s = Some (mkFut out (KTask tk)) -> computed h s = false ->
  guard_unwind_only P n (start h s) ->
  c_mode (run P n (start h s)) = MDone o ->
  active (c_st (run P n (start h s))) = active s /\ tasks (c_st (run P n (start h s))) = [] /\
  sb (c_st (run P n (start h s))) = [].
Proof.
  intros Ht Hg Hc Hn Hm. destruct n as [|n]; [discriminate Hm|].
  rewrite run_S in *. change (is_final (c_mode (start h s))) with false in *. cbv iota in *.
  assert (Hstep : step P (start h s) = mkC MWaitHead [FWait h; FTop] s).
  { unfold start; cbn [step c_mode c_frames c_st]. rewrite Hc, Hg. reflexivity. }
  assert (HI : Inv2 (active s) [] (step P (start h s))).
  { split; [apply step_inv; [reflexivity|apply start_inv; exact Ht]|]. rewrite Hstep. exact I. }
  pose proof (run_inv2 (active s) [] P n _ HI (guard_unwind_only_step P n (start h s) eq_refl Hn)) as (HI' & HE).
  destruct (run P n (step P (start h s))) as [m fr s']. cbn in Hm. subst m.
  unfold Inv in HI'; unfold Extra in HE; cbn [c_mode c_st] in *. destruct HI' as (Ha & Hts).
  split; [exact Ha|]. split; [exact Hts|]. destruct HE as [E|E]; exact E.
Qed.

(* the statement without any hypothesis on the root or on the scheduled batches is false: value() on a
   future that is not an uncomputed task returns without entering wait_for and never looks at the scheduler *)
Definition clean_sb_any_root_statement : Prop :=
  forall P h s n o, tasks s = [] -> guard_unwind_only P n (start h s) ->
    c_mode (run P n (start h s)) = MDone o -> sb (c_st (run P n (start h s))) = [].

Definition stale_P : params := mkP [] 1000 false [].
Definition stale_s : st := with_sb (snd (create [] (FConst (VInt 1)) (st0 stale_P))) [(0, 0)].

Definition guard_ok (c : cfg) : bool := match c_mode c with MUnwind e => Z.eqb e E_RUNTIME | _ => true end.

(* the boolean test, over the configurations of the run computed in one pass *)
Lemma guard_unwind_only_traj P n c : forallb guard_ok (traj P (S n) c) = true -> guard_unwind_only P n c.
Proof.
  rewrite <- (forallb_run P guard_ok), forallb_forall. intros H k Hk e He. specialize (H k). unfold guard_ok in H.
  rewrite He in H. apply Z.eqb_eq, H, in_seq. lia.
Qed.

Definition guard_unwind_only_b (P : params) (n : nat) (c : cfg) : bool :=
  forallb (fun k => match c_mode (run P k c) with MUnwind e => Z.eqb e E_RUNTIME | _ => true end) (seq 0 (S n)).

Theorem clean_sb_any_root_is_false : ~ clean_sb_any_root_statement.
Proof.
  intros H. specialize (H stale_P [0] stale_s 5%nat (Ok (VInt 1)) eq_refl).
  assert (G : guard_unwind_only stale_P 5 (start [0] stale_s)).
  { apply guard_unwind_only_traj. vm_compute. reflexivity. }
  specialize (H G). assert (M : c_mode (run stale_P 5 (start [0] stale_s)) = MDone (Ok (VInt 1))) by (vm_compute; reflexivity).
  specialize (H M). vm_compute in H. discriminate H.
Qed.

Corollary active_is_running_from_U P h s n t p :
  tasks s = [] -> no_unwind P n (start h s) ->
  c_mode (run P n (start h s)) = MRun t p -> active (c_st (run P n (start h s))) = Some t.
Proof. exact (active_is_running P h s n t p). Qed.

Corollary clean_after_outcome_from_U P h s n o :
  tasks s = [] -> no_unwind P n (start h s) ->
  c_mode (run P n (start h s)) = MDone o ->
  active (c_st (run P n (start h s))) = active s /\ tasks (c_st (run P n (start h s))) = [].
Proof. exact (clean_after_outcome P h s n o). Qed.

Definition root_start (p : prog) (s : st) : cfg :=
  start (fst (create [] (FTask p) s)) (snd (create [] (FTask p) s)).

(* what run_root makes of the configuration its run ends in *)
Definition root_result (c : cfg) : option outcome * st :=
  (match c_mode c with MDone o => Some o | _ => None end,
   emit (EvSched (Z.of_nat (length (tasks (c_st c)))) (Z.of_nat (length (sb (c_st c)))) (active (c_st c))) (c_st c)).

Lemma run_root_eq P fuel p s : run_root P fuel p s = root_result (run P fuel (root_start p s)).
Proof.
  unfold run_root, root_start, start, root_result. destruct (create [] (FTask p) s) as [h s1]. cbn [fst snd].
  destruct (c_mode (run P fuel (mkC (MValue h) [FTop] s1))); reflexivity.
Qed.

Lemma run_history_cons P fuel p ps s r os s' :
  run_root P fuel p s = r -> run_history P fuel ps (snd r) = (os, s') -> run_history P fuel (p :: ps) s = (fst r :: os, s').
Proof. intros <- H. cbn [run_history]. destruct (run_root P fuel p s) as [o s1]. cbn [fst snd] in *. rewrite H. reflexivity. Qed.

Lemma run_case_history P fuel ps os s : run_history P fuel ps (st0 P) = (os, s) -> run_case P fuel ps = (os, rev (trace s)).
Proof. unfold run_case. intros ->. reflexivity. Qed.

(* one computation on a fresh scheduler that ends (with a value or any exception, the guard's included)
   leaves a fresh scheduler: str(scheduler) afterwards shows no task, no batch, no active task *)
Theorem run_root_fresh P fuel p s o s' :
  sched_fresh s -> guard_unwind_only P fuel (root_start p s) ->
  run_root P fuel p s = (Some o, s') ->
  sched_fresh s' /\ exists tr, trace s' = EvSched 0 0 None :: tr.
Proof.
  intros HF Hn. rewrite run_root_eq. unfold root_result. intros E.
  assert (HF1 : sched_fresh (snd (create [] (FTask p) s))).
  { destruct HF as (A & B & C). split; [exact A|]. split; [exact B|exact C]. }
  destruct (c_mode (run P fuel (root_start p s))) as [| | | | | | | | |o'|] eqn:Hm; try discriminate E.
  pose proof (fresh_after_outcome P _ _ fuel o' HF1 Hn Hm : sched_fresh (c_st (run P fuel (root_start p s)))) as (A & B & C).
  inversion E; subst. rewrite A, B, C.
  split; [split; [exact A|split; [exact B|exact C]]|]. eexists. reflexivity.
Qed.

(* a history of computations on one thread: every computation ends and unwinds only through the guard *)
Fixpoint history_ok (P : params) (fuel : nat) (ps : list prog) (s : st) : Prop :=
  match ps with
  | [] => True
  | p :: ps' => guard_unwind_only P fuel (root_start p s) /\ fst (run_root P fuel p s) <> None /\
                history_ok P fuel ps' (snd (run_root P fuel p s))
  end.

Lemma history_ok_cons P fuel p ps s r :
  run_root P fuel p s = r -> guard_unwind_only P fuel (root_start p s) -> fst r <> None -> history_ok P fuel ps (snd r) ->
  history_ok P fuel (p :: ps) s.
Proof. intros <- G N H. cbn [history_ok]. auto. Qed.

Theorem run_history_fresh P fuel ps : forall s,
  sched_fresh s -> history_ok P fuel ps s -> sched_fresh (snd (run_history P fuel ps s)).
Proof.
  induction ps as [|p ps IH]; intros s HF HO; [exact HF|]. cbn [run_history history_ok] in *.
  destruct HO as (Hg & Hn & HO).
  destruct (run_root P fuel p s) as [[o|] s1] eqn:E; cbn [fst snd] in *; [|destruct (Hn eq_refl)].
  destruct (run_root_fresh P fuel p s o s1 HF Hg E) as (HF1 & _).
  specialize (IH s1 HF1 HO). destruct (run_history P fuel ps s1) as [os s2]. exact IH.
Qed.

(* the guard trips in the _execute loop of a synchronous call made by task t (frames: _execute, wait_for, then
   t's value() call): four steps later t's body goes on with the RuntimeError as the result of its call, the
   frames of the call are gone, active_task is t, and the scheduler holds no task and no scheduled batch *)
Theorem guard_caught P a0 i r t k fr s :
  Inv a0 (mkC MExecLoop (FExec i :: FWait r :: FValue t k :: fr) s) ->
  (i < length (tasks s))%nat -> (p_maxstack P < Z.of_nat (length (tasks s)))%Z ->
  let c' := run P 4 (mkC MExecLoop (FExec i :: FWait r :: FValue t k :: fr) s) in
  c_mode c' = MRun t (k (Err E_RUNTIME)) /\ c_frames c' = fr /\
  active (c_st c') = Some t /\ tasks (c_st c') = [] /\ sb (c_st c') = [].
Proof.
  intros HI Hi Hm.
  cbv zeta. rewrite run_S. cbn [is_final c_mode]. rewrite (guard_step P i _ s Hi Hm).
  cbn [run step c_mode c_frames c_st].
  split; [reflexivity|]. split; [reflexivity|]. split; [|split; reflexivity].
  apply (Inv_to _ _ _ _ TE) in HI; [|reflexivity]. destruct HI as (Hs & Hc & Ha & _).
  cbn [shape nearest_cont] in Hs, Ha.
  destruct (shape_TC_inv _ _ Hs) as (t' & old & fr' & -> & _ & E). rewrite (E t eq_refl) in Ha. exact Ha.
Qed.

(* non-vacuity: the guard trips inside a synchronous call, the calling task catches the RuntimeError *)
Definition ret_of (o : outcome) : prog := match o with Ok v => Ret v | Err e => Raise e end.

Fixpoint chain (n : nat) (lf : leaf) : prog :=
  match n with
  | O => Yield (YLeaf lf) ret_of
  | S n' => Yield (YLeaf (LNew (FTask (chain n' lf)))) ret_of
  end.

(* harness/props/c08.py _GUARD_CAUGHT *)
Definition caught_inner : prog :=
  Let (FTask (chain 6 (LNew (FConst (VInt 1)))))
      (fun h2 => Sync h2 (fun o => match o with
                                   | Err _ => Probe (fun _ => Probe (fun _ => Ret (VInt 7)))
                                   | Ok _ => Probe (fun _ => Ret (VInt 7))
                                   end)).
Definition caught_prog : prog :=
  Let (FTask caught_inner) (fun h1 => Sync h1 (fun o => Probe (fun _ => ret_of o))).
Definition caught_P : params := mkP [] 4 false [].
Definition caught_start : cfg := root_start caught_prog (st0 caught_P).

Definition probes (s : st) : list event :=
  filter (fun e => match e with EvProbe _ _ | EvGot _ _ => true | _ => false end) (rev (trace s)).

Example guard_caught_run :
  guard_unwind_only caught_P 200 caught_start /\
  ~ no_unwind caught_P 200 caught_start /\
  c_mode (run caught_P 200 caught_start) = MDone (Ok (VInt 7)) /\
  probes (c_st (run caught_P 200 caught_start)) =
    [EvGot [1] (Err E_RUNTIME); EvProbe [1] (Some [1]); EvProbe [1] (Some [1]);
     EvGot [0] (Ok (VInt 7)); EvProbe [0] (Some [0])] /\
  sched_fresh (c_st (run caught_P 200 caught_start)).
Proof.
  pose (l := traj caught_P 201 caught_start). pose (c := nth 200 l caught_start).
  assert (E : forallb guard_ok l = true /\ forallb (fun c => negb (is_unwind (c_mode c))) l = false /\
    c_mode c = MDone (Ok (VInt 7)) /\
    probes (c_st c) =
      [EvGot [1] (Err E_RUNTIME); EvProbe [1] (Some [1]); EvProbe [1] (Some [1]);
       EvGot [0] (Ok (VInt 7)); EvProbe [0] (Some [0])] /\
    sched_fresh (c_st c)) by (vm_compute; repeat split; reflexivity).
  destruct E as (E1 & E2 & E3). rewrite run_traj.
  split; [apply guard_unwind_only_traj, E1|]. split; [|exact E3].
  intros H. apply no_unwind_b_iff in H. rewrite no_unwind_b_traj in H. unfold l in E2. rewrite E2 in H. discriminate H.
Qed.

(* the RuntimeError escapes to the top level while a batch of the same yield is scheduled
   (harness/props/c08.py _GUARD_BATCH); the next computation on the thread starts on a fresh scheduler *)
Definition escape_prog : prog :=
  Yield (YTuple [YLeaf (LNew (FItem 0 1 (ASet (VInt 5)))); YLeaf (LNew (FTask (chain 6 (LNew (FConst (VInt 1))))))]) ret_of.
Definition next_prog : prog := Yield (YLeaf (LNew (FItem 1 2 (ASet (VInt 6))))) ret_of.

Example guard_escapes_run :
  history_ok caught_P 200 [escape_prog; next_prog] (st0 caught_P) /\
  fst (run_history caught_P 200 [escape_prog; next_prog] (st0 caught_P)) = [Some (Err E_RUNTIME); Some (Ok (VInt 6))] /\
  filter (fun e => match e with EvSched _ _ _ | EvFlush _ _ _ => true | _ => false end)
         (snd (run_case caught_P 200 [escape_prog; next_prog])) =
    [EvSched 0 0 None; EvFlush 1 0 [[7]]; EvSched 0 0 None].
Proof.
  pose (c1 := root_start escape_prog (st0 caught_P)). pose (l1 := traj caught_P 201 c1). pose (r1 := root_result (nth 200 l1 c1)).
  pose (c2 := root_start next_prog (snd r1)). pose (l2 := traj caught_P 201 c2). pose (r2 := root_result (nth 200 l2 c2)).
  assert (E : forallb guard_ok l1 = true /\ fst r1 = Some (Err E_RUNTIME) /\
              forallb guard_ok l2 = true /\ fst r2 = Some (Ok (VInt 6)) /\
              filter (fun e => match e with EvSched _ _ _ | EvFlush _ _ _ => true | _ => false end) (rev (trace (snd r2))) =
                [EvSched 0 0 None; EvFlush 1 0 [[7]]; EvSched 0 0 None])
    by (vm_compute; repeat split; reflexivity).
  destruct E as (G1 & M1 & G2 & M2 & T).
  assert (R1 : run_root caught_P 200 escape_prog (st0 caught_P) = r1) by (rewrite run_root_eq, run_traj; reflexivity).
  assert (R2 : run_root caught_P 200 next_prog (snd r1) = r2) by (rewrite run_root_eq, run_traj; reflexivity).
  apply guard_unwind_only_traj in G1, G2. clearbody r1 l1 r2 l2.
  assert (Hh : run_history caught_P 200 [escape_prog; next_prog] (st0 caught_P) = ([fst r1; fst r2], snd r2))
    by (apply (run_history_cons _ _ _ _ _ _ _ _ R1), (run_history_cons _ _ _ _ _ _ _ _ R2); reflexivity).
  rewrite (run_case_history _ _ _ _ _ Hh), Hh. cbn [fst snd]. rewrite M1, M2.
  split; [|split; [reflexivity|exact T]].
  apply (history_ok_cons _ _ _ _ _ _ R1 G1); [rewrite M1; discriminate|].
  apply (history_ok_cons _ _ _ _ _ _ R2 G2); [rewrite M2; discriminate|exact I].
Qed.
