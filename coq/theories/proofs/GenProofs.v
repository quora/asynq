(* Proofs about the Gen model (C17): what list() and take_first return (all values; the first n, asking for no more
   than needed), that no end marker leaks into them, that a stopped generator stays stopped and advancing is guarded,
   the same for nested generators, and where the code as found differs (take_first_orig). *)
From Asynq Require Import Base Gen.

Definition pending (s : gstate) : bool :=
  match last_task s with LPending _ => true | _ => false end.

(* invariant of every reachable state: a stopped generator has nothing left to run and no
   uncomputed task *)
Definition wf (s : gstate) : Prop :=
  is_stopped s = true -> rest s = [] /\ pending s = false.

Definition clean_step (st : step) : bool :=
  match st with GAwait (TErr _) => false | GRaise _ => false | _ => true end.
(* no failing await, no raise: every await succeeds *)
Definition clean (b : list step) : Prop := forallb clean_step b = true.

(* the sequential reference: the Values of a body in program order *)
Fixpoint values (b : list step) : list val :=
  match b with
  | [] => []
  | GValue v :: b' => v :: values b'
  | _ :: b' => values b'
  end.

(* the shortest prefix of b that contains k Values (all of b when it has fewer) *)
Fixpoint needed (k : nat) (b : list step) : list step :=
  match b with
  | [] => []
  | st :: b' =>
    match k with
    | O => []
    | S k' => st :: needed (match st with GValue _ => k' | _ => k end) b'
    end
  end.

Lemma clean_cons st b : clean (st :: b) -> clean_step st = true /\ clean b.
Proof. unfold clean; cbn. intros H. apply andb_true_iff in H. exact H. Qed.

Lemma clean_app a b : clean a -> clean b -> clean (a ++ b).
Proof. unfold clean. intros H1 H2. rewrite forallb_app, H1, H2. reflexivity. Qed.

Lemma clean_app_r a b : clean (a ++ b) -> clean b.
Proof. unfold clean. rewrite forallb_app. intros H. apply andb_true_iff in H. tauto. Qed.

Lemma values_app a b : values (a ++ b) = values a ++ values b.
Proof. induction a as [|st a IH]; auto. destruct st; cbn; rewrite IH; reflexivity. Qed.

Lemma needed_0 b : needed 0 b = [].
Proof. destruct b; reflexivity. Qed.

Lemma needed_prefix : forall b k, exists tl, b = needed k b ++ tl.
Proof.
  induction b as [|st b IH]; intros k; [exists []; reflexivity|].
  destruct k; [exists (st :: b); reflexivity|]. cbn.
  destruct (IH (match st with GValue _ => k | _ => S k end)) as [tl E]. exists tl. cbn. f_equal. exact E.
Qed.

Lemma values_needed : forall b k, values (needed k b) = firstn k (values b).
Proof.
  induction b as [|st b IH]; intros k; [destruct k; reflexivity|].
  destruct k; [destruct st; reflexivity|]. destruct st; cbn; rewrite IH; reflexivity.
Qed.

(* the prefix for k + 1 Values is the prefix for the first one, then the prefix for k more *)
Lemma needed_S : forall b k b', b = needed 1 b ++ b' -> values b <> [] -> needed (S k) b = needed 1 b ++ needed k b'.
Proof.
  induction b as [|[o|v|e] b IH]; intros k b' E Hv; [exfalso; apply Hv; reflexivity| | |]; cbn in *.
  - injection E as E'. f_equal. exact (IH k b' E' Hv).
  - rewrite needed_0 in *. injection E as ->. reflexivity.
  - injection E as E'. f_equal. exact (IH k b' E' Hv).
Qed.

Lemma needed_1_pos b v vs : values b = v :: vs -> (0 < length (needed 1 b))%nat.
Proof. intros H. pose proof (values_needed b 1) as Q. rewrite H in Q. destruct (needed 1 b); [discriminate Q|cbn; lia]. Qed.

Lemma needed_no_values : forall b k, values b = [] -> needed (S k) b = b.
Proof. induction b as [|[o|v|e] b IH]; intros k H; cbn in *; try discriminate; try rewrite IH; auto. Qed.

Definition ok_out (o : tres) : bool := match o with TErr _ => false | _ => true end.
Definition is_end (r : tres) : bool := match r with TEnd => true | _ => false end.

Fixpoint task_run (b : list step) : tres * list step * list tres :=
  match b with
  | [] => (TEnd, [], [])
  | GValue v :: b' => (TVal v, b', [])
  | GRaise e :: _ => (TErr e, [], [])
  | GAwait o :: b' =>
    if ok_out o then let '(r, b'', outs) := task_run b' in (r, b'', o :: outs) else (o, b', [])
  end.

Lemma inner_loop_await f b p lg lt st yr o : ok_out o = true ->
  inner_loop (S f) (mkG (GAwait o :: b) p lg lt st) yr = inner_loop f (mkG b (S p) (lg ++ [yr]) lt st) o.
Proof. destruct o; [reflexivity | reflexivity | discriminate]. Qed.

Lemma inner_loop_task : forall b f p lg lt st yr, (length b < f)%nat ->
  inner_loop f (mkG b p lg lt st) yr =
  let '(r, b', outs) := task_run b in
  (mkG b' (S (length outs + p)) (lg ++ yr :: outs) lt (if is_end r then true else st), r).
Proof.
  induction b as [|[o|v|e] b IH]; intros [|f] p lg lt st yr Hf; try (cbn in Hf; lia); try reflexivity.
  cbn in Hf. cbn [task_run]. destruct (ok_out o) eqn:Ho; [|destruct o; try discriminate; reflexivity].
  rewrite inner_loop_await, IH by (exact Ho || lia). destruct (task_run b) as [[r b'] outs].
  cbn [length]. rewrite <- app_assoc, Nat.add_succ_r. reflexivity.
Qed.

(* more fuel changes nothing *)
Lemma inner_loop_fuel f1 f2 s yr :
  (length (rest s) < f1)%nat -> (length (rest s) < f2)%nat -> inner_loop f1 s yr = inner_loop f2 s yr.
Proof. destruct s as [b p lg lt st]. cbn [rest]. intros H1 H2. rewrite !inner_loop_task by assumption. reflexivity. Qed.

Lemma compute_task s o : last_task s = LPending o ->
  compute s = let '(r, b', outs) := task_run (GAwait o :: rest s) in
              (mkG b' (length outs + pulls s) (sent s ++ outs) (LDone r) (if is_end r then true else is_stopped s), r).
Proof.
  destruct s as [b p lg lt st]. cbn [last_task rest pulls sent is_stopped]. intros ->. unfold compute. cbn [last_task rest task_run].
  destruct (ok_out o) eqn:Ho.
  - replace (match o with TErr e => _ | _ => _ end) with
      (let '(s1, r) := inner_loop (S (length b)) (mkG b p lg (LPending o) st) o in (set_last s1 (LDone r), r))
      by (destruct o; try discriminate; reflexivity).
    rewrite inner_loop_task by lia. destruct (task_run b) as [[r b'] outs]. reflexivity.
  - destruct o; try discriminate. cbn. rewrite app_nil_r. reflexivity.
Qed.

Lemma send_cases s : pending s = false -> is_stopped s = false ->
  send s =
  match rest s with
  | [] => (mkG [] (S (pulls s)) (sent s ++ [TVal VNone]) (last_task s) true, SRaise E_STOPITER)
  | GAwait o :: b => (mkG b (S (pulls s)) (sent s ++ [TVal VNone]) (LPending o) false, STask)
  | GValue v :: b => (mkG b (S (pulls s)) (sent s ++ [TVal VNone]) (last_task s) false, SConst v)
  | GRaise e :: _ => (mkG [] (S (pulls s)) (sent s ++ [TVal VNone]) (last_task s) false, SRaise e)
  end.
Proof.
  destruct s as [r p lg lt st]. unfold pending. cbn [rest last_task is_stopped pulls sent]. intros Hp ->.
  unfold send. destruct lt; try discriminate; destruct r as [|[o|v|e] r]; reflexivity.
Qed.

(* one iteration of `for task in gen: value = yield task` on a generator that is neither waiting for its last task
   nor exhausted: next() resumes the body once; if that yields a future, the task runs on from there *)
Lemma next_value_cases s : pending s = false -> is_stopped s = false ->
  next_value s =
  let '(r, b', outs) := task_run (rest s) in
  let t := match rest s with GAwait _ :: _ => true | _ => false end in
  (mkG b' (length outs + S (pulls s)) (sent s ++ TVal VNone :: outs) (if t then LDone r else last_task s)
       (if is_end r then true else is_stopped s),
   match r with
   | TVal v => NVItem r
   | TEnd => if t then NVItem TEnd else NVStop
   | TErr e => if t then NVRaise e else if e =? E_STOPITER then NVStop else NVRaise e
   end).
Proof.
  intros Hp Hs. unfold next_value. rewrite (send_cases s Hp Hs).
  destruct s as [[|[o|v|e] b] p lg lt st]; cbn [rest pulls sent last_task is_stopped] in *; subst st; try reflexivity.
  match goal with |- context [compute ?z] => rewrite (compute_task z o eq_refl) end. cbn [rest pulls sent is_stopped].
  destruct (task_run (GAwait o :: b)) as [[r b'] outs]. rewrite <- app_assoc. destruct r; reflexivity.
Qed.

Definition okitem (b : list step) (t : tres) : Prop := exists v, t = TVal v /\ In (GValue v) b.

Lemma okitem_suffix pre b t : okitem b t -> okitem (pre ++ b) t.
Proof. intros (v & E & H). exists v. split; auto. apply in_or_app; auto. Qed.

Lemma task_run_gen : forall b r b' outs, task_run b = (r, b', outs) ->
  (exists pre, b = pre ++ b') /\ (forall v, r = TVal v -> In (GValue v) b) /\
  (length b' <= pred (length b))%nat /\ (r = TEnd -> b' = []).
Proof.
  induction b as [|[o|v|e] b IH]; intros r b' outs E; cbn [task_run] in E.
  - inversion E. split; [exists []; reflexivity|]. split; [discriminate|]. auto.
  - destruct (ok_out o) eqn:Ho.
    + destruct (task_run b) as [[r0 b0] outs0]. inversion E; subst.
      destruct (IH _ _ _ eq_refl) as ((pre & I1) & I2 & I3 & I4).
      split; [exists (GAwait o :: pre); cbn; f_equal; exact I1|]. split; [intros v Hv; right; auto|].
      split; [cbn; lia|exact I4].
    + destruct o as [| |e]; try discriminate Ho. inversion E; subst. split; [exists [GAwait (TErr e)]; reflexivity|]. split; [discriminate|]. split; [cbn; lia|discriminate].
  - inversion E; subst. split; [exists [GValue v]; reflexivity|].
    split; [intros v0 Hv; inversion Hv; left; reflexivity|]. split; [cbn; lia|discriminate].
  - inversion E; subst. split; [exists (GRaise e :: b); rewrite app_nil_r; reflexivity|].
    split; [discriminate|]. split; [cbn; lia|discriminate].
Qed.

Lemma advance_guard s first :
  last_task s = LPending first -> send s = (s, SRaise E_RUNTIME).
Proof. intros H. unfold send. rewrite H. reflexivity. Qed.

Lemma stopped_send s :
  is_stopped s = true -> pending s = false -> send s = (s, SRaise E_STOPITER).
Proof.
  unfold send, pending. intros H1 H2. destruct (last_task s); try discriminate; rewrite H1; reflexivity.
Qed.

Lemma stopped_next_value s :
  is_stopped s = true -> pending s = false -> next_value s = (s, NVStop).
Proof. intros H1 H2. unfold next_value. rewrite stopped_send; auto. Qed.

Lemma wf_stopped_nil s : rest s = [] -> pending s = false -> wf s.
Proof. intros H1 H2 _. auto. Qed.

Lemma wf_running s : is_stopped s = false -> wf s.
Proof. intros H1 H2. congruence. Qed.

Lemma next_value_gen s :
  let r := next_value s in
  (exists pre, rest s = pre ++ rest (fst r)) /\
  (forall t, snd r = NVItem t ->
     (t = TEnd \/ okitem (rest s) t) /\ (length (rest (fst r)) < length (rest s))%nat) /\
  (pending s = false -> pending (fst r) = false) /\
  (wf s -> wf (fst r)).
Proof.
  cbn zeta. destruct (pending s) eqn:Hp; [|destruct (is_stopped s) eqn:Hs].
  - assert (E : next_value s = (s, NVRaise E_RUNTIME)).
    { unfold pending in Hp. unfold next_value. destruct (last_task s) eqn:El; try discriminate. rewrite (advance_guard s _ El). reflexivity. }
    rewrite E. split; [exists []; reflexivity|]. split; [discriminate|]. split; [discriminate|auto].
  - rewrite (stopped_next_value s Hs Hp). split; [exists []; reflexivity|]. split; [discriminate|]. auto.
  - rewrite (next_value_cases s Hp Hs). unfold wf, pending in *.
    destruct s as [[|a b] p lg lt st]; cbn [rest pulls sent last_task is_stopped] in *; subst st.
    { cbn. split; [exists []; reflexivity|]. split; [discriminate|]. auto. }
    pose proof (task_run_gen (a :: b)) as G. destruct (task_run (a :: b)) as [[r b'] outs].
    destruct (G _ _ _ eq_refl) as (G1 & G2 & G3 & G4). cbn [fst snd rest last_task is_stopped length pred] in *.
    split; [exact G1|]. split; [|split].
    + intros t Ht. split; [|lia]. destruct r as [v| |e].
      * inversion Ht. right. exists v. auto.
      * left. destruct a; inversion Ht; reflexivity.
      * destruct a; try destruct (e =? E_STOPITER); discriminate.
    + intros _. destruct a; try reflexivity; exact Hp.
    + intros _ Hst. destruct r; try discriminate Hst. split; [auto|]. destruct a; try reflexivity; exact Hp.
Qed.

Lemma send_wf s : wf s -> wf (fst (send s)).
Proof.
  intros Hw. destruct (pending s) eqn:Hp; [|destruct (is_stopped s) eqn:Hs].
  - unfold pending in Hp. destruct (last_task s) eqn:El; try discriminate. rewrite (advance_guard s _ El). exact Hw.
  - rewrite (stopped_send s Hs Hp). exact Hw.
  - rewrite (send_cases s Hp Hs). destruct (rest s) as [|[] ?]; try (apply wf_running; reflexivity).
    apply wf_stopped_nil; [reflexivity|exact Hp].
Qed.

Lemma compute_not_pending s : pending s = false -> fst (compute s) = s.
Proof. unfold pending, compute. destruct (last_task s); try discriminate; reflexivity. Qed.

Lemma compute_wf s : wf s -> wf (fst (compute s)).
Proof.
  intros Hw. destruct (last_task s) as [|o|r0] eqn:El; try (rewrite compute_not_pending; [exact Hw|unfold pending; rewrite El; reflexivity]).
  rewrite (compute_task s o El). pose proof (task_run_gen (GAwait o :: rest s)) as G.
  destruct (task_run (GAwait o :: rest s)) as [[r b'] outs]. destruct (G _ _ _ eq_refl) as (_ & _ & G3 & G4).
  intros Hst. cbn [fst is_stopped rest] in *. split; [|reflexivity]. destruct (is_end r) eqn:Er.
  - apply G4. destruct r; try discriminate; reflexivity.
  - destruct (Hw Hst) as [_ Hp]. unfold pending in Hp. rewrite El in Hp. discriminate.
Qed.

(* list_of_generator's loop is take_first's loop with a bound that is never met *)
Lemma list_loop_take : forall f s i n data, n <= i -> list_loop f s data = take_loop f s i n data.
Proof.
  induction f as [|f IH]; intros s i n data H; [reflexivity|]. cbn [list_loop take_loop].
  destruct (next_value s) as [s1 [|e|[v| |e]]]; auto; try (apply IH; lia);
    (destruct (Z.eqb_spec i (n - 1)); [lia | apply IH; lia]).
Qed.

Lemma list_is_take s : list_of_generator s = take_loop (fuel_of s) s 0 0 [].
Proof. apply list_loop_take. lia. Qed.

Lemma take_loop_gen : forall f s i n ret,
  let r := take_loop f s i n ret in
  (wf s -> wf (fst r)) /\ (pending s = false -> pending (fst r) = false) /\
  (forall l, snd r = LOk l -> forall t, In t l -> In t ret \/ okitem (rest s) t) /\
  ((length (rest s) < f)%nat -> snd r <> LFuel).
Proof.
  induction f as [|f IH]; intros s i n ret.
  - cbn. split; [|split; [|split]]; auto; try discriminate. intros; lia.
  - cbn [take_loop]. pose proof (next_value_gen s) as H. cbn zeta in H.
    destruct (next_value s) as [s1 x]. cbn [fst snd] in H. destruct H as ((pre & H1) & H2 & H3 & H4).
    (* the loop goes on from s1, where the body is shorter, with the items ret' *)
    assert (Hrec : forall i' ret', (forall t, In t ret' -> In t ret \/ okitem (rest s) t) ->
              (length (rest s1) < length (rest s))%nat ->
              let r := take_loop f s1 i' n ret' in
              (wf s -> wf (fst r)) /\ (pending s = false -> pending (fst r) = false) /\
              (forall l, snd r = LOk l -> forall t, In t l -> In t ret \/ okitem (rest s) t) /\
              ((length (rest s) < S f)%nat -> snd r <> LFuel)).
    { intros i' ret' Hin Hl. destruct (IH s1 i' n ret') as (I1 & I2 & I3 & I4). split; [|split; [|split]]; auto.
      - intros l E t Ht. destruct (I3 l E t Ht) as [?|Hk]; auto. right. rewrite H1. apply okitem_suffix; auto.
      - intros Hf. apply I4. lia. }
    destruct x as [|e|t]; try (cbn; split; [|split; [|split]]; auto; try discriminate; intros l [= <-]; auto).
    destruct (H2 t eq_refl) as [[->|(v & -> & Hv)] Hl]; [apply Hrec; auto|].
    assert (Hin1 : forall t, In t (ret ++ [TVal v]) -> In t ret \/ okitem (rest s) t).
    { intros t Hd. apply in_app_or in Hd as [?|[<-|[]]]; auto. right. exists v; auto. }
    destruct (i =? n - 1); [|apply Hrec; auto].
    cbn. split; [|split; [|split]]; auto; try discriminate. intros l [= <-]. exact Hin1.
Qed.

(* END_OF_GENERATOR never appears in a result, and every element is a Value of the body — for every
   body (failing awaits, raises, END-valued futures included) and every state *)
Lemma okitem_not_end b : ~ okitem b TEnd.
Proof. intros (v & E & _). discriminate. Qed.

Lemma list_only_values s l :
  snd (list_of_generator s) = LOk l -> forall t, In t l -> okitem (rest s) t.
Proof.
  rewrite list_is_take. intros E t Hin. destruct (take_loop_gen (fuel_of s) s 0 0 []) as (_ & _ & H & _).
  destruct (H l E t Hin) as [[]|]; auto.
Qed.

Lemma take_only_values s n l :
  snd (take_first s n) = LOk l -> forall t, In t l -> okitem (rest s) t.
Proof.
  unfold take_first. destruct (n <=? 0).
  - cbn. intros E. inversion E. intros t [].
  - intros E t Hin. destruct (take_loop_gen (fuel_of s) s 0 n []) as (_ & _ & H & _).
    destruct (H l E t Hin) as [[]|]; auto.
Qed.

Lemma no_end_marker s n l :
  (snd (list_of_generator s) = LOk l -> ~ In TEnd l) /\
  (snd (take_first s n) = LOk l -> ~ In TEnd l).
Proof.
  split; intros E Hin.
  - apply (okitem_not_end (rest s)). eapply list_only_values; eauto.
  - apply (okitem_not_end (rest s)). eapply take_only_values; eauto.
Qed.

Lemma step_op_wf s h o : wf s -> wf (fst (fst (step_op (s, h) o))).
Proof.
  intros H. destruct o as [| | |n]; cbn [step_op].
  - pose proof (send_wf s H) as G. destruct (send s) as [s1 r]. destruct r; exact G.
  - destruct h; cbn; auto. pose proof (compute_wf s H) as G. destruct (compute s) as [s1 t]. cbn in *. auto.
  - rewrite list_is_take. pose proof (take_loop_gen (fuel_of s) s 0 0 []) as G. cbn zeta in G.
    destruct (take_loop (fuel_of s) s 0 0 []) as [s1 r]. cbn [fst snd] in *. apply G; auto.
  - unfold take_first. destruct (n <=? 0); [cbn; auto|].
    pose proof (take_loop_gen (fuel_of s) s 0 n []) as G. cbn zeta in G.
    destruct (take_loop (fuel_of s) s 0 n []) as [s1 r]. cbn [fst snd] in *. apply G; auto.
Qed.

Lemma run_wf : forall ops sh, wf (fst sh) -> wf (fst (fst (run sh ops))).
Proof.
  induction ops as [|o ops IH]; intros [s h] H; cbn [run]; auto.
  pose proof (step_op_wf s h o H) as G. destruct (step_op (s, h) o) as [sh1 r]. cbn [fst] in G.
  specialize (IH sh1 G). destruct (run sh1 ops) as [sh2 rs]. cbn in *. auto.
Qed.

Lemma init_wf b : wf (init b).
Proof. intros H. discriminate. Qed.

(* on a clean body a task runs through the awaits up to the next Value, or to the end: it consumes needed 1 b *)
Lemma task_run_clean : forall b, clean b ->
  let '(r, b', outs) := task_run b in
  b = needed 1 b ++ b' /\ r = match values b with v :: _ => TVal v | [] => TEnd end /\
  length (needed 1 b) = (length outs + match values b with _ :: _ => 1 | [] => 0 end)%nat.
Proof.
  induction b as [|[o|v|e] b IH]; intros Hc; cbn [task_run needed values]; [auto| |rewrite needed_0; auto|];
    apply clean_cons in Hc as [H1 H2]; [|discriminate].
  change (clean_step (GAwait o)) with (ok_out o) in H1. rewrite H1. specialize (IH H2).
  destruct (task_run b) as [[r b'] outs]. destruct IH as (I1 & I2 & I3). cbn [app length]. rewrite I3, <- I1. auto.
Qed.

(* one iteration of `for task in gen: value = yield task` on a clean body: what is consumed is the prefix up to the
   next Value, which is handed out; a body without Values is run to its end *)
Lemma next_value_clean s :
  clean (rest s) -> pending s = false -> is_stopped s = false ->
  let s' := fst (next_value s) in
  rest s = needed 1 (rest s) ++ rest s' /\ pending s' = false /\ wf s' /\ clean (rest s') /\
  match values (rest s) with
  | v :: _ => snd (next_value s) = NVItem (TVal v) /\ is_stopped s' = false /\
              pulls s' = (pulls s + length (needed 1 (rest s)))%nat
  | [] => snd (next_value s) = (if rest s then NVStop else NVItem TEnd) /\ rest s' = [] /\ is_stopped s' = true /\
          pulls s' = S (pulls s + length (rest s))
  end.
Proof.
  intros Hc Hp Hs. cbn zeta. rewrite (next_value_cases s Hp Hs). pose proof (task_run_clean (rest s) Hc) as T.
  destruct (task_run (rest s)) as [[r b'] outs]. destruct T as (T1 & -> & T3). cbn [fst snd rest pulls is_stopped].
  assert (Hc' : clean b') by (rewrite T1 in Hc; exact (clean_app_r _ _ Hc)).
  assert (Hp' : pending (mkG b' 0 [] (if match rest s with GAwait _ :: _ => true | _ => false end then
                                         LDone match values (rest s) with v :: _ => TVal v | [] => TEnd end else last_task s) false) = false)
    by (destruct (rest s) as [|[] ?]; try reflexivity; exact Hp).
  split; [exact T1|]. split; [exact Hp'|]. destruct (values (rest s)) as [|v vs] eqn:Hv; cbn [is_end]; rewrite ?Hs.
  - rewrite (needed_no_values _ 0 Hv) in T1, T3. assert (b' = []) as -> by (apply (app_inv_head (rest s)); rewrite app_nil_r; symmetry; exact T1).
    split; [apply wf_stopped_nil; [reflexivity|exact Hp']|]. split; [reflexivity|].
    split; [|repeat split; lia]. destruct (rest s) as [|[| |e] ?] eqn:Er; rewrite ?Er in *; try reflexivity; [discriminate Hv|].
    apply clean_cons in Hc as [Hc _]. discriminate Hc.
  - split; [apply wf_running; reflexivity|]. split; [exact Hc'|]. repeat split. lia.
Qed.

Lemma values_next s s' : rest s = needed 1 (rest s) ++ rest s' -> values (rest s') = tl (values (rest s)).
Proof.
  intros E. pose proof (f_equal values E) as H. rewrite values_app, values_needed in H.
  destruct (values (rest s)) as [|v vs]; cbn in H; [symmetry; exact H|]. inversion H. reflexivity.
Qed.

Lemma take_loop_stopped f s i n ret :
  is_stopped s = true -> pending s = false -> take_loop (S f) s i n ret = (s, LOk ret).
Proof. intros H1 H2. cbn [take_loop]. rewrite stopped_next_value; auto. Qed.

(* minimality: when b has at least k >= 1 Values, needed k b ends with the k-th Value *)
Lemma needed_ends_with_value : forall b k,
  (S k <= length (values b))%nat ->
  exists p v, needed (S k) b = p ++ [GValue v] /\ length (values p) = k.
Proof.
  induction b as [|st b IH]; intros k H; [cbn in H; lia|].
  destruct st as [o|v|e]; cbn in H.
  - destruct (IH k H) as (p & v & E & L). exists (GAwait o :: p), v. cbn. rewrite E. auto.
  - destruct k.
    + exists [], v. cbn. rewrite needed_0. auto.
    + destruct (IH k ltac:(lia)) as (p & v' & E & L). exists (GValue v :: p), v'. cbn. rewrite E. cbn. auto.
  - destruct (IH k H) as (p & v & E & L). exists (GRaise e :: p), v. cbn. rewrite E. auto.
Qed.

(* the loop of take_first on a clean body with k + 1 more Values to take - or, for list_of_generator, with no bound
   (n <= i) and k at least the number of Values left *)
Lemma take_loop_clean : forall f s i n ret k,
  wf s -> pending s = false -> clean (rest s) -> (length (rest s) + 2 <= f)%nat ->
  n - i = Z.of_nat (S k) \/ (n <= i /\ (length (values (rest s)) <= k)%nat) ->
  let r := take_loop f s i n ret in
  snd r = LOk (ret ++ map TVal (firstn (S k) (values (rest s)))) /\
  rest s = needed (S k) (rest s) ++ rest (fst r) /\
  (pulls (fst r) <= pulls s + length (needed (S k) (rest s)) + 1)%nat /\
  ((S k <= length (values (rest s)))%nat ->
     pulls (fst r) = (pulls s + length (needed (S k) (rest s)))%nat) /\
  ((length (values (rest s)) <= k)%nat -> rest (fst r) = [] /\ is_stopped (fst r) = true).
Proof.
  induction f as [|f IH]; intros s i n ret k Hwf Hp Hc Hf Hk; [lia|].
  destruct (is_stopped s) eqn:Hs.
  - rewrite take_loop_stopped by auto. destruct (Hwf Hs) as [Hr _]. rewrite Hr. cbn.
    rewrite app_nil_r. repeat split; auto; lia.
  - cbn [take_loop]. destruct (next_value_clean s Hc Hp Hs) as (E & Hp1 & Hw1 & Hc1 & H). pose proof (values_next s _ E) as Hv.
    pose proof (f_equal (@length _) E) as Hl. rewrite app_length in Hl.
    destruct (next_value s) as [s1 x]. cbn [fst snd] in *.
    destruct (values (rest s)) as [|v vs] eqn:Hvs; cbn [tl length] in *.
    + (* no Value left: the body is run to its end, the loop stops at the next turn *)
      destruct H as (-> & H1 & H2 & H3). rewrite (needed_no_values _ k Hvs). cbn [firstn map length].
      destruct (rest s) as [|a b].
      * cbn [fst snd]. rewrite H1, !app_nil_r. repeat split; auto; lia.
      * destruct f as [|f]; [cbn in Hf; lia|]. rewrite take_loop_stopped by auto. cbn [fst snd]. rewrite H1, !app_nil_r.
        repeat split; auto; lia.
    + destruct H as (-> & H2 & H3). rewrite (needed_S _ k _ E) by (rewrite Hvs; discriminate). rewrite app_length.
      pose proof (needed_1_pos _ _ _ Hvs). cbn [firstn map].
      destruct (Z.eqb_spec i (n - 1)).
      * assert (k = O) by lia. subst k. cbn [fst snd]. rewrite needed_0, app_nil_r. cbn [firstn map length].
        repeat split; auto; lia.
      * destruct k as [|k]; [lia|].
        destruct (IH s1 (i + 1) n (ret ++ [TVal v]) k Hw1 Hp1 Hc1 ltac:(lia)) as (I1 & I2 & I3 & I4 & I5); [rewrite Hv; lia|].
        rewrite Hv in I1, I4, I5. repeat split; try (apply I5; lia).
        -- rewrite I1, <- app_assoc. reflexivity.
        -- rewrite <- app_assoc, <- I2. exact E.
        -- lia.
        -- intros Hlen. rewrite I4 by lia. lia.
Qed.

Lemma list_all_values s :
  wf s -> pending s = false -> clean (rest s) ->
  let r := list_of_generator s in
  snd r = LOk (map TVal (values (rest s))) /\
  rest (fst r) = [] /\ is_stopped (fst r) = true /\ pending (fst r) = false.
Proof.
  intros Hwf Hp Hc. cbn zeta. rewrite list_is_take. destruct (take_loop_gen (fuel_of s) s 0 0 []) as (_ & G2 & _).
  destruct (take_loop_clean (fuel_of s) s 0 0 [] (length (values (rest s))) Hwf Hp Hc) as (A & _ & _ & _ & B);
    [unfold fuel_of; lia|right; lia|]. rewrite A, firstn_all2 by lia. destruct (B (le_n _)). auto.
Qed.

Lemma take_first_zero s n : n <= 0 -> take_first s n = (s, LOk []).
Proof. intros H. unfold take_first. destruct (n <=? 0) eqn:E; auto. apply Z.leb_gt in E. lia. Qed.

Lemma take_first_spec s n :
  wf s -> pending s = false -> clean (rest s) ->
  let r := take_first s n in
  let k := Z.to_nat n in
  snd r = LOk (map TVal (firstn k (values (rest s)))) /\
  rest s = needed k (rest s) ++ rest (fst r) /\
  (pulls (fst r) <= pulls s + length (needed k (rest s)) + 1)%nat /\
  ((k <= length (values (rest s)))%nat -> pulls (fst r) = (pulls s + length (needed k (rest s)))%nat) /\
  wf (fst r) /\ pending (fst r) = false.
Proof.
  intros Hwf Hp Hc. cbn zeta. unfold take_first. destruct (n <=? 0) eqn:E.
  - apply Z.leb_le in E. replace (Z.to_nat n) with O by lia. rewrite needed_0. cbn.
    refine (conj eq_refl (conj eq_refl (conj _ (conj _ (conj Hwf Hp))))); lia.
  - apply Z.leb_gt in E. destruct (Z.to_nat n) as [|k] eqn:Ek; [lia|].
    destruct (take_loop_gen (fuel_of s) s 0 n []) as (G1 & G2 & _).
    destruct (take_loop_clean (fuel_of s) s 0 n [] k Hwf Hp Hc) as (A & B & C & D & _); unfold fuel_of; try lia. auto 10.
Qed.

(* what is left after take_first(gen, n) is exactly the rest of the Values: a later call continues *)
Lemma take_first_rest s n :
  wf s -> pending s = false -> clean (rest s) ->
  let s' := fst (take_first s n) in
  values (rest s') = skipn (Z.to_nat n) (values (rest s)) /\ clean (rest s') /\ wf s' /\ pending s' = false.
Proof.
  intros Hwf Hp Hc. destruct (take_first_spec s n Hwf Hp Hc) as (_ & H2 & _ & _ & H5 & H6).
  cbn zeta. split; [|split; [|split]]; auto.
  - pose proof (f_equal values H2) as Hv. rewrite values_app, values_needed in Hv.
    rewrite <- (firstn_skipn (Z.to_nat n) (values (rest s))) in Hv at 1.
    apply app_inv_head in Hv. auto.
  - rewrite H2 in Hc. apply clean_app_r in Hc. exact Hc.
Qed.

(* repeated take_first calls on the same generator return consecutive chunks *)
Fixpoint take_many (s : gstate) (ns : list Z) : list lres :=
  match ns with
  | [] => []
  | n :: ns' => let '(s1, r) := take_first s n in r :: take_many s1 ns'
  end.
Fixpoint chunks (ks : list nat) (l : list val) : list (list val) :=
  match ks with
  | [] => []
  | k :: ks' => firstn k l :: chunks ks' (skipn k l)
  end.

Lemma take_first_repeated : forall ns s,
  wf s -> pending s = false -> clean (rest s) ->
  take_many s ns = map (fun c => LOk (map TVal c)) (chunks (map Z.to_nat ns) (values (rest s))).
Proof.
  induction ns as [|n ns IH]; intros s Hwf Hp Hc; auto.
  cbn. destruct (take_first_spec s n Hwf Hp Hc) as (H1 & _).
  destruct (take_first_rest s n Hwf Hp Hc) as (R1 & R2 & R3 & R4).
  destruct (take_first s n) as [s1 r]. cbn [fst snd] in *. subst r. f_equal.
  rewrite IH by auto. rewrite R1. reflexivity.
Qed.

Lemma exhausted_send s :
  rest s = [] -> pending s = false ->
  snd (send s) = SRaise E_STOPITER /\ is_stopped (fst (send s)) = true /\
  rest (fst (send s)) = [] /\ pending (fst (send s)) = false.
Proof.
  destruct s as [b p lg lt st]. unfold pending, send. cbn [rest last_task is_stopped]. intros -> H.
  destruct lt; try discriminate; destruct st; cbn; auto.
Qed.

Definition stopped_res (o : op) (r : res) : Prop :=
  match o with
  | ONext => r = RRaise E_STOPITER
  | OList | OTake _ => r = RList []
  | OCompute => True
  end.

Lemma stopped_step s h o :
  wf s -> is_stopped s = true ->
  fst (fst (step_op (s, h) o)) = s /\ stopped_res o (snd (step_op (s, h) o)).
Proof.
  intros Hwf Hs. destruct (Hwf Hs) as [Hr Hp]. destruct o as [| | |n]; cbn [step_op].
  - rewrite stopped_send by auto. cbn. auto.
  - destruct h; cbn; auto. pose proof (compute_not_pending s Hp) as G.
    destruct (compute s) as [s1 t]. cbn in *. auto.
  - unfold list_of_generator, fuel_of. rewrite Hr. cbn [length list_loop].
    rewrite stopped_next_value by auto. cbn. auto.
  - unfold take_first. destruct (n <=? 0); [cbn; auto|].
    unfold fuel_of. rewrite take_loop_stopped by auto. cbn. auto.
Qed.

Fixpoint all_stopped (ops : list op) (rs : list (res * Z * bool)) : Prop :=
  match ops, rs with
  | [], [] => True
  | o :: ops', (r, _, st) :: rs' => stopped_res o r /\ st = true /\ all_stopped ops' rs'
  | _, _ => False
  end.

Lemma stays_stopped : forall ops s h,
  wf s -> is_stopped s = true ->
  fst (fst (run (s, h) ops)) = s /\ all_stopped ops (snd (run (s, h) ops)).
Proof.
  induction ops as [|o ops IH]; intros s h Hwf Hs; cbn [run]; [cbn; auto|].
  destruct (stopped_step s h o Hwf Hs) as [G1 G2].
  destruct (step_op (s, h) o) as [[s1 h1] r]. cbn [fst snd] in *. subst s1.
  destruct (IH s h1 Hwf Hs) as [I1 I2]. destruct (run (s, h1) ops) as [sh2 rs]. cbn [fst snd] in *.
  split; auto. cbn. auto.
Qed.

Lemma take_first_orig_refuted :
  exists b, snd (take_first_orig (init b) 0) <> LOk [] /\ pulls (fst (take_first_orig (init b) 0)) <> pulls (init b).
Proof. exists [GValue (VInt 1)]. cbn. split; discriminate. Qed.

(* for n >= 1 the unrepaired loop is the repaired one *)
Lemma take_first_orig_pos s n : 1 <= n -> take_first_orig s n = take_first s n.
Proof. intros H. unfold take_first, take_first_orig. destruct (n <=? 0) eqn:E; auto. apply Z.leb_le in E. lia. Qed.

Definition example_body : list step :=
  [GAwait (TVal (VInt 7)); GValue (VInt 1); GAwait TEnd; GAwait (TVal VNone); GValue (VInt 2); GAwait (TVal (VInt 9))].

(* what the outer `for task in inner` loop sees is what next_value sees, as long as nothing raises *)
Lemma drive_next_value f s :
  (forall e, snd (next_value s) <> NVRaise e) ->
  drive (S f) s =
  match snd (next_value s) with
  | NVItem t => DTask t :: drive f (fst (next_value s))
  | _ => []
  end.
Proof.
  unfold next_value. cbn [drive]. destruct (send s) as [s1 r]. destruct r as [e|v|].
  - cbn. intros H. destruct (e =? E_STOPITER); auto. exfalso. apply (H e). reflexivity.
  - cbn. auto.
  - destruct (compute s1) as [s2 t]. cbn. intros H. destruct t; auto. exfalso. apply (H e). reflexivity.
Qed.

(* the steps an outer body makes of a clean inner generator are clean and carry the same Values *)
Lemma drive_conv_clean : forall f s,
  wf s -> pending s = false -> clean (rest s) -> (length (rest s) + 2 <= f)%nat ->
  clean (flat_map conv (drive f s)) /\ values (flat_map conv (drive f s)) = values (rest s).
Proof.
  induction f as [|f IH]; intros s Hwf Hp Hc Hf; [lia|].
  destruct (is_stopped s) eqn:Hs.
  - rewrite drive_next_value; rewrite stopped_next_value by auto; [|discriminate].
    destruct (Hwf Hs) as [-> _]. split; reflexivity.
  - destruct (next_value_clean s Hc Hp Hs) as (E & Hp1 & Hw1 & Hc1 & H). pose proof (values_next s _ E) as Hv.
    pose proof (f_equal (@length _) E) as Hl. rewrite app_length in Hl.
    rewrite drive_next_value by (intros e Ee; destruct (values (rest s)), (rest s); destruct H as (H & _); congruence).
    destruct (next_value s) as [s1 x]. cbn [fst snd] in *.
    destruct (values (rest s)) as [|v vs] eqn:Hvs; cbn [tl] in Hv.
    + destruct H as (-> & H1 & _). destruct (rest s); [split; reflexivity|].
      destruct (IH s1 Hw1 Hp1 Hc1) as [I1 I2]; [rewrite H1; cbn in *; lia|]. rewrite Hv in I2. cbn. split; [exact I1|exact I2].
    + destruct H as (-> & _). pose proof (needed_1_pos _ _ _ Hvs).
      destruct (IH s1 Hw1 Hp1 Hc1) as [I1 I2]; [lia|]. cbn. split; [exact I1|f_equal; rewrite I2; exact Hv].
Qed.

(* values in program order of a nested body; no failing await / raise anywhere in it *)
Fixpoint tvalues1 (g : gstep) : list val :=
  match g with
  | NValue v => [v]
  | NNest b => flat_map tvalues1 b
  | _ => []
  end.
Fixpoint tclean1 (g : gstep) : bool :=
  match g with
  | NAwait (TErr _) => false
  | NRaise _ => false
  | NNest b => forallb tclean1 b
  | NYield w => match unwrap w with Err _ => false | Ok _ => true end   (* no member of w fails *)
  | _ => true
  end.

Lemma gstep_ind2 (P : gstep -> Prop) :
  (forall o, P (NAwait o)) -> (forall v, P (NValue v)) -> (forall e, P (NRaise e)) ->
  (forall b, Forall P b -> P (NNest b)) -> (forall w, P (NYield w)) -> forall g, P g.
Proof.
  intros HA HV HR HN HY. fix IH 1. intros [o|v|e|b|w]; [apply HA|apply HV|apply HR|apply HN|apply HY].
  induction b as [|g b IHb]; constructor; [apply IH|exact IHb].
Qed.

Lemma nested_flat b :
  Forall (fun g => tclean1 g = true -> clean (inline1 g) /\ values (inline1 g) = tvalues1 g) b ->
  forallb tclean1 b = true -> clean (flat_map inline1 b) /\ values (flat_map inline1 b) = flat_map tvalues1 b.
Proof.
  induction 1 as [|g b Hg _ IH]; intros H; [cbn; auto|]. cbn in H. apply andb_true_iff in H as [H1 H2].
  destruct (Hg H1) as [A1 A2], (IH H2) as [B1 B2]. cbn. split; [apply clean_app; auto|]. rewrite values_app; congruence.
Qed.

Lemma nested1 : forall g, tclean1 g = true -> clean (inline1 g) /\ values (inline1 g) = tvalues1 g.
Proof.
  induction g as [o|v|e|b HF|w] using gstep_ind2; cbn [tclean1 inline1 tvalues1].
  - destruct o; intros H; try discriminate; cbn; auto.
  - cbn. auto.
  - discriminate.
  - intros H. destruct (nested_flat b HF H) as [G1 G2]. cbn zeta. rewrite <- G2.
    apply (drive_conv_clean _ (init (flat_map inline1 b)) (init_wf _) eq_refl G1). unfold fuel_of. cbn. lia.
  - unfold yield_step. destruct (unwrap w); intros H; try discriminate; cbn; auto.
Qed.

Lemma nested_values b :
  forallb tclean1 b = true -> clean (inline b) /\ values (inline b) = flat_map tvalues1 b.
Proof. apply nested_flat, Forall_forall. intros g _. apply nested1. Qed.

(* list_of_generator / take_first on a nested generator: the Values of the tree in program order *)
Lemma nested_list_take b n :
  forallb tclean1 b = true ->
  snd (list_of_generator (init (inline b))) = LOk (map TVal (flat_map tvalues1 b)) /\
  snd (take_first (init (inline b)) n) = LOk (map TVal (firstn (Z.to_nat n) (flat_map tvalues1 b))).
Proof.
  intros H. destruct (nested_values b H) as [H1 H2]. split.
  - destruct (list_all_values (init (inline b)) (init_wf _) eq_refl H1) as (E & _).
    rewrite E. cbn [rest init]. rewrite H2. reflexivity.
  - destruct (take_first_spec (init (inline b)) n (init_wf _) eq_refl H1) as (E & _).
    rewrite E. cbn [rest init]. rewrite H2. reflexivity.
Qed.

Fixpoint first_failure (b : list step) : option exn :=
  match b with
  | [] => None
  | GAwait (TErr e) :: _ => Some e
  | GRaise e :: _ => Some e
  | _ :: b' => first_failure b'
  end.

(* a task on a body that fails: it fails with that error, or hands out a Value before the failure *)
Lemma task_run_fail : forall b e, first_failure b = Some e ->
  fst (fst (task_run b)) = TErr e \/
  (exists v, fst (fst (task_run b)) = TVal v) /\ first_failure (snd (fst (task_run b))) = Some e.
Proof.
  induction b as [|[o|v|e0] b IH]; intros e Hf; cbn [task_run first_failure fst snd] in *.
  - discriminate.
  - destruct o as [v| |e0]; cbn [ok_out]; [| |left; cbn; congruence];
      (specialize (IH e Hf); destruct (task_run b) as [[r b'] outs]; exact IH).
  - right. eauto.
  - left. congruence.
Qed.

Lemma next_value_fail s e :
  wf s -> pending s = false -> first_failure (rest s) = Some e -> e <> E_STOPITER ->
  let r := next_value s in
  snd r = NVRaise e \/
  ((exists v, snd r = NVItem (TVal v)) /\ first_failure (rest (fst r)) = Some e /\
   (length (rest (fst r)) < length (rest s))%nat /\ pending (fst r) = false /\ is_stopped (fst r) = false).
Proof.
  intros Hwf Hp Hf He. cbn zeta.
  assert (Hs : is_stopped s = false).
  { destruct (is_stopped s) eqn:E; auto. destruct (Hwf E) as [Hr _]. rewrite Hr in Hf. discriminate. }
  apply Z.eqb_neq in He. rewrite (next_value_cases s Hp Hs).
  pose proof (task_run_fail _ e Hf) as F. pose proof (task_run_gen (rest s)) as G.
  destruct (task_run (rest s)) as [[r b'] outs]. destruct (G _ _ _ eq_refl) as (_ & _ & G3 & _). cbn [fst snd rest] in *.
  destruct F as [->|((v & ->) & F)].
  - left. destruct (rest s) as [|[] ?]; rewrite ?He; reflexivity.
  - right. split; [eauto|]. split; [exact F|]. split; [destruct (rest s); [discriminate Hf|cbn in *; lia]|].
    cbn [is_end]. split; [|exact Hs]. unfold pending. cbn [last_task]. destruct (rest s) as [|[] ?]; try reflexivity; exact Hp.
Qed.

Lemma list_loop_fail : forall f s data e,
  wf s -> pending s = false -> first_failure (rest s) = Some e -> e <> E_STOPITER ->
  (length (rest s) + 1 <= f)%nat ->
  snd (list_loop f s data) = LErr e.
Proof.
  induction f as [|f IH]; intros s data e Hwf Hp Hf He Hl; [lia|].
  cbn [list_loop]. pose proof (next_value_fail s e Hwf Hp Hf He) as H. cbn zeta in H.
  destruct (next_value s) as [s1 x]. cbn [fst snd] in H.
  destruct H as [->|((v & ->) & H1 & H2 & H3 & H4)]; [reflexivity|].
  apply IH; auto; [apply wf_running; auto|lia].
Qed.

(* yields that are not Values: None, futures, containers
   (the `else` paths of send / _send_inner).  Such a yield is never the end of the generator. *)
Lemma yield_not_exhaustion s w b :
  rest s = yield_step w :: b -> pending s = false -> is_stopped s = false ->
  send s = (mkG b (S (pulls s)) (sent s ++ [TVal VNone]) (LPending (tres_of (unwrap w))) false, STask).
Proof. intros Hr Hp Hs. now rewrite (send_cases s Hp Hs), Hr. Qed.

(* the pause `yield None` in particular: a task is handed out, the body is resumed with None *)
Lemma pause_step : yield_step WNone = GAwait (TVal VNone).
Proof. reflexivity. Qed.

(* StopIteration comes out of send only when the body has nothing left to run (or is itself the
   one raising it, which PEP 479 rules out for real generators) *)
Lemma stop_only_when_exhausted s :
  wf s -> pending s = false -> snd (send s) = SRaise E_STOPITER ->
  rest s = [] \/ exists b, rest s = GRaise E_STOPITER :: b.
Proof.
  intros Hwf Hp. destruct (is_stopped s) eqn:Hs; [destruct (Hwf Hs); auto|].
  rewrite (send_cases s Hp Hs). destruct (rest s) as [|[o|v|e] r]; cbn; auto; try discriminate.
  intros [= ->]. eauto.
Qed.

(* a task of the generator computes to END_OF_GENERATOR only by running the body to its end *)
Lemma end_only_when_exhausted s :
  pending s = true -> snd (compute s) = TEnd ->
  rest (fst (compute s)) = [] /\ is_stopped (fst (compute s)) = true.
Proof.
  unfold pending. destruct (last_task s) as [|o|r0] eqn:El; try discriminate. intros _.
  rewrite (compute_task s o El). pose proof (task_run_gen (GAwait o :: rest s)) as G.
  destruct (task_run (GAwait o :: rest s)) as [[r b'] outs]. destruct (G _ _ _ eq_refl) as (_ & _ & _ & G4).
  cbn [fst snd rest is_stopped]. intros ->. auto.
Qed.

(* for list_of_generator / take_first a body (nested, with any None / future / container yields that
   do not fail) is the body that yields just its Values *)
Lemma values_only_clean l :
  forallb tclean1 (map NValue l) = true /\ flat_map tvalues1 (map NValue l) = l.
Proof. induction l as [|v l [I1 I2]]; cbn; auto. split; auto. f_equal. exact I2. Qed.

(* the hypotheses are satisfiable with every kind of non-Value yield, and the model computes *)
Definition example_yields : list gstep :=
  [NYield WNone; NAwait (TVal (VInt 7)); NYield (WTuple []); NValue (VInt 1);
   NYield (WList [WNone; WFut (Ok (VInt 3))]); NYield WNone; NValue (VInt 2);
   NNest [NYield (WDict [(1, WFut (Ok (VInt 4)))]); NValue (VInt 3); NYield WNone]; NYield WNone].

Definition rl_tres (f : val -> val) (t : tres) : tres := match t with TVal v => TVal (f v) | _ => t end.
Definition rl_step (f : val -> val) (st : step) : step := match st with GValue v => GValue (f v) | _ => st end.
Definition rl_ltask (f : val -> val) (t : ltask) : ltask := match t with LDone r => LDone (rl_tres f r) | _ => t end.
Definition rl_state (f : val -> val) (s : gstate) : gstate :=
  mkG (map (rl_step f) (rest s)) (pulls s) (sent s) (rl_ltask f (last_task s)) (is_stopped s).
Definition rl_yielded (f : val -> val) (y : yielded) : yielded := match y with YValue v => YValue (f v) | _ => y end.
Definition rl_sres (f : val -> val) (r : sres) : sres := match r with SConst v => SConst (f v) | _ => r end.
Definition rl_nv (f : val -> val) (x : nv) : nv := match x with NVItem t => NVItem (rl_tres f t) | _ => x end.
Definition rl_lres (f : val -> val) (r : lres) : lres := match r with LOk l => LOk (map (rl_tres f) l) | _ => r end.
Definition rl_handle (f : val -> val) (h : handle) : handle :=
  match h with HConst v => HConst (f v) | HDone t => HDone (rl_tres f t) | _ => h end.
Definition rl_res (f : val -> val) (r : res) : res :=
  match r with RConst v => RConst (f v) | RItem t => RItem (rl_tres f t) | RList l => RList (map (rl_tres f) l) | _ => r end.
Definition rl_sh (f : val -> val) (sh : gstate * handle) : gstate * handle := (rl_state f (fst sh), rl_handle f (snd sh)).
Definition rl_out (f : val -> val) (x : res * Z * bool) : res * Z * bool :=
  let '(r, p, st) := x in (rl_res f r, p, st).

Lemma gen_send_rl f s x :
  gen_send (rl_state f s) x = (rl_state f (fst (gen_send s x)), rl_yielded f (snd (gen_send s x))).
Proof. destruct s as [r p se lt st]. unfold gen_send, rl_state. cbn. destruct r as [|[o|v|e] b]; reflexivity. Qed.

Lemma get_one_value_rl f s x :
  get_one_value (rl_state f s) x = (rl_state f (fst (get_one_value s x)), rl_yielded f (snd (get_one_value s x))).
Proof.
  unfold get_one_value. rewrite gen_send_rl. destruct (gen_send s x) as [s1 y]. cbn [fst snd].
  destruct y; reflexivity.
Qed.

Lemma send_rl f s : send (rl_state f s) = (rl_state f (fst (send s)), rl_sres f (snd (send s))).
Proof.
  unfold send. change (last_task (rl_state f s)) with (rl_ltask f (last_task s)).
  change (is_stopped (rl_state f s)) with (is_stopped s).
  destruct (last_task s) eqn:E; cbn [rl_ltask]; try reflexivity;
    (destruct (is_stopped s); [reflexivity|]; rewrite get_one_value_rl;
     destruct (get_one_value s (TVal VNone)) as [s1 y]; cbn [fst snd]; destruct y; reflexivity).
Qed.

Lemma inner_loop_rl f : forall fuel s yr,
  inner_loop fuel (rl_state f s) yr = (rl_state f (fst (inner_loop fuel s yr)), rl_tres f (snd (inner_loop fuel s yr))).
Proof.
  induction fuel as [|fuel IH]; intros s yr; [reflexivity|].
  cbn [inner_loop]. rewrite get_one_value_rl. destruct (get_one_value s yr) as [s1 y]. cbn [fst snd].
  destruct y as [|e|v|o]; cbn [rl_yielded]; try reflexivity.
  destruct o; try reflexivity; apply IH.
Qed.

Lemma compute_rl f s : compute (rl_state f s) = (rl_state f (fst (compute s)), rl_tres f (snd (compute s))).
Proof.
  unfold compute. change (last_task (rl_state f s)) with (rl_ltask f (last_task s)).
  change (rest (rl_state f s)) with (map (rl_step f) (rest s)). rewrite map_length.
  destruct (last_task s) as [|first|r] eqn:E; cbn [rl_ltask]; try reflexivity.
  destruct first; try reflexivity;
    (rewrite inner_loop_rl; destruct (inner_loop _ s _) as [s1 r]; reflexivity).
Qed.

Lemma next_value_rl f s : next_value (rl_state f s) = (rl_state f (fst (next_value s)), rl_nv f (snd (next_value s))).
Proof.
  unfold next_value. rewrite send_rl. destruct (send s) as [s1 r]. cbn [fst snd].
  destruct r as [e|v|]; cbn [rl_sres].
  - destruct (e =? E_STOPITER); reflexivity.
  - reflexivity.
  - rewrite compute_rl. destruct (compute s1) as [s2 t]. cbn [fst snd]. destruct t; reflexivity.
Qed.

Lemma take_loop_rl f : forall fuel s i n ret,
  take_loop fuel (rl_state f s) i n (map (rl_tres f) ret) =
  (rl_state f (fst (take_loop fuel s i n ret)), rl_lres f (snd (take_loop fuel s i n ret))).
Proof.
  induction fuel as [|fuel IH]; intros s i n ret; [reflexivity|].
  cbn [take_loop]. rewrite next_value_rl. destruct (next_value s) as [s1 x]. cbn [fst snd].
  destruct x as [|e|t]; cbn [rl_nv]; try reflexivity.
  destruct t; cbn [rl_tres]; try apply IH.
  - destruct (i =? n - 1); [cbn; rewrite map_app; reflexivity|]. rewrite <- IH. rewrite map_app. reflexivity.
  - destruct (i =? n - 1); [cbn; rewrite map_app; reflexivity|]. rewrite <- IH. rewrite map_app. reflexivity.
Qed.

Lemma fuel_of_rl f s : fuel_of (rl_state f s) = fuel_of s.
Proof. unfold fuel_of. cbn [rest rl_state]. rewrite map_length. reflexivity. Qed.

Lemma list_of_generator_rl f s :
  list_of_generator (rl_state f s) = (rl_state f (fst (list_of_generator s)), rl_lres f (snd (list_of_generator s))).
Proof. rewrite !list_is_take, fuel_of_rl. apply (take_loop_rl f (fuel_of s) s 0 0 []). Qed.

Lemma take_first_rl f s n :
  take_first (rl_state f s) n = (rl_state f (fst (take_first s n)), rl_lres f (snd (take_first s n))).
Proof.
  unfold take_first. destruct (n <=? 0); [reflexivity|]. rewrite fuel_of_rl. apply (take_loop_rl f (fuel_of s) s 0 n []).
Qed.

Lemma step_op_rl f sh o :
  step_op (rl_sh f sh) o = (rl_sh f (fst (step_op sh o)), rl_res f (snd (step_op sh o))).
Proof.
  destruct sh as [s h]. unfold rl_sh. cbn [fst snd]. destruct o as [| | |n]; cbn [step_op].
  - rewrite send_rl. destruct (send s) as [s1 r]. cbn [fst snd]. destruct r; reflexivity.
  - destruct h as [|v| |t]; cbn [rl_handle]; try reflexivity.
    + rewrite compute_rl. destruct (compute s) as [s1 t]. cbn [fst snd]. destruct t; reflexivity.
    + destruct t; reflexivity.
  - rewrite list_of_generator_rl. destruct (list_of_generator s) as [s1 r]. cbn [fst snd]. destruct r; reflexivity.
  - rewrite take_first_rl. destruct (take_first s n) as [s1 r]. cbn [fst snd]. destruct r; reflexivity.
Qed.

Lemma run_relabel f : forall ops sh,
  run (rl_sh f sh) ops = (rl_sh f (fst (run sh ops)), map (rl_out f) (snd (run sh ops))).
Proof.
  induction ops as [|o ops IH]; intros sh; [reflexivity|].
  cbn [run]. rewrite step_op_rl. destruct (step_op sh o) as [sh1 r]. cbn [fst snd].
  rewrite IH. destruct (run sh1 ops) as [sh2 rs]. cbn [fst snd map rl_out].
  destruct sh1; reflexivity.
Qed.

(* relabelling the payloads of a tree body *)
Fixpoint tmap (f : val -> val) (g : gstep) : gstep :=
  match g with
  | NValue v => NValue (f v)
  | NNest b => NNest (map (tmap f) b)
  | _ => g
  end.

Definition tflat (g : gstep) : bool := match g with NNest _ => false | _ => true end.

Lemma inline_flat_rl f : forall b,
  forallb tflat b = true -> inline (map (tmap f) b) = map (rl_step f) (inline b).
Proof.
  unfold inline. induction b as [|g b IH]; intros H; [reflexivity|].
  cbn in H. apply andb_true_iff in H as [H1 H2]. cbn [map flat_map]. rewrite map_app, (IH H2). f_equal.
  destruct g; try discriminate; reflexivity.
Qed.

Lemma tmap_flat f b :
  Forall (fun g => tclean1 (tmap f g) = tclean1 g /\ tvalues1 (tmap f g) = map f (tvalues1 g)) b ->
  forallb tclean1 (map (tmap f) b) = forallb tclean1 b /\
  flat_map tvalues1 (map (tmap f) b) = map f (flat_map tvalues1 b).
Proof.
  induction 1 as [|g b [A1 A2] _ [I1 I2]]; [auto|]. cbn [map forallb flat_map]. rewrite A1, I1, A2, I2, map_app. auto.
Qed.

Lemma tmap_clean_values f : forall g,
  tclean1 (tmap f g) = tclean1 g /\ tvalues1 (tmap f g) = map f (tvalues1 g).
Proof. induction g as [o|v|e|b HF|w] using gstep_ind2; auto. exact (tmap_flat f b HF). Qed.

Lemma tmap_clean_values_list f b :
  forallb tclean1 (map (tmap f) b) = forallb tclean1 b /\
  flat_map tvalues1 (map (tmap f) b) = map f (flat_map tvalues1 b).
Proof. apply tmap_flat, Forall_forall. intros g _. apply tmap_clean_values. Qed.

(* satisfiable / computes: labels of future payloads, relabelled to other labels *)
Definition example_payloads : list gstep :=
  [NValue (VTuple [VInt (-1); VInt 1]); NValue (VTuple [VInt (-1); VInt 2]); NAwait (TVal (VInt 7));
   NValue (VTuple [VInt (-1); VInt 3]); NNest [NValue (VTuple [VInt (-1); VInt 4]); NAwait (TVal VNone)]].

