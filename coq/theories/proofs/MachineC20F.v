(* C20, several context faults within one _pause_contexts / _resume_contexts: which error the task fails with.
   The model has no debug options at all in these two functions (they do not take the parameter record), so "the
   choice does not depend on an option" holds in the model by construction; what is stated here is WHICH error is
   chosen, so that the correspondence harness compares every option variant of the implementation with it:
   pause: the error of the LAST pause() that raises (contexts are paused innermost first, so the outermost failing
   context wins - as for nested __exit__ calls); resume: the error of the FIRST resume() that raises. *)
From Asynq Require Import Machine.

Definition pfold (t : fid) (cs : list ctxk) (a : st * option exn) : st * option exn :=
  fold_left (fun acc c => let '(s, err) := acc in
                          let '(s', e) := pause1 t c s in
                          (s', match e with Some _ => e | None => err end)) cs a.

Definition rfold (t : fid) (cs : list ctxk) (a : st * option exn) : st * option exn :=
  fold_left (fun acc c => let '(s, err) := acc in
                          let '(s', e) := resume1 t c s in
                          (s', match err with Some _ => err | None => e end)) cs a.

Lemma pause_contexts_pfold : forall t s tk,
  get_task t s = Some tk -> tk_cact tk = true ->
  pause_contexts t s =
  let '(s1, err) := pfold t (rev (tk_ctxs tk)) (set_task t (tk_with_ctxs tk (tk_ctxs tk) false) s, None) in
  match err with Some e => accept_error t e s1 | None => s1 end.
Proof. intros t s tk H H0. unfold pause_contexts. rewrite H, H0. reflexivity. Qed.

Lemma resume_contexts_rfold : forall t s tk,
  get_task t s = Some tk -> tk_cact tk = false ->
  resume_contexts t s =
  let '(s1, err) := rfold t (tk_ctxs tk) (set_task t (tk_with_ctxs tk (tk_ctxs tk) true) s, None) in
  match err with Some e => accept_error t e s1 | None => s1 end.
Proof. intros t s tk H H0. unfold resume_contexts. rewrite H, H0. reflexivity. Qed.

(* the context paused last decides: its error if it raises, otherwise what the earlier ones left *)
Lemma pfold_last_wins : forall t cs c a,
  snd (pfold t (cs ++ [c]) a) =
  match snd (pause1 t c (fst (pfold t cs a))) with Some e => Some e | None => snd (pfold t cs a) end.
Proof.
  intros t cs c a. unfold pfold. rewrite fold_left_app. simpl.
  destruct (fold_left _ cs a) as [s err]. simpl.
  destruct (pause1 t c s) as [s' e]. simpl. destruct e; reflexivity.
Qed.

(* the outermost context (head of the entry-ordered list) is paused last *)
Lemma pause_outermost_wins : forall t c cs a e,
  snd (pause1 t c (fst (pfold t (rev cs) a))) = Some e -> snd (pfold t (rev (c :: cs)) a) = Some e.
Proof. intros t c cs a e H. simpl rev. rewrite pfold_last_wins, H. reflexivity. Qed.

(* once a resume() has raised, later resume() errors do not replace it *)
Lemma rfold_first_wins : forall t cs s e, snd (rfold t cs (s, Some e)) = Some e.
Proof.
  intros t cs. induction cs as [|c cs IH]; intros s e; [reflexivity|].
  unfold rfold in *. simpl. destruct (resume1 t c s) as [s' e']. apply IH.
Qed.

(* the corpus programs of the check: a task suspended on a batch item inside two contexts whose pause() - resp.
   resume() - both raise at that suspension / reactivation: the awaiting root sees the OUTER context's error (11) *)
Definition two_faults (f1 f2 : cfault) : prog :=
  Yield (YLeaf (LNew (FTask
    (Enter (CAsync 1 f1) (Enter (CAsync 2 f2)
      (Yield (YLeaf (LNew (FItem 0 1 (ASet (VInt 7)))))
             (fun o => match o with
                       | Ok a => Exit (CAsync 2 f2) (Exit (CAsync 1 f1) (Ret a))
                       | Err e => Exit (CAsync 2 f2) (Exit (CAsync 1 f1) (Raise e)) end)))))))
        (fun o => match o with Ok x => Ret x | Err e => Raise e end).

Lemma two_faults_outer_wins : forall keep,
  let P := mkP [] 1000000 keep [] in
  fst (run_case P 2000 [two_faults (PauseRaises 1 11) (PauseRaises 1 12)]) = [Some (Err 11)] /\
  fst (run_case P 2000 [two_faults (ResumeRaises 1 11) (ResumeRaises 1 12)]) = [Some (Err 11)] /\
  fst (run_case P 2000 [two_faults NoFault (PauseRaises 1 12)]) = [Some (Err 12)] /\
  fst (run_case P 2000 [two_faults NoFault NoFault]) = [Some (Ok (VInt 7))].
Proof. intros [|]; vm_compute; repeat split; reflexivity. Qed.
