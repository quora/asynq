(* What the invariant CI of MachineC01S.v says at particular points of a run of a tree program with synchronous
   calls (C02 / C03): at a resume, at a synchronous call and at its return.  Hypotheses as for the invariant:
   pointwise service, no unwinding so far, one root computation of an [stree] program on the initial state or
   (the _from versions) on a state satisfying SI, e.g. one left behind by earlier computations that finished.

   At [MResume t] the task t is not a caller suspended in a synchronous call - the nested loops only work on tasks
   at least as young as their wait_for root, every suspended caller is older - so its entry holds the live
   continuation and receives [unwrap] of the sequential outcomes of what it yielded.
   A synchronous call, from the call proper [MRun t (Sync h k)] to the FIRST return of value() into the frames it
   pushed, delivers evals of the callee: the ghost map only grows along a run (MachineC01S.s01_step_le), and while
   [pending h F] - value() of h just entered over F, or FWait h directly on F - one transition keeps the call
   pending or returns into F with the stored = specified outcome of h.
   NOT proved: that the call does return (termination); "first return" is a hypothesis on the run (a later call of
   the same caller with an equal continuation from the same frames would also match the pattern). *)
From Asynq Require Import Machine proofs.MachineC05 proofs.MachineC08 proofs.MachineC01 proofs.MachineC01S
  proofs.MachineSteps.

Section CorollariesS.
  Variable P : params.
  Hypothesis HP : pointwise P.

  Lemma reach_invS_from spec s p n :
    stree p -> SI spec (fun _ => False) s ->
    no_unwind P n (start (fst (create [] (FTask p) s)) (snd (create [] (FTask p) s))) ->
    exists spec', CI (evals p) spec' (run P n (start (fst (create [] (FTask p) s)) (snd (create [] (FTask p) s)))).
  Proof. intros Ht HS Hn. exact (s01_run P HP (evals p) n _ _ (CI_start spec s p Ht HS) Hn). Qed.

  Lemma CI_at_resume res spec t fr s :
    CI res spec (mkC (MResume t) fr s) ->
    exists tk k, get t s = Some (mkFut None (KTask tk)) /\
      (forall x, In (RFut x) (leaves (tk_last tk)) -> computed x s = true) /\
      tk_gen tk = Some k /\ (forall x, stree (k x)) /\
      c_mode (step P (mkC (MResume t) fr s)) = MRun t (k (unwrap (look s) (tk_last tk))) /\
      unwrap (look s) (tk_last tk) = unwrap (look_spec spec) (tk_last tk) /\
      spec t = Some (evals (k (unwrap (look_spec spec) (tk_last tk)))).
  Proof.
    intros (Hf & HS & (tk & Hg & Hcomp)). cbn [c_mode c_frames c_st] in *.
    destruct Hf as (old & i & r & vs & -> & Hrt & Hlv). cbn [R_of fvals] in HS.
    assert (HtR : ~ In t (fvals vs)).
    { intros Hin. pose proof (wt_ok_fvals _ _ _ _ _ (proj2 Hlv) t Hin). lia. }
    destruct (SI_entry _ _ _ _ _ HS Hg) as (_ & ot & Hst & _ & Hp & Hd & Hk). cbn in Hp, Hd, Hk.
    destruct (Hk eq_refl HtR) as (k & K1 & K2 & K3 & K4 & K5).
    exists tk, k. split; [exact Hg|]. split; [exact Hcomp|]. split; [exact K1|]. split; [exact K2|]. split.
    - cbn [step c_mode c_frames c_st]. unfold get_task. rewrite Hg, K1. reflexivity.
    - split; [apply (look_agreeS spec _ s _ HS Hcomp)|]. rewrite K3. exact Hst.
  Qed.

  Section FromState.
    Variable spec0 : specmap.
    Variable s0 : st.
    Hypothesis HS0 : SI spec0 (fun _ => False) s0.
    Variable p : prog.
    Hypothesis Ht : stree p.

    Let h := fst (create [] (FTask p) s0).
    Let s1 := snd (create [] (FTask p) s0).

    Theorem resume_guard_stree_from n t :
      no_unwind P n (start h s1) -> c_mode (run P n (start h s1)) = MResume t ->
      exists tk, get t (c_st (run P n (start h s1))) = Some (mkFut None (KTask tk)) /\
        forall x, In (RFut x) (leaves (tk_last tk)) -> computed x (c_st (run P n (start h s1))) = true.
    Proof.
      intros Hn Hm. destruct (reach_invS_from spec0 s0 p n Ht HS0 Hn) as (spec & HI). fold h s1 in HI.
      destruct (run P n (start h s1)) as [m fr s] eqn:Er. cbn in Hm. subst m. cbn [c_st].
      destruct (CI_at_resume _ _ _ _ _ HI) as (tk & k & A & B & _). exists tk. split; [exact A|exact B].
    Qed.

    Theorem delivered_is_unwrap_stree_from n t :
      no_unwind P n (start h s1) -> c_mode (run P n (start h s1)) = MResume t ->
      exists tk k spec, get t (c_st (run P n (start h s1))) = Some (mkFut None (KTask tk)) /\
        tk_gen tk = Some k /\
        c_mode (step P (run P n (start h s1))) =
          MRun t (k (unwrap (look (c_st (run P n (start h s1)))) (tk_last tk))) /\
        unwrap (look (c_st (run P n (start h s1)))) (tk_last tk) = unwrap (look_spec spec) (tk_last tk) /\
        spec t = Some (evals (k (unwrap (look_spec spec) (tk_last tk)))).
    Proof.
      intros Hn Hm. destruct (reach_invS_from spec0 s0 p n Ht HS0 Hn) as (spec & HI). fold h s1 in HI.
      destruct (run P n (start h s1)) as [m fr s] eqn:Er. cbn in Hm. subst m. cbn [c_st].
      destruct (CI_at_resume _ _ _ _ _ HI) as (tk & k & A & B & C & D & E & F & G).
      exists tk, k, spec. split; [exact A|]. split; [exact C|]. split; [exact E|]. split; [exact F|exact G].
    Qed.

    Lemma stree_resume_guarded_from n : no_unwind P n (start h s1) -> resume_guarded P n (start h s1).
    Proof.
      intros Hn k t Hk Hm.
      destruct (resume_guard_stree_from k t) as (tk & G & _); [intros j Hj; apply Hn; lia|exact Hm|].
      unfold computed. rewrite G. reflexivity.
    Qed.
  End FromState.
End CorollariesS.

Theorem resume_guard_stree P (HP : pointwise P) p (Ht : stree p) n t :
  let h := fst (create [] (FTask p) (st0 P)) in
  let s1 := snd (create [] (FTask p) (st0 P)) in
  no_unwind P n (start h s1) -> c_mode (run P n (start h s1)) = MResume t ->
  exists tk, get t (c_st (run P n (start h s1))) = Some (mkFut None (KTask tk)) /\
    forall x, In (RFut x) (leaves (tk_last tk)) -> computed x (c_st (run P n (start h s1))) = true.
Proof. exact (resume_guard_stree_from P HP _ (st0 P) (SI_empty P) p Ht n t). Qed.

Theorem delivered_is_unwrap_stree P (HP : pointwise P) p (Ht : stree p) n t :
  let h := fst (create [] (FTask p) (st0 P)) in
  let s1 := snd (create [] (FTask p) (st0 P)) in
  no_unwind P n (start h s1) -> c_mode (run P n (start h s1)) = MResume t ->
  exists tk k spec, get t (c_st (run P n (start h s1))) = Some (mkFut None (KTask tk)) /\
    tk_gen tk = Some k /\
    c_mode (step P (run P n (start h s1))) =
      MRun t (k (unwrap (look (c_st (run P n (start h s1)))) (tk_last tk))) /\
    unwrap (look (c_st (run P n (start h s1)))) (tk_last tk) = unwrap (look_spec spec) (tk_last tk) /\
    spec t = Some (evals (k (unwrap (look_spec spec) (tk_last tk)))).
Proof. exact (delivered_is_unwrap_stree_from P HP _ (st0 P) (SI_empty P) p Ht n t). Qed.

Theorem uncaught_failure_stree P p n e :
  pointwise P -> stree p -> evals p = Err e ->
  let h := fst (create [] (FTask p) (st0 P)) in
  let s1 := snd (create [] (FTask p) (st0 P)) in
  no_unwind P n (start h s1) -> forall o, c_mode (run P n (start h s1)) = MDone o -> o = Err e.
Proof. intros HP Ht He h s1 Hn o Hm. rewrite <- He. exact (async_eq_seq_stree P p n o HP Ht Hn Hm). Qed.

Lemma stree_resume_guarded P p n :
  pointwise P -> stree p ->
  no_unwind P n (start (fst (create [] (FTask p) (st0 P))) (snd (create [] (FTask p) (st0 P)))) ->
  resume_guarded P n (start (fst (create [] (FTask p) (st0 P))) (snd (create [] (FTask p) (st0 P)))).
Proof. intros HP Ht. exact (stree_resume_guarded_from P HP _ (st0 P) (SI_empty P) p Ht n). Qed.

Theorem stree_no_step_after_done P p n :
  pointwise P -> stree p ->
  no_unwind P n (start (fst (create [] (FTask p) (st0 P))) (snd (create [] (FTask p) (st0 P)))) ->
  forall t i o l1 l2, snd (run_case P n [p]) = l1 ++ EvStep t i o :: l2 -> forall o', ~ In (EvDone t o') l1.
Proof.
  intros HP Ht Hn. apply run_case_no_step_after_done. cbn [history_guarded].
  split; [apply stree_resume_guarded; assumption|exact I].
Qed.

(* a history of stree computations on one scheduler: none unwinds, and every computation that is followed by
   another one finished (otherwise tasks are left mid-step and the state invariant does not hold afterwards) *)
Fixpoint history_clean (P : params) (fuel : nat) (ps : list prog) (s : st) : Prop :=
  match ps with
  | [] => True
  | p :: ps' =>
    stree p /\
    no_unwind P fuel (start (fst (create [] (FTask p) s)) (snd (create [] (FTask p) s))) /\
    (ps' <> [] -> exists o, c_mode (run P fuel (start (fst (create [] (FTask p) s)) (snd (create [] (FTask p) s)))) = MDone o) /\
    history_clean P fuel ps' (snd (run_root P fuel p s))
  end.

Lemma history_clean_guarded P fuel (HP : pointwise P) ps : forall spec s,
  SI spec (fun _ => False) s -> history_clean P fuel ps s -> history_guarded P fuel ps s.
Proof.
  induction ps as [|p ps IH]; intros spec s HS Hc; [exact I|].
  cbn [history_clean] in Hc. destruct Hc as (Ht & Hn & Hd & Hc'). cbn [history_guarded].
  split; [exact (stree_resume_guarded_from P HP spec s HS p Ht fuel Hn)|].
  destruct ps as [|p' ps']; [exact I|].
  destruct (Hd ltac:(discriminate)) as (o & Hm).
  destruct (async_eq_seq_stree_state P spec s p fuel o HP Ht HS Hn Hm) as (_ & spec' & HS').
  apply (IH spec'); [|exact Hc'].
  unfold run_root. unfold start in HS', Hm. destruct (create [] (FTask p) s) as [h s1]. cbn [fst snd] in HS', Hm.
  rewrite Hm. cbn [snd]. apply (SI_view spec' _ (c_st (run P fuel (mkC (MValue h) [FTop] s1)))); auto.
Qed.

Theorem stree_history_no_step_after_done P fuel ps :
  pointwise P -> history_clean P fuel ps (st0 P) ->
  forall t i o l1 l2, snd (run_case P fuel ps) = l1 ++ EvStep t i o :: l2 -> forall o', ~ In (EvDone t o') l1.
Proof.
  intros HP Hc. apply run_case_no_step_after_done.
  exact (history_clean_guarded P fuel HP ps _ (st0 P) (SI_empty P) Hc).
Qed.

(* What one transition does to the Python stack: nothing, push one frame, pop one frame - a wait_for frame only
   when its task is computed, and then value() returns the task's outcome - or end the outermost call.  value()
   returns ([MDeliver]) only there and from value() itself. *)
Definition frames_step (c c' : cfg) : Prop :=
  (c_frames c' = c_frames c /\ forall o, c_mode c' = MDeliver o -> exists h, c_mode c = MValue h) \/
  (exists x, c_frames c' = x :: c_frames c /\ forall o, c_mode c' <> MDeliver o) \/
  (exists root, c_frames c = FWait root :: c_frames c' /\ (c_mode c = MWaitHead \/ c_mode c = MAfterExec) /\
                computed root (c_st c) = true /\ c_mode c' = MDeliver (outcome_of root (c_st c))) \/
  (exists x, c_frames c = x :: c_frames c' /\ (forall r, x <> FWait r) /\ forall o, c_mode c' <> MDeliver o) \/
  (exists o, c_mode c' = MDone o /\ (c' = c \/ c_mode c = MDeliver o /\ exists rest, c_frames c = FTop :: rest)).

(* by inspection of every branch of [step], in the order of the disjuncts: the frames stay (value() of a computed
   future delivers on the spot); value() of an uncomputed task pushes FWait, the wait loop FExec, the start of a task
   body FCont, a synchronous call FValue; the wait loop of a computed root pops its FWait and delivers; the loop exit
   pops FExec, the end of a task body FCont, a delivery its FValue; a delivery to FTop ends the run *)
Lemma step_frames P c : is_unwind (c_mode c) = false -> frames_step c (step P c).
Proof.
  intros Hu. generalize (eq_refl (step P c)). generalize (step P c) at 2 3. intros c'.
  destruct c as [m fr s]. destruct m; cbn [c_mode is_unwind] in Hu; try discriminate Hu;
    cbn [step c_mode c_frames c_st];
    repeat match goal with |- context [match ?x with _ => _ end] => destruct x eqn:? end;
    intros <-; unfold frames_step; cbn [c_mode c_frames c_st];
    first [ left; split; [reflexivity|intros ? E; first [discriminate E|eexists; reflexivity]]
          | right; left; eexists; split; [reflexivity|intros ? E; discriminate E]
          | right; right; left; eexists; split; [reflexivity|split; [auto|split; [assumption|reflexivity]]]
          | right; right; right; left; eexists; split; [reflexivity|split; intros ? E; discriminate E]
          | right; right; right; right; eexists; split; [reflexivity|];
            first [left; reflexivity|right; split; [reflexivity|eexists; reflexivity]] ].
Qed.

(* where a configuration [MDeliver o] can come from: value() of an already computed future (or of a batch item
   or lazy future, computed on the spot), or the wait loop of a root that is computed *)
Lemma step_deliver_origin P c o :
  c_mode (step P c) = MDeliver o ->
  (exists h, c_mode c = MValue h /\ c_frames (step P c) = c_frames c) \/
  ((c_mode c = MWaitHead \/ c_mode c = MAfterExec) /\
   exists root, c_frames c = FWait root :: c_frames (step P c) /\ computed root (c_st c) = true /\
                o = outcome_of root (c_st c)).
Proof.
  intros H. destruct (is_unwind (c_mode c)) eqn:Hu.
  { destruct c as [m fr s]. destruct m; try discriminate Hu. destruct fr as [|[] fr']; discriminate H. }
  destruct (step_frames P c Hu) as [(Ef & Hv)|[(x & _ & N)|[(root & Ef & Hm & Hc & E)|[(x & _ & _ & N)|(o' & E & _)]]]];
    try (destruct (N o H)); [left|right|congruence].
  - destruct (Hv o H) as (h & Hm). exists h. split; assumption.
  - split; [exact Hm|]. exists root. rewrite H in E. inversion E. auto.
Qed.

Section SyncS.
  Variable P : params.
  Hypothesis HP : pointwise P.

  Lemma CI_at_call res spec t h k fr s :
    CI res spec (mkC (MRun t (Sync h k)) fr s) ->
    exists oh, spec h = Some oh /\ spec t = Some (evals (k oh)) /\ (forall o, stree (k o)) /\
      (fnum t < fnum h)%Z /\ is_task h s /\
      (forall q, get h s = Some (mkFut None (KTask (fresh_task q))) -> oh = evals q) /\
      (computed h s = true -> oh = outcome_of h s) /\
      step P (mkC (MRun t (Sync h k)) fr s) = mkC (MValue h) (FValue t k :: fr) s.
  Proof.
    intros (Hf & HS & Hm). cbn [c_mode c_frames c_st] in *.
    destruct Hf as (old & i & r & vs & -> & Hrt & Hlv). cbn [R_of fvals] in HS.
    destruct Hm as [(Htree & _)|(h' & k' & oh & E & Hk & Hsh & Hst & Hth & Hih)]; [inversion Htree|].
    inversion E; subst h' k'. exists oh.
    split; [exact Hsh|]. split; [exact Hst|]. split; [exact Hk|]. split; [exact Hth|]. split; [exact Hih|].
    split; [|split; [|reflexivity]].
    - intros q Hg. destruct (SI_entry _ _ _ _ _ HS Hg) as (_ & o' & Hs' & _ & _ & _ & Hok). cbn in Hok.
      rewrite Hsh in Hs'. inversion Hs'; subst o'.
      destruct Hok as (k0 & K1 & _ & K3 & _); [reflexivity| |].
      + intros [E'|Hin]; [subst h; lia|]. pose proof (wt_ok_fvals _ _ _ _ _ (proj2 Hlv) h Hin). lia.
      + cbn in K1. inversion K1; subst k0. symmetry. exact K3.
    - intros Hc. pose proof (SI_computed_spec _ _ _ _ HS Hc) as E'. rewrite Hsh in E'. inversion E'. reflexivity.
  Qed.

  Lemma CI_at_return res spec o t k fr' s :
    CI res spec (mkC (MDeliver o) (FValue t k :: fr') s) ->
    utask s t /\ (forall x, stree (k x)) /\ spec t = Some (evals (k o)) /\
    step P (mkC (MDeliver o) (FValue t k :: fr') s) = mkC (MRun t (k o)) fr' (emit (EvGot t o) s).
  Proof.
    intros (Hf & HS & _). cbn [c_mode c_frames c_st] in *. destruct Hf as (b & Hv).
    inversion Hv as [|oh b' t' k' old i r orr vs Hk Ht Hb Hrt Hh Hr Hvs Eo Eb Ef]; subst.
    split; [|split; [exact Hk|split; [exact Ht|reflexivity]]].
    apply (SI_utask _ _ _ _ HS). cbn [R_of fvals]. left. reflexivity.
  Qed.

  (* what is delivered into an FValue frame is the stored = specified outcome of the awaited future *)
  Lemma CI_deliver_origin res spec c o t k fr' :
    CI res spec c -> c_mode (step P c) = MDeliver o -> c_frames (step P c) = FValue t k :: fr' ->
    exists h, computed h (c_st c) = true /\ o = outcome_of h (c_st c) /\ spec h = Some o /\ (fnum t < fnum h)%Z /\
      ((c_mode c = MValue h /\ c_frames c = FValue t k :: fr') \/
       ((c_mode c = MWaitHead \/ c_mode c = MAfterExec) /\ c_frames c = FWait h :: FValue t k :: fr')).
  Proof.
    intros HI Hm Hfr. destruct (step_deliver_origin P c o Hm) as [(h & Hmc & Hf)|(Hmc & root & Hf & Hc & Ho)].
    - destruct c as [m fr s]. cbn [c_mode c_frames c_st] in *. subst m. rewrite Hfr in Hf. subst fr.
      destruct HI as (HF & HS & Htk). cbn [c_mode c_frames c_st] in *. destruct HF as (oh & Hoh & Hv).
      cbn [step c_mode c_frames c_st] in Hm. destruct (computed h s) eqn:Hc.
      + cbn [c_mode] in Hm. inversion Hm as [Ho]. exists h. split; [exact Hc|]. split; [reflexivity|].
        split; [apply (SI_computed_spec _ _ _ _ HS Hc)|]. split; [|left; split; reflexivity].
        inversion Hv; subst. assumption.
      + destruct Htk as (out & tk & Hg). rewrite Hg in Hm. discriminate Hm.
    - destruct c as [m fr s]. cbn [c_mode c_frames c_st] in *. rewrite Hfr in Hf. subst fr.
      exists root. split; [exact Hc|]. split; [exact Ho|].
      assert (HX : SI spec (fun x => In x (t :: fvals fr')) s /\ exists orr, spec root = Some orr /\ vs_ok res spec (tasks s) orr (fnum root) (FValue t k :: fr')).
      { destruct Hmc as [-> | ->]; destruct HI as (HF & HS & _); cbn [c_mode c_frames c_st] in *;
          destruct HF as (r & vs & E & Hw); inversion E; subst r vs; (split; [exact HS|exact Hw]). }
      destruct HX as (HS & orr & Hr & Hv).
      split; [rewrite Ho; apply (SI_computed_spec _ _ _ _ HS Hc)|]. split; [|right; split; [exact Hmc|reflexivity]].
      inversion Hv; subst. assumption.
  Qed.

  Section Runs.
    Variable p : prog.
    Hypothesis Ht : stree p.
    Let h0 := fst (create [] (FTask p) (st0 P)).
    Let s1 := snd (create [] (FTask p) (st0 P)).

    Theorem sync_call_stree n t h k :
      no_unwind P n (start h0 s1) -> c_mode (run P n (start h0 s1)) = MRun t (Sync h k) ->
      exists spec oh, spec h = Some oh /\ spec t = Some (evals (k oh)) /\ (forall o, stree (k o)) /\
        (fnum t < fnum h)%Z /\ is_task h (c_st (run P n (start h0 s1))) /\
        (forall q, get h (c_st (run P n (start h0 s1))) = Some (mkFut None (KTask (fresh_task q))) -> oh = evals q) /\
        (computed h (c_st (run P n (start h0 s1))) = true -> oh = outcome_of h (c_st (run P n (start h0 s1)))) /\
        c_mode (step P (run P n (start h0 s1))) = MValue h /\
        c_frames (step P (run P n (start h0 s1))) = FValue t k :: c_frames (run P n (start h0 s1)).
    Proof.
      intros Hn Hm. destruct (reach_invS_from P HP _ (st0 P) p n Ht (SI_empty P) Hn) as (spec & HI). fold h0 s1 in HI.
      destruct (run P n (start h0 s1)) as [m fr s] eqn:Er. cbn in Hm. subst m. cbn [c_st c_frames].
      destruct (CI_at_call _ _ _ _ _ _ _ HI) as (oh & A & B & C & D & E & F & G & H).
      exists spec, oh. rewrite H. cbn [c_mode c_frames]. repeat (split; [assumption|]). split; reflexivity.
    Qed.

    Theorem sync_deliver_origin_stree n o t k fr' :
      no_unwind P n (start h0 s1) ->
      c_mode (step P (run P n (start h0 s1))) = MDeliver o ->
      c_frames (step P (run P n (start h0 s1))) = FValue t k :: fr' ->
      exists spec h, computed h (c_st (run P n (start h0 s1))) = true /\
        o = outcome_of h (c_st (run P n (start h0 s1))) /\ spec h = Some o /\ (fnum t < fnum h)%Z /\
        ((c_mode (run P n (start h0 s1)) = MValue h /\ c_frames (run P n (start h0 s1)) = FValue t k :: fr') \/
         ((c_mode (run P n (start h0 s1)) = MWaitHead \/ c_mode (run P n (start h0 s1)) = MAfterExec) /\
          c_frames (run P n (start h0 s1)) = FWait h :: FValue t k :: fr')).
    Proof.
      intros Hn Hm Hf. destruct (reach_invS_from P HP _ (st0 P) p n Ht (SI_empty P) Hn) as (spec & HI). fold h0 s1 in HI.
      destruct (CI_deliver_origin _ _ _ _ _ _ _ HI Hm Hf) as (h & A). exists spec, h. exact A.
    Qed.

    Theorem sync_return_stree n o t k fr' :
      no_unwind P n (start h0 s1) ->
      c_mode (run P n (start h0 s1)) = MDeliver o -> c_frames (run P n (start h0 s1)) = FValue t k :: fr' ->
      exists spec, utask (c_st (run P n (start h0 s1))) t /\ (forall x, stree (k x)) /\
        spec t = Some (evals (k o)) /\
        c_mode (step P (run P n (start h0 s1))) = MRun t (k o) /\
        c_frames (step P (run P n (start h0 s1))) = fr'.
    Proof.
      intros Hn Hm Hf. destruct (reach_invS_from P HP _ (st0 P) p n Ht (SI_empty P) Hn) as (spec & HI). fold h0 s1 in HI.
      destruct (run P n (start h0 s1)) as [m fr s] eqn:Er. cbn in Hm, Hf. subst m fr. cbn [c_st].
      destruct (CI_at_return _ _ _ _ _ _ _ HI) as (A & B & C & D). exists spec. rewrite D. cbn [c_mode c_frames].
      repeat (split; [assumption|]). split; reflexivity.
    Qed.
  End Runs.
End SyncS.

(* root [0]:    x, y, z = yield caller.asynq(), failing.asynq(), ErrorFuture(43)
   caller [1]:  return (callee(), 1)              - a synchronous call inside an awaited task
   callee [4]:  v = yield item(kind 0); return v  - waited for in a nested loop below caller's frames
   failing [2]: raise 42                          - the first failing sibling in written order; [3] = ErrorFuture(43)
   The root is resumed (step 40) only when [1], [2], [3] are all computed, receives Err 42 although [3] failed
   "earlier" (it was born failed), and value() ends with Err 42 = evals.  The call returns at step 30: MDeliver
   (Ok 7) pops FValue [1] and caller continues with return (7, 1). *)
Definition c02s_callee : prog :=
  Yield (YLeaf (LNew (FItem 0 2 (ASet (VInt 7))))) (ret_or_raise (fun v => v)).

Definition c02s_caller : prog :=
  Let (FTask c02s_callee) (fun h => Sync h (ret_or_raise (fun v => VTuple [v; VInt 1]))).

Definition c02s_demo : prog :=
  Yield (YTuple [YLeaf (LNew (FTask c02s_caller)); YLeaf (LNew (FTask (Raise 42))); YLeaf (LNew (FError 43))])
        (ret_or_raise (fun v => v)).

Lemma c02s_demo_stree : stree c02s_demo.
Proof.
  unfold c02s_demo. apply st_yield; [|apply ret_or_raise_stree].
  intros l Hl. cbn in Hl. destruct Hl as [<-|[<-|[<-|[]]]]; constructor; constructor; [|constructor].
  unfold c02s_caller. apply st_call; [|apply ret_or_raise_stree].
  unfold c02s_callee. apply st_yield; [|apply ret_or_raise_stree].
  intros l [<-|[]]. repeat constructor.
Qed.

Example c02s_demo_runs :
  let P := mkP [] 1000 false [] in
  let h := fst (create [] (FTask c02s_demo) (st0 P)) in
  let s1 := snd (create [] (FTask c02s_demo) (st0 P)) in
  no_unwind_b P 60 (start h s1) = true /\
  c_mode (run P 60 (start h s1)) = MDone (Err 42) /\ evals c02s_demo = Err 42 /\
  (* the resume of the root *)
  c_mode (run P 40 (start h s1)) = MResume [0] /\
  match get_task [0] (c_st (run P 40 (start h s1))) with
  | Some tk => tk_last tk = YTuple [YLeaf (RFut [1]); YLeaf (RFut [2]); YLeaf (RFut [3])] /\
               map (look (c_st (run P 40 (start h s1)))) (leaves (tk_last tk)) =
                 [Ok (VTuple [VInt 7; VInt 1]); Err 42; Err 43] /\
               unwrap (look (c_st (run P 40 (start h s1)))) (tk_last tk) = Err 42
  | None => False
  end /\
  c_mode (step P (run P 40 (start h s1))) = MRun [0] (Raise 42) /\
  (* the synchronous call inside the awaited task [1]: entered at step 10, returns at step 30 *)
  (exists k, c_mode (run P 10 (start h s1)) = MRun [1] (Sync [4] k)) /\
  c_mode (run P 11 (start h s1)) = MValue [4] /\
  c_mode (run P 29 (start h s1)) = MAfterExec /\
  (exists k fr', c_frames (run P 29 (start h s1)) = FWait [4] :: FValue [1] k :: fr') /\
  c_mode (run P 30 (start h s1)) = MDeliver (Ok (VInt 7)) /\
  (exists k fr', c_frames (run P 30 (start h s1)) = FValue [1] k :: fr') /\
  c_mode (step P (run P 30 (start h s1))) = MRun [1] (Ret (VTuple [VInt 7; VInt 1])) /\
  rev (trace (c_st (run P 60 (start h s1)))) =
    [EvStep [0] 0 (Ok VNone); EvStep [1] 0 (Ok VNone); EvStep [4] 0 (Ok VNone);
     EvBefore 0 0; EvFlush 0 0 [[5]]; EvItemDone [5] (Ok (VInt 7)); EvAfter 0 0;
     EvStep [4] 1 (Ok (VInt 7)); EvDone [4] (Ok (VInt 7)); EvGot [1] (Ok (VInt 7));
     EvDone [1] (Ok (VTuple [VInt 7; VInt 1])); EvStep [2] 0 (Ok VNone); EvDone [2] (Err 42);
     EvStep [0] 1 (Err 42); EvDone [0] (Err 42)].
Proof. cbv zeta. rewrite no_unwind_b_traj. vm_compute. repeat split; eexists; try eexists; reflexivity. Qed.

(* a clean history: the same computation twice on one scheduler; the second one works on ids [6]... *)
Example c02s_history_clean :
  let P := mkP [] 1000 false [] in
  history_clean P 60 [c02s_demo; c02s_demo] (st0 P) /\
  fst (run_case P 60 [c02s_demo; c02s_demo]) = [Some (Err 42); Some (Err 42)] /\
  filter (fun e => match e with EvStep [6] _ _ | EvDone [6] _ | EvStep [7] _ _ | EvDone [7] _ => true | _ => false end)
         (snd (run_case P 60 [c02s_demo; c02s_demo])) =
  [EvStep [6] 0 (Ok VNone); EvStep [7] 0 (Ok VNone); EvDone [7] (Ok (VTuple [VInt 7; VInt 1]));
   EvStep [6] 1 (Err 42); EvDone [6] (Err 42)].
Proof.
  cbn zeta. split; [|vm_compute; split; reflexivity].
  cbn [history_clean].
  split; [exact c02s_demo_stree|]. split; [apply no_unwind_b_sound; rewrite no_unwind_b_traj; vm_compute; reflexivity|].
  split; [intros _; eexists; vm_compute; reflexivity|].
  split; [exact c02s_demo_stree|]. split; [apply no_unwind_b_sound; rewrite no_unwind_b_traj; vm_compute; reflexivity|].
  split; [intros H; exfalso; apply H; reflexivity|exact I].
Qed.

Section MonoS.
  Variable P : params.
  Hypothesis HP : pointwise P.
  Variable res : outcome.

  (* the call of [h] from the frames [F] (= FValue t k :: the caller's frames) has not returned yet: value() of h
     has just been entered over F, or wait_for(h) sits directly on F under whatever the nested loop is doing *)
  Definition pending (h : fid) (F : list frame) (c : cfg) : Prop :=
    (c_mode c = MValue h /\ c_frames c = F) \/ exists pre, c_frames c = pre ++ FWait h :: F.

  Definition returns_to (F : list frame) (c : cfg) : Prop := c_frames c = F /\ exists o, c_mode c = MDeliver o.

  Lemma pending_not_returns h F c : pending h F c -> ~ returns_to F c.
  Proof.
    intros [(Hm & _)|(pre & Hf)] (Hf' & o & Hm'); [congruence|].
    rewrite Hf' in Hf. apply (f_equal (@length frame)) in Hf. rewrite app_length in Hf. cbn [length] in Hf. lia.
  Qed.

  Lemma pre_cons h F pre x fr' :
    pre ++ FWait h :: F = x :: fr' ->
    (pre = [] /\ x = FWait h /\ fr' = F) \/ exists pre', fr' = pre' ++ FWait h :: F.
  Proof.
    destruct pre as [|y pre']; cbn [app]; intros E; inversion E; subst; [left; auto|right; exists pre'; reflexivity].
  Qed.

  (* one transition: the call stays pending, or value() returns into F with the stored = specified outcome of h *)
  Lemma pending_step spec h F c :
    F <> [] -> CI res spec c -> is_unwind (c_mode c) = false -> pending h F c ->
    pending h F (step P c) \/
    (c_mode (step P c) = MDeliver (outcome_of h (c_st c)) /\ c_frames (step P c) = F /\
     spec h = Some (outcome_of h (c_st c))).
  Proof.
    intros HF0 HI Hu [(Hm & Hf)|(pre & Hf)].
    - destruct c as [m fr0 s]; cbn [c_mode c_frames c_st] in *.
      subst m fr0. destruct HI as (HF & HS & (out & tk & Hg)). cbn [c_mode c_frames c_st] in *.
      cbn [step c_mode c_frames c_st]. destruct (computed h s) eqn:Hc.
      + right. split; [reflexivity|]. split; [reflexivity|]. apply (SI_computed_spec _ _ _ _ HS Hc).
      + left. rewrite Hg. right. exists []. reflexivity.
    - destruct (step_frames P c Hu) as [(Ef & _)|[(x & Ef & _)|[(root & Ef & Hm & Hc & E)|[(x & Ef & N & _)|(o & _ & [E|(Hm & rest & Ef)])]]]].
      + left. right. exists pre. rewrite Ef. exact Hf.
      + left. right. exists (x :: pre). rewrite Ef, Hf. reflexivity.
      + rewrite Hf in Ef. destruct (pre_cons _ _ _ _ _ Ef) as [(_ & E1 & E2)|(pre' & E')]; [|left; right; exists pre'; exact E'].
        right. inversion E1; subst root. split; [exact E|]. split; [exact E2|].
        destruct c as [m fr0 s]; cbn [c_mode c_frames c_st] in *.
        destruct Hm as [-> | ->]; destruct HI as (_ & HS & _); apply (SI_computed_spec _ _ _ _ HS Hc).
      + rewrite Hf in Ef. destruct (pre_cons _ _ _ _ _ Ef) as [(_ & E1 & _)|(pre' & E')]; [destruct (N h E1)|].
        left. right. exists pre'. exact E'.
      + left. right. exists pre. rewrite E. exact Hf.
      + (* the outermost value() returns: its stack is [FTop], nothing is pending on it *)
        exfalso. destruct c as [m fr0 s]; cbn [c_mode c_frames c_st] in *. subst m. rewrite Ef in Hf, HI.
        destruct HI as ((b & Hv) & _). cbn [c_mode c_frames c_st] in Hv. inversion Hv; subst.
        destruct F as [|x0 F']; [exact (HF0 eq_refl)|].
        apply (f_equal (@length frame)) in Hf. rewrite app_length in Hf. cbn [length] in Hf. lia.
  Qed.

  (* from a pending configuration to the FIRST return into F: what is delivered is the specified outcome of h.
     The ghost map changes along the run; spec_le (s01_step_le) carries spec h = Some oh forward *)
  Lemma pending_run h F (HF0 : F <> []) d : forall spec c oh o,
    CI res spec c -> pending h F c -> no_unwind P d c -> spec h = Some oh ->
    c_mode (run P d c) = MDeliver o -> c_frames (run P d c) = F ->
    (forall i, (i < d)%nat -> ~ returns_to F (run P i c)) -> o = oh.
  Proof.
    induction d as [|d IH]; intros spec c oh o HI Hp Hn Hoh Hm Hf Hfirst.
    - exfalso. apply (pending_not_returns h F c Hp). split; [exact Hf|exists o; exact Hm].
    - assert (Hsh : forall j, run P (S j) c = run P j (step P c))
        by (intros j; change (S j) with (1 + j)%nat; rewrite run_add; f_equal; apply (run_step P 0)).
      rewrite Hsh in Hm, Hf.
      assert (Hu : is_unwind (c_mode c) = false) by (apply (Hn O); lia).
      destruct (s01_step_le P HP res spec c Hu HI) as (spec' & HI' & L).
      destruct (pending_step spec h F c HF0 HI Hu Hp) as [Hp'|(Hm' & Hf' & Hs')].
      + apply (IH spec' (step P c) oh o HI' Hp'); [|apply L; exact Hoh|exact Hm|exact Hf|].
        * intros k Hk. rewrite <- Hsh. apply Hn. lia.
        * intros i Hi. rewrite <- Hsh. apply Hfirst. lia.
      + destruct d as [|d'].
        * cbn [run] in Hm. rewrite Hm' in Hm. inversion Hm as [E]. rewrite Hs' in Hoh. inversion Hoh. reflexivity.
        * exfalso. apply (Hfirst 1%nat ltac:(lia)). rewrite Hsh. split; [exact Hf'|]. eexists. exact Hm'.
  Qed.
End MonoS.

(* the two-state form: a synchronous call of a fresh task with program q, from the call proper (step n) to
   its FIRST return into the caller's frames (step m): the caller receives exactly evals q and continues with
   k (evals q), whose sequential value is the caller's *)
Theorem sync_call_returns_evals_stree P (HP : pointwise P) p (Ht : stree p) n m t h k q o :
  let c0 := start (fst (create [] (FTask p) (st0 P))) (snd (create [] (FTask p) (st0 P))) in
  no_unwind P m c0 -> (n < m)%nat ->
  c_mode (run P n c0) = MRun t (Sync h k) ->
  get h (c_st (run P n c0)) = Some (mkFut None (KTask (fresh_task q))) ->
  c_mode (run P m c0) = MDeliver o -> c_frames (run P m c0) = FValue t k :: c_frames (run P n c0) ->
  (forall i, (n < i < m)%nat -> ~ returns_to (FValue t k :: c_frames (run P n c0)) (run P i c0)) ->
  o = evals q /\
  exists spec, spec t = Some (evals (k (evals q))) /\ c_mode (step P (run P m c0)) = MRun t (k (evals q)).
Proof.
  intros c0 Hn Hnm Hmn Hg Hmm Hfm Hfirst.
  assert (Hn' : no_unwind P n c0) by (intros j Hj; apply Hn; lia).
  destruct (reach_invS_from P HP _ (st0 P) p n Ht (SI_empty P) Hn') as (spec & HI). fold c0 in HI.
  assert (Ho : o = evals q).
  { assert (Hsh : forall j, run P j (step P (run P n c0)) = run P (S n + j) c0)
      by (intros j; rewrite run_add, run_step; reflexivity).
    replace m with (S n + (m - n - 1))%nat in Hmm, Hfm by lia. rewrite <- Hsh in Hmm, Hfm.
    destruct (run P n c0) as [m0 fr s] eqn:Er. cbn [c_mode c_frames c_st] in *. subst m0.
    destruct (CI_at_call P _ _ _ _ _ _ _ HI) as (oh & A & _ & _ & _ & _ & F' & _ & Hstep).
    specialize (F' q Hg). subst oh.
    destruct (s01_step_le P HP _ spec (mkC (MRun t (Sync h k)) fr s) eq_refl HI) as (spec' & HI' & L).
    apply (pending_run P HP (evals p) h (FValue t k :: fr) ltac:(discriminate) (m - n - 1) spec' _ (evals q) o HI');
      [left; rewrite Hstep; split; reflexivity| |apply L; exact A|exact Hmm|exact Hfm|].
    - intros j Hj. rewrite Hsh. apply Hn. lia.
    - intros i Hi. rewrite Hsh. apply Hfirst. lia. }
  split; [exact Ho|]. subst o.
  assert (Hn'' : no_unwind P m c0) by exact Hn.
  destruct (reach_invS_from P HP _ (st0 P) p m Ht (SI_empty P) Hn'') as (specm & HIm). fold c0 in HIm.
  destruct (run P m c0) as [mm frm sm] eqn:Erm. cbn [c_mode c_frames] in Hmm, Hfm. subst mm frm.
  destruct (CI_at_return P _ _ _ _ _ _ _ HIm) as (_ & _ & C & D). exists specm. split; [exact C|]. rewrite D. reflexivity.
Qed.

(* the same from the call expression  fn(args) = Let (FTask q) (fun h => Sync h k)  itself *)
Theorem sync_call_expr_returns_evals_stree P (HP : pointwise P) p (Ht : stree p) n m t k q o :
  let c0 := start (fst (create [] (FTask p) (st0 P))) (snd (create [] (FTask p) (st0 P))) in
  no_unwind P m c0 -> (n + 1 < m)%nat ->
  c_mode (run P n c0) = MRun t (Let (FTask q) (fun h => Sync h k)) ->
  c_mode (run P m c0) = MDeliver o -> c_frames (run P m c0) = FValue t k :: c_frames (run P n c0) ->
  (forall i, (n + 1 < i < m)%nat -> ~ returns_to (FValue t k :: c_frames (run P n c0)) (run P i c0)) ->
  o = evals q /\
  exists spec, spec t = Some (evals (k (evals q))) /\ c_mode (step P (run P m c0)) = MRun t (k (evals q)).
Proof.
  intros c0 Hn Hnm Hmn Hmm Hfm Hfirst.
  assert (E1 : run P (n + 1) c0 = step P (run P n c0)) by (rewrite Nat.add_1_r; apply run_step).
  destruct (run P n c0) as [m0 fr s] eqn:Er. cbn [c_mode c_frames] in Hmn, Hfm, Hfirst. subst m0.
  cbn [step c_mode c_frames c_st] in E1.
  assert (Hg : get (fst (create t (FTask q) s)) (snd (create t (FTask q) s)) =
               Some (mkFut None (KTask (fresh_task q)))).
  { unfold create, alloc. cbn. apply get_put_same. }
  destruct (create t (FTask q) s) as [h s1]. cbn [fst snd] in Hg.
  apply (sync_call_returns_evals_stree P HP p Ht (n + 1) m t h k q o); fold c0; rewrite ?E1; cbn [c_mode c_frames c_st]; auto.
Qed.

(* non-vacuity of sync_call_returns_evals_stree on the demo: the call of callee [4] by caller [1] is entered at
   step 10 and first returns at step 30 with Ok 7 = evals callee *)
Example c02s_demo_call_returns :
  let P := mkP [] 1000 false [] in
  let c0 := start (fst (create [] (FTask c02s_demo) (st0 P))) (snd (create [] (FTask c02s_demo) (st0 P))) in
  let k := ret_or_raise (fun v => VTuple [v; VInt 1]) in
  no_unwind P 30 c0 /\
  c_mode (run P 10 c0) = MRun [1] (Sync [4] k) /\
  get [4] (c_st (run P 10 c0)) = Some (mkFut None (KTask (fresh_task c02s_callee))) /\
  c_mode (run P 30 c0) = MDeliver (Ok (VInt 7)) /\
  c_frames (run P 30 c0) = FValue [1] k :: c_frames (run P 10 c0) /\
  (forall i, (10 < i < 30)%nat -> ~ returns_to (FValue [1] k :: c_frames (run P 10 c0)) (run P i c0)) /\
  evals c02s_callee = Ok (VInt 7).
Proof.
  cbn zeta. split; [apply no_unwind_b_sound; rewrite no_unwind_b_traj; vm_compute; reflexivity|].
  split; [vm_compute; reflexivity|]. split; [vm_compute; reflexivity|]. split; [vm_compute; reflexivity|].
  split; [vm_compute; reflexivity|]. split; [|reflexivity].
  intros i Hi (_ & o' & Hm').
  set (P := mkP [] 1000 false []) in *.
  set (c0 := start (fst (create [] (FTask c02s_demo) (st0 P))) (snd (create [] (FTask c02s_demo) (st0 P)))) in *.
  assert (Hb : forallb (fun j => match c_mode (run P j (run P 11 c0)) with MDeliver _ => false | _ => true end) (seq 0 19) = true)
    by (rewrite (forallb_run P (fun c => match c_mode c with MDeliver _ => false | _ => true end)); vm_compute; reflexivity).
  rewrite forallb_forall in Hb. specialize (Hb (i - 11)%nat). rewrite in_seq in Hb. specialize (Hb ltac:(lia)).
  rewrite <- run_add in Hb. replace (11 + (i - 11))%nat with i in Hb by lia.
  rewrite Hm' in Hb. discriminate Hb.
Qed.
