(* C01 on the scheduler machine for tree programs WITH SYNCHRONOUS CALLS ("stree"): a task body may, besides
   yielding structures of new futures, call another @asynq function synchronously - fn(args) or
   fn.asynq(args).value() - which on the machine is  Let (FTask q) (fun h => Sync h k) : create the task and wait for
   it in a NESTED scheduler loop (wait_for -> _execute -> _continue_with_task ...) on the same scheduler, below
   the caller's own frames.  Calls nest to any depth and callees may yield batch items, child tasks, etc.

   Result (async_eq_seq_stree): whatever the flush order (oracle), priorities, KEEP_DEPENDENCIES setting and
   fuel, the value() of the root computation is exactly [evals p], the sequential depth-first evaluation in which
   a synchronous call is evaluated on the spot - provided the service is pointwise and no exception unwound
   through asynq's frames (the MAX_TASK_STACK_SIZE guard), as in MachineC01.v.

   Route:
   - ghost specification map [spec : fid -> option outcome] as there;
   - the state invariant [SI spec R s] exempts a SET R of tasks: every task whose
     generator is executing - the task of the current MRun and every caller suspended in an FValue frame; their
     heap entries hold stale continuations.  R-tasks are uncomputed task entries; every dependency of a task is
     younger (has a larger creation number) than the task;
   - the frame invariant [vs_ok] is a recursive (inductive) predicate over the whole Python stack: levels
     FCont t _ :: FExec i :: FWait r separated by FValue t k frames, ending in FTop.  It is indexed by the outcome
     that will be delivered to the stack: for FValue t k it demands  spec t = evals (k oh)  where oh is the
     specified outcome of the awaited future, and then continues below with the specified outcome of that level's
     wait_for root r;
   - the only fact about the scheduler's task stack that is needed: everything the loop of level (i, r) works on
     (stack positions at height >= i) is at least as young as r, while every suspended caller below is older
     than r.  Hence the nested loops never resume, complete or otherwise touch a suspended caller. *)
From Asynq Require Import Machine Seq proofs.ProgProofs proofs.MachineFrame proofs.MachineC08 proofs.MachineHelpers
  proofs.MachineCases proofs.MachineC01.

Inductive stree : prog -> Prop :=
| st_ret v : stree (Ret v)
| st_result v : stree (Result v)
| st_raise e : stree (Raise e)
| st_yield s k : (forall l, In l (leaves s) -> stree_leaf l) -> (forall o, stree (k o)) -> stree (Yield s k)
| st_enter c k : plain_ctx c = true -> stree k -> stree (Enter c k)
| st_exit c k : plain_ctx c = true -> stree k -> stree (Exit c k)
| st_call q k : stree q -> (forall o, stree (k o)) -> stree (Let (FTask q) (fun h => Sync h k))
with stree_leaf : leaf -> Prop :=
| sl_new f : stree_fexpr f -> stree_leaf (LNew f)
| sl_bad : stree_leaf LBad
with stree_fexpr : fexpr -> Prop :=
| sf_task p : stree p -> stree_fexpr (FTask p)
| sf_item kind key a : stree_fexpr (FItem kind key a)
| sf_const v : stree_fexpr (FConst v)
| sf_error e : stree_fexpr (FError e)
| sf_lazy o : stree_fexpr (FLazy o).

(* Seq.eval plus the call case: the callee is evaluated on the spot and its outcome (value or exception) is
   what the call expression gives the caller's continuation *)
Fixpoint evals (p : prog) : outcome :=
  match p with
  | Ret v | Result v => Ok v
  | Raise e => Err e
  | Yield s k => evals (k (unwrap leaf_outs s))
  | Enter _ k | Exit _ k => evals k
  | Let (FTask q) k1 => match k1 [] with Sync _ k => evals (k (evals q)) | _ => Err E_NOTIMPL end
  | Let _ _ | Sync _ _ | ReadVar _ _ | Probe _ => Err E_NOTIMPL
  end
with fexpr_outs (f : fexpr) : outcome :=
  match f with
  | FTask p => evals p
  | FItem _ _ a => item_out a
  | FConst v => Ok v
  | FError e => Err e
  | FLazy o => o
  end
with leaf_outs (l : leaf) : outcome :=
  match l with
  | LNew f => fexpr_outs f
  | LOld _ => Err E_NOTIMPL
  | LBad => Err E_TYPEERROR
  end.

Lemma evals_call q k : evals (Let (FTask q) (fun h => Sync h k)) = evals (k (evals q)).
Proof. reflexivity. Qed.

(* on the yield-only fragment nothing changes *)
Lemma evals_eval_tree p : tree p -> evals p = eval p.
Proof.
  intros H.
  apply (tree_mut (fun p => evals p = eval p) (fun l => leaf_outs l = leaf_out l)
                  (fun f => fexpr_outs f = fexpr_out f)); try reflexivity; auto.
  - intros s k Hl IHl Hk IHk. cbn [evals eval].
    rewrite (unwrap_ext leaf_outs leaf_out s IHl). apply IHk.
Qed.

Lemma tree_stree p : tree p -> stree p.
Proof.
  intros H.
  apply (tree_mut stree stree_leaf stree_fexpr);
    intros; try (constructor; auto; fail); auto.
Qed.

Definition fnum (h : fid) : Z := hd 0%Z h.

Definition task_okS (spec : specmap) (s : st) (tk : task) (o : outcome) : Prop :=
  exists k, tk_gen tk = Some k /\ (forall x, stree (k x)) /\
    evals (k (unwrap (look_spec spec) (tk_last tk))) = o /\
    (forall h, In (RFut h) (leaves (tk_last tk)) -> get h s <> None) /\
    (forall h, In (RFut h) (leaves (tk_last tk)) -> In h (tk_deps tk)).

Definition entry_okS (spec : specmap) (R : fid -> Prop) (s : st) (h : fid) (f : fut) : Prop :=
  (exists n, h = [n] /\ (0 <= n < top_next s)%Z) /\
  exists o, spec h = Some o /\ (forall o', f_out f = Some o' -> o' = o) /\
  match f_kind f with
  | KTask tk => forallb plain_ctx (tk_ctxs tk) = true /\
                (forall d, In d (tk_deps tk) -> (fnum h < fnum d)%Z) /\
                (f_out f = None -> ~ R h -> task_okS spec s tk o)
  | KItem _ _ _ a => item_out a = o
  | KLazy o' => o' = o
  | KOther => f_out f <> None
  end.

Definition utask (s : st) (h : fid) : Prop := exists tk, get h s = Some (mkFut None (KTask tk)).

Definition SI (spec : specmap) (R : fid -> Prop) (s : st) : Prop :=
  (forall h f, get h s = Some f -> entry_okS spec R s h f) /\ items_ok s /\ (0 <= top_next s)%Z /\
  (forall h, R h -> utask s h) /\ (forall h, get h s = None -> spec h = None).

(* SI is the invariant GI of MachineC01.v for the class stree, and three clauses more: dependencies are younger,
   exempt tasks are uncomputed task entries, the ghost map is undefined outside the heap *)
Definition SX (spec : specmap) (R : fid -> Prop) (s : st) : Prop :=
  (forall h out tk, get h s = Some (mkFut out (KTask tk)) -> forall d, In d (tk_deps tk) -> (fnum h < fnum d)%Z) /\
  (forall h, R h -> utask s h) /\ (forall h, get h s = None -> spec h = None).

Lemma SI_GI spec R s : SI spec R s <-> GI stree evals spec R s /\ SX spec R s.
Proof.
  split.
  - intros (HE & HI & HN & HR & HU). split; [split; [|split; assumption]|split; [|split; assumption]].
    + intros h f Hg. destruct (HE h f Hg) as (A & o & Hs & Ho & Hk). split; [exact A|]. exists o.
      split; [exact Hs|]. split; [exact Ho|]. destruct (f_kind f); auto. destruct Hk as (Hp & _ & Hk). split; assumption.
    + intros h out tk Hg. destruct (HE _ _ Hg) as (_ & o & _ & _ & Hk). cbn in Hk. apply Hk.
  - intros ((HE & HI & HN) & (HD & HR & HU)). split; [|repeat split; assumption].
    intros h f Hg. destruct (HE h f Hg) as (A & o & Hs & Ho & Hk). split; [exact A|]. exists o.
    split; [exact Hs|]. split; [exact Ho|]. destruct f as [out [tk| | |]]; auto. cbn in *.
    destruct Hk as (Hp & Hk). split; [exact Hp|]. split; [apply (HD h out tk Hg)|exact Hk].
Qed.

Lemma SX_view spec R s s' : heap s' = heap s -> SX spec R s -> SX spec R s'.
Proof.
  intros Hh (HD & HR & HU).
  pose proof (get_view s s' Hh) as G.
  split; [|split].
  - intros h out tk Hg. rewrite G in Hg. exact (HD h out tk Hg).
  - intros h Hr. destruct (HR h Hr) as (tk & Hg). exists tk. rewrite G. exact Hg.
  - intros h Hg. rewrite G in Hg. auto.
Qed.

Lemma SX_upd spec (R R' : fid -> Prop) s s' h f f' :
  get h s = Some f -> SX spec R s -> upd_entry s s' h f' ->
  (forall x, x <> h -> R' x -> R x) ->
  (R' h -> exists tk, f' = mkFut None (KTask tk)) ->
  (forall out tk, f' = mkFut out (KTask tk) -> forall d, In d (tk_deps tk) -> (fnum h < fnum d)%Z) ->
  SX spec R' s'.
Proof.
  intros Hg (HD & HR & HU) U HRR Hr' Hd'.
  pose proof (upd_entry_dom _ _ _ _ _ Hg U) as Dom. destruct U as (A & B & _).
  split; [|split].
  - intros x out tk Hx. destruct (fid_eqb_spec x h) as [->|N].
    + rewrite A in Hx. inversion Hx. apply (Hd' out tk). auto.
    + rewrite (B x N) in Hx. exact (HD x out tk Hx).
  - intros x Hx. destruct (fid_eqb_spec x h) as [->|N].
    + destruct (Hr' Hx) as (tk & ->). exists tk. exact A.
    + destruct (HR x (HRR x N Hx)) as (tk & Hgx). exists tk. rewrite (B x N). exact Hgx.
  - intros x Hx. apply HU. destruct (get x s) eqn:Hgx; [|reflexivity].
    exfalso. apply (proj2 (Dom x)); [rewrite Hgx; discriminate|exact Hx].
Qed.

Lemma SX_item_steps spec R s s' : item_steps s s' -> SX spec R s -> SX spec R s'.
Proof.
  intros S (HD & HR & HU). pose proof S as (_ & _ & H). split; [|split].
  - intros h out tk Hg. destruct (H h) as [E|(? & ? & ? & ? & _ & G')]; [|rewrite G' in Hg; discriminate].
    rewrite E in Hg. exact (HD h out tk Hg).
  - intros h Hr. destruct (HR h Hr) as (tk & Hg). exists tk. exact (item_steps_task s s' h None tk S Hg).
  - intros h Hg. apply HU. destruct (H h) as [E|(? & ? & ? & ? & _ & G')]; [rewrite <- E; exact Hg|rewrite G' in Hg; discriminate].
Qed.

Lemma SX_add spec R s s1 ent o :
  SX spec R s -> let h := [top_next s] in get h s = None ->
  (forall x, x <> h -> get x s1 = get x s) -> get h s1 = Some ent ->
  (forall out tk, ent = mkFut out (KTask tk) -> tk_deps tk = []) ->
  SX (spec_add spec h o) R s1.
Proof.
  intros (HD & HR & HU) h Hfresh Hoth Hnew Hd.
  split; [|split].
  - intros x out tk Hx. destruct (fid_eqb_spec x h) as [->|N].
    + rewrite Hnew in Hx. inversion Hx. rewrite (Hd out tk); [intros d []|auto].
    + rewrite (Hoth x N) in Hx. exact (HD x out tk Hx).
  - intros x Hx. destruct (HR x Hx) as (tk & Hgx). exists tk. rewrite Hoth; [exact Hgx|].
    intros ->. fold h in Hgx. rewrite Hfresh in Hgx. discriminate.
  - intros x Hx. destruct (fid_eqb_spec x h) as [->|N]; [rewrite Hnew in Hx; discriminate|].
    rewrite (spec_add_other _ _ _ _ N). apply HU. rewrite <- (Hoth x N). exact Hx.
Qed.

Lemma SI_view spec R s s' :
  heap s' = heap s -> batches s' = batches s -> top_next s' = top_next s -> SI spec R s -> SI spec R s'.
Proof.
  intros Hh Hb Hn HS. apply SI_GI in HS as [HG HX]. apply SI_GI.
  split; [apply (GI_view stree evals spec R s); assumption|apply (SX_view spec R s); assumption].
Qed.

Lemma SI_ext spec (R R' : fid -> Prop) s : (forall x, R x <-> R' x) -> SI spec R s -> SI spec R' s.
Proof.
  intros HRR HS. apply SI_GI in HS as [HG (HD & HR & HU)]. apply SI_GI.
  split; [apply (GI_mono stree evals spec R); [intros x; apply HRR|exact HG]|].
  split; [exact HD|split; [intros h Hr; apply HR, HRR, Hr|exact HU]].
Qed.

Lemma SI_upd_task spec R s s' t out tk tk' :
  get t s = Some (mkFut out (KTask tk)) -> SI spec R s ->
  upd_entry s s' t (mkFut out (KTask tk')) ->
  forallb plain_ctx (tk_ctxs tk') = true ->
  (forall d, In d (tk_deps tk') -> (fnum t < fnum d)%Z) ->
  (out = None -> ~ R t -> forall o, spec t = Some o -> task_okS spec s tk' o) ->
  SI spec R s'.
Proof.
  intros Hg HS U Hp Hd Hk. apply SI_GI in HS as [HG HX]. apply SI_GI. split.
  - exact (GI_upd_task stree evals spec R s s' t out tk tk' Hg HG U Hp Hk).
  - apply (SX_upd spec R R s s' t _ _ Hg HX U); [auto| |intros o' tk0 E; inversion E; subst; exact Hd].
    intros Hr. destruct (proj1 (proj2 HX) t Hr) as (tk0 & Hg0). rewrite Hg in Hg0. inversion Hg0. eauto.
Qed.

Lemma SI_entry spec R s h f : SI spec R s -> get h s = Some f -> entry_okS spec R s h f.
Proof. intros (HE & _) Hg. apply HE. exact Hg. Qed.

Lemma SI_items spec R s : SI spec R s -> items_ok s.
Proof. intros (_ & HI & _). exact HI. Qed.

Lemma SI_plain spec R s t out tk : SI spec R s -> get t s = Some (mkFut out (KTask tk)) ->
  forallb plain_ctx (tk_ctxs tk) = true.
Proof. intros HS Hg. destruct (SI_entry _ _ _ _ _ HS Hg) as (_ & o & _ & _ & Hp & _). exact Hp. Qed.

Lemma SI_deps spec R s t out tk : SI spec R s -> get t s = Some (mkFut out (KTask tk)) ->
  forall d, In d (tk_deps tk) -> (fnum t < fnum d)%Z.
Proof. intros HS Hg. destruct (SI_entry _ _ _ _ _ HS Hg) as (_ & o & _ & _ & _ & Hd & _). exact Hd. Qed.

Lemma SI_utask spec (R : fid -> Prop) s t : SI spec R s -> R t -> utask s t.
Proof. intros (_ & _ & _ & HR & _) Hr. apply HR. exact Hr. Qed.

Lemma SI_computed_spec spec R s h : SI spec R s -> computed h s = true -> spec h = Some (outcome_of h s).
Proof. intros HS. exact (GI_computed_spec stree evals spec R s h (proj1 (proj1 (SI_GI _ _ _) HS))). Qed.

Lemma SI_fnum_lt spec R s h f : SI spec R s -> get h s = Some f -> (0 <= fnum h < top_next s)%Z.
Proof. intros HS Hg. destruct (SI_entry _ _ _ _ _ HS Hg) as ((n & -> & Hn) & _). exact Hn. Qed.

Lemma SI_flags spec R s s2 x out tk ds act :
  get x s = Some (mkFut out (KTask tk)) -> SI spec R s -> tupd s s2 x out (tk_flags tk ds act) -> SI spec R s2.
Proof.
  intros Hg HS U.
  apply (SI_upd_task spec R s s2 x out tk _ Hg HS (tupd_upd_entry _ _ _ _ _ U) (SI_plain _ _ _ _ _ _ HS Hg)
                     (SI_deps _ _ _ _ _ _ HS Hg)).
  intros Eo Nr o Hs. destruct (SI_entry _ _ _ _ _ HS Hg) as (_ & o' & Hs' & _ & _ & _ & Hk).
  rewrite Hs in Hs'. inversion Hs'; subst o'. exact (Hk Eo Nr).
Qed.

Lemma SI_lazy spec (R : fid -> Prop) s x out o : SI spec R s -> get x s = Some (mkFut out (KLazy o)) ->
  SI spec R (put x (mkFut (Some o) (KLazy o)) s).
Proof.
  intros HS Hg. apply SI_GI in HS as [HG HX]. apply SI_GI. split; [exact (GI_lazy stree evals spec R s x out o HG Hg)|].
  apply (SX_upd spec R R s _ x _ _ Hg HX (upd_entry_put _ _ _)); [auto| |intros; discriminate].
  intros Hr. destruct (proj1 (proj2 HX) x Hr) as (tk & Hg'). rewrite Hg in Hg'. discriminate.
Qed.

Lemma SI_exempt_add spec F s t : SI spec (fun x => In x F) s -> utask s t -> SI spec (fun x => In x (t :: F)) s.
Proof.
  intros HS Hu. apply SI_GI in HS as [HG (HD & HR & HU)]. apply SI_GI.
  split; [apply (GI_mono stree evals spec (fun x => In x F)); [intros x H; right; exact H|exact HG]|].
  split; [exact HD|split; [intros x [<-|H]; [exact Hu|exact (HR x H)]|exact HU]].
Qed.

Lemma SI_exempt spec (R : fid -> Prop) s s2 t tk tk1 :
  get t s = Some (mkFut None (KTask tk)) -> SI spec R s -> R t -> tupd s s2 t None tk1 ->
  forallb plain_ctx (tk_ctxs tk1) = true -> (forall d, In d (tk_deps tk1) -> (fnum t < fnum d)%Z) -> SI spec R s2.
Proof.
  intros Hg HS Hr U Hp Hd. apply (SI_upd_task spec R s s2 t None tk tk1 Hg HS (tupd_upd_entry _ _ _ _ _ U) Hp Hd).
  intros _ N. destruct (N Hr).
Qed.

Lemma SI_finish spec F s s2 t tk o :
  get t s = Some (mkFut None (KTask tk)) -> SI spec (fun x => In x (t :: F)) s -> ~ In t F -> spec t = Some o ->
  tupd s s2 t (Some o) (closed_task tk) -> SI spec (fun x => In x F) s2.
Proof.
  intros Hg HS HtF Hs U. apply SI_GI in HS as [HG HX]. apply SI_GI. split.
  - apply (GI_finish stree evals spec _ _ s s2 t tk o Hg HG Hs U). intros x N [E|H]; [congruence|exact H].
  - apply (SX_upd spec _ _ s s2 t _ _ Hg HX (tupd_upd_entry _ _ _ _ _ U)); [intros x _ H; right; exact H| |].
    + intros H. destruct (HtF H).
    + intros out tk0 E. inversion E. intros d [].
Qed.

Lemma SI_suspend spec F s s2 t tk k y' o :
  get t s = Some (mkFut None (KTask tk)) -> SI spec (fun x => In x (t :: F)) s -> ~ In t F -> spec t = Some o ->
  tupd s s2 t None (mkTask (Some k) y' (tk_deps tk ++ futs (extract y')) (tk_ctxs tk) (tk_cact tk) (tk_ds tk)
                           (tk_iter tk) (tk_next tk)) ->
  (forall x, stree (k x)) -> evals (k (unwrap (look_spec spec) y')) = o ->
  (forall h, In (RFut h) (leaves y') -> get h s <> None /\ (fnum t < fnum h)%Z) ->
  SI spec (fun x => In x F) s2.
Proof.
  intros Hg HS HtF Hs U Hk He Ha. pose proof (SI_deps _ _ _ _ _ _ HS Hg) as Hd. apply SI_GI in HS as [HG HX]. apply SI_GI. split.
  - apply (GI_suspend stree evals spec _ _ s s2 t tk k y' o Hg HG Hs U Hk He); [intros h Hin; apply Ha, Hin|].
    intros x N [E|H]; [congruence|exact H].
  - apply (SX_upd spec _ _ s s2 t _ _ Hg HX (tupd_upd_entry _ _ _ _ _ U)); [intros x _ H; right; exact H| |].
    + intros H. destruct (HtF H).
    + intros out tk0 E. inversion E. cbn. intros d Hin. apply in_app_or in Hin as [Hin|Hin]; [exact (Hd d Hin)|].
      unfold futs in Hin. apply in_flat_map in Hin as ([d'|] & Hin1 & Hin2); [|destruct Hin2].
      destruct Hin2 as [<-|[]]. apply extract_same_elements in Hin1. apply Ha, Hin1.
Qed.

Lemma SI_continue_with_batch spec R P s :
  pointwise P -> SI spec R s ->
  SI spec R (continue_with_batch P s) /\
  (forall h, computed h s = true -> computed h (continue_with_batch P s) = true) /\
  (forall t out tk, get t s = Some (mkFut out (KTask tk)) -> get t (continue_with_batch P s) = Some (mkFut out (KTask tk))).
Proof.
  intros HP HS. pose proof (continue_with_batch_item_steps P s HP (SI_items _ _ _ HS)) as S.
  split; [|split; [intros h; apply (item_steps_computed _ _ _ S)|intros t out tk; apply (item_steps_task _ _ _ _ _ S)]].
  apply SI_GI in HS as [HG HX]. apply SI_GI.
  split; [exact (GI_item_steps stree evals spec R _ _ S HG)|exact (SX_item_steps spec R _ _ S HX)].
Qed.

Lemma stree_fexpr_cls f : stree_fexpr f -> cls_fexpr stree f.
Proof. intros H. destruct H; cbn; auto. Qed.

Lemma stree_leaf_cls l : stree_leaf l -> cls_leaf stree l.
Proof. intros H. destruct H as [f Hf|]; [exact (stree_fexpr_cls f Hf)|exact I]. Qed.

Lemma fexpr_outs_ev f : fexpr_outs f = ev_fexpr evals f.
Proof. destruct f; reflexivity. Qed.

Lemma leaf_outs_ev l : leaf_outs l = ev_leaf evals l.
Proof. destruct l as [f| |]; [apply fexpr_outs_ev|reflexivity|reflexivity]. Qed.

Lemma SX_create spec R parent f s : GI stree evals spec R s -> SX spec R s ->
  SX (spec_add spec [top_next s] (ev_fexpr evals f)) R (snd (create parent f s)).
Proof.
  intros HG HX. destruct (create_spec parent f s) as (_ & _ & Hoth & Hnew & _).
  apply (SX_add spec R s _ (new_entry f s) _ HX (GI_fresh_id _ _ _ _ _ HG) Hoth Hnew).
  intros out tk E. destruct f; inversion E. reflexivity.
Qed.

Lemma SI_create spec R parent f s :
  SI spec R s -> stree_fexpr f ->
  let h := fst (create parent f s) in
  let s1 := snd (create parent f s) in
  let spec' := spec_add spec h (fexpr_outs f) in
  get h s = None /\ SI spec' R s1 /\ get h s1 <> None /\
  (forall x, x <> h -> get x s1 = get x s) /\ h = [top_next s] /\ top_next s1 = (top_next s + 1)%Z /\
  (forall p, f = FTask p -> get h s1 = Some (mkFut None (KTask (fresh_task p)))).
Proof.
  intros HS Hf. apply SI_GI in HS as [HG HX]. apply stree_fexpr_cls in Hf.
  pose proof (GI_create stree evals spec R parent f s HG Hf) as HC. pose proof (SX_create spec R parent f s HG HX) as HX1.
  cbn zeta in *. destruct HC as (A & B & C & D & E & F). rewrite fexpr_outs_ev.
  split; [exact A|]. split; [apply SI_GI; rewrite E; split; [rewrite <- E; exact B|exact HX1]|].
  split; [rewrite C; discriminate|]. split; [exact D|]. split; [exact E|]. split; [exact F|].
  intros p ->. exact C.
Qed.

Definition inst_postS (spec : specmap) (R : fid -> Prop) (s : st) (spec' : specmap) (s1 : st) : Prop :=
  ext_spec s spec spec' /\ SI spec' R s1 /\ (forall x, get x s <> None -> get x s1 = get x s) /\
  (top_next s <= top_next s1)%Z.

(* an extension of the specification on fresh ids only is monotone *)
Definition spec_le (spec spec' : specmap) : Prop := forall x o, spec x = Some o -> spec' x = Some o.

Lemma ext_spec_le spec R s spec' : SI spec R s -> ext_spec s spec spec' -> spec_le spec spec'.
Proof.
  intros (_ & _ & _ & _ & HU) E x o Hx. rewrite E; [exact Hx|]. intros Hg. rewrite (HU x Hg) in Hx. discriminate.
Qed.

Lemma SI_inst R parent (y : ystruct leaf) : forall spec s,
  SI spec R s -> (forall l, In l (leaves y) -> stree_leaf l) ->
  exists spec', inst_postS spec R s spec' (snd (inst parent y s)) /\
    unwrap (look_spec spec') (fst (inst parent y s)) = unwrap leaf_outs y /\
    (forall h, In (RFut h) (leaves (fst (inst parent y s))) -> get h (snd (inst parent y s)) <> None) /\
    (forall h, In (RFut h) (leaves (fst (inst parent y s))) -> (top_next s <= fnum h)%Z).
Proof.
  intros spec s HS Ht. apply SI_GI in HS.
  destruct (GI_inst stree evals R parent (fun spec s => SX spec R s) (fun spec s f => SX_create spec R parent f s) y spec s HS)
    as (spec' & (E & S1 & O & T) & U & A); [intros l Hl; apply stree_leaf_cls, Ht, Hl|].
  exists spec'. split; [split; [exact E|split; [apply SI_GI; exact S1|split; [exact O|exact T]]]|].
  split; [|split; intros h Hin; apply A, Hin].
  rewrite U. apply unwrap_ext. intros l _. symmetry. apply leaf_outs_ev.
Qed.

Lemma spec_add_le spec R s h o : SI spec R s -> get h s = None -> spec_le spec (spec_add spec h o).
Proof. intros HS Hg. exact (ext_spec_le spec R s _ HS (ext_spec_add spec s h o Hg)). Qed.

(* x is on the stack ts (head = top; [rev ts] lists it from the bottom) at height >= i, i.e. it was pushed by an
   _execute loop entered when the stack had i elements (or by a loop nested in it) *)
Definition hi (ts : list fid) (i : nat) (x : fid) : Prop := In x (skipn i (rev ts)).

Lemma in_skipn {A} (x : A) n : forall l, In x (skipn n l) -> In x l.
Proof. induction n as [|n IH]; intros [|y l]; cbn; auto. Qed.

Lemma in_skipn_app {A} (x : A) n a b : In x (skipn n (a ++ b)) -> In x (skipn n a) \/ In x b.
Proof.
  rewrite skipn_app. intros H. apply in_app_or in H as [H|H]; [left; exact H|right; eapply in_skipn; exact H].
Qed.

Lemma in_skipn_app_l {A} (x : A) n a b : In x (skipn n a) -> In x (skipn n (a ++ b)).
Proof. rewrite skipn_app. intros H. apply in_or_app. left. exact H. Qed.

Lemma hi_push ts i y x : hi (y :: ts) i x -> x = y \/ hi ts i x.
Proof. unfold hi. cbn [rev]. intros H. apply in_skipn_app in H as [H|[H|[]]]; auto. Qed.

Lemma hi_pop ts i x : hi (tl ts) i x -> hi ts i x.
Proof. destruct ts as [|y ts]; [auto|]. unfold hi. cbn [tl rev]. apply in_skipn_app_l. Qed.

Lemma hi_app l ts i x : hi (l ++ ts) i x -> In x l \/ hi ts i x.
Proof.
  induction l as [|y l IH]; cbn [app]; [auto|]. intros H. apply hi_push in H as [->|H]; [left; left; reflexivity|].
  destruct (IH H) as [H1|H1]; [left; right; exact H1|right; exact H1].
Qed.

Lemma hi_top ts i y : (i <= length ts)%nat -> hi (y :: ts) i y.
Proof.
  intros Hl. unfold hi. cbn [rev]. rewrite skipn_app. apply in_or_app. right. rewrite rev_length.
  replace (i - length ts)%nat with O by lia. left. reflexivity.
Qed.

Lemma hi_enter ts r x : hi (r :: ts) (length ts) x -> x = r.
Proof.
  intros H. apply hi_push in H as [H|H]; [exact H|]. unfold hi in H. rewrite <- rev_length, skipn_all in H. destruct H.
Qed.

(* the callers suspended in a synchronous call *)
Fixpoint fvals (fr : list frame) : list fid :=
  match fr with
  | [] => []
  | FValue t _ :: fr' => t :: fvals fr'
  | _ :: fr' => fvals fr'
  end.

(* the tasks whose generator is executing *)
Definition R_of (m : mode) (fr : list frame) : list fid :=
  match m with MRun t _ => t :: fvals fr | _ => fvals fr end.

Section MainS.
  Variable P : params.
  Hypothesis HP : pointwise P.
  Variable res : outcome.

  (* [vs_ok spec ts oh b fr]: fr is a stack to which value() will deliver the outcome oh; every suspended
     caller in it has a creation number below b *)
  Inductive vs_ok (spec : specmap) (ts : list fid) : outcome -> Z -> list frame -> Prop :=
  | vs_top b : vs_ok spec ts res b [FTop]
  | vs_val oh b t k old i r orr vs :
      (forall o, stree (k o)) -> spec t = Some (evals (k oh)) -> (fnum t < b)%Z -> (fnum r <= fnum t)%Z ->
      (forall x, hi ts i x -> (fnum r <= fnum x)%Z) ->
      spec r = Some orr -> vs_ok spec ts orr (fnum r) vs ->
      vs_ok spec ts oh b (FValue t k :: FCont t old :: FExec i :: FWait r :: vs).

  Definition wt_ok (spec : specmap) (ts : list fid) (r : fid) (vs : list frame) : Prop :=
    exists orr, spec r = Some orr /\ vs_ok spec ts orr (fnum r) vs.

  Definition lv_ok (spec : specmap) (ts : list fid) (i : nat) (r : fid) (vs : list frame) : Prop :=
    (forall x, hi ts i x -> (fnum r <= fnum x)%Z) /\ wt_ok spec ts r vs.

  Definition frames_okS (spec : specmap) (ts : list fid) (m : mode) (fr : list frame) : Prop :=
    match m with
    | MValue h => exists oh, spec h = Some oh /\ vs_ok spec ts oh (fnum h) fr
    | MDeliver o => exists b, vs_ok spec ts o b fr
    | MWaitHead | MAfterExec => exists r vs, fr = FWait r :: vs /\ wt_ok spec ts r vs
    | MExecLoop => exists i r vs, fr = FExec i :: FWait r :: vs /\ lv_ok spec ts i r vs
    | MResume t | MRun t _ =>
      exists old i r vs, fr = FCont t old :: FExec i :: FWait r :: vs /\ (fnum r <= fnum t)%Z /\ lv_ok spec ts i r vs
    | MContRet =>
      exists t old i r vs, fr = FCont t old :: FExec i :: FWait r :: vs /\ (fnum r <= fnum t)%Z /\ lv_ok spec ts i r vs
    | MUnwind _ | MDone _ | MStuck => True
    end.

  Lemma vs_ok_le spec spec' ts oh b fr : spec_le spec spec' -> vs_ok spec ts oh b fr -> vs_ok spec' ts oh b fr.
  Proof.
    intros L H. induction H as [b|oh b t k old i r orr vs Hk Ht Hb Hrt Hh Hr Hv IH]; [apply vs_top|].
    apply (vs_val spec' ts oh b t k old i r orr vs); auto.
  Qed.

  Lemma vs_ok_bound spec ts oh b b' fr : (b <= b')%Z -> vs_ok spec ts oh b fr -> vs_ok spec ts oh b' fr.
  Proof.
    intros L H. destruct H as [b|oh b t k old i r orr vs Hk Ht Hb Hrt Hh Hr Hv]; [apply vs_top|].
    apply (vs_val spec ts oh b' t k old i r orr vs); auto. lia.
  Qed.

  (* the task stack may change as long as everything new is at least as young as the bound *)
  Lemma vs_ok_ts spec ts ts' oh b fr :
    vs_ok spec ts oh b fr -> (forall i x, hi ts' i x -> hi ts i x \/ (b <= fnum x)%Z) -> vs_ok spec ts' oh b fr.
  Proof.
    intros H. induction H as [b|oh b t k old i r orr vs Hk Ht Hb Hrt Hh Hr Hv IH]; intros Hts; [apply vs_top|].
    apply (vs_val spec ts' oh b t k old i r orr vs); auto.
    - intros x Hx. destruct (Hts i x Hx) as [H1|H1]; [apply Hh; exact H1|lia].
    - apply IH. intros j x Hx. destruct (Hts j x Hx) as [H1|H1]; [left; exact H1|right; lia].
  Qed.

  Lemma vs_ok_fvals spec ts oh b fr : vs_ok spec ts oh b fr -> forall t, In t (fvals fr) -> (fnum t < b)%Z.
  Proof.
    intros H. induction H as [b|oh b t k old i r orr vs Hk Ht Hb Hrt Hh Hr Hv IH]; intros x Hx; [destruct Hx|].
    cbn [fvals] in Hx. destruct Hx as [<-|Hx]; [exact Hb|]. specialize (IH x Hx). lia.
  Qed.

  Lemma wt_ok_le spec spec' ts r vs : spec_le spec spec' -> wt_ok spec ts r vs -> wt_ok spec' ts r vs.
  Proof. intros L (orr & Hr & Hv). exists orr. split; [apply L; exact Hr|apply (vs_ok_le spec); assumption]. Qed.

  Lemma wt_ok_ts spec ts ts' r vs :
    wt_ok spec ts r vs -> (forall i x, hi ts' i x -> hi ts i x \/ (fnum r <= fnum x)%Z) -> wt_ok spec ts' r vs.
  Proof. intros (orr & Hr & Hv) Hts. exists orr. split; [exact Hr|apply (vs_ok_ts spec ts); assumption]. Qed.

  Lemma wt_ok_fvals spec ts r vs : wt_ok spec ts r vs -> forall t, In t (fvals vs) -> (fnum t < fnum r)%Z.
  Proof. intros (orr & Hr & Hv). apply (vs_ok_fvals _ _ _ _ _ Hv). Qed.

  Lemma lv_ok_le spec spec' ts i r vs : spec_le spec spec' -> lv_ok spec ts i r vs -> lv_ok spec' ts i r vs.
  Proof. intros L (Hh & Hw). split; [exact Hh|apply (wt_ok_le spec); assumption]. Qed.

  Lemma lv_ok_ts spec ts ts' i r vs :
    lv_ok spec ts i r vs -> (forall j x, hi ts' j x -> hi ts j x \/ (fnum r <= fnum x)%Z) -> lv_ok spec ts' i r vs.
  Proof.
    intros (Hh & Hw) Hts. split; [|apply (wt_ok_ts spec ts); assumption].
    intros x Hx. destruct (Hts i x Hx) as [H1|H1]; [apply Hh; exact H1|exact H1].
  Qed.

  Lemma lv_ok_pop spec ts i r vs : lv_ok spec ts i r vs -> lv_ok spec (tl ts) i r vs.
  Proof. intros H. apply (lv_ok_ts spec ts); [exact H|]. intros j x Hx. left. apply hi_pop. exact Hx. Qed.

  (* what each mode needs beyond frames and state *)
  Definition mode_ok (spec : specmap) (m : mode) (s : st) : Prop :=
    match m with
    | MValue h => is_task h s
    | MResume t => exists tk, get t s = Some (mkFut None (KTask tk)) /\
                     (forall h, In (RFut h) (leaves (tk_last tk)) -> computed h s = true)
    | MRun t p => (stree p /\ spec t = Some (evals p)) \/
                  (exists h k oh, p = Sync h k /\ (forall o, stree (k o)) /\ spec h = Some oh /\
                                  spec t = Some (evals (k oh)) /\ (fnum t < fnum h)%Z /\ is_task h s)
    | _ => True
    end.

  Definition CI (spec : specmap) (c : cfg) : Prop :=
    match c_mode c with
    | MUnwind _ | MStuck => True
    | MDone o => o = res /\ SI spec (fun _ => False) (c_st c)
    | m => frames_okS spec (tasks (c_st c)) m (c_frames c) /\
           SI spec (fun x => In x (R_of m (c_frames c))) (c_st c) /\ mode_ok spec m (c_st c)
    end.

  Lemma CI_intro spec m fr s :
    frames_okS spec (tasks s) m fr -> SI spec (fun x => In x (R_of m fr)) s -> mode_ok spec m s ->
    match m with MDone o => o = res /\ SI spec (fun _ => False) s | _ => True end ->
    CI spec (mkC m fr s).
  Proof.
    intros Hf HS Hm Hd. unfold CI. cbn [c_mode c_frames c_st].
    destruct m; try exact I; try exact Hd; (split; [exact Hf|split; [exact HS|exact Hm]]).
  Qed.

  Lemma s01_MValue spec h fr s : CI spec (mkC (MValue h) fr s) -> CI spec (step P (mkC (MValue h) fr s)).
  Proof.
    intros (Hf & HS & Ht). cbn [c_mode c_frames c_st] in *. destruct Hf as (oh & Hoh & Hv). cbn [mode_ok] in Ht.
    cbn [step c_mode c_frames c_st].
    destruct (computed h s) eqn:Hc.
    - pose proof (SI_computed_spec _ _ _ _ HS Hc) as E. rewrite Hoh in E. inversion E as [E']. rewrite <- E'.
      apply CI_intro; [exists (fnum h); exact Hv|exact HS|exact I|exact I].
    - pose proof Ht as (out & tk & Hg). rewrite Hg.
      apply CI_intro; [|exact HS|exact I|exact I].
      exists h, fr. split; [reflexivity|]. exists oh. split; assumption.
  Qed.

  Lemma s01_wait_done spec r vs s :
    wt_ok spec (tasks s) r vs -> SI spec (fun x => In x (fvals vs)) s -> computed r s = true ->
    CI spec (mkC (MDeliver (outcome_of r s)) vs (drop_sb s)).
  Proof.
    intros (orr & Hr & Hv) HS Hc.
    pose proof (SI_computed_spec _ _ _ _ HS Hc) as E. rewrite Hr in E. inversion E as [E']. rewrite <- E'.
    apply CI_intro; [|apply (SI_view _ _ s); [apply heap_drop_sb|apply batches_drop_sb|apply top_next_drop_sb|exact HS]|exact I|exact I].
    exists (fnum r). rewrite tasks_drop_sb. exact Hv.
  Qed.

  Lemma s01_MWaitHead spec fr s : CI spec (mkC MWaitHead fr s) -> CI spec (step P (mkC MWaitHead fr s)).
  Proof.
    intros (Hf & HS & _). cbn [c_mode c_frames c_st] in *. destruct Hf as (r & vs & -> & Hw).
    cbn [step c_mode c_frames c_st].
    destruct (computed r s) eqn:Hc; [exact (s01_wait_done spec r vs s Hw HS Hc)|]. destruct Hw as (orr & Hr & Hv).
    apply CI_intro; [|apply (SI_view _ _ s); auto|exact I|exact I].
    exists (length (tasks s)), r, vs. split; [reflexivity|]. cbn [tasks with_tasks]. split.
    - intros x Hx. apply hi_enter in Hx. subst x. lia.
    - exists orr. split; [exact Hr|]. apply (vs_ok_ts spec (tasks s)); [exact Hv|].
      intros j x Hx. apply hi_push in Hx as [->|Hx]; [right; lia|left; exact Hx].
  Qed.

  Lemma s01_MAfterExec spec fr s : CI spec (mkC MAfterExec fr s) -> CI spec (step P (mkC MAfterExec fr s)).
  Proof.
    intros (Hf & HS & _). cbn [c_mode c_frames c_st] in *. destruct Hf as (r & vs & -> & Hw).
    cbn [step c_mode c_frames c_st].
    destruct (computed r s) eqn:Hc; [exact (s01_wait_done spec r vs s Hw HS Hc)|].
    destruct (SI_continue_with_batch spec _ P s HP HS) as (A & B & C).
    apply CI_intro; [|exact A|exact I|exact I].
    exists r, vs. split; [reflexivity|]. rewrite (tasks_of_regs _ _ (regs_continue_with_batch P s)). exact Hw.
  Qed.

  Lemma s01_MExecLoop spec fr s : CI spec (mkC MExecLoop fr s) -> CI spec (step P (mkC MExecLoop fr s)).
  Proof.
    intros (Hf & HS & _). cbn [c_mode c_frames c_st] in *. destruct Hf as (init & r & vs & -> & Hlv).
    cbn [R_of fvals] in HS. pose proof (proj1 (proj1 (SI_GI _ _ _) HS)) as HG.
    assert (Hloop : forall s1 s', SI spec (fun y => In y (fvals vs)) s1 ->
                      heap s' = heap s1 -> batches s' = batches s1 -> top_next s' = top_next s1 ->
                      lv_ok spec (tasks s') init r vs ->
                      CI spec (mkC MExecLoop (FExec init :: FWait r :: vs) s')).
    { intros s1 s' HS1 E1 E2 E3 Hlv'. apply CI_intro; [|apply (SI_view _ _ s1); auto|exact I|exact I].
      exists init, r, vs. split; [reflexivity|exact Hlv']. }
    (* the task on top of the stack was pushed by this loop: it is no suspended caller *)
    assert (Htop : forall x ts, tasks s = x :: ts -> (init < length (tasks s))%nat ->
                     (fnum r <= fnum x)%Z /\ ~ In x (fvals vs)).
    { intros x ts Hts Hi. assert (Hxr : (fnum r <= fnum x)%Z).
      { apply (proj1 Hlv). rewrite Hts in *. apply hi_top. cbn [length] in Hi. lia. }
      split; [exact Hxr|]. intros Hin. pose proof (wt_ok_fvals _ _ _ _ (proj2 Hlv) x Hin). lia. }
    destruct (step_MExecLoop P init (FWait r :: vs) s (fun t out tk => GI_noraise stree evals spec _ s t out tk HG))
      as [Hle| |x ts Hts Hi Hx|x ts kind idx key a Hts Hi Hg|x ts o Hts Hi Hg
          |x ts tk s2 Hts Hi Hg Hb Hds U|x ts tk s2 Hts Hi Hg Hb Hds U|x ts tk s2 Hts Hi Hg Hb U].
    - apply CI_intro; [|exact HS|exact I|exact I]. exists r, vs. split; [reflexivity|]. exact (proj2 Hlv).
    - exact I.
    - apply (Hloop s); auto. apply lv_ok_pop. exact Hlv.
    - apply (Hloop s); [exact HS|apply heap_schedule_batch|apply batches_schedule_batch|apply top_next_schedule_batch|].
      cbn [pop_task tasks with_tasks]. rewrite (tasks_of_regs _ _ (regs_schedule_batch (kind, idx) s)). apply lv_ok_pop. exact Hlv.
    - apply (Hloop (put x (mkFut (Some o) (KLazy o)) s)); auto; [exact (SI_lazy spec _ s x None o HS Hg)|].
      apply lv_ok_pop. exact Hlv.
    - apply (Hloop s2); auto; [exact (SI_flags spec _ s s2 x None tk _ _ Hg HS U)|].
      cbn [pop_task tasks with_tasks]. rewrite (tupd_tasks _ _ _ _ _ U). apply lv_ok_pop. exact Hlv.
    - apply (Hloop s2); auto; [exact (SI_flags spec _ s s2 x None tk _ _ Hg HS U)|].
      cbn [tasks with_tasks]. apply (lv_ok_ts spec (x :: ts)); [rewrite <- Hts; exact Hlv|].
      intros j y Hy. apply hi_app in Hy as [Hy|Hy]; [right|left; exact Hy].
      apply in_rev in Hy. apply filter_In in Hy as [Hy _].
      pose proof (SI_deps _ _ _ _ _ _ HS Hg y Hy). destruct (Htop x ts Hts Hi). lia.
    - destruct (Htop x ts Hts Hi) as [Hxr HxR].
      apply CI_intro; [|apply (SI_view _ _ s2); auto; exact (SI_flags spec _ s s2 x None tk _ _ Hg HS U)| |exact I].
      + exists (active s), init, r, vs. split; [reflexivity|]. split; [exact Hxr|].
        cbn [tasks with_active]. rewrite (tupd_tasks _ _ _ _ _ U). exact Hlv.
      + eexists. split; [exact (tupd_get _ _ _ _ _ U)|]. intros h Hin. change (computed h (with_active ?a ?b)) with (computed h a).
        rewrite (tupd_computed s s2 x tk _ Hg U h). exact (GI_unblocked stree evals spec _ s x tk HG Hg HxR Hb h Hin).
  Qed.

  Lemma look_agreeS spec R s (last : ystruct rleaf) :
    SI spec R s -> (forall h, In (RFut h) (leaves last) -> computed h s = true) ->
    unwrap (look s) last = unwrap (look_spec spec) last.
  Proof.
    intros HS Hc. apply unwrap_ext. intros [h|] Hin; [|reflexivity]. cbn.
    rewrite (SI_computed_spec _ _ _ _ HS (Hc h Hin)). reflexivity.
  Qed.

  Lemma s01_MResume spec t fr s : CI spec (mkC (MResume t) fr s) -> CI spec (step P (mkC (MResume t) fr s)).
  Proof.
    intros (Hf & HS & (tk & Hg & Hcomp)). cbn [c_mode c_frames c_st] in *.
    destruct Hf as (old & i & r & vs & -> & Hrt & Hlv). cbn [R_of fvals] in HS.
    assert (HtR : ~ In t (fvals vs)).
    { intros Hin. pose proof (wt_ok_fvals _ _ _ _ (proj2 Hlv) t Hin). lia. }
    destruct (SI_entry _ _ _ _ _ HS Hg) as (_ & ot & Hst & _ & Hp & Hd & Hk). cbn in Hp, Hd, Hk.
    destruct (Hk eq_refl HtR) as (k & K1 & K2 & K3 & K4 & K5).
    destruct (step_MResume P t (FCont t old :: FExec i :: FWait r :: vs) s tk k Hg K1) as (s2 & -> & U & _).
    apply CI_intro; [| | |exact I].
    - exists old, i, r, vs. split; [reflexivity|]. split; [exact Hrt|]. rewrite (tupd_tasks _ _ _ _ _ U). exact Hlv.
    - cbn [R_of fvals].
      apply (SI_exempt spec _ s s2 t tk _ Hg (SI_exempt_add spec _ s t HS (ex_intro _ tk Hg)) (or_introl eq_refl) U Hp).
      cbn. intros d Hin. destruct (p_keep P); [apply Hd; exact Hin|destruct Hin].
    - left. split; [apply K2|].
      rewrite (look_agreeS spec _ s (tk_last tk) HS Hcomp), K3. exact Hst.
  Qed.

  (* the ghost map is only ever extended *)
  Lemma s01_MRun_le spec t p fr s : CI spec (mkC (MRun t p) fr s) ->
    exists spec', CI spec' (step P (mkC (MRun t p) fr s)) /\ spec_le spec spec'.
  Proof.
    intros (Hf & HS & Hm). cbn [c_mode c_frames c_st] in *.
    destruct Hf as (old & i & r & vs & -> & Hrt & Hlv). cbn [R_of fvals] in HS.
    set (fr := FCont t old :: FExec i :: FWait r :: vs).
    assert (HtR : ~ In t (fvals vs)).
    { intros Hin. pose proof (wt_ok_fvals _ _ _ _ (proj2 Hlv) t Hin). lia. }
    destruct (SI_utask _ _ _ t HS (or_introl eq_refl)) as (tk & Hg).
    assert (Hfr : forall spec' s2, spec_le spec spec' -> tasks s2 = tasks s ->
              frames_okS spec' (tasks s2) MContRet fr /\ forall q, frames_okS spec' (tasks s2) (MRun t q) fr).
    { intros spec' s2 L ->. split; [exists t|intros q]; exists old, i, r, vs;
        (split; [reflexivity|]; split; [exact Hrt|]; apply (lv_ok_le spec); assumption). }
    assert (Lrefl : spec_le spec spec) by (intros x o H; exact H).
    assert (Hp : forallb plain_ctx (tk_ctxs tk) = true) by (apply (SI_plain _ _ _ _ _ _ HS Hg)).
    pose proof (SI_deps _ _ _ _ _ _ HS Hg) as Hdeps.
    assert (Hfin : forall q o, finishes q o -> spec t = Some o -> CI spec (step P (mkC (MRun t q) fr s))).
    { intros q o Hq Hs. destruct (step_run_finish P t fr s tk Hg q o Hq) as (s2 & -> & U & _). apply CI_intro; [exact (proj1 (Hfr spec s2 Lrefl (tupd_tasks _ _ _ _ _ U)))| |exact I|exact I].
      exact (SI_finish spec (fvals vs) s s2 t tk o Hg HS HtR Hs U). }
    assert (Hbody : forall k tk1 s2, stree k -> spec t = Some (evals k) -> forallb plain_ctx (tk_ctxs tk1) = true ->
               tk_deps tk1 = tk_deps tk -> tupd s s2 t None tk1 -> CI spec (mkC (MRun t k) fr s2)).
    { intros k tk1 s2 Hk Hsk Hp1 Hd1 U.
      apply CI_intro; [exact (proj2 (Hfr spec s2 Lrefl (tupd_tasks _ _ _ _ _ U)) k)| |left; split; [exact Hk|exact Hsk]|exact I].
      apply (SI_exempt spec _ s s2 t tk tk1 Hg HS (or_introl eq_refl) U Hp1). rewrite Hd1. exact Hdeps. }
    destruct Hm as [(Htree & Hst)|(h & k & oh & -> & Hk & Hsh & Hst & Hth & Hih)].
    2:{ (* the synchronous call proper: value() of the callee is entered below the caller's frames *)
      exists spec. split; [|exact Lrefl]. apply CI_intro; [|exact HS|exact Hih|exact I].
      exists oh. split; [exact Hsh|]. destruct Hlv as (Hh & orr & Hr & Hv).
      apply (vs_val spec (tasks s) oh (fnum h) t k old i r orr vs); auto. }
    inversion Htree as [v Ev|v Ev|e Ev|y k Hl Hk Ev|c k Hc Hk Ev|c k Hc Hk Ev|q k Hq Hk Ev]; subst p.
    - exists spec. split; [exact (Hfin _ _ (fin_ret v) Hst)|exact Lrefl].
    - exists spec. split; [exact (Hfin _ _ (fin_result v) Hst)|exact Lrefl].
    - exists spec. split; [exact (Hfin _ _ (fin_raise e) Hst)|exact Lrefl].
    - destruct (SI_inst _ t y spec s HS Hl) as (spec' & (Ext & HS1 & Old & Tn) & U & A & Nw).
      pose proof (ext_spec_le _ _ _ _ HS Ext) as L.
      pose proof (tasks_of_regs _ _ (regs_inst t y s)) as Ets.
      pose proof (SI_fnum_lt _ _ _ _ _ HS Hg) as Htn.
      destruct (step_run_yield P t fr s tk Hg y k (GI_above_free stree evals spec _ s (proj1 (proj1 (SI_GI _ _ _) HS))))
        as (s2 & -> & Hg1 & U2).
      destruct (inst t y s) as [y' s1]. cbn [fst snd] in *.
      assert (HS2 : SI spec' (fun x => In x (fvals vs)) s2).
      { apply (SI_suspend spec' _ s1 s2 t tk k y' _ Hg1 HS1 HtR (L _ _ Hst) U2 Hk); [cbn; rewrite U; reflexivity|].
        intros h Hin. split; [exact (A h Hin)|]. specialize (Nw h Hin). lia. }
      pose proof (Hfr spec' s2 L (eq_trans (tupd_tasks _ _ _ _ _ U2) Ets)) as [Hf1 Hf2].
      exists spec'. split; [|exact L]. destruct (futs (extract y')) as [|d ds] eqn:Ed.
      + apply CI_intro; [exact (Hf2 (Ret VNone))|exact HS2| |exact I].
        eexists. split; [exact (tupd_get _ _ _ _ _ U2)|]. intros h Hin. cbn [tk_last] in Hin.
        assert (Hin' : In h (futs (extract y'))) by (apply in_futs, extract_same_elements; exact Hin).
        rewrite Ed in Hin'. destruct Hin'.
      + apply CI_intro; [exact Hf1|exact HS2|exact I|exact I].
    - exists spec. split; [|exact Lrefl]. destruct (step_run_enter P t fr s tk Hg c k) as (s2 & -> & U).
      apply (Hbody k _ s2 Hk Hst) with (3 := U); [|reflexivity]. cbn. rewrite forallb_app, Hp. cbn. rewrite Hc. reflexivity.
    - exists spec. split; [|exact Lrefl]. destruct (step_run_exit P t fr s tk Hg c k) as (s2 & -> & U).
      apply (Hbody k _ s2 Hk Hst) with (3 := U); [|reflexivity]. cbn. apply remove_ctx_plain. exact Hp.
    - (* a synchronous call: the callee task is created *)
      rewrite step_run_let.
      pose proof (SI_create spec _ t (FTask q) s HS (sf_task q Hq)) as HC. cbn zeta in HC.
      pose proof (tasks_of_regs _ _ (regs_create t (FTask q) s)) as Ets.
      destruct (create t (FTask q) s) as [h s1]. cbn [fst snd fexpr_outs] in *.
      destruct HC as (Hfresh & HS1 & Hnew & Hoth & Hh & Hn1 & Hent).
      pose proof (spec_add_le spec _ s h (evals q) HS Hfresh) as L.
      pose proof (SI_fnum_lt _ _ _ _ _ HS Hg) as Htn.
      exists (spec_add spec h (evals q)). split; [|exact L].
      apply CI_intro; [exact (proj2 (Hfr _ s1 L Ets) _)|exact HS1| |exact I].
      right. exists h, k, (evals q). split; [reflexivity|]. split; [exact Hk|].
      split; [apply spec_add_same|].
      split; [apply L; rewrite Hst; rewrite evals_call; reflexivity|].
      split; [rewrite Hh; cbn; cbn in Htn; lia|].
      exists None, (fresh_task q). apply Hent. reflexivity.
  Qed.

  Lemma s01_MRun spec t p fr s : CI spec (mkC (MRun t p) fr s) -> exists spec', CI spec' (step P (mkC (MRun t p) fr s)).
  Proof. intros HI. destruct (s01_MRun_le spec t p fr s HI) as (spec' & H & _). exists spec'. exact H. Qed.

  Lemma s01_MContRet spec fr s : CI spec (mkC MContRet fr s) -> CI spec (step P (mkC MContRet fr s)).
  Proof.
    intros (Hf & HS & _). cbn [c_mode c_frames c_st] in *. destruct Hf as (t & old & i & r & vs & -> & Hrt & Hlv).
    cbn [R_of fvals] in HS.
    assert (HS1 : SI spec (fun x => In x (fvals vs)) (with_active s old)) by (apply (SI_view _ _ s); auto).
    destruct (step_MContRet_cases P t old (FExec i :: FWait r :: vs) s) as (s2 & -> & [(-> & _)|(out & tk & Hg & U)]).
    - apply CI_intro; [|exact HS1|exact I|exact I]. exists i, r, vs. split; [reflexivity|exact Hlv].
    - apply CI_intro; [|exact (SI_flags spec _ (with_active s old) s2 t out tk _ _ Hg HS1 U)|exact I|exact I].
      exists i, r, vs. split; [reflexivity|]. rewrite (tupd_tasks _ _ _ _ _ U). exact Hlv.
  Qed.

  Lemma s01_MDeliver spec o fr s : CI spec (mkC (MDeliver o) fr s) -> CI spec (step P (mkC (MDeliver o) fr s)).
  Proof.
    intros (Hf & HS & _). cbn [c_mode c_frames c_st] in *. destruct Hf as (b & Hv).
    inversion Hv as [b' Eo Eb Ef|oh b' t k old i r orr vs Hk Ht Hb Hrt Hh Hr Hvs Eo Eb Ef]; subst; cbn [step c_mode c_frames c_st].
    - split; [reflexivity|]. cbn [R_of fvals] in HS. apply (SI_ext spec (fun x => In x [])); [|exact HS].
      intros x. split; intros [].
    - cbn [R_of fvals] in HS. apply CI_intro; [| | |exact I].
      + exists old, i, r, vs. split; [reflexivity|]. split; [exact Hrt|]. split; [exact Hh|]. exists orr. split; assumption.
      + apply (SI_view _ _ s); auto.
      + left. split; [apply Hk|exact Ht].
  Qed.

  Theorem s01_step_le spec c :
    is_unwind (c_mode c) = false -> CI spec c -> exists spec', CI spec' (step P c) /\ spec_le spec spec'.
  Proof.
    assert (Lrefl : spec_le spec spec) by (intros x o H; exact H).
    destruct c as [m fr s]. destruct m; cbn [c_mode is_unwind]; intros Hu HI; try discriminate;
      [| | | | |exact (s01_MRun_le spec t p fr s HI)| | | |]; (exists spec; split; [|exact Lrefl]).
    - apply s01_MValue; exact HI.
    - apply s01_MWaitHead; exact HI.
    - apply s01_MAfterExec; exact HI.
    - apply s01_MExecLoop; exact HI.
    - apply s01_MResume; exact HI.
    - apply s01_MContRet; exact HI.
    - apply s01_MDeliver; exact HI.
    - exact HI.
    - exact HI.
  Qed.

  Theorem s01_step spec c : is_unwind (c_mode c) = false -> CI spec c -> exists spec', CI spec' (step P c).
  Proof. intros Hu HI. destruct (s01_step_le spec c Hu HI) as (spec' & H & _). exists spec'. exact H. Qed.

  Theorem s01_run n : forall spec c, CI spec c -> no_unwind P n c -> exists spec', CI spec' (run P n c).
  Proof.
    intros spec c HI Hn. apply (run_invariant P (fun c => exists spec, CI spec c)); [|eauto|intros k Hk; apply Hn; lia].
    intros c' Hu (sp & H). exact (s01_step sp c' Hu H).
  Qed.
End MainS.

Lemma SI_empty P : SI (fun _ => None) (fun _ => False) (st0 P).
Proof.
  split; [|split; [|split; [|split]]].
  - intros h f Hg. discriminate.
  - intros k h Hin. cbn in Hin. destruct Hin.
  - cbn. lia.
  - intros h [].
  - reflexivity.
Qed.

(* a new root computation on a scheduler state on which no task is mid-step starts inside the invariant *)
Lemma CI_start spec s p :
  stree p -> SI spec (fun _ => False) s ->
  let h := fst (create [] (FTask p) s) in
  let s1 := snd (create [] (FTask p) s) in
  CI (evals p) (spec_add spec h (evals p)) (start h s1).
Proof.
  intros Ht HS. pose proof (SI_create spec _ [] (FTask p) s HS (sf_task p Ht)) as HC. cbn zeta in *.
  destruct (create [] (FTask p) s) as [h s1]. cbn [fst snd fexpr_outs] in *.
  destruct HC as (_ & HS1 & _ & _ & _ & _ & Hent).
  apply CI_intro; [| |exists None, (fresh_task p); apply Hent; reflexivity|exact I].
  - exists (evals p). split; [apply spec_add_same|apply vs_top].
  - apply (SI_ext _ (fun _ => False)); [|exact HS1]. intros x. split; intros [].
Qed.

(* one top-level computation on a scheduler state left behind by earlier ones: the outcome is the sequential one
   and the state it leaves behind satisfies the invariant again (no task is mid-step) *)
Theorem async_eq_seq_stree_state P spec s p n o :
  pointwise P -> stree p -> SI spec (fun _ => False) s ->
  let h := fst (create [] (FTask p) s) in
  let s1 := snd (create [] (FTask p) s) in
  no_unwind P n (start h s1) -> c_mode (run P n (start h s1)) = MDone o ->
  o = evals p /\ exists spec', SI spec' (fun _ => False) (c_st (run P n (start h s1))).
Proof.
  intros HP Ht HS h s1 Hn Hm.
  destruct (s01_run P HP (evals p) n _ _ (CI_start spec s p Ht HS) Hn) as (spec' & HF). fold h s1 in HF.
  unfold CI in HF. rewrite Hm in HF. destruct HF as (HF1 & HF2). split; [exact HF1|]. exists spec'. exact HF2.
Qed.

(* C01 for tree programs with synchronous calls: whatever the flush order, priorities, KEEP_DEPENDENCIES
   setting and fuel, if the outermost value() returns (without the runaway guard having fired) it returns
   exactly what sequential, depth-first evaluation of the same program gives - value or exception *)
Theorem async_eq_seq_stree P p n o :
  pointwise P -> stree p ->
  let h := fst (create [] (FTask p) (st0 P)) in
  let s1 := snd (create [] (FTask p) (st0 P)) in
  no_unwind P n (start h s1) -> c_mode (run P n (start h s1)) = MDone o -> o = evals p.
Proof. intros HP Ht h s1 Hn Hm. exact (proj1 (async_eq_seq_stree_state P _ (st0 P) p n o HP Ht (SI_empty P) Hn Hm)). Qed.

Definition ret_or_raise (f : val -> val) (o : outcome) : prog :=
  match o with Ok v => Ret (f v) | Err e => Raise e end.

(* root:    x, y = yield caller.asynq(), item(kind 0)      - a child task awaited together with a batch item
   caller:  return (callee(), 1)                           - synchronous call inside that child task
   callee:  w = const3(); v = yield item(kind 0); return (v, w)      - a call nested in the call, then a yield
   The callee's item joins the batch that already holds the root's item; the wait loop nested below caller's
   frames flushes that batch (EvFlush 0 0 [[2]; [5]] between EvGot [3] and EvGot [1]): it completes an item the
   outer computation is waiting for, which the outer loop had not even scheduled yet. *)
Definition c01s_callee : prog :=
  Let (FTask (Ret (VInt 3)))
      (fun h => Sync h (fun o3 =>
         Yield (YLeaf (LNew (FItem 0 2 (ASet (VInt 7)))))
               (fun o => match o3 with Ok w => ret_or_raise (fun v => VTuple [v; w]) o | Err e => Raise e end))).

Definition c01s_caller : prog :=
  Let (FTask c01s_callee) (fun h => Sync h (ret_or_raise (fun v => VTuple [v; VInt 1]))).

Definition c01s_demo : prog :=
  Yield (YTuple [YLeaf (LNew (FTask c01s_caller)); YLeaf (LNew (FItem 0 1 (ASet (VInt 5))))])
        (ret_or_raise (fun v => v)).

Lemma ret_or_raise_stree f o : stree (ret_or_raise f o).
Proof. destruct o; constructor. Qed.

Lemma c01s_demo_stree : stree c01s_demo.
Proof.
  unfold c01s_demo. apply st_yield; [|apply ret_or_raise_stree].
  intros l Hl. cbn in Hl. destruct Hl as [<-|[<-|[]]]; constructor; [|constructor]. constructor.
  unfold c01s_caller. apply st_call; [|apply ret_or_raise_stree].
  unfold c01s_callee. apply st_call; [constructor|]. intros o3. apply st_yield.
  - intros l [<-|[]]. repeat constructor.
  - intros o. destruct o3; [apply ret_or_raise_stree|constructor].
Qed.

Example c01s_demo_runs :
  let P := mkP [] 1000 false [] in
  let h := fst (create [] (FTask c01s_demo) (st0 P)) in
  let s1 := snd (create [] (FTask c01s_demo) (st0 P)) in
  no_unwind_b P 60 (start h s1) = true /\
  c_mode (run P 60 (start h s1)) = MDone (Ok (VTuple [VTuple [VTuple [VInt 7; VInt 3]; VInt 1]; VInt 5])) /\
  evals c01s_demo = Ok (VTuple [VTuple [VTuple [VInt 7; VInt 3]; VInt 1]; VInt 5]) /\
  rev (trace (c_st (run P 60 (start h s1)))) =
    [EvStep [0] 0 (Ok VNone); EvStep [1] 0 (Ok VNone); EvStep [3] 0 (Ok VNone); EvStep [4] 0 (Ok VNone);
     EvDone [4] (Ok (VInt 3)); EvGot [3] (Ok (VInt 3));
     EvBefore 0 0; EvFlush 0 0 [[2]; [5]]; EvItemDone [2] (Ok (VInt 5)); EvItemDone [5] (Ok (VInt 7)); EvAfter 0 0;
     EvStep [3] 1 (Ok (VInt 7)); EvDone [3] (Ok (VTuple [VInt 7; VInt 3]));
     EvGot [1] (Ok (VTuple [VInt 7; VInt 3]));
     EvDone [1] (Ok (VTuple [VTuple [VInt 7; VInt 3]; VInt 1]));
     EvStep [0] 1 (Ok (VTuple [VTuple [VTuple [VInt 7; VInt 3]; VInt 1]; VInt 5]));
     EvDone [0] (Ok (VTuple [VTuple [VTuple [VInt 7; VInt 3]; VInt 1]; VInt 5]))].
Proof. cbv zeta. rewrite no_unwind_b_traj. vm_compute. repeat split. Qed.

