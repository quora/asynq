(* The depth-first pass of TaskScheduler._execute on tree programs: which tasks have their contexts active and
   their dependencies scheduled (the two flags of a task, invariant FL; C06).  Built on the C01 invariant
   (MachineC01.CInv), which supplies the facts about heap entries. *)
From Asynq Require Import Machine Seq proofs.ProgProofs proofs.MachineFrame proofs.MachineC05 proofs.MachineC08
  proofs.MachineHelpers proofs.MachineCases proofs.MachineC01.

(* an uncomputed task whose dependencies are "scheduled" or whose contexts are active is on the scheduler's task
   stack; scheduled dependencies imply active contexts *)
Definition flags_ok (s : st) : Prop :=
  forall u tk, get u s = Some (mkFut None (KTask tk)) ->
    ((tk_ds tk = true \/ tk_cact tk = true) -> In u (tasks s)) /\ (tk_ds tk = true -> tk_cact tk = true).

Lemma flags_view s s' : heap s' = heap s -> tasks s' = tasks s -> flags_ok s -> flags_ok s'.
Proof.
  intros Hh Ht H u tk Hg. rewrite (get_view s s' Hh u) in Hg. rewrite Ht. apply (H u tk Hg).
Qed.

Lemma flags_upd s s' x o' tk' :
  flags_ok s -> upd_entry s s' x (mkFut o' (KTask tk')) -> tasks s' = tasks s ->
  (o' = None -> ((tk_ds tk' = true \/ tk_cact tk' = true) -> In x (tasks s)) /\ (tk_ds tk' = true -> tk_cact tk' = true)) ->
  flags_ok s'.
Proof.
  intros H (A & B & _) Ht Hx u tk Hg. rewrite Ht. destruct (fid_eqb_spec u x) as [->|N].
  - rewrite A in Hg. inversion Hg; subst. apply Hx. reflexivity.
  - rewrite B in Hg by exact N. apply (H u tk Hg).
Qed.

Lemma flags_stack s s' : heap s' = heap s -> (forall u, In u (tasks s) -> In u (tasks s')) -> flags_ok s -> flags_ok s'.
Proof.
  intros Hh Hin H u tk Hg. rewrite (get_view s s' Hh u) in Hg. destruct (H u tk Hg) as [H1 H2]. split; auto.
Qed.

Lemma SInv_noraise spec r s t out tk : SInv spec r s -> get t s = Some (mkFut out (KTask tk)) -> noraise (tk_ctxs tk).
Proof. exact (GI_noraise tree eval spec _ s t out tk). Qed.

Lemma SInv_above_free spec r s : SInv spec r s -> above_free s.
Proof. exact (GI_above_free tree eval spec _ s). Qed.

Lemma flags_tupd s s' x o tk' : flags_ok s -> tupd s s' x o tk' ->
  (o = None -> ((tk_ds tk' = true \/ tk_cact tk' = true) -> In x (tasks s)) /\ (tk_ds tk' = true -> tk_cact tk' = true)) ->
  flags_ok s'.
Proof. intros H U. exact (flags_upd s s' x o tk' H (tupd_upd_entry _ _ _ _ _ U) (tupd_tasks _ _ _ _ _ U)). Qed.

Definition task_back (s s' : st) : Prop :=
  forall u out tk, get u s' = Some (mkFut out (KTask tk)) -> get u s = Some (mkFut out (KTask tk)).

Lemma item_steps_task_back s s' : item_steps s s' -> task_back s s'.
Proof.
  intros (_ & _ & H) u out tk Hg. destruct (H u) as [E|(? & ? & ? & ? & _ & G')]; [rewrite <- E; exact Hg|rewrite G' in Hg; discriminate].
Qed.

(* popping the top entry x when x no longer has active flags (or is not an uncomputed task) *)
Lemma flags_pop s s' x ts :
  flags_ok s' -> tasks s' = x :: ts ->
  (forall tk, get x s' = Some (mkFut None (KTask tk)) -> tk_ds tk = false /\ tk_cact tk = false) ->
  heap s = heap s' -> tasks s = tl (tasks s') -> flags_ok s.
Proof.
  intros HF Ht Hx Hh Hts u tk Hg. rewrite Ht in Hts. cbn in Hts. rewrite (get_view s' s Hh u) in Hg.
  destruct (HF u tk Hg) as [H1 H2]. split; [|exact H2]. intros Hfl. specialize (H1 Hfl). rewrite Ht in H1. rewrite Hts.
  destruct H1 as [<-|H1]; [|exact H1]. destruct (Hx tk Hg) as [E1 E2]. destruct Hfl; congruence.
Qed.

Lemma flags_create p f s : flags_ok s -> flags_ok (snd (create p f s)).
Proof.
  intros HF u tk Hg. destruct (create_spec p f s) as (_ & _ & Hoth & Hnew & _). cbn zeta in Hoth, Hnew.
  rewrite (tasks_of_regs _ _ (regs_create p f s)). destruct (fid_eqb_spec u [top_next s]) as [->|N].
  - rewrite Hnew in Hg. destruct f; inversion Hg. cbn. split; [intros [X|X]; discriminate|discriminate].
  - rewrite Hoth in Hg by exact N. exact (HF u tk Hg).
Qed.

Lemma flags_inst p y s : flags_ok s -> flags_ok (snd (inst p y s)).
Proof. apply (inst_pres flags_ok). intros p0 f s0. apply flags_create. Qed.

(* while t runs: it is on top of the stack with its contexts active; replacing its entry by one with the same
   flags keeps all of that *)
Lemma fl_keep t rest s s' s2 tk2 :
  tasks s = t :: rest -> flags_ok s' -> tasks s' = tasks s -> tupd s' s2 t None tk2 -> tk_cact tk2 = true ->
  flags_ok s2 /\ tasks s2 = t :: rest /\ (forall tk', get t s2 = Some (mkFut None (KTask tk')) -> tk_cact tk' = true).
Proof.
  intros Hts HF Ht' U Hc. split; [|split].
  - apply (flags_tupd s' s2 t None tk2 HF U). intros _. split; [intros _; rewrite Ht', Hts; left; reflexivity|intros _; exact Hc].
  - rewrite (tupd_tasks _ _ _ _ _ U), Ht'. exact Hts.
  - intros tk' Hg'. rewrite (tupd_get _ _ _ _ _ U) in Hg'. inversion Hg'; subst. exact Hc.
Qed.

Section Flags.
  Variable P : params.
  Hypothesis HP : pointwise P.
  Variable root : fid.
  Variable res : outcome.

  (* where the task stack stands, by mode *)
  Definition stack_ok (c : cfg) : Prop :=
    match c_mode c with
    | MValue _ | MDeliver _ | MWaitHead | MAfterExec => tasks (c_st c) = []
    | MExecLoop => c_frames c = [FExec 0; FWait root; FTop]
    | MResume t | MRun t _ =>
      (exists old, c_frames c = [FCont t old; FExec 0; FWait root; FTop]) /\
      (exists rest, tasks (c_st c) = t :: rest) /\
      (forall tk, get t (c_st c) = Some (mkFut None (KTask tk)) -> tk_cact tk = true)
    | MContRet =>
      exists t old rest, c_frames c = [FCont t old; FExec 0; FWait root; FTop] /\ tasks (c_st c) = t :: rest /\
        (forall tk, get t (c_st c) = Some (mkFut None (KTask tk)) -> tk_cact tk = true)
    | MUnwind _ | MDone _ | MStuck => True
    end.

  Definition FL (spec : specmap) (c : cfg) : Prop :=
    CInv root res spec c /\
    match c_mode c with
    | MUnwind _ | MDone _ | MStuck => True
    | _ => flags_ok (c_st c) /\ stack_ok c
    end.

  Lemma fl_MValue spec h fr s : FL spec (mkC (MValue h) fr s) -> FL spec (step P (mkC (MValue h) fr s)).
  Proof.
    intros (HC & HF & HK). split; [apply c01_MValue; auto|].
    destruct HC as (Hr & Hf & HS & Ht & ->). cbn in *. subst fr. cbn [step c_mode c_frames c_st].
    destruct (computed root s); [split; assumption|].
    destruct Ht as (out & tk & Hg). rewrite Hg. cbn. split; assumption.
  Qed.

  Lemma fl_MWaitHead spec fr s : FL spec (mkC MWaitHead fr s) -> FL spec (step P (mkC MWaitHead fr s)).
  Proof.
    intros (HC & HF & HK). split; [apply c01_MWaitHead; auto|].
    destruct HC as (Hr & Hf & HS & Ht & _). cbn in *. subst fr. cbn [step c_mode c_frames c_st].
    destruct (computed root s); [cbn; split; [apply (flags_view s); [apply heap_drop_sb|apply tasks_drop_sb|exact HF]|rewrite tasks_drop_sb; exact HK]|]. cbn. rewrite HK. split; [|reflexivity].
    apply (flags_stack s); auto. intros u Hu. rewrite HK in Hu. destruct Hu.
  Qed.

  Lemma fl_MAfterExec spec fr s : FL spec (mkC MAfterExec fr s) -> FL spec (step P (mkC MAfterExec fr s)).
  Proof.
    intros (HC & HF & HK). split; [apply c01_MAfterExec; auto|].
    destruct HC as (Hr & Hf & HS & Ht & _). cbn in *. subst fr. cbn [step c_mode c_frames c_st].
    destruct (computed root s); [cbn; split; [apply (flags_view s); [apply heap_drop_sb|apply tasks_drop_sb|exact HF]|rewrite tasks_drop_sb; exact HK]|]. cbn.
    destruct (SInv_continue_with_batch spec None P s HP HS) as (_ & _ & C).
    pose proof (tasks_of_regs _ _ (regs_continue_with_batch P s)) as Hts.
    split; [|congruence].
    intros u tk Hg. rewrite Hts. apply (HF u tk). apply (item_steps_task_back _ _ (continue_with_batch_item_steps P s HP (SInv_items _ _ _ HS))). exact Hg.
  Qed.

  Lemma fl_MExecLoop spec fr s : FL spec (mkC MExecLoop fr s) -> FL spec (step P (mkC MExecLoop fr s)).
  Proof.
    intros (HC & HF & HK). split; [apply c01_MExecLoop; auto|].
    destruct HC as (_ & _ & HS & _). cbn in HK, HS, HF. subst fr.
    destruct (step_MExecLoop P 0 [FWait root; FTop] s (fun t out tk => SInv_noraise _ _ _ t out tk HS))
      as [Hle| |x ts Hts _ Hx|x ts kind idx key a Hts _ Hg|x ts o Hts _ Hg|x ts tk s2 Hts _ Hg Hb Hds U|x ts tk s2 Hts _ Hg Hb Hds U|x ts tk s2 Hts _ Hg Hb U];
      cbn; try (split; [|reflexivity]).
    - split; [exact HF|]. destruct (tasks s); [reflexivity|cbn in Hle; lia].
    - exact I.
    - apply (flags_pop _ s x ts HF Hts); try reflexivity. intros tk Hg.
      destruct Hx as [Hx|[Hx|(o & Hx)]]; [unfold computed in Hx; rewrite Hg in Hx|rewrite Hg in Hx|rewrite Hg in Hx]; discriminate.
    - pose proof (heap_schedule_batch (kind, idx) s) as Hh.
      apply (flags_pop _ (schedule_batch (kind, idx) s) x ts); try reflexivity.
      + apply (flags_view s); auto. apply tasks_of_regs, regs_schedule_batch.
      + rewrite (tasks_of_regs _ _ (regs_schedule_batch _ s)). exact Hts.
      + intros tk Hg'. rewrite (get_view _ _ Hh x), Hg in Hg'. discriminate.
    - apply (flags_pop _ (put x (mkFut (Some o) (KLazy o)) s) x ts); try reflexivity; [|exact Hts|intros tk Hg'; rewrite get_put_same in Hg'; discriminate].
      intros u tk Hg'. rewrite get_put in Hg'. destruct (fid_eqb u x); [discriminate|apply (HF u tk Hg')].
    - (* settled: both flags cleared, popped *)
      apply (flags_pop _ s2 x ts); try reflexivity.
      + apply (flags_tupd s s2 x _ _ HF U). intros _. cbn. split; [intros [E|E]; discriminate|discriminate].
      + rewrite (tupd_tasks _ _ _ _ _ U). exact Hts.
      + intros tk' Hg'. rewrite (tupd_get _ _ _ _ _ U) in Hg'. inversion Hg'. cbn. auto.
    - (* first visit: both flags set, the uncomputed dependencies pushed *)
      apply (flags_stack s2); [reflexivity|intros u Hu; cbn; apply in_or_app; right; rewrite <- Hts, <- (tupd_tasks _ _ _ _ _ U); exact Hu|].
      apply (flags_tupd s s2 x _ _ HF U). intros _. cbn. split; [intros _; rewrite Hts; left; reflexivity|reflexivity].
    - (* _continue_with_task *)
      split; [apply (flags_view s2); [reflexivity|reflexivity|]; apply (flags_tupd s s2 x _ _ HF U); intros _; cbn; split; [intros _; rewrite Hts; left; reflexivity|reflexivity]|].
      split; [eauto|]. split; [exists ts; cbn; rewrite (tupd_tasks _ _ _ _ _ U); exact Hts|].
      intros tk' Hg'. change (get x (with_active ?a ?b)) with (get x a) in Hg'. rewrite (tupd_get _ _ _ _ _ U) in Hg'. inversion Hg'. reflexivity.
  Qed.

  Lemma fl_MResume spec t fr s : FL spec (mkC (MResume t) fr s) -> FL spec (step P (mkC (MResume t) fr s)).
  Proof.
    intros (HC & HF & HK). split; [apply c01_MResume; auto|].
    destruct HC as (_ & _ & HS & _ & (tk & Hg & _)). cbn in HK, HS, HF, Hg. destruct HK as ((old & ->) & (rest & Hts) & Hca).
    destruct (SInv_entry _ _ _ _ _ HS Hg) as (_ & ot & _ & _ & _ & Hk). destruct (Hk eq_refl ltac:(discriminate)) as (k & K1 & _).
    destruct (step_MResume P t [FCont t old; FExec 0; FWait root; FTop] s tk k Hg K1) as (s2 & -> & U & _).
    destruct (fl_keep t rest s s s2 _ Hts HF eq_refl U (Hca tk Hg)) as (A & B & C). cbn. split; [exact A|]. split; [exists old; reflexivity|eauto].
  Qed.

  Lemma fl_MRun spec t p fr s : FL spec (mkC (MRun t p) fr s) -> exists spec', FL spec' (step P (mkC (MRun t p) fr s)).
  Proof.
    intros (HC & HF & HK). destruct (c01_MRun P root res spec t p fr s HC) as (spec' & HC'). exists spec'. split; [exact HC'|].
    clear HC'. destruct HC as (_ & _ & HS & _ & (Htree & _ & (tk & Hg))). cbn in HK, HS, HF, Hg.
    destruct HK as ((old & ->) & (rest & Hts) & Hca). pose proof (Hca tk Hg) as Hcact.
    set (fr := [FCont t old; FExec 0; FWait root; FTop]).
    assert (Hfin : forall q o, finishes q o ->
              match c_mode (step P (mkC (MRun t q) fr s)) with
              | MUnwind _ | MDone _ | MStuck => True
              | _ => flags_ok (c_st (step P (mkC (MRun t q) fr s))) /\ stack_ok (step P (mkC (MRun t q) fr s))
              end).
    { intros q o Hq. destruct (step_run_finish P t fr s tk Hg q o Hq) as (s2 & -> & U & _). cbn. split.
      - apply (flags_tupd s s2 t _ _ HF U). intros E. discriminate.
      - exists t, old, rest. split; [reflexivity|]. split; [rewrite (tupd_tasks _ _ _ _ _ U); exact Hts|].
        intros tk' Hg'. rewrite (tupd_get _ _ _ _ _ U) in Hg'. discriminate. }
    inversion Htree as [v Ev|v Ev|e Ev|y k Hl Hk Ev|c k Hc Hk Ev|c k Hc Hk Ev]; subst p.
    - exact (Hfin _ _ (fin_ret v)).
    - exact (Hfin _ _ (fin_result v)).
    - exact (Hfin _ _ (fin_raise e)).
    - destruct (step_run_yield P t fr s tk Hg y k (SInv_above_free _ _ _ HS)) as (s2 & -> & Hg1 & U).
      destruct (fl_keep t rest s _ s2 _ Hts (flags_inst t y s HF) (tasks_of_regs _ _ (regs_inst t y s)) U Hcact) as (A & B & C).
      destruct (futs (extract (fst (inst t y s)))); cbn; (split; [exact A|]); [split; [exists old; reflexivity|eauto]|exists t, old, rest; auto].
    - destruct (step_run_enter P t fr s tk Hg c k) as (s2 & -> & U).
      destruct (fl_keep t rest s s s2 _ Hts HF eq_refl U Hcact) as (A & B & C). cbn. split; [exact A|]. split; [exists old; reflexivity|eauto].
    - destruct (step_run_exit P t fr s tk Hg c k) as (s2 & -> & U).
      destruct (fl_keep t rest s s s2 _ Hts HF eq_refl U Hcact) as (A & B & C). cbn. split; [exact A|]. split; [exists old; reflexivity|eauto].
  Qed.

  Lemma fl_MContRet spec fr s : FL spec (mkC MContRet fr s) -> FL spec (step P (mkC MContRet fr s)).
  Proof.
    intros (HC & HF & HK). split; [apply c01_MContRet; auto|].
    cbn in HK, HF. destruct HK as (t & old & rest & -> & Hts & Hca). cbn [step c_mode c_frames c_st].
    set (s1 := with_active s old).
    assert (HF1 : flags_ok s1) by (apply (flags_view s); auto).
    unfold get_task. destruct (get t s1) as [[out [tk| | |]]|] eqn:Hg; cbn; try (split; [exact HF1|reflexivity]).
    split; [|reflexivity].
    pose proof (set_task_upd s1 t out tk (tk_set_ds tk false) Hg) as U.
    apply (flags_upd s1 _ t out _ HF1 U); [apply tasks_of_regs; rewrite regs_set_task; reflexivity|].
    intros ->. cbn. split; [intros _; change (tasks s1) with (tasks s); rewrite Hts; left; reflexivity|discriminate].
  Qed.

  Lemma fl_MDeliver spec o fr s : FL spec (mkC (MDeliver o) fr s) -> FL spec (step P (mkC (MDeliver o) fr s)).
  Proof.
    intros (HC & HF & HK). split; [apply c01_MDeliver; auto|].
    destruct HC as (Hr & Hf & _). cbn in Hf. subst fr. cbn. exact I.
  Qed.

  Theorem fl_step spec c : is_unwind (c_mode c) = false -> FL spec c -> exists spec', FL spec' (step P c).
  Proof.
    destruct c as [m fr s]. destruct m; cbn [c_mode is_unwind]; intros Hu HI; try discriminate.
    - exists spec. apply fl_MValue; exact HI.
    - exists spec. apply fl_MWaitHead; exact HI.
    - exists spec. apply fl_MAfterExec; exact HI.
    - exists spec. apply fl_MExecLoop; exact HI.
    - exists spec. apply fl_MResume; exact HI.
    - apply (fl_MRun spec); exact HI.
    - exists spec. apply fl_MContRet; exact HI.
    - exists spec. apply fl_MDeliver; exact HI.
    - exists spec. exact HI.
    - exists spec. exact HI.
  Qed.

  Theorem fl_run n spec c : FL spec c -> no_unwind P n c -> exists spec', FL spec' (run P n c).
  Proof.
    intros HI Hn. apply (run_invariant P (fun c => exists spec, FL spec c)); [|eauto|intros k Hk; apply Hn; lia].
    intros c0 Hu (spec0 & H0). exact (fl_step spec0 c0 Hu H0).
  Qed.
End Flags.

Section C06.
  Variable P : params.
  Hypothesis HP : pointwise P.
  Variable p : prog.
  Hypothesis Ht : tree p.

  Let h := fst (create [] (FTask p) (st0 P)).
  Let s1 := snd (create [] (FTask p) (st0 P)).

  Lemma no_unwind_start : no_unwind P 0 (start h s1).
  Proof. intros k Hk. replace k with O by lia. reflexivity. Qed.

  Lemma fl_start : exists spec, FL h (eval p) spec (start h s1).
  Proof.
    destruct (c01_reach P _ (st0 P) p 0 HP Ht (SInv_empty P) no_unwind_start) as (spec & HI). exists spec.
    split; [exact HI|]. cbn. split; [|reflexivity].
    apply (flags_create [] (FTask p) (st0 P)). intros u tk Hgu. discriminate.
  Qed.

  Lemma fl_reach n : no_unwind P n (start h s1) -> exists spec, FL h (eval p) spec (run P n (start h s1)).
  Proof. intros Hn. destruct fl_start as (spec & H). exact (fl_run P HP h (eval p) n _ _ H Hn). Qed.

  (* at the end of every _execute pass - in particular whenever the scheduler is about to flush a
     batch - no uncompleted task has its contexts active (or its dependencies marked scheduled) *)
  Theorem contexts_paused_at_flush_tree n :
    no_unwind P n (start h s1) -> c_mode (run P n (start h s1)) = MAfterExec ->
    forall u tk, get u (c_st (run P n (start h s1))) = Some (mkFut None (KTask tk)) ->
      tk_cact tk = false /\ tk_ds tk = false.
  Proof.
    intros Hn Hm u tk Hg. destruct (fl_reach n Hn) as (spec & (_ & HFL)).
    destruct (run P n (start h s1)) as [m fr s]. cbn [c_mode c_st] in *. subst m.
    destruct HFL as (HF & HK). cbn in HK. destruct (HF u tk Hg) as [H1 H2].
    rewrite HK in H1. destruct (tk_cact tk) eqn:E1; [destruct (H1 (or_intror eq_refl))|].
    destruct (tk_ds tk) eqn:E2; [destruct (H1 (or_introl eq_refl))|]. auto.
  Qed.

  (* while the body of t runs, t's contexts are active, and any other uncompleted task whose contexts are
     active is still on the scheduler's task stack (it has not been left suspended) *)
  Theorem contexts_active_while_running_tree n t q :
    no_unwind P n (start h s1) -> c_mode (run P n (start h s1)) = MRun t q ->
    (exists tk, get t (c_st (run P n (start h s1))) = Some (mkFut None (KTask tk)) /\ tk_cact tk = true) /\
    (forall u tk, get u (c_st (run P n (start h s1))) = Some (mkFut None (KTask tk)) -> tk_cact tk = true ->
       In u (tasks (c_st (run P n (start h s1))))).
  Proof.
    intros Hn Hm. destruct (fl_reach n Hn) as (spec & (HC & HFL)).
    destruct (run P n (start h s1)) as [m fr s]. cbn [c_mode c_st] in *. subst m.
    destruct HFL as (HF & HK). cbn in HK. destruct HK as (_ & _ & Hca).
    destruct HC as (_ & HC). cbn in HC. destruct HC as (_ & _ & _ & (_ & _ & (tk & Hg))).
    split; [exists tk; split; [exact Hg|apply Hca; exact Hg]|].
    intros u tku Hgu Hc. destruct (HF u tku Hgu) as [H1 _]. apply H1. right. exact Hc.
  Qed.
End C06.
