(* C19 (Mock.v): what _maybe_wrap_new installs and how a call on it is dispatched ([dispatch_reached]); the
   invariant of the patcher stack along well-bracketed op lists ([Inv], [restored]); what no operation undoes
   ([grows]); the probe of a patch that survives other patches ([survivor_probe]). *)
From Asynq Require Import Base Mock.

(* the decision table of mock_.py 253-280, for every description *)
Lemma maybe_wrap_new_spec : forall d,
  maybe_wrap_new d =
    if is_default d then WDefault
    else if is_fn_cm_sm d then WPair
    else if is_callable d && negb (takes_attrs d) then WWrapper else WAsIs.
Proof. intros [a b c e]; destruct a, b, c, e; reflexivity. Qed.

(* what each replacement kind of the statement becomes; every installed callable accepts the
   .asynq/.asyncio attributes except the attribute-refusing product of new_callable *)
Lemma installed_table : forall r,
  installed r = match r with
                | RDefault | RNcMock => IMock
                | RFunc => IPair FPlain | RClassmethod => IPair FCM | RStaticmethod => IPair FSM
                | RAsynqFn => IAsynq
                | RBound | RSlotsObj => IWrapper
                | RCallableObj | RNcObj | RMockObj | RClassObj => IObj
                | RNonCallable | RNcNonCallable => IPlain
                | RNcSlots => ISlots RefAttr
                | RNcFrozen | RNcType => ISlots RefType
                | RNcRaiser => ISlots RefOther
                end.
Proof. destruct r; reflexivity. Qed.

(* only an object made by new_callable can reach __enter__ refusing attributes: whatever is given
   as new= has been wrapped by _maybe_wrap_new *)
Lemma wrapped_takes_attrs : forall r,
  per_activation r = false -> attach_failure (installed r) = None.
Proof. destruct r; intros H; try reflexivity; discriminate H. Qed.

Lemma attach_failure_spec : forall r,
  attach_failure (installed r) =
    match r with
    | RNcSlots => Some E_ATTRIBUTE
    | RNcFrozen | RNcType => Some E_TYPE
    | RNcRaiser => Some E_RUNTIME
    | _ => None
    end.
Proof. destruct r; reflexivity. Qed.

Section Conv.
  Variable A : Type.
  Variables self_ cls_ : A.

  Definition bound_prefix (tk : tkind) (r : rkind) (own_present : bool) : list A :=
    match installed r with
    | IPair ft => prefix A self_ cls_ ft (access_of tk own_present)
    | IAsynq => prefix A self_ cls_ FPlain (access_of tk own_present)
    | _ => []
    end.

  (* every callable object in a slot is reached by all four conventions with the same arguments: what the
     descriptor protocol binds, then the caller's; the one exception is a classmethod object sitting in
     an instance or module dict, which nothing binds *)
  Lemma dispatch_reached i acc c (args : list A) :
    inst_callable i = true -> (i = IPair FCM -> acc <> ADirect) ->
    dispatch A self_ cls_ i acc c args =
    Reached (match i with
             | IPair ft | IOrig ft => prefix A self_ cls_ ft acc
             | IAsynq => prefix A self_ cls_ FPlain acc
             | _ => []
             end ++ args).
  Proof.
    intros Hc Hcm. destruct i as [| | |ft| |e| |ft]; try discriminate Hc; destruct acc, c; try reflexivity;
      destruct ft; try reflexivity; contradiction (Hcm eq_refl eq_refl).
  Qed.

  Lemma compat_classmethod tk own_present : compat tk RClassmethod = true -> access_of tk own_present <> ADirect.
  Proof. destruct tk, own_present; (discriminate || (intros H; discriminate H)). Qed.

  Lemma conventions_reach_replacement : forall tk r own_present c (args : list A),
    compat tk r = true -> inst_callable (installed r) = true ->
    dispatch A self_ cls_ (installed r) (access_of tk own_present) c args
    = Reached (bound_prefix tk r own_present ++ args).
  Proof.
    intros tk r op c args Hc Hi. rewrite dispatch_reached; [unfold bound_prefix; destruct r; reflexivity | exact Hi |].
    destruct r; try discriminate. intros _. apply compat_classmethod, Hc.
  Qed.

  Lemma conventions_agree : forall tk r own_present c1 c2 (args : list A),
    compat tk r = true -> inst_callable (installed r) = true ->
    dispatch A self_ cls_ (installed r) (access_of tk own_present) c1 args
    = dispatch A self_ cls_ (installed r) (access_of tk own_present) c2 args.
  Proof.
    intros. rewrite !conventions_reach_replacement by assumption. reflexivity.
  Qed.

  Lemma prefix_shape ft acc :
    prefix A self_ cls_ ft acc = [] \/ prefix A self_ cls_ ft acc = [self_] \/ prefix A self_ cls_ ft acc = [cls_].
  Proof. destruct ft, acc; cbn; auto. Qed.

  (* a non-callable is never dispatched to *)
  Lemma noncallable_not_called : forall r acc c (args : list A),
    inst_callable (installed r) = false -> dispatch A self_ cls_ (installed r) acc c args = NotCallable.
  Proof. intros r acc c args H. destruct r; try discriminate H; reflexivity. Qed.

End Conv.

Definition is_some {V} (o : option V) : bool := match o with Some _ => true | None => false end.

Section Restore.
  Variable w : world.

  Definition undo (sp : pspec) (sv : option obj * bool) (f : Z -> option obj) : Z -> option obj :=
    if snd sv then upd f (ptarget sp) (fst sv)
    else match inh w (ptarget sp) with
         | Some _ => upd f (ptarget sp) None
         | None => upd f (ptarget sp) (fst sv)
         end.

  (* undo every open patcher that really holds a saved original, innermost first *)
  Fixpoint unwind (sav : Z -> psaved) (stk : list (Z * bool)) (f : Z -> option obj) : Z -> option obj :=
    match stk with
    | [] => f
    | (p, _) :: r =>
      match specs w p, sav p with
      | Some sp, Some sv => unwind sav r (undo sp sv f)
      | _, _ => unwind sav r f
      end
    end.

  (* _active_patches as a function of the stack *)
  Fixpoint act (sav : Z -> psaved) (stk : list (Z * bool)) : list Z :=
    match stk with
    | [] => []
    | (p, s) :: r =>
      if s && is_some (specs w p) && is_some (sav p) then act sav r ++ [p] else act sav r
    end.

  Record Inv (base : Z -> option obj) (stk : list (Z * bool)) (st : state) : Prop := {
    inv_base : forall t, unwind (saved st) stk (own st) t = base t;
    inv_nodup : NoDup (map fst stk);
    inv_saved : forall p, ~ In p (map fst stk) -> saved st p = None;
    inv_active : active st = act (saved st) stk;
    inv_spec : forall p, saved st p <> None -> specs w p <> None
  }.

  Lemma upd_same : forall V (f : Z -> V) k v, upd f k v k = v.
  Proof. intros. unfold upd. rewrite Z.eqb_refl. reflexivity. Qed.
  Lemma upd_other : forall V (f : Z -> V) k v x, x <> k -> upd f k v x = f x.
  Proof. intros. unfold upd. destruct (Z.eqb_spec x k); congruence. Qed.

  Lemma undo_ext : forall sp sv f g, (forall t, f t = g t) -> forall t, undo sp sv f t = undo sp sv g t.
  Proof.
    intros sp sv f g H t. unfold undo.
    destruct (snd sv); [|destruct (inh w (ptarget sp))]; unfold upd; destruct (Z.eqb t (ptarget sp)); auto.
  Qed.

  Lemma unwind_ext : forall sav stk f g, (forall t, f t = g t) -> forall t, unwind sav stk f t = unwind sav stk g t.
  Proof.
    induction stk as [|[p s] r IH]; intros f g H t; cbn; auto.
    destruct (specs w p); auto. destruct (sav p); auto.
    apply IH. apply undo_ext. exact H.
  Qed.

  Lemma unwind_upd_notin : forall sav stk p v f,
    ~ In p (map fst stk) -> unwind (upd sav p v) stk f = unwind sav stk f.
  Proof.
    induction stk as [|[q s] r IH]; intros p v f H; cbn; auto.
    cbn in H. rewrite upd_other by (intro; apply H; left; congruence).
    destruct (specs w q); [destruct (sav q)|]; apply IH; intro; apply H; right; assumption.
  Qed.

  Lemma act_upd_notin : forall sav stk p v,
    ~ In p (map fst stk) -> act (upd sav p v) stk = act sav stk.
  Proof.
    induction stk as [|[q s] r IH]; intros p v H; cbn; auto.
    cbn in H. rewrite upd_other by (intro; apply H; left; congruence).
    rewrite IH by (intro; apply H; right; assumption). reflexivity.
  Qed.

  Lemma act_in : forall sav stk p, In p (act sav stk) -> In p (map fst stk).
  Proof.
    induction stk as [|[q s] r IH]; intros p H; cbn in *; auto.
    destruct (s && is_some (specs w q) && is_some (sav q)).
    - apply in_app_or in H. destruct H as [H|[H|[]]]; auto.
    - auto.
  Qed.

  Lemma remove1_last : forall p l, ~ In p l -> remove1 p (l ++ [p]) = Some l.
  Proof.
    induction l as [|x l IH]; intros H; cbn.
    - rewrite Z.eqb_refl. reflexivity.
    - destruct (Z.eqb_spec x p).
      + exfalso. apply H. left. assumption.
      + rewrite IH by (intro; apply H; right; assumption). reflexivity.
  Qed.

  Lemma remove1_notin : forall p l, ~ In p l -> remove1 p l = None.
  Proof.
    induction l as [|x l IH]; intros H; cbn; auto.
    destruct (Z.eqb_spec x p).
    - exfalso. apply H. left. assumption.
    - rewrite IH by (intro; apply H; right; assumption). reflexivity.
  Qed.

  Lemma in_stk_false : forall p stk, in_stk p stk = false -> ~ In p (map fst stk).
  Proof.
    induction stk as [|[q s] r IH]; cbn; intros H; auto.
    apply orb_false_elim in H. destruct H as [H1 H2].
    intros [E|E].
    - subst. rewrite Z.eqb_refl in H1. discriminate.
    - apply IH; assumption.
  Qed.

  (* get_original: the attribute as the patcher finds it, and whether the target's own dict had it *)
  Definition original (st : state) (t : Z) : option (option obj * bool) :=
    match own st t with
    | Some o => Some (Some o, true)
    | None => match inh w t with Some o => Some (Some o, false) | None => None end
    end.

  Lemma undo_original : forall st sp sv o, original st (ptarget sp) = Some sv ->
    forall t, undo sp sv (upd (own st) (ptarget sp) (Some o)) t = own st t.
  Proof.
    intros st sp sv o H t. unfold original in H. unfold undo.
    destruct (own st (ptarget sp)) eqn:Ho; [|destruct (inh w (ptarget sp)) eqn:Hi]; inversion H; subst; cbn;
      rewrite ?Hi; unfold upd; destruct (Z.eqb_spec t (ptarget sp)); subst; auto.
  Qed.

  Lemma enter_cases : forall st p st' r,
    enter w st p = (st', r) ->
    (st' = st /\ r <> RDone)
    \/ (r = RDone /\ exists sp sv,
          specs w p = Some sp /\ original st (ptarget sp) = Some sv /\
          st' = mkst (upd (own st) (ptarget sp) (Some (new_obj p sp (gen st p))))
                     (upd (saved st) p (Some sv)) (active st) (upd (gen st) p (gen st p + 1))
                     (if inst_callable (installed (prk sp))
                      then set_attached (attached st) (new_obj p sp (gen st p)) else attached st)).
  Proof.
    intros st p st' r H. unfold enter in H. unfold original.
    destruct (specs w p) as [sp|]; [|injection H as <- <-; left; split; [reflexivity|discriminate]].
    destruct (own st (ptarget sp)) eqn:Ho; [|destruct (inh w (ptarget sp)) eqn:Hi]; try destruct (attach_failure _);
      injection H as <- <-; try (left; split; [reflexivity|discriminate]);
      right; (split; [reflexivity|]); eexists _, _; repeat split; rewrite Ho, ?Hi; reflexivity.
  Qed.

  (* invariant after a successful enter of p (not open), whether or not start() registers it *)
  Lemma inv_push : forall base stk st p s sp sv o gn at_,
    Inv base stk st -> ~ In p (map fst stk) -> specs w p = Some sp -> original st (ptarget sp) = Some sv ->
    Inv base ((p, s) :: stk)
        (mkst (upd (own st) (ptarget sp) (Some o)) (upd (saved st) p (Some sv))
              (if s then active st ++ [p] else active st) gn at_).
  Proof.
    intros base stk st p s sp sv o gn at_ [I1 I2 I3 I4 I5] Hn Hs Hu. constructor; cbn.
    - intros t. rewrite Hs, upd_same. rewrite unwind_upd_notin by assumption.
      rewrite (unwind_ext _ _ _ (own st)) by (apply undo_original; assumption). apply I1.
    - constructor; assumption.
    - intros q Hq. rewrite upd_other by (intro; apply Hq; left; congruence).
      apply I3. intro; apply Hq; right; assumption.
    - rewrite Hs, upd_same, act_upd_notin by assumption. cbn.
      destruct s; cbn; rewrite I4; reflexivity.
    - intros q Hq. destruct (Z.eqb_spec q p); [subst; congruence|].
      rewrite upd_other in Hq by assumption. apply I5; assumption.
  Qed.

  (* invariant after a failed enter/start of p (not open): p is pushed but holds nothing *)
  Lemma inv_push_dead : forall base stk st p s,
    Inv base stk st -> ~ In p (map fst stk) -> Inv base ((p, s) :: stk) st.
  Proof.
    intros base stk st p s [I1 I2 I3 I4 I5] Hn.
    assert (Hp : saved st p = None) by (apply I3; assumption).
    constructor; cbn.
    - intros t. rewrite Hp. destruct (specs w p); apply I1.
    - constructor; assumption.
    - intros q Hq. apply I3. intro; apply Hq; right; assumption.
    - rewrite Hp. rewrite andb_false_r. exact I4.
    - exact I5.
  Qed.

  Lemma exit_eq : forall st p,
    exit w st p =
    match specs w p, saved st p with
    | Some sp, Some sv =>
      (mkst (undo sp sv (own st)) (upd (saved st) p None) (active st) (gen st) (attached st), RDone)
    | _, _ => (st, RFail E_ATTRIBUTE)
    end.
  Proof.
    intros st p. unfold exit, undo. destruct (specs w p); [|reflexivity].
    destruct (saved st p) as [[orig local]|]; reflexivity.
  Qed.

  (* once the innermost entry p holds nothing, nothing outside the rest of the stack holds anything *)
  Lemma saved_below : forall (sav sav' : Z -> psaved) p l,
    (forall q, ~ In q (p :: l) -> sav q = None) -> sav' p = None -> (forall q, q <> p -> sav' q = sav q) ->
    forall q, ~ In q l -> sav' q = None.
  Proof.
    intros sav sav' p l H Hp Ho q Hq. destruct (Z.eqb_spec q p); [subst; exact Hp|].
    rewrite Ho by assumption. apply H. intros [E|E]; [congruence|contradiction].
  Qed.

  (* closing the innermost entry when it holds a saved original *)
  Lemma inv_pop_live : forall base stk st p s sp sv,
    Inv base ((p, s) :: stk) st -> specs w p = Some sp -> saved st p = Some sv ->
    Inv base stk (mkst (undo sp sv (own st)) (upd (saved st) p None) (act (saved st) stk) (gen st) (attached st)).
  Proof.
    intros base stk st p s sp sv [I1 I2 I3 I4 I5] Hs Hv. cbn in I1, I2. rewrite Hs, Hv in I1.
    inversion I2 as [|? ? Hn Hnd]; subst. constructor; cbn.
    - intros t. rewrite unwind_upd_notin by assumption. apply I1.
    - assumption.
    - apply (saved_below (saved st) _ p); [exact I3 | apply upd_same | intros; apply upd_other; assumption].
    - rewrite act_upd_notin by assumption. reflexivity.
    - intros q Hq. destruct (Z.eqb_spec q p); [subst; rewrite upd_same in Hq; congruence|].
      rewrite upd_other in Hq by assumption. apply I5; assumption.
  Qed.

  (* ... and when it holds nothing (its enter failed) *)
  Lemma inv_pop_dead : forall base stk st p s,
    Inv base ((p, s) :: stk) st -> is_some (specs w p) && is_some (saved st p) = false ->
    Inv base stk st.
  Proof.
    intros base stk st p s [I1 I2 I3 I4 I5] E. cbn in I1, I2, I4.
    inversion I2 as [|? ? Hn Hnd]; subst.
    assert (Hv : saved st p = None).
    { destruct (saved st p) eqn:Hv; auto. exfalso.
      destruct (specs w p) eqn:Hs; [discriminate E|]. apply (I5 p); congruence. }
    rewrite Hv in I1, I4. rewrite andb_false_r in I4. constructor; auto.
    - intros t. specialize (I1 t). destruct (specs w p); exact I1.
    - apply (saved_below (saved st) _ p); auto.
  Qed.

  Lemma exit_top : forall base stk st p,
    Inv base ((p, false) :: stk) st -> Inv base stk (fst (exit w st p)).
  Proof.
    intros base stk st p HI. rewrite exit_eq.
    destruct (specs w p) as [sp|] eqn:Hs; [destruct (saved st p) as [sv|] eqn:Hv|]; cbn [fst];
      try (apply (inv_pop_dead base stk st p false HI); rewrite Hs, ?Hv; reflexivity).
    rewrite (inv_active _ _ _ HI). cbn [act andb]. apply (inv_pop_live base stk st p false sp sv HI Hs Hv).
  Qed.

  Lemma stop_live : forall base stk st p sp sv,
    Inv base ((p, true) :: stk) st -> specs w p = Some sp -> saved st p = Some sv ->
    stop w st p = (mkst (undo sp sv (own st)) (upd (saved st) p None) (act (saved st) stk) (gen st) (attached st), RDone)
    /\ Inv base stk (mkst (undo sp sv (own st)) (upd (saved st) p None) (act (saved st) stk) (gen st) (attached st)).
  Proof.
    intros base stk st p sp sv HI Hs Hv. split; [|apply (inv_pop_live base stk st p true sp sv HI Hs Hv)].
    pose proof HI as [_ I2 _ I4 _]. cbn in I2, I4. inversion I2 as [|? ? Hn _]; subst.
    rewrite Hs, Hv in I4; cbn in I4.
    unfold stop. rewrite I4, remove1_last by (intro H; apply act_in in H; contradiction).
    rewrite exit_eq; cbn. rewrite Hs, Hv. reflexivity.
  Qed.

  Lemma stop_dead : forall base stk st p,
    Inv base ((p, true) :: stk) st -> is_some (specs w p) && is_some (saved st p) = false ->
    stop w st p = (st, RDone) /\ Inv base stk st.
  Proof.
    intros base stk st p HI E. pose proof HI as [I1 I2 I3 I4 I5]. cbn in I4.
    inversion I2 as [|? ? Hn Hnd]; subst. rewrite E in I4.
    split; [|eapply inv_pop_dead; eassumption].
    unfold stop. rewrite I4, remove1_notin by (intro H; apply act_in in H; contradiction). reflexivity.
  Qed.

  Lemma stop_top : forall base stk st p,
    Inv base ((p, true) :: stk) st -> Inv base stk (fst (stop w st p)).
  Proof.
    intros base stk st p HI.
    destruct (is_some (specs w p) && is_some (saved st p)) eqn:E.
    - destruct (specs w p) as [sp|] eqn:Hs; [|discriminate E].
      destruct (saved st p) as [sv|] eqn:Hv; [|discriminate E].
      destruct (stop_live base stk st p sp sv HI Hs Hv) as [H1 H2]. rewrite H1. exact H2.
    - destruct (stop_dead base stk st p HI E) as [H1 H2]. rewrite H1. exact H2.
  Qed.

  Lemma act_unstarted : forall sav r, forallb (fun e : Z * bool => negb (snd e)) r = true -> act sav r = [].
  Proof.
    induction r as [|[p s] r IH]; cbn; intros H; auto.
    apply andb_prop in H. destruct H as [H1 H2]. destruct s; [discriminate H1|]. cbn. auto.
  Qed.

  (* the loop walks _active_patches from its end: the innermost started entry that holds something is
     the last element, stop() removes it and leaves the list the rest of the stack stands for *)
  Lemma stopall_inv : forall stk base st,
    Inv base stk st -> forallb (fun e : Z * bool => negb (snd e)) (drop_started stk) = true ->
    Inv base (drop_started stk) (fst (stopall w st)).
  Proof.
    unfold stopall. induction stk as [|[p [|]] r IH]; intros base st HI Hr; cbn [drop_started] in *.
    - rewrite (inv_active _ _ _ HI). exact HI.
    - destruct (is_some (specs w p) && is_some (saved st p)) eqn:E.
      + destruct (specs w p) as [sp|] eqn:Hs; [|discriminate E].
        destruct (saved st p) as [sv|] eqn:Hv; [|discriminate E].
        destruct (stop_live base r st p sp sv HI Hs Hv) as [H1 H2].
        pose proof (inv_active _ _ _ HI) as I4. cbn [act] in I4. rewrite Hs, Hv in I4. cbn [is_some andb] in I4.
        rewrite I4, app_length, Nat.add_1_r. cbn [stopall_loop].
        rewrite I4, nth_error_app2, Nat.sub_diag by apply Nat.le_refl. cbn [nth_error]. rewrite H1.
        exact (IH base _ H2 Hr).
      + destruct (stop_dead base r st p HI E) as [_ H2]. exact (IH base st H2 Hr).
    - rewrite (inv_active _ _ _ HI), (act_unstarted _ _ Hr). exact HI.
  Qed.

  Lemma exec_cons : forall st o ops, exec w st (o :: ops) = exec w (fst (step w st o)) ops.
  Proof.
    intros st o ops. unfold exec. cbn [run]. destruct (step w st o) as [s1 r]. cbn [fst].
    destruct (run w s1 ops). reflexivity.
  Qed.

  Lemma fst_step : forall st o,
    fst (step w st o) =
    match o with
    | OEnter p _ => fst (enter w st p) | OExit p _ _ => fst (exit w st p)
    | OStart p => fst (start w st p) | OStop p _ => fst (stop w st p)
    | OStopAll _ => fst (stopall w st) | OProbe _ _ => st
    end.
  Proof.
    intros st [p sty|p sty exc|p|p exc|exc|t args]; cbn [step];
      [destruct (enter w st p)|destruct (exit w st p)|destruct (start w st p)|destruct (stop w st p)|destruct (stopall w st)|];
      reflexivity.
  Qed.

  (* an activation of a patcher that is not open, by `with` / a decorator (s = false) or start() *)
  Lemma enter_inv : forall base stk st p s,
    Inv base stk st -> ~ In p (map fst stk) ->
    Inv base ((p, s) :: stk) (fst (if s then start w st p else enter w st p)).
  Proof.
    intros base stk st p s HI Hn. unfold start. destruct (enter w st p) as [st' r] eqn:He.
    destruct (enter_cases st p st' r He) as [[-> Hr]|[-> [sp [sv [Hs [Hu ->]]]]]].
    - destruct s, r; try congruence; apply inv_push_dead; assumption.
    - destruct s; cbn; [apply (inv_push base stk st p true sp sv) | apply (inv_push base stk st p false sp sv)]; auto.
  Qed.

  Lemma restored_gen : forall ops base stk st,
    Inv base stk st -> wb stk ops = true -> Inv base [] (exec w st ops).
  Proof.
    induction ops as [|o ops IH]; intros base stk st HI Hwb.
    - cbn in Hwb. destruct stk; [exact HI|discriminate].
    - rewrite exec_cons, fst_step. cbn [wb] in Hwb. destruct o as [p sty|p sty exc|p|p exc|exc|t args].
      + apply andb_prop in Hwb. destruct Hwb as [Hn Hwb]. apply negb_true_iff, in_stk_false in Hn.
        exact (IH _ _ _ (enter_inv base stk st p false HI Hn) Hwb).
      + destruct stk as [|[q [|]] r]; try discriminate Hwb.
        apply andb_prop in Hwb. destruct Hwb as [Hq Hwb]. apply Z.eqb_eq in Hq. subst q.
        exact (IH _ _ _ (exit_top base r st p HI) Hwb).
      + apply andb_prop in Hwb. destruct Hwb as [Hn Hwb]. apply negb_true_iff, in_stk_false in Hn.
        exact (IH _ _ _ (enter_inv base stk st p true HI Hn) Hwb).
      + destruct stk as [|[q [|]] r]; try discriminate Hwb.
        apply andb_prop in Hwb. destruct Hwb as [Hq Hwb]. apply Z.eqb_eq in Hq. subst q.
        exact (IH _ _ _ (stop_top base r st p HI) Hwb).
      + apply andb_prop in Hwb. destruct Hwb as [Hr Hwb]. exact (IH _ _ _ (stopall_inv stk base st HI Hr) Hwb).
      + exact (IH _ _ _ HI Hwb).
  Qed.

  Lemma clean_inv : forall st, clean st -> Inv (own st) [] st.
  Proof.
    intros st [Hs Ha]. constructor; cbn; auto; try constructor.
    all: try (intros p H; exfalso; apply H; apply Hs).
  Qed.

  Lemma restored : forall ops st,
    clean st -> wb [] ops = true ->
    (forall t, own (exec w st ops) t = own st t) /\ clean (exec w st ops).
  Proof.
    intros ops st Hc Hwb.
    destruct (restored_gen ops (own st) [] st (clean_inv st Hc) Hwb) as [I1 _ I3 I4 _].
    cbn in *. repeat split; auto.
  Qed.

  Lemma enter_installs : forall st p st' sp,
    enter w st p = (st', RDone) -> specs w p = Some sp ->
    own st' (ptarget sp) = Some (new_obj p sp (gen st p)) /\ gen st' p = gen st p + 1.
  Proof.
    intros st p st' sp He Hs.
    destruct (enter_cases st p st' RDone He) as [[_ H]|[_ [sp' [sv [Hs' [_ ->]]]]]]; [congruence|].
    assert (sp' = sp) by congruence. subst. cbn. split; apply upd_same.
  Qed.

  (* an attribute-refusing product of new_callable: whatever the exception class of the refusal,
     the activation leaves the state exactly as it was and re-raises that exception *)
  Lemma enter_refusal : forall st p sp r,
    specs w p = Some sp -> installed (prk sp) = ISlots r -> current w st (ptarget sp) <> None ->
    enter w st p = (st, RFail (refusal_exn r)).
  Proof.
    intros st p sp r Hs Hi Hc. unfold enter, current in *. rewrite Hs.
    destruct (own st (ptarget sp)) as [o|].
    - rewrite Hi. reflexivity.
    - destruct (inh w (ptarget sp)); [|congruence]. rewrite Hi. reflexivity.
  Qed.

  (* activation counts never go down and the .asynq/.async/.asyncio wrappers are never taken off an object
     again (mock_.py has no __exit__ override), for ANY op list, malformed ones included *)
  Definition grows (st st' : state) : Prop :=
    (forall q, gen st q <= gen st' q) /\ (forall x, attached st x = true -> attached st' x = true).
  Definition keeps (st st' : state) : Prop := gen st' = gen st /\ attached st' = attached st.

  Lemma keeps_grows : forall st st', keeps st st' -> grows st st'.
  Proof. intros st st' [G T]. split; intros; rewrite ?G, ?T; (lia || assumption). Qed.

  Lemma set_attached_mono : forall f o x, f x = true -> set_attached f o x = true.
  Proof. intros f o x H. unfold set_attached. destruct (obj_eqb x o); auto. Qed.

  Lemma enter_grows : forall st p, grows st (fst (enter w st p)).
  Proof.
    intros st p. destruct (enter w st p) as [st' r] eqn:He.
    destruct (enter_cases st p st' r He) as [[-> _]|[_ [sp [sv [_ [_ ->]]]]]]; split; cbn; auto; try lia.
    - intros q. unfold upd. destruct (Z.eqb_spec q p); subst; lia.
    - intros x H. destruct (inst_callable (installed (prk sp))); auto using set_attached_mono.
  Qed.

  Lemma exit_keeps : forall st p, keeps st (fst (exit w st p)).
  Proof.
    intros st p. unfold exit. destruct (specs w p); [|split; reflexivity].
    destruct (saved st p) as [[orig local]|]; split; reflexivity.
  Qed.

  Lemma stop_keeps : forall st p, keeps st (fst (stop w st p)).
  Proof. intros st p. unfold stop. destruct (remove1 p (active st)) as [l|]; [|split; reflexivity].
    exact (exit_keeps (mkst (own st) (saved st) l (gen st) (attached st)) p).
  Qed.

  Lemma stopall_loop_keeps : forall k st, keeps st (fst (stopall_loop w k st)).
  Proof.
    induction k as [|i IH]; intros st; cbn; [split; reflexivity|].
    destruct (nth_error (active st) i) as [p|]; [|split; reflexivity].
    pose proof (stop_keeps st p) as [G T]. destruct (stop w st p) as [st' [|e]]; cbn in G, T.
    - destruct (IH st') as [G' T']. split; congruence.
    - split; assumption.
  Qed.

  Lemma step_grows : forall st o, grows st (fst (step w st o)).
  Proof.
    intros st o. rewrite fst_step. destruct o as [p sty|p sty exc|p|p exc|exc|t args].
    - apply enter_grows.
    - apply keeps_grows, exit_keeps.
    - pose proof (enter_grows st p) as H. unfold start. destruct (enter w st p) as [s1 [|e]]; exact H.
    - apply keeps_grows, stop_keeps.
    - apply keeps_grows, stopall_loop_keeps.
    - split; intros; (lia || assumption).
  Qed.

  Lemma exec_grows : forall ops st, grows st (exec w st ops).
  Proof.
    induction ops as [|o ops IH]; intros st; [split; intros; (cbn; lia || assumption)|].
    rewrite exec_cons. destruct (step_grows st o) as [G T], (IH (fst (step w st o))) as [G' T'].
    split; [intros q; specialize (G q); specialize (G' q); lia | auto].
  Qed.

  (* who and b are only carried along: which of the three shapes a convention gives is decided by
     the installed object, whether its wrappers are on, the access path and the convention.  So the
     KIND of value the replacement returns is no input of the dispatch: whatever the body does
     (returns a plain value, None, an exception instance, a FUTURE OBJECT - ConstFuture / task /
     batch item -, or raises), a convention that reaches it delivers exactly that; in particular a
     future object returned as the result is never taken for the future the convention itself makes *)
  Lemma probe_conv_shape : forall i att acc c args,
    (exists recv, forall who b, probe_conv i att acc who b c args = CReached who recv b) \/
    (forall who b, probe_conv i att acc who b c args = CNotCallable) \/
    (forall who b, probe_conv i att acc who b c args = CDetached).
  Proof.
    intros i att acc c args. unfold probe_conv.
    destruct att; [|destruct (inst_unattached i) as [i'|]; [|destruct c; auto]];
      match goal with |- context [dispatch Z SELF CLS ?j acc ?cv args] =>
        destruct (dispatch Z SELF CLS j acc cv args) as [r|] end; eauto.
  Qed.

  (* every convention of a probe runs the code of the object that is in place NOW (never the
     object of an earlier activation): the object itself, or the shared object its per-patcher
     wrapper delegates to; or none is callable; or the wrappers are missing *)
  Lemma probe_reaches_current : forall st t args cur cs,
    probe w st t args = RProbe cur cs ->
    cur = current w st t /\
    forall c, In c cs -> c = CNotCallable \/ c = CDetached
                         \/ exists o recv b, cur = Some o /\ c = CReached (body_of w o) recv b.
  Proof.
    intros st t args cur cs H. unfold probe in H.
    destruct (current w st t) as [o|]; [|inversion H; subst; split; [reflexivity|intros c []]].
    destruct (obj_inst w o) as [[i b]|]; [|inversion H; subst; split; [reflexivity|intros c []]].
    destruct (inst_callable i); [|inversion H; subst; split; [reflexivity|intros c []]].
    injection H as <- <-. split; [reflexivity|].
    intros c Hc. cbn [map all_convs In] in Hc.
    destruct Hc as [<-|[<-|[<-|[<-|[]]]]];
      match goal with |- context [probe_conv ?i ?a ?ac _ _ ?cv ?ar] =>
        destruct (probe_conv_shape i a ac cv ar) as [[r E]|[E|E]]; rewrite E end; eauto 8.
  Qed.

  Lemma obj_eqb_refl : forall o, obj_eqb o o = true.
  Proof. destruct o; cbn; rewrite ?Z.eqb_refl; reflexivity. Qed.

  Lemma set_attached_same : forall f o, set_attached f o o = true.
  Proof. intros. unfold set_attached. rewrite obj_eqb_refl. reflexivity. Qed.

  (* a successful activation with a callable replacement leaves the installed object attached *)
  Lemma enter_attaches : forall st p st' sp,
    enter w st p = (st', RDone) -> specs w p = Some sp -> inst_callable (installed (prk sp)) = true ->
    attached st' (new_obj p sp (gen st p)) = true.
  Proof.
    intros st p st' sp He Hs Hc.
    destruct (enter_cases st p st' RDone He) as [[_ H]|[_ [sp' [sv [Hs' [_ ->]]]]]]; [congruence|].
    assert (sp' = sp) by congruence. subst. cbn. rewrite Hc. apply set_attached_same.
  Qed.

  (* two patchers that were given the same object, installed as is: the same object in both slots *)
  Lemma shared_same_object : forall p q sp sq g h,
    per_activation (prk sp) = false -> given_as_is (prk sp) = true ->
    prk sq = prk sp -> pshare sq = pshare sp ->
    new_obj p sp g = new_obj q sq h.
  Proof.
    intros p q sp sq g h Hp Ha Hr Hsh. unfold new_obj. rewrite Hr, Hp, Ha, Hsh. reflexivity.
  Qed.

  (* wrapped replacements (function, bound method, attribute-refusing callable): one wrapper per
     patcher, but the code that runs is the shared object's *)
  Lemma shared_wrapped_distinct : forall p q sp sq g h,
    per_activation (prk sp) = false -> given_as_is (prk sp) = false -> prk sq = prk sp -> p <> q ->
    new_obj p sp g <> new_obj q sq h.
  Proof.
    intros p q sp sq g h Hp Ha Hr Hn. unfold new_obj. rewrite Hr, Hp, Ha. intro E. inversion E. contradiction.
  Qed.

  Lemma shared_body : forall p sp g,
    specs w p = Some sp -> per_activation (prk sp) = false ->
    (given_as_is (prk sp) = true -> exists so, specs w (pshare sp) = Some so /\ per_activation (prk so) = false
                                               /\ pshare so = pshare sp) ->
    body_of w (new_obj p sp g) = ONew (pshare sp) 0.
  Proof.
    intros p sp g Hs Hp Hown. unfold new_obj. rewrite Hp.
    destruct (given_as_is (prk sp)) eqn:Ha; cbn.
    - destruct (Hown eq_refl) as [so [Ho [Hpo Hsh]]]. rewrite Ho, Hpo, Hsh. reflexivity.
    - rewrite Hs, Hp. reflexivity.
  Qed.

  (* p was activated with a callable replacement; then ANY op list runs - other
     patches sharing p's replacement object start and end, in any order, well-bracketed or not -;
     whenever p's object is (still / again) what the target holds, a probe finds the wrappers in
     place: every convention runs the code of that object (or, for a classmethod object fetched
     from a module / instance dict, none is callable - also the synchronous one) *)
  Lemma survivor_probe : forall st p sp st1 ops t args,
    enter w st p = (st1, RDone) -> specs w p = Some sp -> inst_callable (installed (prk sp)) = true ->
    obj_inst w (new_obj p sp (gen st p)) = Some (installed (prk sp), pbeh sp) ->
    current w (exec w st1 ops) t = Some (new_obj p sp (gen st p)) ->
    probe w (exec w st1 ops) t args =
    RProbe (Some (new_obj p sp (gen st p)))
      (map (fun c => probe_conv (installed (prk sp)) true
                       (access_of (tkinds w t) (match own (exec w st1 ops) t with Some _ => true | None => false end))
                       (body_of w (new_obj p sp (gen st p))) (pbeh sp) c args) all_convs).
  Proof.
    intros st p sp st1 ops t args He Hs Hc Hi Hcur.
    pose proof (proj2 (exec_grows ops st1) _ (enter_attaches st p st1 sp He Hs Hc)) as Hat.
    unfold probe. rewrite Hcur, Hi, Hc, Hat. reflexivity.
  Qed.
End Restore.

(* the hypotheses are satisfiable, and needed *)
Example wb_example :
  wb [] [OEnter 0 SWith; OStart 1; OProbe 0 [1]; OStart 2; OEnter 3 SDecor; OExit 3 SDecor true;
         OStopAll false; OExit 0 SWith true; OStart 1; OStop 1 true] = true.
Proof. reflexivity. Qed.

Example init_clean : forall tks, clean (init_state tks).
Proof. intros. split; reflexivity. Qed.

(* one patcher activated twice: the hypotheses of C19_reactivation_fresh are satisfiable, the default
   mock of the second activation is a new object and all four conventions reach it; an
   attribute-refusing product of new_callable is refused with its own exception and nothing changes *)
Example reactivation_example :
  run_case [TMethod] [(0, RDefault, BRet, 0)]
           [OEnter 0 SDecor; OExit 0 SDecor false; OStart 0; OProbe 0 [7]; OStop 0 true]
  = ([RO RDone; RO RDone; RO RDone;
      RProbe (Some (ONew 0 1)) [CReached (ONew 0 1) [7] BRet; CReached (ONew 0 1) [7] BRet;
                                CReached (ONew 0 1) [7] BRet; CReached (ONew 0 1) [7] BRet];
      RO RDone], [Some (OOrig 0)], 0).
Proof. reflexivity. Qed.

Example refusal_example :
  run_case [TModFn] [(0, RNcType, BRet, 0); (0, RNcRaiser, BRet, 1)] [OEnter 0 SWith; OStart 1; OStopAll false]
  = ([RO (RFail E_TYPE); RO (RFail E_RUNTIME); RO RDone], [Some (OOrig 0)], 0).
Proof. reflexivity. Qed.

(* ONE callable object given to two patches of two targets whose lifetimes overlap: while both are
   active both slots hold the one object; after the inner patch ended the outer one still reaches
   it by all four conventions (the hypotheses of C19_survivor_reached are satisfiable).  The same with
   one plain function: each patcher installs its own AsyncAndSyncPairDecorator (ONew 0 0 / ONew 1 0),
   the code that runs is the shared function's (ONew 0 0). *)
Example shared_example :
  run_case [TModFn; TModFn] [(0, RCallableObj, BRet, 0); (1, RCallableObj, BRet, 0)]
           [OEnter 0 SWith; OEnter 1 SWith; OProbe 1 [5]; OExit 1 SWith false; OProbe 0 [7]; OExit 0 SWith false]
  = ([RO RDone; RO RDone;
      RProbe (Some (ONew 0 0)) [CReached (ONew 0 0) [5] BRet; CReached (ONew 0 0) [5] BRet;
                                CReached (ONew 0 0) [5] BRet; CReached (ONew 0 0) [5] BRet];
      RO RDone;
      RProbe (Some (ONew 0 0)) [CReached (ONew 0 0) [7] BRet; CReached (ONew 0 0) [7] BRet;
                                CReached (ONew 0 0) [7] BRet; CReached (ONew 0 0) [7] BRet];
      RO RDone], [Some (OOrig 0); Some (OOrig 1)], 0).
Proof. reflexivity. Qed.

Example shared_wrapped_example :
  run_case [TModFn; TModFn] [(0, RFunc, BRet, 0); (1, RFunc, BRet, 0)]
           [OStart 0; OStart 1; OProbe 1 [5]; OStop 1 false; OProbe 0 []; OStopAll false]
  = ([RO RDone; RO RDone;
      RProbe (Some (ONew 1 0)) [CReached (ONew 0 0) [5] BRet; CReached (ONew 0 0) [5] BRet;
                                CReached (ONew 0 0) [5] BRet; CReached (ONew 0 0) [5] BRet];
      RO RDone;
      RProbe (Some (ONew 0 0)) [CReached (ONew 0 0) [] BRet; CReached (ONew 0 0) [] BRet;
                                CReached (ONew 0 0) [] BRet; CReached (ONew 0 0) [] BRet];
      RO RDone], [Some (OOrig 0); Some (OOrig 1)], 0).
Proof. reflexivity. Qed.

(* what a missing wrapper would look like (no reachable state has one, see C19_survivor_reached): *)
Example detached_example :
  probe_conv IObj false ADirect (ONew 0 0) BRet CValue [1] = CDetached
  /\ probe_conv IObj false ADirect (ONew 0 0) BRet CSync [1] = CReached (ONew 0 0) [1] BRet
  /\ probe_conv IAsynq false ADirect (ONew 0 0) BRet CValue [1] = CReached (ONew 0 0) [1] BRet.
Proof. repeat split. Qed.

(* stopping in non-LIFO order is not well-bracketed, and indeed does not restore *)
Example nonlifo_not_wb : wb [] [OStart 0; OStart 1; OStop 0 false; OStop 1 false] = false.
Proof. reflexivity. Qed.
Example nonlifo_not_restored :
  snd (fst (run_case [TModFn] [(0, RFunc, BRet, 0); (0, RBound, BRet, 1)]
                     [OStart 0; OStart 1; OStop 0 false; OStop 1 false])) = [Some (ONew 0 0)].
Proof. reflexivity. Qed.

(* Programs as users write them: with-blocks / decorated functions / decorated classes, start..stop
   regions (try/finally) and start..stopall regions, nested and in sequence, each left normally or
   by an exception.  Their op lists are well-bracketed, so `restored` applies to all of them. *)
Inductive bkind := KCtx (s : style) | KStartStop | KStartAll.

Inductive prog :=
| PNil
| PProbe (t : Z) (args : list Z) (rest : prog)
| PBlock (p : Z) (k : bkind) (exc : bool) (body rest : prog).

Definition open_op (p : Z) (k : bkind) : op :=
  match k with KCtx s => OEnter p s | _ => OStart p end.
Definition close_op (p : Z) (k : bkind) (exc : bool) : op :=
  match k with KCtx s => OExit p s exc | KStartStop => OStop p exc | KStartAll => OStopAll exc end.
Definition is_start (k : bkind) : bool := match k with KCtx _ => false | _ => true end.

Fixpoint flatten (pr : prog) : list op :=
  match pr with
  | PNil => []
  | PProbe t a r => OProbe t a :: flatten r
  | PBlock p k exc b r => open_op p k :: flatten b ++ close_op p k exc :: flatten r
  end.

Definition unstarted (stk : list (Z * bool)) : bool := forallb (fun e : Z * bool => negb (snd e)) stk.

(* no patcher object is activated inside itself; a region closed by stopall is not opened inside
   a started region (stopall would end that one too) *)
Fixpoint ok_prog (stk : list (Z * bool)) (pr : prog) : bool :=
  match pr with
  | PNil => true
  | PProbe _ _ r => ok_prog stk r
  | PBlock p k _ b r =>
    negb (in_stk p stk) && (match k with KStartAll => unstarted stk | _ => true end)
    && ok_prog ((p, is_start k) :: stk) b && ok_prog stk r
  end.

Lemma drop_started_unstarted : forall stk, unstarted stk = true -> drop_started stk = stk.
Proof. destruct stk as [|[p [|]] r]; cbn; intros H; try reflexivity. discriminate. Qed.

Lemma flatten_wb : forall pr stk tail,
  ok_prog stk pr = true -> wb stk (flatten pr ++ tail) = wb stk tail.
Proof.
  induction pr as [|t a r IHr|p k exc b IHb r IHr]; intros stk tail H; cbn [flatten app].
  - reflexivity.
  - cbn [wb]. apply IHr. exact H.
  - cbn [ok_prog] in H. apply andb_prop in H. destruct H as [H Hr].
    apply andb_prop in H. destruct H as [H Hb]. apply andb_prop in H. destruct H as [Hn Hk].
    rewrite <- app_assoc. cbn [app].
    destruct k as [s| |]; cbn [open_op close_op is_start wb] in *; rewrite Hn; cbn [andb].
    + rewrite IHb by exact Hb. cbn [wb]. rewrite Z.eqb_refl. cbn [andb]. apply IHr. exact Hr.
    + rewrite IHb by exact Hb. cbn [wb]. rewrite Z.eqb_refl. cbn [andb]. apply IHr. exact Hr.
    + rewrite IHb by exact Hb. cbn [wb drop_started].
      rewrite (drop_started_unstarted stk Hk). unfold unstarted in Hk. rewrite Hk. cbn [andb].
      apply IHr. exact Hr.
Qed.

Example prog_example :
  ok_prog [] (PBlock 0 (KCtx SWith) true
                (PProbe 0 [1] (PBlock 1 (KCtx SDecor) false (PBlock 2 KStartStop true PNil PNil)
                                  (PBlock 1 (KCtx SDecorCls) true PNil PNil)))
                (PBlock 2 KStartAll false (PBlock 0 (KCtx SWith) false PNil PNil) (PProbe 0 [] PNil))) = true.
Proof. reflexivity. Qed.
