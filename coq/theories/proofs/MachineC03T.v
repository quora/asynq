(* C03, liveness of tree programs: one task in one pass (on the C01 invariant MachineC01.CInv and the pass
   invariant MachineC04B.BL).  A resumed body gives control back to the scheduler; in a pass, a task that the loop
   starts or resumes is popped after finitely many steps, with everything it starts - by induction over its
   program, the tasks of a yield being handled before the yield's continuation (tree_P_tree, popped_nfv). *)
From Asynq Require Import Machine Seq proofs.ProgProofs proofs.MachineFrame proofs.MachineC05 proofs.MachineC08 proofs.MachineC01
  proofs.MachineHelpers proofs.MachineCases proofs.MachineDFS proofs.MachineC04 proofs.MachineC04B.

(* the modes of one activation of the body of t *)
Definition seg_mode (t : fid) (m : mode) : bool :=
  match m with
  | MResume t' => fid_eqb t' t
  | MRun t' _ => fid_eqb t' t
  | _ => false
  end.

Lemma run_1 P c : is_final (c_mode c) = false -> run P 1 c = step P c.
Proof. intros _. exact (run_step P 0 c). Qed.

Section Seg.
  Variable P : params.
  Hypothesis HP : pointwise P.
  Variable root : fid.
  Variable res : outcome.

  (* result of a segment: control is back in the scheduler at MContRet after m steps, the C01 invariant
     holds there, and every configuration before it was inside the body of t *)
  Definition seg_done (t : fid) (c : cfg) : Prop :=
    exists m spec', c_mode (run P m c) = MContRet /\ CInv root res spec' (run P m c) /\
      forall j, (j < m)%nat -> seg_mode t (c_mode (run P j c)) = true.

  Lemma seg_step t c :
    seg_mode t (c_mode c) = true -> seg_done t (step P c) -> seg_done t c.
  Proof.
    intros Hm (m & spec' & A & B & C).
    assert (Hf : is_final (c_mode c) = false) by (destruct (c_mode c); try discriminate; reflexivity).
    exists (S m), spec'. rewrite run_S, Hf. split; [exact A|]. split; [exact B|].
    intros [|j] Hj; [exact Hm|]. rewrite run_S, Hf. apply C. lia.
  Qed.

  Lemma seg_now t c spec : c_mode c = MContRet -> CInv root res spec c -> seg_done t c.
  Proof. intros A B. exists O, spec. split; [exact A|]. split; [exact B|]. intros j Hj. lia. Qed.

  Lemma seg_run t p : tree p -> forall spec fr s,
    CInv root res spec (mkC (MRun t p) fr s) -> seg_done t (mkC (MRun t p) fr s).
  Proof.
    induction 1 as [v|v|e|y k Hl Hk IH|c k Hc Hk IH|c k Hc Hk IH]; intros spec fr s HI;
      (apply seg_step; [cbn; apply fid_eqb_refl|]);
      destruct (c01_MRun P root res spec t _ fr s HI) as (spec2 & HI2);
      destruct HI as (_ & _ & HS & _ & (_ & _ & (tk & Hg))); cbn [c_mode c_st running_of] in HS, Hg.
    1-3: match type of HI2 with context [MRun _ ?p] => destruct (step_run_finish P t fr s tk Hg p _ ltac:(constructor)) as (s2 & E & _) end;
         rewrite E in *;
         apply (seg_now t _ spec2); [reflexivity|exact HI2].
    - destruct (step_run_yield P t fr s tk Hg y k (SInv_above_free spec (Some t) s HS)) as (s2 & E & _ & U).
      cbn zeta in *. rewrite E in *. destruct (futs (extract (fst (inst t y s)))); [|apply (seg_now t _ spec2); [reflexivity|exact HI2]].
      (* no new dependency: the body is resumed at once *)
      apply seg_step; [cbn; apply fid_eqb_refl|]. pose proof (c01_MResume P root res spec2 t fr s2 HI2) as HI3.
      destruct (step_MResume P t fr s2 _ k (tupd_get _ _ _ _ _ U) eq_refl) as (s3 & E3 & _). rewrite E3 in *. exact (IH _ _ _ _ HI3).
    - destruct (step_run_enter P t fr s tk Hg c k) as (s2 & E & _). rewrite E in *. exact (IH _ _ _ HI2).
    - destruct (step_run_exit P t fr s tk Hg c k) as (s2 & E & _). rewrite E in *. exact (IH _ _ _ HI2).
  Qed.

  Lemma seg_resume t spec fr s :
    CInv root res spec (mkC (MResume t) fr s) -> seg_done t (mkC (MResume t) fr s).
  Proof.
    intros HI. apply seg_step; [cbn; apply fid_eqb_refl|].
    pose proof (c01_MResume P root res spec t fr s HI) as HI3. revert HI3.
    destruct HI as (Hr & Hf & HS & Ht & (tk & Hg & Hcomp)). cbn in Hf, HS, Ht, Hg, Hcomp.
    destruct (SInv_entry _ _ _ _ _ HS Hg) as (_ & ot & Hst & _ & Hp & Hk). cbn in Hp, Hk.
    destruct (Hk eq_refl ltac:(discriminate)) as (k & K1 & K2 & K3 & K4 & K5).
    cbn [step c_mode c_frames c_st]. unfold get_task. rewrite Hg, K1. intros HI3.
    apply (seg_run t _ (K2 _) _ _ _ HI3).
  Qed.
End Seg.

Lemma tree_run_CInv P p n :
  pointwise P -> tree p ->
  let h := fst (create [] (FTask p) (st0 P)) in
  let s1 := snd (create [] (FTask p) (st0 P)) in
  no_unwind P n (start h s1) -> exists spec, CInv h (eval p) spec (run P n (start h s1)).
Proof. intros HP Ht. exact (c01_reach P (fun _ => None) (st0 P) p n HP Ht (SInv_empty P)). Qed.

Lemma no_unwind_extend P n m c :
  no_unwind P n c -> (forall j, (j <= m)%nat -> is_unwind (c_mode (run P j (run P n c))) = false) ->
  no_unwind P (n + m) c.
Proof.
  intros H1 H2 k Hk. destruct (Nat.le_gt_cases k n) as [L|L]; [apply H1; exact L|].
  replace k with (n + (k - n))%nat by lia. rewrite run_add. apply H2. lia.
Qed.

(* once the scheduler resumes a task, its body runs for finitely many steps (through the yields that
   add no dependency) and control returns to the scheduler loop (MContRet) without unwinding *)
Theorem resumed_returns_tree P p n t :
  pointwise P -> tree p ->
  let h := fst (create [] (FTask p) (st0 P)) in
  let s1 := snd (create [] (FTask p) (st0 P)) in
  no_unwind P n (start h s1) -> c_mode (run P n (start h s1)) = MResume t ->
  exists m, c_mode (run P (n + m) (start h s1)) = MContRet /\ no_unwind P (n + m) (start h s1) /\
    forall j, (j < m)%nat -> seg_mode t (c_mode (run P (n + j) (start h s1))) = true.
Proof.
  intros HP Ht. cbn zeta. intros Hn Hm.
  destruct (tree_run_CInv P p n HP Ht Hn) as (spec & HI).
  destruct (run P n (start _ _)) as [m0 fr s] eqn:Er. cbn in Hm. subst m0.
  destruct (seg_resume P (fst (create [] (FTask p) (st0 P))) (eval p) t spec fr s HI) as (m & spec' & A & B & C).
  exists m. rewrite run_add, Er. split; [exact A|]. split.
  - apply no_unwind_extend; [exact Hn|]. rewrite Er. intros j Hj.
    destruct (Nat.eq_dec j m) as [->|N]; [rewrite A; reflexivity|].
    specialize (C j ltac:(lia)). destruct (c_mode (run P j _)); try discriminate; reflexivity.
  - intros j Hj. rewrite run_add, Er. apply C. exact Hj.
Qed.

(* entries outside l that exist in s are the same in s' *)
Definition keepL (l : list fid) (s s' : st) : Prop :=
  forall d, ~ In d l -> get d s <> None -> get d s' = get d s.

Lemma keepL_refl l s : keepL l s s. Proof. intros d _ _. reflexivity. Qed.

Lemma keepL_trans l a b c : keepL l a b -> keepL l b c -> keepL l a c.
Proof. intros H1 H2 d N A. rewrite (H2 d N), (H1 d N A); [reflexivity|]. rewrite (H1 d N A). exact A. Qed.

(* ... also when the middle part touched only futures that did not exist at the beginning *)
Lemma keepL_trans_new x l a b c :
  keepL [x] a b -> keepL l b c -> (forall d, In d l -> d = x \/ get d a = None) -> keepL [x] a c.
Proof.
  intros H1 H2 Hl d N A. assert (E : get d b = get d a) by (apply H1; assumption).
  rewrite <- E. apply H2; [|rewrite E; exact A].
  intros Hin. destruct (Hl d Hin) as [->|Hn]; [apply N; left; reflexivity|contradiction].
Qed.

Lemma keepL_heap l s s' : heap s' = heap s -> keepL l s s'.
Proof. intros H d _ _. unfold get. rewrite H. reflexivity. Qed.

Lemma keepL_other x s s' : (forall d, d <> x -> get d s' = get d s) -> keepL [x] s s'.
Proof. intros H d N _. apply H. intros ->. apply N. left. reflexivity. Qed.

Lemma keepL_tupd s s' x o tk : tupd s s' x o tk -> keepL [x] s s'.
Proof. intros U. exact (keepL_other _ _ _ (tupd_other _ _ _ _ _ U)). Qed.

Lemma get_set_task_other d t tk s : d <> t -> get d (set_task t tk s) = get d s.
Proof. intros N. unfold set_task. destruct (get t s); [apply get_put_other; exact N|reflexivity]. Qed.

Section Pass.
  Variable P : params.
  Hypothesis HP : pointwise P.
  Variable p0 : prog.
  Hypothesis Ht0 : tree p0.

  Let h := fst (create [] (FTask p0) (st0 P)).
  Let s1 := snd (create [] (FTask p0) (st0 P)).
  Let c0 := start h s1.

  (* the stack guard never fires (MAX_TASK_STACK_SIZE is large enough for this program) *)
  Hypothesis Hnu : forall n, no_unwind P n c0.

  Definition Rc (c : cfg) : Prop := exists n, c = run P n c0.
  Definition fr0 : list frame := [FExec 0; FWait h; FTop].

  Lemma Rc_BL c : Rc c -> exists spec S, BL h (eval p0) spec S c.
  Proof. intros (n & ->). apply (bl_reach P HP p0 Ht0 n (Hnu n)). Qed.

  Lemma Rc_nounwind c : Rc c -> is_unwind (c_mode c) = false.
  Proof. intros (n & ->). apply (Hnu n n). lia. Qed.

  Lemma Rc_run c m : Rc c -> Rc (run P m c).
  Proof. intros (n & ->). exists (n + m)%nat. rewrite run_add. reflexivity. Qed.

  Lemma Rc_step c : Rc c -> Rc (step P c).
  Proof. intros H. change (Rc (step P (run P 0 c))). rewrite <- run_step. apply Rc_run. exact H. Qed.

  (* the goal of processing the top stack entry x: back at the head of the loop with x popped *)
  Definition popped (x : fid) (ts : list fid) (c : cfg) : Prop :=
    exists m s', run P m c = mkC MExecLoop fr0 s' /\ tasks s' = ts /\ keepL [x] (c_st c) s'.

  Lemma popped_run x ts c m c' : run P m c = c' -> keepL [x] (c_st c) (c_st c') -> popped x ts c' -> popped x ts c.
  Proof.
    intros E K (m' & s' & A & B & C). exists (m + m')%nat, s'. rewrite run_add, E.
    split; [exact A|]. split; [exact B|]. eapply keepL_trans; eauto.
  Qed.

  Lemma popped_step x ts c : keepL [x] (c_st c) (c_st (step P c)) -> popped x ts (step P c) -> popped x ts c.
  Proof. exact (popped_run x ts c 1 _ (run_step P 0 c)). Qed.

  Lemma popped_now x ts s : tasks s = ts -> popped x ts (mkC MExecLoop fr0 s).
  Proof. intros Ht. exists O, s. split; [reflexivity|]. split; [exact Ht|apply keepL_refl]. Qed.

  Lemma Rc_exec_inv s : Rc (mkC MExecLoop fr0 s) ->
    exists spec S, SInv spec None s /\ deps_ok h s /\ pass_ok h S None s.
  Proof.
    intros HR. destruct (Rc_BL _ HR) as (spec & S & HDL & _).
    destruct (DL_CInv _ _ _ _ _ HDL) as (_ & _ & HS & _). destruct HDL as (_ & HD & HPk). cbn in HS, HD, HPk. eauto.
  Qed.

  (* one iteration of the loop with x on top of the stack: a case of MachineCases.step_MExecLoop, and not the guard *)
  Lemma exec_top s x ts : Rc (mkC MExecLoop fr0 s) -> tasks s = x :: ts ->
    exec_case P 0 [FWait h; FTop] s (step P (mkC MExecLoop fr0 s)) /\
    is_unwind (c_mode (step P (mkC MExecLoop fr0 s))) = false.
  Proof.
    intros HR Hts. split; [|exact (Rc_nounwind _ (Rc_step _ HR))].
    destruct (Rc_exec_inv s HR) as (spec & S & HS & _). apply step_MExecLoop.
    intros t out tk Hg. exact (SInv_noraise spec None s t out tk HS Hg).
  Qed.

  (* the cases of exec_top that remain when x is on top: skip (K : why x is skipped), item and lazy (G0 : the entry),
     settle / push / run (tk0, s2; G0 : the entry, B0 : is_blocked, D0 : tk_ds, U : the tupd from s to s2);
     E is the configuration reached *)
  Ltac exec_cases HR Hts :=
    let EC := fresh "EC" in let NU := fresh "NU" in
    destruct (exec_top _ _ _ HR Hts) as (EC & NU);
    inversion EC as [L|E|x0 ts0 T0 L K E|x0 ts0 kind idx key a T0 L G0 E|x0 ts0 o0 T0 L G0 E
                    |x0 ts0 tk0 s2 T0 L G0 B0 D0 U E|x0 ts0 tk0 s2 T0 L G0 B0 D0 U E|x0 ts0 tk0 s2 T0 L G0 B0 U E];
    [rewrite Hts in L; cbn in L; lia | rewrite <- E in NU; discriminate NU | ..];
    rewrite Hts in T0; inversion T0; subst x0 ts0; clear T0 L.

  (* the top entry is popped in one step unless it is an uncomputed task that is unblocked, or blocked with its
     dependencies not scheduled yet *)
  Lemma exec_pop s x ts : Rc (mkC MExecLoop fr0 s) -> tasks s = x :: ts ->
    (forall tk, get x s = Some (mkFut None (KTask tk)) -> is_blocked tk s = true /\ tk_ds tk = true) ->
    popped x ts (mkC MExecLoop fr0 s).
  Proof.
    intros HR Hts Hx. apply popped_step; exec_cases HR Hts; cbn [c_st];
      try (destruct (Hx tk0 G0) as (B1 & D1); congruence);
      try (apply popped_now; cbn [tasks pop_task with_tasks put with_heap]; try rewrite (tasks_of_regs _ _ (regs_schedule_batch _ _));
           try rewrite (tupd_tasks _ _ _ _ _ U); rewrite Hts; reflexivity).
    - apply keepL_heap. reflexivity.
    - apply keepL_heap, heap_schedule_batch.
    - apply keepL_other. intros d Nd. apply get_put_other. exact Nd.
    - exact (keepL_tupd _ _ _ _ _ U).
  Qed.

  (* first visit of a blocked task (scheduler.py 143-178): its dependencies are marked scheduled, its contexts are
     resumed and the dependencies that are not computed are pushed, the last one on top *)
  Lemma first_visit s x ts tk : Rc (mkC MExecLoop fr0 s) -> tasks s = x :: ts ->
    get x s = Some (mkFut None (KTask tk)) -> is_blocked tk s = true -> tk_ds tk = false ->
    exists s5, step P (mkC MExecLoop fr0 s) = mkC MExecLoop fr0 s5 /\
      get x s5 = Some (mkFut None (KTask (tk_flags tk true true))) /\
      (forall d, d <> x -> get d s5 = get d s) /\
      tasks s5 = rev (filter (fun d => negb (computed d s)) (tk_deps tk)) ++ x :: ts /\
      NoDup (filter (fun d => negb (computed d s)) (tk_deps tk)).
  Proof.
    intros HR Hts Hg Hb Hds. destruct (Rc_exec_inv s HR) as (_ & _ & _ & HD & _). pose proof (dk_nodup h s HD x tk Hg) as Hnd.
    exec_cases HR Hts; try (rewrite Hg in G0; inversion G0; subst tk0); try congruence.
    - exfalso. unfold computed in K. rewrite Hg in K. destruct K as [K|[K|(o & K)]]; discriminate.
    - eexists. split; [reflexivity|]. destruct U as (A & B & _). auto.
  Qed.

  (* an unblocked task on top of the stack is continued: two steps later its body runs *)
  Lemma resume_top s x ts tk k : Rc (mkC MExecLoop fr0 s) -> tasks s = x :: ts ->
    get x s = Some (mkFut None (KTask tk)) -> is_blocked tk s = false -> tk_gen tk = Some k ->
    exists old o s', run P 2 (mkC MExecLoop fr0 s) = mkC (MRun x (k o)) (FCont x old :: fr0) s' /\
      tasks s' = x :: ts /\ keepL [x] s s'.
  Proof.
    intros HR Hts Hg Hb Hk. rewrite !run_step. cbn [run].
    exec_cases HR Hts; try (rewrite Hg in G0; inversion G0; subst tk0); try congruence.
    { exfalso. unfold computed in K. rewrite Hg in K. destruct K as [K|[K|(o & K)]]; discriminate. }
    match goal with |- context [step P (mkC (MResume x) ?fr ?z)] =>
      destruct (step_MResume P x fr z _ k (tupd_get _ _ _ _ _ U) Hk) as (s3 & E3 & U3 & _) end.
    rewrite E3. eexists _, _, _. split; [reflexivity|]. split.
    - rewrite (tupd_tasks _ _ _ _ _ U3). cbn [tasks with_active]. rewrite (tupd_tasks _ _ _ _ _ U). exact Hts.
    - apply keepL_other. intros d Nd. rewrite (tupd_other _ _ _ _ _ U3 d Nd). exact (tupd_other _ _ _ _ _ U d Nd).
  Qed.

  Lemma Rc_run_inv x p fr s : Rc (mkC (MRun x p) fr s) ->
    exists spec tk, CInv h (eval p0) spec (mkC (MRun x p) fr s) /\ SInv spec (Some x) s /\
      get x s = Some (mkFut None (KTask tk)) /\ running_deps_done s x.
  Proof.
    intros HR. destruct (Rc_BL _ HR) as (spec & S & HDL & _). pose proof (DL_CInv _ _ _ _ _ HDL) as HC.
    pose proof HC as (_ & _ & HS & _ & (_ & _ & (tk & Hg))). destruct HDL as (_ & _ & _ & HD & _). cbn in HS, HD, Hg.
    exists spec, tk. auto.
  Qed.

  (* the body of x finishes (return / result / raise): x is completed and popped *)
  Lemma finish_popped x old s ts p o : finishes p o -> Rc (mkC (MRun x p) (FCont x old :: fr0) s) -> tasks s = x :: ts ->
    popped x ts (mkC (MRun x p) (FCont x old :: fr0) s).
  Proof.
    intros Hf HR Hts. destruct (Rc_run_inv _ _ _ _ HR) as (spec & tk & _ & _ & Hg & _).
    destruct (step_run_finish P x (FCont x old :: fr0) s tk Hg p o Hf) as (sc & E1 & U & _).
    destruct (step_MContRet P x old fr0 sc) as (s2 & E2 & T2 & _ & _ & _ & _ & _ & _ & O2 & G2). rewrite (tupd_get _ _ _ _ _ U) in G2.
    pose proof (Rc_step _ (Rc_step _ HR)) as HR2. rewrite E1, E2 in HR2.
    apply (popped_run x ts _ 2 (mkC MExecLoop fr0 s2)).
    - rewrite !run_step. cbn [run]. rewrite E1. exact E2.
    - apply keepL_other. intros d Nd. cbn [c_st]. rewrite (O2 d Nd). exact (tupd_other _ _ _ _ _ U d Nd).
    - apply exec_pop; [exact HR2|rewrite T2, (tupd_tasks _ _ _ _ _ U); exact Hts|]. intros tk' E. rewrite G2 in E. discriminate.
  Qed.

  (* the loop pops a stack entry d whose heap entry is e, whatever the reachable state *)
  Definition Good (d : fid) (e : fut) : Prop :=
    forall s ts, Rc (mkC MExecLoop fr0 s) -> tasks s = d :: ts -> get d s = Some e -> popped d ts (mkC MExecLoop fr0 s).

  Definition entry_kind_ok (f : fexpr) (e : fut) : Prop :=
    match f with
    | FTask q => e = mkFut None (KTask (fresh_task q))
    | _ => forall tk, e <> mkFut None (KTask tk)
    end.

  Definition Qf (f : fexpr) : Prop := forall d e, entry_kind_ok f e -> Good d e.

  Lemma Good_nontask d e : (forall tk, e <> mkFut None (KTask tk)) -> Good d e.
  Proof.
    intros He s ts HR Hts Hg. apply (exec_pop s d ts HR Hts).
    intros tk E. rewrite Hg in E. inversion E. exfalso. apply (He tk). assumption.
  Qed.

  (* futures created on the way are Good *)
  Definition Rgood (s s' : st) : Prop :=
    (forall d, get d s <> None -> get d s' = get d s) /\
    (forall d e, get d s = None -> get d s' = Some e -> Good d e).

  Lemma Rgood_refl s : Rgood s s.
  Proof. split; [reflexivity|]. intros d e H1 H2. congruence. Qed.

  Lemma Rgood_trans a b c : Rgood a b -> Rgood b c -> Rgood a c.
  Proof.
    intros (A1 & A2) (B1 & B2). split.
    - intros d Hd. rewrite B1, A1; auto. rewrite A1; auto.
    - intros d e Hn Hg. destruct (get d b) as [e'|] eqn:Eb.
      + rewrite B1 in Hg by (rewrite Eb; discriminate). rewrite Eb in Hg. inversion Hg; subst e'. apply (A2 d e Hn Eb).
      + apply (B2 d e Eb Hg).
  Qed.

  Lemma Rgood_create spec r parent f s : SInv spec r s -> Qf f -> Rgood s (snd (create parent f s)).
  Proof.
    intros HS HQ. pose proof (GI_fresh_id tree eval spec _ s HS) as Hfr.
    assert (E : exists e, entry_kind_ok f e /\ get [top_next s] (snd (create parent f s)) = Some e /\
                  forall d, d <> [top_next s] -> get d (snd (create parent f s)) = get d s).
    { unfold create, alloc. destruct f as [q|kind key a|v|e|o]; cbn [snd];
        try change (get ?d (put_batch ?k ?b ?z)) with (get d z);
        (eexists; split; [|split; [apply get_put_same|intros d N; rewrite get_put_other by exact N; reflexivity]]);
        cbn; try reflexivity; intros tk; discriminate. }
    destruct E as (e & Hk & Hn & Ho). split.
    - intros d Hd. apply Ho. intros ->. contradiction.
    - intros d e' Hd Hg. destruct (fid_eqb_spec d [top_next s]) as [->|N].
      + rewrite Hn in Hg. inversion Hg; subst e'. apply HQ. exact Hk.
      + rewrite Ho in Hg by exact N. congruence.
  Qed.

  Lemma Rgood_inst r parent y spec s : SInv spec r s -> (forall l, In l (leaves y) -> tree_leaf l) ->
    (forall f, In (LNew f) (leaves y) -> Qf f) -> Rgood s (snd (inst parent y s)).
  Proof.
    rewrite inst_snd. generalize (leaves y). intros l. revert spec s.
    induction l as [|a l IH]; intros spec s HS Ht HQ; [apply Rgood_refl|]. cbn [fold_left].
    assert (Ht' : forall z, In z l -> tree_leaf z) by (intros z Hz; apply Ht; right; exact Hz).
    assert (HQ' : forall f, In (LNew f) l -> Qf f) by (intros f Hf; apply HQ; right; exact Hf).
    destruct a as [f| |]; cbn [new_leaf]; try apply (IH spec s HS Ht' HQ').
    assert (Hf : tree_fexpr f) by (specialize (Ht (LNew f) (or_introl eq_refl)); inversion Ht; assumption).
    destruct (SInv_create spec r parent f s HS Hf) as (_ & HS1 & _).
    eapply Rgood_trans; [apply (Rgood_create spec r parent f s HS), HQ; left; reflexivity|apply (IH _ _ HS1 Ht' HQ')].
  Qed.

  Lemma exec_list l : forall s ts, Rc (mkC MExecLoop fr0 s) -> tasks s = l ++ ts -> NoDup l ->
    (forall d, In d l -> exists e, get d s = Some e /\ Good d e) ->
    exists m s', run P m (mkC MExecLoop fr0 s) = mkC MExecLoop fr0 s' /\ tasks s' = ts /\ keepL l s s'.
  Proof.
    induction l as [|d l IH]; intros s ts HR Hts Hnd Hall.
    - exists O, s. split; [reflexivity|]. split; [exact Hts|apply keepL_refl].
    - inversion Hnd as [|d' l' Hnin Hnd']; subst d' l'.
      destruct (Hall d (or_introl eq_refl)) as (e & Hg & HG).
      destruct (HG s (l ++ ts) HR Hts Hg) as (m1 & s2 & R1 & T1 & K1). cbn [c_st] in K1.
      assert (HR2 : Rc (mkC MExecLoop fr0 s2)) by (rewrite <- R1; apply Rc_run; exact HR).
      destruct (IH s2 ts HR2 T1 Hnd') as (m2 & s3 & R2 & T2 & K2).
      { intros d' Hd'. destruct (Hall d' (or_intror Hd')) as (e' & Hg' & HG'). exists e'. split; [|exact HG'].
        rewrite (K1 d'); [exact Hg'| |rewrite Hg'; discriminate]. intros [->|[]]. contradiction. }
      exists (m1 + m2)%nat, s3. rewrite run_add, R1. split; [exact R2|]. split; [exact T2|].
      intros d0 N A. assert (E1 : get d0 s2 = get d0 s).
      { apply K1; [|exact A]. intros [->|[]]. apply N. left. reflexivity. }
      rewrite <- E1. apply K2; [|rewrite E1; exact A]. intros Hin. apply N. right. exact Hin.
  Qed.

  Definition P_tree (p : prog) : Prop := forall x old s ts,
    Rc (mkC (MRun x p) (FCont x old :: fr0) s) -> tasks s = x :: ts ->
    popped x ts (mkC (MRun x p) (FCont x old :: fr0) s).

  Definition P_leaf (l : leaf) : Prop := match l with LNew f => Qf f | _ => True end.

  Lemma resume_then s x ts tk k : Rc (mkC MExecLoop fr0 s) -> tasks s = x :: ts ->
    get x s = Some (mkFut None (KTask tk)) -> is_blocked tk s = false -> tk_gen tk = Some k ->
    (forall o, P_tree (k o)) -> popped x ts (mkC MExecLoop fr0 s).
  Proof.
    intros HR Hts Hg Hb Hk IH. destruct (resume_top s x ts tk k HR Hts Hg Hb Hk) as (old & o & s' & R & T & K).
    apply (popped_run x ts _ 2 _ R); [exact K|]. apply IH; [rewrite <- R; apply Rc_run; exact HR|exact T].
  Qed.

  Lemma yield_case y k : (forall l, In l (leaves y) -> tree_leaf l) -> (forall l, In l (leaves y) -> P_leaf l) ->
    (forall o, P_tree (k o)) -> P_tree (Yield y k).
  Proof.
    intros Hl IHl IHk x old s ts HR Hts.
    destruct (Rc_run_inv _ _ _ _ HR) as (spec & tk & HC & HS & Hg & Hdd).
    pose proof (Hdd tk Hg) as Hold.
    assert (HRg : Rgood s (snd (inst x y s))).
    { apply (Rgood_inst (Some x) x y spec s HS Hl). intros f Hin. apply (IHl (LNew f) Hin). }
    destruct (inst_ids x y s Hl) as (_ & Hids & _).
    destruct (SInv_inst (Some x) x y spec s HS Hl) as (_ & _ & _ & Hal).
    pose proof (tasks_of_regs _ _ (regs_inst x y s)) as Tsi.
    destruct (step_run_yield P x (FCont x old :: fr0) s tk Hg y k (SInv_above_free _ _ _ HS)) as (s2 & Est & Hg1 & U2).
    cbn zeta in *. set (c := mkC (MRun x (Yield y k)) (FCont x old :: fr0) s) in *.
    destruct (inst x y s) as [y' si]. cbn [fst snd] in *.
    set (tk2 := mkTask (Some k) y' (tk_deps tk ++ futs (extract y')) (tk_ctxs tk) (tk_cact tk) (tk_ds tk) (tk_iter tk) (tk_next tk)) in *.
    destruct HRg as (Rg1 & Rg2). pose proof U2 as (G2 & O2 & _).
    assert (K2 : keepL [x] s s2).
    { intros d N A. rewrite O2 by (intros ->; apply N; left; reflexivity). apply Rg1. exact A. }
    assert (T2 : tasks s2 = x :: ts) by (rewrite (tupd_tasks _ _ _ _ _ U2), Tsi; exact Hts).
    assert (Hcase : step P c = mkC (MResume x) (FCont x old :: fr0) s2 \/ step P c = mkC MContRet (FCont x old :: fr0) s2)
      by (rewrite Est; destruct (futs (extract y')); auto).
    (* the new dependencies did not exist before this yield; their entries are Good *)
    assert (Hnew : forall d, In d (futs (extract y')) -> get d s = None /\ d <> x /\ exists e, get d s2 = Some e /\ Good d e).
    { intros d Hd. apply in_futs in Hd. apply extract_same_elements in Hd.
      assert (Hd2 : In d (futs (leaves y'))) by (apply in_futs; exact Hd).
      destruct (Hids d Hd2) as (n & -> & Hn).
      assert (Hnone : get [n] s = None) by (apply (SInv_above_free _ _ _ HS); lia).
      assert (Nx : [n] <> x) by (intros E; rewrite <- E, Hnone in Hg; discriminate).
      split; [exact Hnone|]. split; [exact Nx|].
      destruct (get [n] si) as [e|] eqn:E; [|exfalso; apply (Hal [n] Hd); exact E].
      exists e. split; [rewrite O2 by exact Nx; exact E|]. apply (Rg2 [n] e Hnone E). }
    destruct Hcase as [Estep|Estep].
    - (* no new dependency: resumed at once *)
      pose proof (Rc_step _ HR) as HR2. rewrite Estep in HR2.
      destruct (step_MResume P x (FCont x old :: fr0) s2 tk2 k G2 eq_refl) as (s3 & E3 & U3 & _). cbn zeta in E3.
      eapply (popped_run x ts _ 2); [rewrite !run_step; cbn [run]; rewrite Estep; exact E3| |].
      + cbn [c_st]. eapply keepL_trans; [exact K2|apply (keepL_tupd _ _ _ _ _ U3)].
      + apply IHk; [rewrite <- E3; apply Rc_step; exact HR2|rewrite (tupd_tasks _ _ _ _ _ U3); exact T2].
    - (* new dependencies: back to the scheduler loop *)
      pose proof (Rc_step _ HR) as HR2. rewrite Estep in HR2.
      destruct (step_MContRet P x old fr0 s2) as (s3 & E3 & T3 & _ & _ & _ & _ & _ & _ & O3 & G3). rewrite G2 in G3.
      assert (K3 : keepL [x] s2 s3) by exact (keepL_other _ _ _ O3).
      set (tkA := tk_set_ds tk2 false) in *.
      pose proof (Rc_step _ HR2) as HR3. rewrite E3 in HR3. rewrite T2 in T3.
      assert (K13 : keepL [x] s s3) by (eapply keepL_trans; eauto).
      assert (Hc3 : computed x s3 = false) by (rewrite (computed_get _ _ _ G3); reflexivity).
      assert (R3 : run P 2 c = mkC MExecLoop fr0 s3).
      { rewrite !run_step. cbn [run]. rewrite Estep. exact E3. }
      destruct (is_blocked tkA s3) eqn:Hb.
      2: { apply (popped_run x ts _ 2 _ R3 K13). apply (resume_then s3 x ts tkA k HR3 T3 G3 Hb eq_refl IHk). }
      (* first visit: the dependencies are pushed; the uncomputed ones are those of this yield *)
      destruct (first_visit s3 x ts tkA HR3 T3 G3 Hb eq_refl) as (s5 & E5 & G5 & O5 & T5 & Hnd).
      set (tkB := tk_flags tkA true true) in *.
      set (todo := filter (fun d => negb (computed d s3)) (tk_deps tkA)) in *.
      pose proof (Rc_step _ HR3) as HR5. rewrite E5 in HR5.
      assert (K15 : keepL [x] s s5).
      { intros d N A. rewrite O5 by (intros ->; apply N; left; reflexivity). apply K13; assumption. }
      assert (Htodo : forall d, In d (rev todo) -> In d (futs (extract y'))).
      { intros d Hd. apply in_rev, filter_In in Hd as (Hin & Hunc).
        change (tk_deps tkA) with (tk_deps tk ++ futs (extract y')) in Hin.
        apply in_app_or in Hin as [Hin|Hin]; [exfalso|exact Hin].
        pose proof (Hold d Hin) as Hcd.
        assert (Nx : d <> x) by (intros ->; rewrite (computed_get _ _ _ Hg) in Hcd; discriminate).
        assert (A : get d s <> None) by (intros E; unfold computed in Hcd; rewrite E in Hcd; discriminate).
        assert (E : get d s3 = get d s); [|unfold computed in Hunc, Hcd; rewrite E, Hcd in Hunc; discriminate].
        apply K13; [intros [->|[]]; apply Nx; reflexivity|exact A]. }
      assert (Hgood5 : forall d, In d (rev todo) -> exists e, get d s5 = Some e /\ Good d e).
      { intros d Hd. destruct (Hnew d (Htodo d Hd)) as (Hnone & Nx & e & Hge & HG).
        exists e. split; [|exact HG]. rewrite O5 by exact Nx.
        rewrite (K3 d); [exact Hge|intros [E|[]]; apply Nx; symmetry; exact E|rewrite Hge; discriminate]. }
      destruct (exec_list (rev todo) s5 (x :: ts) HR5 T5 (NoDup_rev Hnd) Hgood5) as (m & s6 & R6 & T6 & K6).
      assert (HR6 : Rc (mkC MExecLoop fr0 s6)) by (rewrite <- R6; apply Rc_run; exact HR5).
      assert (Nxt : ~ In x (rev todo)) by (intros Hin; destruct (Hnew x (Htodo x Hin)) as (_ & Nx & _); apply Nx; reflexivity).
      assert (G6 : get x s6 = Some (mkFut None (KTask tkB))) by (rewrite (K6 x Nxt); [exact G5|rewrite G5; discriminate]).
      assert (K16 : keepL [x] s s6).
      { apply (keepL_trans_new x (rev todo) s s5 s6 K15 K6). intros d Hd. right. apply (Hnew d (Htodo d Hd)). }
      assert (R16 : run P (3 + m) c = mkC MExecLoop fr0 s6).
      { change (3 + m)%nat with (2 + (1 + m))%nat. rewrite (run_add P 2), R3, (run_add P 1), (run_step P 0). cbn [run]. rewrite E5. exact R6. }
      apply (popped_run x ts _ (3 + m) _ R16 K16).
      destruct (is_blocked tkB s6) eqn:Hb6.
      + apply (exec_pop s6 x ts HR6 T6). intros tk' E. rewrite G6 in E. inversion E; subst tk'. split; [exact Hb6|reflexivity].
      + apply (resume_then s6 x ts tkB k HR6 T6 G6 Hb6 eq_refl IHk).
  Qed.

  Theorem tree_P_tree p : tree p -> P_tree p.
  Proof.
    apply (tree_mut P_tree P_leaf Qf).
    - intros v x old s ts. exact (finish_popped x old s ts _ _ (fin_ret v)).
    - intros v x old s ts. exact (finish_popped x old s ts _ _ (fin_result v)).
    - intros e x old s ts. exact (finish_popped x old s ts _ _ (fin_raise e)).
    - intros y k Hl IHl _ IHk. apply yield_case; assumption.
    - intros c k _ _ IH x old s ts HR Hts. destruct (Rc_run_inv _ _ _ _ HR) as (_ & tk & _ & _ & Hg & _).
      destruct (step_run_enter P x (FCont x old :: fr0) s tk Hg c k) as (s2 & E & U). pose proof (Rc_step _ HR) as HR2.
      apply popped_step; rewrite E in *; [exact (keepL_tupd _ _ _ _ _ U)|].
      apply IH; [exact HR2|rewrite (tupd_tasks _ _ _ _ _ U); exact Hts].
    - intros c k _ _ IH x old s ts HR Hts. destruct (Rc_run_inv _ _ _ _ HR) as (_ & tk & _ & _ & Hg & _).
      destruct (step_run_exit P x (FCont x old :: fr0) s tk Hg c k) as (s2 & E & U). pose proof (Rc_step _ HR) as HR2.
      apply popped_step; rewrite E in *; [exact (keepL_tupd _ _ _ _ _ U)|].
      apply IH; [exact HR2|rewrite (tupd_tasks _ _ _ _ _ U); exact Hts].
    - intros f _ HQ. exact HQ.
    - exact I.
    - intros q _ IH d e He. cbn in He. subst e. intros s ts HR Hts Hg.
      apply (resume_then s d ts (fresh_task q) (fun _ => q) HR Hts Hg); [reflexivity|reflexivity|]. intros o. exact IH.
    - intros kind key a d e He. apply Good_nontask. exact He.
    - intros v d e He. apply Good_nontask. exact He.
    - intros e0 d e He. apply Good_nontask. exact He.
    - intros o d e He. apply Good_nontask. exact He.
  Qed.

  (* in any pass the entry on top of the stack is popped, unless this is the first visit of a blocked task: a
     computed entry, an item, a lazy future and a blocked task whose dependencies are scheduled are popped at once;
     an unblocked suspended task is resumed and runs, with what it starts, until it completes or is blocked again *)
  Lemma popped_nfv s x ts : Rc (mkC MExecLoop fr0 s) -> tasks s = x :: ts ->
    (forall tk, get x s = Some (mkFut None (KTask tk)) -> is_blocked tk s = true -> tk_ds tk = true) ->
    popped x ts (mkC MExecLoop fr0 s).
  Proof.
    intros HR Hts Hfv.
    destruct (get x s) as [[[o|] [tk| | |]]|] eqn:Hg;
      try (apply (exec_pop s x ts HR Hts); intros tk0 E; rewrite Hg in E; discriminate).
    destruct (is_blocked tk s) eqn:Hb.
    { apply (exec_pop s x ts HR Hts). intros tk0 E. rewrite Hg in E. inversion E; subst tk0. split; [exact Hb|exact (Hfv tk eq_refl Hb)]. }
    destruct (Rc_exec_inv s HR) as (spec & S & HS & _).
    destruct (SInv_entry _ _ _ _ _ HS Hg) as (_ & ot & Hst & _ & Hp & Hk). cbn [f_kind f_out] in Hk.
    destruct (Hk eq_refl ltac:(discriminate)) as (k & K1 & K2 & _).
    apply (resume_then s x ts tk k HR Hts Hg Hb K1). intros o. apply tree_P_tree, K2.
  Qed.
End Pass.

(* non-vacuity.  (1) c01_demo (two batch kinds, a nested task): the first pass ends after 17 steps with the
   root uncomputed (flushes are needed); the computation is done within 41 steps.  (2) a program with nested
   tasks, a lazy future and constants but no batch item: no pass ends with the root uncomputed, and the
   computation is done within 36 steps. *)
Definition c03t_demo : prog :=
  Yield (YTuple [YLeaf (LNew (FTask (Yield (YLeaf (LNew (FLazy (Ok (VInt 7)))))
                                           (fun o => match o with Ok v => Ret (VTuple [v; VInt 1]) | Err e => Raise e end))));
                 YLeaf (LNew (FConst (VInt 9)));
                 YLeaf (LNew (FTask (Yield YNone (fun _ => Ret (VInt 3)))))])
        (fun o => match o with Ok v => Ret v | Err e => Raise e end).

Lemma c03t_demo_tree : tree c03t_demo.
Proof.
  unfold c03t_demo. apply tree_yield.
  - intros l Hl. cbn in Hl. destruct Hl as [<-|[<-|[<-|[]]]]; constructor; try constructor.
    + apply tree_yield; [intros l [<-|[]]; repeat constructor|]. intros [v|e]; constructor.
    + apply tree_yield; [intros l []|]. intros o; constructor.
  - intros [v|e]; constructor.
Qed.

Example c03t_demo_runs :
  let P := mkP [] 1000 false [] in
  (let h := fst (create [] (FTask c01_demo) (st0 P)) in
   let s1 := snd (create [] (FTask c01_demo) (st0 P)) in
   c_mode (run P 17 (start h s1)) = MAfterExec /\ computed h (c_st (run P 17 (start h s1))) = false /\
   c_mode (run P 41 (start h s1)) = MDone (eval c01_demo)) /\
  (let h := fst (create [] (FTask c03t_demo) (st0 P)) in
   let s1 := snd (create [] (FTask c03t_demo) (st0 P)) in
   no_unwind_b P 100 (start h s1) = true /\
   forallb (fun n => match c_mode (run P n (start h s1)) with
                     | MAfterExec => computed h (c_st (run P n (start h s1))) | _ => true end) (seq 0 100) = true /\
   c_mode (run P 36 (start h s1)) = MDone (Ok (VTuple [VTuple [VInt 7; VInt 1]; VInt 9; VInt 3])) /\
   eval c03t_demo = Ok (VTuple [VTuple [VInt 7; VInt 1]; VInt 9; VInt 3])).
Proof.
  cbn zeta. rewrite no_unwind_b_traj.
  set (h := fst (create [] (FTask c03t_demo) (st0 (mkP [] 1000 false [])))).
  rewrite (forallb_run _ (fun c => match c_mode c with MAfterExec => computed h (c_st c) | _ => true end)).
  vm_compute. repeat split.
Qed.
