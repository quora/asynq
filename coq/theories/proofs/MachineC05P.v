(* C05, priority at trace level: every scheduler flush announced in the trace (EvBefore k) is the flush of
   a batch that, in the state the transition started from, was in the scheduler's set, pending, non-empty
   and of a priority not strictly below that of any other scheduled pending non-empty batch - for every
   program, history, oracle and fuel.  The function-level fact is MachineC05.select_spec; the origin of
   EvBefore events is MachineC05T.step_before_only_when_waiting. *)
From Asynq Require Import Machine proofs.MachineC05 proofs.MachineC08 proofs.MachineC05T.

Definition greatest (P : params) (k : Z * Z) (s : st) : Prop :=
  In k (sb s) /\ eligible k s = true /\
  forall k', In k' (sb s) -> eligible k' s = true -> prio_lt (prio_of P k s) (prio_of P k' s) = false.

Lemma in_flush_events_not_before evs kind idx : Forall flush_event evs -> ~ In (EvBefore kind idx) evs.
Proof. intros F Hin. rewrite Forall_forall in F. exact (F _ Hin). Qed.

Theorem step_before_is_greatest P c evs kind idx :
  trace (c_st (step P c)) = evs ++ trace (c_st c) -> In (EvBefore kind idx) evs ->
  greatest P (kind, idx) (c_st c) /\
  b_done (get_batch (kind, idx) (c_st (step P c))) = true /\ ~ In (kind, idx) (sb (c_st (step P c))).
Proof.
  intros T Hin.
  destruct (step_before_only_when_waiting P c evs kind idx T Hin) as (Hm & root & fr & Hfr & Hc).
  destruct c as [m frs s]. cbn [c_mode c_frames c_st] in *. subst m frs.
  unfold step in T |- *. cbn [c_mode c_frames c_st] in T |- *. rewrite Hc in T |- *. cbn [c_st] in T |- *.
  pose proof (continue_with_batch_spec P s) as CS.
  destruct (mild_select P s) as (e1 & T1 & F1 & _).
  assert (N1 : ~ In (EvBefore kind idx) e1) by (intros H; rewrite Forall_forall in F1; exact (F1 _ H)).
  destruct (select P s) as [[k|] s1] eqn:Sel; cbn [snd] in T1.
  - cbn zeta in CS. destruct CS as ((evs0 & T0 & F0) & D & NI & _).
    destruct (select_spec _ _ _ _ Sel) as (Hi & He & Hmax & _).
    assert (Hk : (kind, idx) = k).
    { rewrite T0, T1 in T.
      assert (E : evs = EvAfter (fst k) (snd k) :: evs0 ++ EvFlush (fst k) (snd k) (b_items (get_batch k s)) :: EvBefore (fst k) (snd k) :: e1).
      { apply (app_inv_tail (trace s)). rewrite <- T. cbn [app]. rewrite <- app_assoc. reflexivity. }
      subst evs. destruct Hin as [Hin|Hin]; [discriminate|]. apply in_app_or in Hin as [Hin|[Hin|[Hin|Hin]]].
      - destruct (in_flush_events_not_before _ _ _ F0 Hin).
      - discriminate.
      - injection Hin as H1 H2. destruct k; cbn in *; congruence.
      - destruct (N1 Hin). }
    subst k. split; [split; [exact Hi|split; [exact He|exact Hmax]]|]. split; [exact D|exact NI].
  - exfalso. rewrite CS, T1 in T. apply app_inv_tail in T. subst evs. exact (N1 Hin).
Qed.

(* run level: every EvBefore in the trace after n steps was there at the start or was emitted by a step k < n
   from a configuration in whose state the batch was a greatest-priority scheduled pending batch *)
Theorem run_before_is_greatest P n c0 kind idx :
  In (EvBefore kind idx) (trace (c_st (run P n c0))) ->
  In (EvBefore kind idx) (trace (c_st c0)) \/
  exists k, (k < n)%nat /\ greatest P (kind, idx) (c_st (run P k c0)) /\
            b_done (get_batch (kind, idx) (c_st (run P (S k) c0))) = true.
Proof.
  intros H. destruct (run_event_origin P n c0 _ H) as [Hin|(k & evs & Hk & Ht & Hi)]; [left; exact Hin|].
  right. exists k. split; [exact Hk|]. rewrite run_step.
  destruct (step_before_is_greatest P _ evs kind idx Ht Hi) as (G & D & _). split; assumption.
Qed.
