(* Proofs about the Tools model (C14): each helper (amap, afilter, asift, asorted, amax/amin, aretry) returns what its
   builtin counterpart returns on the collected values (helpers_equal_builtins), in one batching round (one_round);
   sorting is stable and takes the first extreme; aretry runs the body as often as its script says. *)
From Asynq Require Import Base Tools.
From Coq Require Import Permutation Sorted.

Local Arguments compress : simpl never.
Local Arguments sift : simpl never.

Lemma bind_val {A} (r : res A) : bind r (fun a => Val a) = r.
Proof. destruct r; reflexivity. Qed.

Lemma collect_total (h : elt -> elt) l : collect (map (fun x => KVal (h x)) l) = Val (map h l).
Proof. induction l; cbn; [reflexivity | rewrite IHl; reflexivity]. Qed.

Lemma collect_ext (g g' : elt -> kout) l :
  (forall x, In x l -> g x = g' x) -> collect (map g l) = collect (map g' l).
Proof.
  induction l; cbn; intros H; [reflexivity|].
  rewrite (H a) by auto. rewrite IHl by auto. reflexivity.
Qed.

Lemma collect_length outs vs : collect outs = Val vs -> length vs = length outs.
Proof.
  revert vs; induction outs as [|o outs IH]; cbn; intros vs H.
  - inversion H; reflexivity.
  - destruct o; [|discriminate]. destruct (collect outs); [|discriminate].
    inversion H; subst; cbn. f_equal. apply IH. reflexivity.
Qed.

(* a function that does not raise on the elements of l, seen as a total key function *)
Definition kf (g : elt -> kout) (x : elt) : elt := match g x with KVal v => v | KRaise _ => ENone end.

Lemma collect_val_total g l ks : collect (map g l) = Val ks ->
  (forall x, In x l -> g x = KVal (kf g x)) /\ ks = map (kf g) l.
Proof.
  revert ks; induction l as [|a l IH]; cbn; intros ks H.
  - inversion H. split; [intros ? []|reflexivity].
  - destruct (g a) eqn:Ea; [|discriminate]. destruct (collect (map g l)) eqn:Ec; [|discriminate].
    inversion H; subst. destruct (IH _ eq_refl) as [I1 I2]. split.
    + intros x [<-|Hx]; [unfold kf; rewrite Ea; reflexivity | auto].
    + unfold kf at 1. rewrite Ea. f_equal. exact I2.
Qed.

Lemma amap_run g it : run g (Body (amap it)) = bind (fst (traverse it)) (py_map g).
Proof.
  unfold amap. destruct (fst (traverse it)); cbn; [|reflexivity].
  apply bind_val.
Qed.

Lemma compress_cons {A} (x : A) s b sel :
  compress (x :: s) (b :: sel) = if b then x :: compress s sel else compress s sel.
Proof. unfold compress; cbn. destruct b; reflexivity. Qed.

Lemma filter_core (want : bool) (sel : elt -> bool) g s :
  (forall v, sel v = Bool.eqb (truthy v) want) ->
  bind (collect (map g s)) (fun rs => Val (compress s (map sel rs))) = py_filter_by want g s.
Proof.
  intros Hsel. induction s as [|a s IH]; cbn; [reflexivity|].
  destruct (g a); [|reflexivity].
  rewrite <- IH. destruct (collect (map g s)); cbn; [|reflexivity].
  rewrite compress_cons, Hsel. reflexivity.
Qed.

Lemma afilter_run g it :
  run g (Body (afilter true it)) = bind (fst (traverse it)) (py_filter_by true g).
Proof.
  unfold afilter; cbn. destruct (fst (traverse it)); cbn; [|reflexivity].
  apply filter_core. intros v; destruct (truthy v); reflexivity.
Qed.

Lemma afilter_none_run g it :
  run g (Body (afilter false it)) = rmap (filter truthy) (fst (traverse it)).
Proof. reflexivity. Qed.

Lemma afilterfalse_run g it :
  run g (Body (afilterfalse it)) = bind (fst (traverse it)) (py_filter_by false g).
Proof.
  unfold afilterfalse; cbn. destruct (fst (traverse it)); cbn; [|reflexivity].
  apply (filter_core false (fun r => negb (truthy r))). intros v; destruct (truthy v); reflexivity.
Qed.

(* for a predicate that does not raise the builtins are List.filter *)
Lemma py_filter_by_total want (p : elt -> elt) l :
  py_filter_by want (fun x => KVal (p x)) l = Val (filter (fun x => Bool.eqb (truthy (p x)) want) l).
Proof. induction l; cbn; [reflexivity|]. rewrite IHl. destruct (Bool.eqb (truthy (p a)) want); reflexivity. Qed.

Lemma afilter_eq (p : elt -> elt) it l : fst (traverse it) = Val l ->
  run (fun x => KVal (p x)) (Body (afilter true it)) = Val (filter (fun x => truthy (p x)) l).
Proof.
  intros H. rewrite afilter_run, H; cbn. rewrite py_filter_by_total.
  apply f_equal, filter_ext. intros a. destruct (truthy (p a)); reflexivity.
Qed.

Lemma sift_cons {A} (x : A) v pairs :
  sift ((x, v) :: pairs) = if truthy v then (x :: fst (sift pairs), snd (sift pairs)) else (fst (sift pairs), x :: snd (sift pairs)).
Proof. unfold sift; cbn. destruct (truthy v); reflexivity. Qed.

Lemma sift_core g l :
  bind (collect (map g l)) (fun rs => Val (sift (combine l rs))) = py_partition g l.
Proof.
  induction l as [|a l IH]; cbn; [reflexivity|].
  destruct (g a); [|reflexivity].
  rewrite <- IH. destruct (collect (map g l)); cbn; [|reflexivity].
  rewrite sift_cons. destruct (sift (combine l a0)); reflexivity.
Qed.

Lemma asift_run g it : run g (Body (asift it)) = bind (fst (traverse it)) (py_partition g).
Proof.
  unfold asift. destruct (fst (traverse it)) as [l|e] eqn:E; cbn; [|reflexivity].
  apply sift_core.
Qed.

Lemma py_partition_total (p : elt -> elt) l :
  py_partition (fun x => KVal (p x)) l =
  Val (filter (fun x => truthy (p x)) l, filter (fun x => negb (truthy (p x))) l).
Proof. induction l; cbn; [reflexivity|]. rewrite IHl. destruct (truthy (p a)); reflexivity. Qed.

(* the body as it stands is right on re-iterables ... *)
Lemma asift_as_written_seq g k l :
  run g (Body (asift_as_written (Seq k l))) = py_partition g l.
Proof. cbn. apply sift_core. Qed.

(* ... and returns ([], []) for every one-shot iterator whose predicate calls succeed *)
Lemma asift_as_written_oneshot g l rs : collect (map g l) = Val rs ->
  run g (Body (asift_as_written (OneShot l))) = Val ([], []).
Proof. intros H; cbn. rewrite H; reflexivity. Qed.

Section SortFacts.
  Context {A K : Type} (kle : K -> K -> bool) (key : A -> K).

  (* sorting commutes with a map that preserves keys: nothing but the keys is looked at *)
  Lemma insert_map {B} (d : B -> A) (key' : B -> K) x l :
    (forall b, key' b = key (d b)) ->
    map d (insert kle key' x l) = insert kle key (d x) (map d l).
  Proof.
    intros H. induction l as [|y l IH]; cbn; [reflexivity|].
    rewrite !H. destruct (kle (key (d x)) (key (d y))); cbn; [reflexivity|]. rewrite IH; reflexivity.
  Qed.

  Lemma isort_map {B} (d : B -> A) (key' : B -> K) l :
    (forall b, key' b = key (d b)) -> map d (isort kle key' l) = isort kle key (map d l).
  Proof. intros H. induction l; cbn; [reflexivity|]. rewrite insert_map by exact H. rewrite IHl; reflexivity. Qed.

  Lemma ssort_by_map {B} (d : B -> A) (key' : B -> K) reverse l :
    (forall b, key' b = key (d b)) -> map d (ssort_by kle key' reverse l) = ssort_by kle key reverse (map d l).
  Proof.
    intros H. unfold ssort_by. destruct reverse.
    - rewrite map_rev, (isort_map d key') by exact H. rewrite map_rev. reflexivity.
    - apply isort_map; exact H.
  Qed.
End SortFacts.

Lemma combine_map_l {A K} (key : A -> K) l : combine (map key l) l = map (fun x => (key x, x)) l.
Proof. induction l; cbn; [reflexivity | rewrite IHl; reflexivity]. Qed.

(* asorted's decorate / sort on (a function h of) the key / undecorate is a sort of the values by h of their key *)
Lemma decorate_sort {A K K'} (kle : K' -> K' -> bool) (key : A -> K) (h : K -> K') reverse l :
  map snd (ssort_by kle (fun p => h (fst p)) reverse (combine (map key l) l)) = ssort_by kle (fun x => h (key x)) reverse l.
Proof.
  rewrite combine_map_l.
  rewrite <- (ssort_by_map kle (fun p => h (fst p)) (fun x : A => (key x, x)) (fun x => h (key x)) reverse l) by reflexivity.
  rewrite map_map. cbn. apply map_id.
Qed.

(* the insertion sort is a stable sort for every total preorder on the keys *)
Section Stable.
  Context {A K : Type} (kle : K -> K -> bool) (key : A -> K).
  Hypothesis kle_total : forall a b, kle a b = true \/ kle b a = true.
  Hypothesis kle_trans : forall a b c, kle a b = true -> kle b c = true -> kle a c = true.

  Definition le_by (a b : A) : Prop := kle (key a) (key b) = true.
  Definition eqv (k : K) (a : A) : bool := kle (key a) k && kle k (key a).

  Lemma insert_perm x l : Permutation (insert kle key x l) (x :: l).
  Proof.
    induction l as [|y l IH]; cbn; [apply Permutation_refl|].
    destruct (kle (key x) (key y)); [apply Permutation_refl|].
    eapply perm_trans; [apply perm_skip, IH | apply perm_swap].
  Qed.

  Lemma isort_perm l : Permutation (isort kle key l) l.
  Proof.
    induction l; cbn; [constructor|].
    eapply perm_trans; [apply insert_perm | apply perm_skip, IHl].
  Qed.

  Lemma insert_sorted x l : StronglySorted le_by l -> StronglySorted le_by (insert kle key x l).
  Proof.
    induction 1 as [|y l Hs IH Hall]; cbn; [repeat constructor|].
    destruct (kle (key x) (key y)) eqn:E.
    - constructor; [constructor; assumption|].
      constructor; [exact E|]. eapply Forall_impl; [|exact Hall].
      intros z Hz. unfold le_by in *. eapply kle_trans; eassumption.
    - constructor; [exact IH|].
      assert (Hyx : le_by y x). { destruct (kle_total (key x) (key y)) as [H1|H1]; [congruence | exact H1]. }
      eapply Permutation_Forall; [apply Permutation_sym, insert_perm|].
      constructor; assumption.
  Qed.

  Lemma isort_sorted l : StronglySorted le_by (isort kle key l).
  Proof. induction l; cbn; [constructor | apply insert_sorted; assumption]. Qed.

  (* elements whose keys are equivalent keep their order *)
  Lemma filter_insert k x l :
    filter (eqv k) (insert kle key x l) = if eqv k x then x :: filter (eqv k) l else filter (eqv k) l.
  Proof.
    induction l as [|y l IH]; cbn; [reflexivity|].
    destruct (kle (key x) (key y)) eqn:E; cbn; [reflexivity|].
    rewrite IH. destruct (eqv k x) eqn:Ex, (eqv k y) eqn:Ey; try reflexivity.
    exfalso. unfold eqv in *. apply andb_prop in Ex, Ey. destruct Ex as [X1 X2], Ey as [Y1 Y2].
    rewrite (kle_trans _ _ _ X1 Y2) in E. discriminate.
  Qed.

  Lemma filter_isort k l : filter (eqv k) (isort kle key l) = filter (eqv k) l.
  Proof.
    induction l as [|x l IH]; cbn; [reflexivity|].
    rewrite filter_insert, IH. destruct (eqv k x); reflexivity.
  Qed.

  Lemma filter_rev' {B} (f : B -> bool) l : filter f (rev l) = rev (filter f l).
  Proof.
    induction l as [|x l IH]; cbn; [reflexivity|].
    rewrite filter_app, IH; cbn. destruct (f x); cbn; [reflexivity | apply app_nil_r].
  Qed.

  Lemma sorted_snoc (R : A -> A -> Prop) l x :
    StronglySorted R l -> Forall (fun y => R y x) l -> StronglySorted R (l ++ [x]).
  Proof.
    induction 1 as [|y l Hs IH Hall]; intros HF; cbn; [repeat constructor|].
    inversion HF; subst. constructor; [apply IH; assumption|].
    apply Forall_app; split; [assumption | repeat constructor; assumption].
  Qed.

  Lemma sorted_rev (R : A -> A -> Prop) l :
    StronglySorted R l -> StronglySorted (fun a b => R b a) (rev l).
  Proof.
    induction 1 as [|y l Hs IH Hall]; cbn; [constructor|].
    apply sorted_snoc; [exact IH|]. apply Forall_rev. exact Hall.
  Qed.

  Theorem ssort_by_stable reverse l :
    Permutation (ssort_by kle key reverse l) l /\
    StronglySorted (fun a b => if reverse then le_by b a else le_by a b) (ssort_by kle key reverse l) /\
    (forall k, filter (eqv k) (ssort_by kle key reverse l) = filter (eqv k) l).
  Proof.
    unfold ssort_by. destruct reverse; repeat split.
    - eapply perm_trans; [apply Permutation_sym, Permutation_rev|].
      eapply perm_trans; [apply isort_perm | apply Permutation_sym, Permutation_rev].
    - apply (sorted_rev le_by). apply isort_sorted.
    - intros k. rewrite filter_rev', filter_isort, filter_rev', rev_involutive. reflexivity.
    - apply isort_perm.
    - apply isort_sorted.
    - intros k. apply filter_isort.
  Qed.
End Stable.

Lemma existsb_map {A B} (f : B -> bool) (d : A -> B) l : existsb f (map d l) = existsb (fun x => f (d x)) l.
Proof. induction l; cbn; [reflexivity | rewrite IHl; reflexivity]. Qed.

(* asorted's lines 95-96 on keys = map key values: sorted(values, key=key, reverse=reverse); the
   values have an abstract type, so they are never compared *)
Lemma asorted_eq_sorted {A} (key : A -> elt) reverse (l : list A) :
  rmap (map snd) (sorted_total fst reverse (combine (map key l) l)) = sorted_total key reverse l.
Proof.
  unfold sorted_total. rewrite combine_length, map_length, Nat.min_id.
  rewrite combine_map_l, existsb_map. cbn [fst].
  destruct ((2 <=? length l)%nat && existsb (fun x => negb (orderable (key x))) l); cbn; [reflexivity|].
  rewrite <- combine_map_l. f_equal. apply (decorate_sort Z.leb key rankz).
Qed.

Lemma py_sorted_total (key : elt -> elt) g reverse l :
  (forall x, In x l -> g x = KVal (key x)) -> py_sorted g reverse l = sorted_total key reverse l.
Proof.
  intros H. unfold py_sorted.
  rewrite (collect_ext g (fun x => KVal (key x)) l H), collect_total. cbn [bind].
  apply asorted_eq_sorted.
Qed.

Lemma amap_list l : amap (Seq SList l) = YieldCalls l (fun rs => Val rs).
Proof. reflexivity. Qed.

Lemma asorted_run g it reverse :
  run g (asorted it true reverse) = bind (fst (traverse it)) (py_sorted g reverse).
Proof.
  unfold asorted. destruct (fst (traverse it)) as [values|e]; cbn [negb bind run run_body]; [|reflexivity].
  rewrite amap_list. cbn [run_body]. rewrite bind_val. reflexivity.
Qed.

Lemma asorted_nokey_run g it reverse :
  run g (asorted it false reverse) = bind (fst (traverse it)) (sorted_total (fun x => x) reverse).
Proof.
  unfold asorted. destruct (fst (traverse it)) as [values|e]; cbn [negb bind run run_body]; [|reflexivity].
  unfold asorted_finish. rewrite <- (map_id values) at 1. apply asorted_eq_sorted.
Qed.

(* the order sorted_total sorts by is a total preorder on the ranks *)
Lemma zleb_total a b : Z.leb a b = true \/ Z.leb b a = true.
Proof. destruct (Z.leb a b) eqn:E; [left; reflexivity | right; apply Z.leb_le; apply Z.leb_gt in E; lia]. Qed.
Lemma zleb_trans a b c : Z.leb a b = true -> Z.leb b c = true -> Z.leb a c = true.
Proof. rewrite !Z.leb_le; lia. Qed.

Lemma sorted_impl {A} (R R' : A -> A -> Prop) l :
  (forall a b, R a b -> R' a b) -> StronglySorted R l -> StronglySorted R' l.
Proof.
  intros H. induction 1; constructor; [assumption|].
  eapply Forall_impl; [|eassumption]. intros; apply H; assumption.
Qed.

Lemma all_orderable {A} (key : A -> elt) l :
  existsb (fun x => negb (orderable (key x))) l = false -> forall x, In x l -> orderable (key x) = true.
Proof.
  intros E x Hx. destruct (orderable (key x)) eqn:Ho; [reflexivity|].
  assert (existsb (fun x => negb (orderable (key x))) l = true) by (apply existsb_exists; exists x; rewrite Ho; auto).
  congruence.
Qed.

Theorem sorted_total_spec {A} (key : A -> elt) reverse (l : list A) :
  match sorted_total key reverse l with
  | Exc e => e = E_TYPEERROR /\ (2 <= length l)%nat /\ exists x, In x l /\ orderable (key x) = false
  | Val out =>
    ((length l < 2)%nat \/ forall x, In x l -> orderable (key x) = true) /\
    Permutation out l /\
    StronglySorted (fun a b => if reverse then rankz (key b) <= rankz (key a) else rankz (key a) <= rankz (key b)) out /\
    (forall k, filter (fun a => Z.eqb (rankz (key a)) k) out = filter (fun a => Z.eqb (rankz (key a)) k) l)
  end.
Proof.
  unfold sorted_total.
  destruct ((2 <=? length l)%nat && existsb (fun x => negb (orderable (key x))) l) eqn:E.
  - apply andb_prop in E. destruct E as [E1 E2]. apply Nat.leb_le in E1.
    apply existsb_exists in E2. destruct E2 as [x [Hx Ho]]. repeat split; [exact E1|].
    exists x. split; [exact Hx|]. destruct (orderable (key x)); [discriminate | reflexivity].
  - destruct (ssort_by_stable Z.leb (fun x => rankz (key x)) zleb_total zleb_trans reverse l) as [P [S F]].
    repeat split.
    + apply andb_false_iff in E. destruct E as [E|E]; [left; apply Nat.leb_gt in E; lia|right].
      now apply all_orderable.
    + exact P.
    + eapply sorted_impl; [|exact S]. intros a b. unfold le_by. destruct reverse; intros H; apply Z.leb_le in H; exact H.
    + intros k. specialize (F k). erewrite (filter_ext _ (eqv Z.leb (fun x => rankz (key x)) k)); [rewrite F|];
        [apply filter_ext|]; intros a; unfold eqv; destruct (Z.eqb_spec (rankz (key a)) k);
        destruct (Z.leb_spec (rankz (key a)) k), (Z.leb_spec k (rankz (key a))); cbn; try reflexivity; lia.
Qed.

Definition step_best {A} (is_max : bool) (key : A -> elt) (best y : A) : A :=
  if better is_max (rankz (key y)) (rankz (key best)) then y else best.

Lemma extreme_total_unfold {A} is_max (key : A -> elt) x y r :
  extreme_total is_max key (x :: y :: r) =
  if existsb (fun z => negb (orderable (key z))) (x :: y :: r) then Exc E_TYPEERROR
  else Val (fold_left (step_best is_max key) (y :: r) x).
Proof. reflexivity. Qed.

(* first extreme wins: everything before the result is strictly worse, nothing after it is better *)
Section First.
  Context {A : Type} (is_max : bool) (key : A -> elt).
  Definition worse (b y : A) : Prop := better is_max (rankz (key b)) (rankz (key y)) = true.     (* b beats y *)
  Definition notbetter (b y : A) : Prop := better is_max (rankz (key y)) (rankz (key b)) = false. (* y does not beat b *)

  Lemma fold_split r : forall pre b mid,
    Forall (worse b) pre -> Forall (notbetter b) mid ->
    exists pre' mid', pre ++ b :: mid ++ r = pre' ++ fold_left (step_best is_max key) r b :: mid' /\
                      Forall (worse (fold_left (step_best is_max key) r b)) pre' /\
                      Forall (notbetter (fold_left (step_best is_max key) r b)) mid'.
  Proof.
    induction r as [|y r IH]; intros pre b mid Hp Hm; cbn [fold_left].
    - exists pre, mid. rewrite app_nil_r. auto.
    - unfold step_best at 2 4 6. destruct (better is_max (rankz (key y)) (rankz (key b))) eqn:E.
      + destruct (IH (pre ++ b :: mid) y []) as [pre' [mid' [H1 [H2 H3]]]].
        * apply Forall_app; split; [|constructor].
          -- eapply Forall_impl; [|exact Hp]. intros z Hz. unfold worse, better in *.
             destruct is_max; rewrite Z.ltb_lt in *; lia.
          -- exact E.
          -- eapply Forall_impl; [|exact Hm]. intros z Hz. unfold worse, notbetter, better in *.
             destruct is_max; rewrite Z.ltb_lt in *; rewrite Z.ltb_ge in *; lia.
        * constructor.
        * exists pre', mid'. split; [|auto]. rewrite <- H1. cbn. rewrite <- !app_assoc. cbn. reflexivity.
      + destruct (IH pre b (mid ++ [y])) as [pre' [mid' [H1 [H2 H3]]]].
        * exact Hp.
        * apply Forall_app; split; [exact Hm | repeat constructor; exact E].
        * exists pre', mid'. split; [|auto]. rewrite <- H1. rewrite <- !app_assoc. reflexivity.
  Qed.

  Theorem extreme_total_first l x : extreme_total is_max key l = Val x ->
    ((length l < 2)%nat \/ forall y, In y l -> orderable (key y) = true) /\
    exists pre post, l = pre ++ x :: post /\ Forall (worse x) pre /\ Forall (notbetter x) post.
  Proof.
    destruct l as [|a [|b r]]; intros H.
    - discriminate.
    - inversion H; subst. split; [left; cbn; lia|]. exists [], []. repeat split; constructor.
    - rewrite extreme_total_unfold in H.
      destruct (existsb (fun z => negb (orderable (key z))) (a :: b :: r)) eqn:E; [discriminate|].
      inversion H; subst. split.
      + right. now apply all_orderable.
      + destruct (fold_split (b :: r) [] a []) as [pre' [mid' [H1 [H2 H3]]]]; [constructor|constructor|].
        exists pre', mid'. cbn in H1. auto.
  Qed.
End First.

(* max/min look at keys only: they commute with a map that preserves the keys of the listed items *)
Lemma fold_best_map {A B} is_max (key : A -> elt) (key' : B -> elt) (d : B -> A) r : forall x,
  (forall b, In b (x :: r) -> key' b = key (d b)) ->
  d (fold_left (step_best is_max key') r x) = fold_left (step_best is_max key) (map d r) (d x).
Proof.
  induction r as [|y r IH]; intros x H; [reflexivity|]. cbn [fold_left map].
  assert (Ex : key' x = key (d x)) by (apply H; cbn; auto).
  assert (Ey : key' y = key (d y)) by (apply H; cbn; auto).
  assert (Es : d (step_best is_max key' x y) = step_best is_max key (d x) (d y)).
  { unfold step_best. rewrite Ex, Ey. destruct (better _ _ _); reflexivity. }
  rewrite <- Es. apply IH. intros b [<-|Hb].
  - unfold step_best. destruct (better _ _ _); [exact Ey | exact Ex].
  - apply H. cbn; auto.
Qed.

Lemma existsb_ext_in {A} (f f' : A -> bool) l : (forall x, In x l -> f x = f' x) -> existsb f l = existsb f' l.
Proof. induction l; cbn; intros H; [reflexivity|]. rewrite (H a), IHl by auto. reflexivity. Qed.

Lemma extreme_total_map {A B} is_max (key : A -> elt) (key' : B -> elt) (d : B -> A) l :
  (forall b, In b l -> key' b = key (d b)) ->
  rmap d (extreme_total is_max key' l) = extreme_total is_max key (map d l).
Proof.
  intros H. destruct l as [|a [|b r]]; [reflexivity|reflexivity|].
  cbn [map]. rewrite !extreme_total_unfold. rewrite <- !map_cons, existsb_map.
  rewrite (existsb_ext_in (fun z => negb (orderable (key' z))) (fun x => negb (orderable (key (d x))))).
  2:{ intros x Hx. rewrite H by exact Hx. reflexivity. }
  destruct (existsb _ _); [reflexivity|]. cbn [rmap bind]. f_equal.
  apply (fold_best_map is_max key key' d (b :: r) a). exact H.
Qed.

Lemma map_snd_enumerate {A} (l : list A) : map snd (enumerate l) = l.
Proof.
  unfold enumerate. generalize 0%nat. induction l; intros n; cbn; [reflexivity|]. rewrite IHl. reflexivity.
Qed.

Lemma enumerate_nth {A} (l : list A) (ks : list elt) (key : A -> elt) : ks = map key l ->
  forall p, In p (enumerate l) -> nth (fst p) ks ENone = key (snd p).
Proof.
  intros -> p Hp. unfold enumerate in Hp.
  assert (G : forall (l : list A) n p, In p (combine (seq n (length l)) l) ->
              (n <= fst p)%nat /\ nth (fst p - n) (map key l) ENone = key (snd p)).
  { clear. induction l as [|a l IH]; intros n p Hp; cbn in Hp; [destruct Hp|].
    destruct Hp as [<-|Hp]; cbn [fst snd].
    - rewrite Nat.sub_diag. split; [lia | reflexivity].
    - destruct (IH _ _ Hp) as [H1 H2]. split; [lia|].
      replace (fst p - n)%nat with (S (fst p - S n)) by lia. exact H2. }
  destruct (G l 0%nat p Hp) as [_ H]. rewrite Nat.sub_0_r in H. exact H.
Qed.

(* amax/amin lines 121-122 on keys = map key l: max(l, key=key) / min(l, key=key) *)
Lemma amax_first {A} is_max (key : A -> elt) (l : list A) :
  rmap snd (extreme_total is_max (fun p => nth (fst p) (map key l) ENone) (enumerate l)) = extreme_total is_max key l.
Proof.
  rewrite (extreme_total_map is_max key (fun p => nth (fst p) (map key l) ENone) snd (enumerate l)).
  - rewrite map_snd_enumerate. reflexivity.
  - apply enumerate_nth. reflexivity.
Qed.

(* CPython's loop (key, then one comparison) against the all-keys-first form *)
Lemma extreme_loop_total is_max g (key : elt -> elt) r : forall best,
  (forall y, In y r -> g y = KVal (key y)) -> orderable (key best) = true ->
  extreme_loop is_max g best (key best) r =
  if existsb (fun z => negb (orderable (key z))) r then Exc E_TYPEERROR
  else Val (fold_left (step_best is_max key) r best).
Proof.
  induction r as [|y r IH]; intros best H Ho; [reflexivity|].
  cbn [extreme_loop existsb fold_left]. rewrite (H y) by (cbn; auto). rewrite Ho, andb_true_r.
  destruct (orderable (key y)) eqn:Ey; cbn [negb orb]; [|reflexivity].
  unfold step_best at 2. destruct (better is_max (rankz (key y)) (rankz (key best))).
  - apply IH; [intros; apply H; cbn; auto | exact Ey].
  - apply IH; [intros; apply H; cbn; auto | exact Ho].
Qed.

Lemma py_extreme_total is_max g (key : elt -> elt) l :
  (forall y, In y l -> g y = KVal (key y)) -> py_extreme is_max g l = extreme_total is_max key l.
Proof.
  intros H. destruct l as [|a [|b r]]; [reflexivity| |].
  - cbn. rewrite (H a) by (cbn; auto). reflexivity.
  - rewrite extreme_total_unfold. cbn [py_extreme]. rewrite (H a) by (cbn; auto).
    destruct (orderable (key a)) eqn:Ea.
    + rewrite extreme_loop_total; [|intros; apply H; cbn; auto|exact Ea].
      cbn [existsb]. rewrite Ea. reflexivity.
    + cbn [extreme_loop existsb]. rewrite (H b) by (cbn; auto). rewrite Ea, andb_false_r. reflexivity.
Qed.

(* a key that raises surfaces from the builtin too, provided the keys that do come back can be ordered *)
Lemma extreme_loop_raises is_max g r e : forall best bestk,
  collect (map g r) = Exc e -> (forall y v, In y r -> g y = KVal v -> orderable v = true) -> orderable bestk = true ->
  extreme_loop is_max g best bestk r = Exc e.
Proof.
  induction r as [|y r IH]; intros best bestk Hc Ho Hb; [discriminate|].
  cbn in Hc |- *. destruct (g y) as [v|e'] eqn:Ey; [|congruence].
  destruct (collect (map g r)) eqn:Ec; [discriminate|]. inversion Hc; subst.
  rewrite (Ho y v) by (cbn; auto). rewrite Hb. cbn [andb].
  destruct (better _ _ _); apply IH; auto; try (intros; eapply Ho; cbn; eauto).
Qed.

Lemma py_extreme_raises is_max g l e :
  collect (map g l) = Exc e -> (forall y v, In y l -> g y = KVal v -> orderable v = true) ->
  py_extreme is_max g l = Exc e.
Proof.
  destruct l as [|a r]; intros Hc Ho; [discriminate|].
  cbn in Hc |- *. destruct (g a) as [v|e'] eqn:Ea; [|congruence].
  destruct (collect (map g r)) eqn:Ec; [discriminate|]. inversion Hc; subst.
  apply extreme_loop_raises; auto.
  - intros; eapply Ho; cbn; eauto.
  - eapply Ho; cbn; eauto.
Qed.

(* the input is not doubly faulty: no key raises, or every key that comes back can be ordered *)
Definition no_double_fault (g : elt -> kout) (l : list elt) : Prop :=
  (forall x, In x l -> exists v, g x = KVal v) \/ (forall x v, In x l -> g x = KVal v -> orderable v = true).

Lemma collect_no_raise (g : elt -> kout) (l : list elt) :
  (forall x, In x l -> exists v, g x = KVal v) -> exists ks, collect (map g l) = Val ks.
Proof.
  induction l as [|a l IH]; intros H; cbn; [eauto|].
  destruct (H a) as [v Hv]; [cbn; auto|]. rewrite Hv.
  destruct IH as [ks Hk]; [intros; apply H; cbn; auto|]. rewrite Hk. eauto.
Qed.

Lemma aextreme_core is_max g l : no_double_fault g l ->
  bind (collect (map g l)) (fun keys => rmap snd (extreme_total is_max (fun p => nth (fst p) keys ENone) (enumerate l)))
  = py_extreme is_max g l.
Proof.
  intros H. destruct (collect (map g l)) as [ks|e] eqn:Ec; cbn [bind].
  - destruct (collect_val_total g l ks Ec) as [Ht ->].
    rewrite amax_first. symmetry. apply py_extreme_total. exact Ht.
  - destruct H as [H|H].
    + destruct (collect_no_raise g l H) as [ks Hk]. congruence.
    + symmetry. apply py_extreme_raises; assumption.
Qed.

Lemma aextreme_run is_max form has_key extra_kw g :
  (has_key = true -> extra_kw = false -> forall l, form_items form = Val l -> no_double_fault g l) ->
  run g (aextreme is_max form has_key extra_kw) = extreme_spec is_max form has_key extra_kw g.
Proof.
  intros H. unfold aextreme, extreme_spec. destruct extra_kw; [reflexivity|].
  destruct has_key.
  2:{ destruct form as [[k l|l|]|[|a [|b r]]]; reflexivity. }
  specialize (H eq_refl eq_refl).
  assert (Core : forall k l, form_items form = Val l ->
            run g (YieldTask (amap (Seq k l)) (fun keys => bind (fst (traverse (Seq k l))) (fun l0 =>
                   rmap snd (extreme_total is_max (fun p => nth (fst p) keys ENone) (enumerate l0)))))
            = py_extreme is_max g l).
  { intros k l Hf. cbn. rewrite bind_val. apply aextreme_core. apply H. exact Hf. }
  destruct form as [it|es].
  - (* one positional argument *)
    destruct it as [k l|l|]; cbn [form_items traverse fst is_list_or_tuple negb].
    + destruct k; cbn [rmap bind traverse fst]; apply Core; reflexivity.
    + cbn [rmap bind]. apply (Core SList l); reflexivity.
    + reflexivity.
  - destruct es as [|a [|b r]]; [reflexivity|reflexivity|].
    cbn [form_items negb is_list_or_tuple bind]. apply (Core STuple (a :: b :: r)); reflexivity.
Qed.

Lemma aretry_loop_spec listed mt rem : forall i script,
  (i + rem = mt)%nat -> (0 < rem)%nat ->
  let o := aretry_loop listed mt i rem script in
  let k := listed_prefix listed script in
  r_runs o = Nat.min (k + 1) rem /\
  r_result o = attempt_result (nth (Nat.min k (rem - 1)) script (ARet ENone)) /\
  r_sleeps o = (r_runs o - 1)%nat.
Proof.
  induction rem as [|rem IH]; intros i script Hi Hr; [lia|].
  destruct script as [|[v|cls e] rest]; cbn [aretry_loop listed_prefix].
  - cbn. repeat split; lia.
  - cbn. repeat split; lia.
  - destruct (is_listed listed cls) eqn:El.
    + destruct (Nat.eqb (i + 1) mt) eqn:Em.
      * apply Nat.eqb_eq in Em. assert (rem = 0)%nat by lia. subst rem. cbn. repeat split; lia.
      * apply Nat.eqb_neq in Em. assert (0 < rem)%nat by lia.
        destruct (IH (S i) rest) as [H1 [H2 H3]]; [lia|lia|].
        cbn [r_runs r_result r_sleeps]. rewrite H1, H2, H3. repeat split; try lia.
        replace (Nat.min (S (listed_prefix listed rest)) (S rem - 1)) with (S (Nat.min (listed_prefix listed rest) (rem - 1))) by lia.
        reflexivity.
    + cbn. repeat split; lia.
Qed.

Lemma listed_prefix_app listed pre a rest :
  Forall (fun x => match x with ARaise cls _ => is_listed listed cls = true | ARet _ => False end) pre ->
  match a with ARaise cls _ => is_listed listed cls = false | ARet _ => True end ->
  listed_prefix listed (pre ++ a :: rest) = length pre.
Proof.
  induction 1 as [|x pre Hx Hp IH]; intros Ha; cbn.
  - destruct a; [reflexivity|]. rewrite Ha. reflexivity.
  - destruct x; [destruct Hx|]. rewrite Hx, IH by exact Ha. reflexivity.
Qed.

Lemma aretry_pos listed (max_tries : Z) script : 0 < max_tries ->
  aretry listed max_tries script = aretry_loop listed (Z.to_nat max_tries) 0 (Z.to_nat max_tries) script.
Proof. intros H. unfold aretry. destruct (Z.leb_spec max_tries 0); [lia | reflexivity]. Qed.

(* the statement's form: the first k attempts raise a listed exception, attempt k+1 returns or raises
   something else: min(k+1, max_tries) runs; when k < max_tries the (k+1)-th outcome is the result
   (an unlisted exception is re-raised at once), otherwise the max_tries-th listed exception *)
Theorem aretry_runs listed (max_tries : Z) pre a rest :
  0 < max_tries ->
  Forall (fun x => match x with ARaise cls _ => is_listed listed cls = true | ARet _ => False end) pre ->
  match a with ARaise cls _ => is_listed listed cls = false | ARet _ => True end ->
  let o := aretry listed max_tries (pre ++ a :: rest) in
  let k := length pre in
  r_runs o = Nat.min (k + 1) (Z.to_nat max_tries) /\
  r_result o = (if (k <? Z.to_nat max_tries)%nat then attempt_result a
                else attempt_result (nth (Z.to_nat max_tries - 1) pre (ARet ENone))) /\
  r_sleeps o = (r_runs o - 1)%nat.
Proof.
  intros Hm Hp Ha. rewrite aretry_pos by exact Hm.
  set (mt := Z.to_nat max_tries). assert (0 < mt)%nat by (unfold mt; lia).
  destruct (aretry_loop_spec listed mt mt 0%nat (pre ++ a :: rest)) as [H1 [H2 H3]]; [lia|lia|].
  rewrite (listed_prefix_app listed pre a rest Hp Ha) in H1, H2.
  cbv zeta. rewrite H3, H1, H2. split; [reflexivity|]. split; [|reflexivity].
  destruct (Nat.ltb_spec (length pre) mt).
  - replace (Nat.min (length pre) (mt - 1)) with (length pre) by lia.
    rewrite app_nth2 by lia. rewrite Nat.sub_diag. reflexivity.
  - replace (Nat.min (length pre) (mt - 1)) with (mt - 1)%nat by lia.
    rewrite app_nth1 by lia. reflexivity.
Qed.

Lemma aretry_bad_max_tries listed max_tries script : max_tries <= 0 ->
  aretry listed max_tries script = mkro (Exc E_ASSERTION) 0 0.
Proof. intros H. unfold aretry. destruct (Z.leb_spec max_tries 0); [reflexivity | lia]. Qed.

Definition call_yielded (c : call) : list (list elt) :=
  match c with
  | CAmap it => yielded (Body (amap it))
  | CAfilter b it => yielded (Body (afilter b it))
  | CAfilterfalse it => yielded (Body (afilterfalse it))
  | CAsorted it k r => yielded (asorted it k r)
  | CAmax form k x => yielded (amax form k x)
  | CAmin form k x => yielded (amin form k x)
  | CAsift it => yielded (Body (asift it))
  end.

(* the elements of the input, and whether the invocation applies the function to them *)
Definition call_items (c : call) : res (list elt) :=
  match c with
  | CAmap it | CAfilter _ it | CAfilterfalse it | CAsorted it _ _ | CAsift it => fst (traverse it)
  | CAmax form _ _ | CAmin form _ _ => form_items form
  end.
Definition call_uses_fn (c : call) : bool :=
  match c with
  | CAmap _ | CAfilterfalse _ | CAsift _ => true
  | CAfilter b _ => b
  | CAsorted _ k _ => k
  | CAmax _ k x | CAmin _ k x => k && negb x
  end.

Lemma aextreme_yielded is_max form k x :
  yielded (aextreme is_max form k x) =
  match form_items form with Val l => if k && negb x then [l] else [] | Exc _ => [] end.
Proof.
  unfold aextreme. destruct x; [destruct (form_items form), k; reflexivity|]. rewrite andb_true_r.
  destruct form as [[kd l|l|]|[|a [|b r]]]; destruct k; try reflexivity.
  destruct kd; reflexivity.
Qed.

(* all per-element calls of one invocation sit in ONE yielded list (one call per element of the
   input, in input order); an invocation that applies no function, or fails before, yields nothing *)
Theorem one_round c :
  call_yielded c = match call_items c with
                   | Val l => if call_uses_fn c then [l] else []
                   | Exc _ => []
                   end.
Proof.
  destruct c as [it|b it|it|it k r|form k x|form k x|it]; cbn [call_yielded call_items call_uses_fn].
  - unfold amap. destruct (fst (traverse it)); reflexivity.
  - unfold afilter. destruct b; cbn [negb]; destruct (fst (traverse it)); reflexivity.
  - unfold afilterfalse. destruct (fst (traverse it)); reflexivity.
  - unfold asorted. destruct (fst (traverse it)); [|reflexivity]. destruct k; reflexivity.
  - apply aextreme_yielded.
  - apply aextreme_yielded.
  - unfold asift. destruct (fst (traverse it)); reflexivity.
Qed.

Lemma call_flushes_yielded c f : call_flushes c f = length (filter (existsb (blocks f)) (call_yielded c)).
Proof. destruct c; reflexivity. Qed.

Definition call_ok (c : call) (f : afun) : Prop :=
  match c with
  | CAmax form true false | CAmin form true false => forall l, form_items form = Val l -> no_double_fault (sync f) l
  | _ => True
  end.

Theorem helpers_equal_builtins c f : call_ok c f -> call_result c f = call_spec c f.
Proof.
  destruct c as [it|b it|it|it k r|form k x|form k x|it]; cbn [call_result call_spec call_ok]; intros H.
  - rewrite amap_run. reflexivity.
  - destruct b; [rewrite afilter_run | rewrite afilter_none_run]; reflexivity.
  - rewrite afilterfalse_run. reflexivity.
  - destruct k; [rewrite asorted_run | rewrite asorted_nokey_run]; reflexivity.
  - unfold amax. rewrite aextreme_run; [reflexivity|]. intros -> ->. exact H.
  - unfold amin. rewrite aextreme_run; [reflexivity|]. intros -> ->. exact H.
  - rewrite asift_run. reflexivity.
Qed.

(* hypotheses are satisfiable / the definitions compute what they should *)
Example ex_sorted_stable :
  run (fun x => KVal (match x with EObj 0 | EObj 2 => EInt 1 | _ => EInt 0 end))
      (asorted (OneShot [EObj 0; EObj 1; EObj 2; EObj 3]) true true)
  = Val [EObj 0; EObj 2; EObj 1; EObj 3].
Proof. reflexivity. Qed.

Example ex_amax_first :
  run (fun x => KVal (match x with EObj 0 | EObj 2 => EInt 1 | _ => EInt 0 end))
      (amax (Varargs [EObj 1; EObj 0; EObj 2; EObj 3]) true false) = Val (EObj 0)
  /\ call_ok (CAmax (Varargs [EObj 1; EObj 0]) true false) (fun _ => (true, KVal (EInt 0))).
Proof. split; [reflexivity|]. intros l _. left. intros x _. eexists. reflexivity. Qed.

Example ex_aretry :
  let o := aretry [0] 3 ([ARaise 1 201; ARaise 0 202] ++ ARaise 2 203 :: [ARet ENone]) in
  r_runs o = 3%nat /\ r_result o = Exc 203.
Proof. split; reflexivity. Qed.
