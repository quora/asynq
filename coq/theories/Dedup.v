(* Dedup.v — executable model of asynq.tools.deduplicate (C12).

   Source anchors
     asynq/tools.py 341-382   DeduplicateDecorator: tasks (343), cache_key (349-350),
                              asynq (355-378: lookup 361-363, create + callback + subscribe 364-371,
                              running-task escape hatch 372-378), dirty (380-382)
                              id(self.fn) in cache_key: self.fn is the function object wrapped by
                              this DeduplicateDecorator; every execution of a `def` under
                              @deduplicate() (a factory called again, a name defined again) makes
                              a new function object and a new decorator, all sharing the one
                              class-level `tasks` dict (343) - modelled by (cfn, cgen)
     asynq/tools.py 415-426   default keygetter: arg_names = args + kwonlyargs, get_kwargs_defaults
     asynq/decorators.py      AsyncDecoratorBinder.asynq / DeduplicateDecoratorBinder.dirty (tools.py
                              333-338): a bound method passes its instance as the first positional
                              argument; _call_pure calls the generator function at creation time, so
                              an ill-formed call raises TypeError out of .asynq()
     qcore/caching.py 323-341 get_args_tuple;   344-354 get_kwargs_defaults
     asynq/async_task.py      AsyncTask.running is true exactly while generator.send executes
                              (_continue_on_generator); _computed fires on_computed once.

   Three layers:
     1. normalise  = get_args_tuple, and  bind = Python's own argument binding (the reference the
        normalisation theorem compares against; the harness checks it against inspect.signature);
     2. micro      = the deduplicate state machine over atomic actions (call, dirty, run, gate,
        finish); the theorems quantify over all action sequences, i.e. all schedules;
     3. the driver = a deterministic conductor (ops + body scripts) that only acts through micro;
        run_case is what the correspondence harness evaluates.

   `variant`: AsWritten is the code as it exists; Repaired is the code with the two proposed repairs
     - the completion callback pops only when the key still maps to the completing task instead of
       popping by key (work/fixes/C12-stale-callback.diff);
     - for a function with *rest the surplus positional arguments are kept apart from the
       normalised named arguments instead of being spliced into them
       (work/fixes/C12-varargs-key.diff).
   The theorems are about Repaired; the _refuted examples show AsWritten violating them.
   run_case returns the runs of all variants.

   Scale (fan-out): `OFan` / `BFan` are compact spellings of n consecutive calls fn(lo), fn(lo+1), ...
   (the usual `yield [f.asynq(i) for i in ids]`): n distinct keys registered at the same time in the
   one class-level `tasks` dict (343) - a plain dict, unbounded: an entry leaves it only through the
   completion callback of its task (366-369) or dirty() (380-382), never because other keys are
   registered.  d_fan performs them one by one through `micro` (DedupProofs.fan_is_calls); `observe`
   run-length encodes what they did so that cases with thousands of keys stay cheap to print. *)
From Asynq Require Export Base.

Definition name := Z.    (* parameter names; the harness maps 0.. to self a b c d x y z (sorted alike) *)

(* AInst g i: the i-th instance of the class object produced by the g-th execution of the class
   statement (see `cgen` below); instances have identity equality *)
Inductive aval := AInt (z : Z) | ANone | AInst (g i : Z).

Definition aval_eq_dec : forall a b : aval, {a = b} + {a <> b}.
Proof. decide equality; apply Z.eq_dec. Defined.

Record sig := mkSig {
  pnames : list name;             (* positional-or-keyword parameters (argspec.args)        *)
  konly : list name;              (* keyword-only parameters (argspec.kwonlyargs)           *)
  dflts : list (name * aval);     (* get_kwargs_defaults                                    *)
  varargs : bool;                 (* has *rest                                              *)
  varkw : bool                    (* has **kw                                               *)
}.

Definition arg_names (s : sig) : list name := pnames s ++ konly s.      (* tools.py 420 *)

Fixpoint lookup {A} (n : name) (m : list (name * A)) : option A :=
  match m with
  | [] => None
  | (k, v) :: m' => if Z.eqb n k then Some v else lookup n m'
  end.

Definition mem (n : name) (l : list name) : bool := existsb (Z.eqb n) l.

(* ---------------------------------------------------------------- get_args_tuple *)
(* caching.py 329-335: the while loop over the names not covered positionally *)
Fixpoint fill (names : list name) (kw dfl : list (name * aval)) : option (list aval) :=
  match names with
  | [] => Some []
  | n :: ns =>
    let v := match lookup n dfl with
             | Some d => Some (match lookup n kw with Some v => v | None => d end)   (* kwargs.get(n, default) *)
             | None => lookup n kw                                                 (* kwargs[n] / KeyError  *)
             end in
    match v, fill ns kw dfl with
    | Some v, Some vs => Some (v :: vs)
    | _, _ => None
    end
  end.

Fixpoint insert_kw (e : name * aval) (l : list (name * aval)) : list (name * aval) :=
  match l with
  | [] => [e]
  | x :: l' => if Z.leb (fst e) (fst x) then e :: l else x :: insert_kw e l'
  end.
Definition sort_kw (l : list (name * aval)) : list (name * aval) := fold_right insert_kw [] l.

(* caching.py 336-338: sorted([k for k in kwargs if k not in arg_names]) with their values *)
Definition extras (an : list name) (kw : list (name * aval)) : list (name * aval) :=
  sort_kw (filter (fun e => negb (mem (fst e) an)) kw).

Inductive kelt := KPos (v : aval) | KKw (n : name) (v : aval) | KRest (l : list aval).
Definition kw_elt (e : name * aval) : kelt := KKw (fst e) (snd e).

(* None = TypeError("Missing argument ...") *)
Definition normalise (s : sig) (pos : list aval) (kw : list (name * aval)) : option (list kelt) :=
  match fill (skipn (length pos) (arg_names s)) kw (dflts s) with
  | None => None
  | Some fl => Some (map KPos (pos ++ fl) ++ map kw_elt (extras (arg_names s) kw))
  end.

(* ---------------------------------------------------------------- Python's argument binding *)
Fixpoint fill_ref (names : list name) (kw dfl : list (name * aval)) : option (list aval) :=
  match names with
  | [] => Some []
  | n :: ns =>
    match (match lookup n kw with Some v => Some v | None => lookup n dfl end), fill_ref ns kw dfl with
    | Some v, Some vs => Some (v :: vs)
    | _, _ => None
    end
  end.

(* Some (values of the named parameters in declaration order, *rest, sorted **kw) or None = TypeError.
   kw is a Python dict: its keys are distinct (the generator never repeats a keyword). *)
Definition bind (s : sig) (pos : list aval) (kw : list (name * aval))
  : option (list aval * list aval * list (name * aval)) :=
  let np := length (pnames s) in
  if negb (varargs s) && (np <? length pos)%nat then None                              (* too many positional *)
  else if existsb (fun e => mem (fst e) (firstn (length pos) (pnames s))) kw then None  (* multiple values     *)
  else if negb (varkw s) && existsb (fun e => negb (mem (fst e) (arg_names s))) kw then None  (* unexpected kw *)
  else match fill_ref (skipn (length pos) (pnames s) ++ konly s) kw (dflts s) with
       | None => None                                                                  (* missing argument    *)
       | Some vs => Some (firstn np pos ++ vs, skipn np pos, extras (arg_names s) kw)
       end.

Inductive variant := AsWritten | Repaired | CallbackRepaired | KeyRepaired.
(* CallbackRepaired / KeyRepaired: only one of the two repairs applied (used by the correspondence
   while the repairs are being applied to the repository one at a time) *)

(* the default keygetter of tools.py 422-424; with the key repair the surplus positionals of a
   *rest function form a separate leading component *)
Definition keygetter (v : variant) (s : sig) (pos : list aval) (kw : list (name * aval)) : option (list kelt) :=
  match v, varargs s with
  | (Repaired | KeyRepaired), true =>
    match normalise s (firstn (length (pnames s)) pos) kw with
    | None => None
    | Some n => Some (KRest (skipn (length (pnames s)) pos) :: n)
    end
  | _, _ => normalise s pos kw
  end.

(* ---------------------------------------------------------------- the callables of the harness *)
Definition N_SELF : name := 0.  Definition N_A : name := 1.  Definition N_B : name := 2.
Definition N_C : name := 3.     Definition N_D : name := 4.

Definition sigs : list sig :=
  [ mkSig [N_A; N_B] [] [(N_B, AInt 0)] false false;                          (* 0  f0(a, b=0)            *)
    mkSig [N_A; N_B] [] [(N_B, AInt 0)] false false;                          (* 1  f1(a, b=0)            *)
    mkSig [N_A; N_B; N_C] [N_D] [(N_C, AInt 5); (N_D, AInt 7)] false false;   (* 2  f2(a, b, c=5, *, d=7) *)
    mkSig [N_A] [] [] false true;                                             (* 3  f3(a, **kw)           *)
    mkSig [N_SELF; N_A; N_B] [] [(N_B, AInt 0)] false false;                  (* 4  C.m(self, a, b=0)     *)
    mkSig [N_A; N_B] [] [(N_B, AInt 0)] false false;                          (* 5  C.s(a, b=0) static    *)
    mkSig [N_A] [N_D] [(N_D, AInt 0)] true false ].                           (* 6  f6(a, *rest, d=0)     *)
Definition sig_of (fn : Z) : sig := nth (Z.to_nat fn) sigs (mkSig [] [] [] false false).

Record callspec := mkCall {
  cthread : Z;                    (* threading.current_thread()                              *)
  cfn : Z;                        (* which def statement (module + qualname) the function is  *)
  cgen : Z;                       (* which execution of that def statement produced the function
                                     object: a factory invoked again / the name defined again in
                                     the same scope gives a new function object (and a new
                                     DeduplicateDecorator) with the same __module__/__qualname__ *)
  cinst : Z;                      (* instance the method is looked up on (methods only)      *)
  cpos : list aval;
  ckw : list (name * aval)
}.

(* binder: the instance is prepended to the positional arguments (decorators.py, tools.py 333-338) *)
Definition full_pos (c : callspec) : list aval :=
  if Z.eqb (cfn c) 4 then AInst (cgen c) (cinst c) :: cpos c else cpos c.

(* id(self.fn) (tools.py 350): one per function OBJECT, i.e. per (def statement, execution of it) *)
Definition fid := (Z * Z)%type.
Definition fid_of (c : callspec) : fid := (cfn c, cgen c).

Definition key := (list kelt * Z * fid)%type.        (* tools.py 350: (keygetter(..), thread, id(fn)) *)

Definition key_of (v : variant) (c : callspec) : option key :=
  match keygetter v (sig_of (cfn c)) (full_pos c) (ckw c) with
  | None => None
  | Some n => Some (n, cthread c, fid_of c)
  end.
Definition bind_of (c : callspec) := bind (sig_of (cfn c)) (full_pos c) (ckw c).

(* the i-th call of a fan-out over `fn`: fn(lo + i) (sp = 0, also any other sp) or fn(a = lo + i) (sp = 1) *)
Definition fan_call (th fn gen inst sp lo : Z) (i : nat) : callspec :=
  if Z.eqb sp 1 then mkCall th fn gen inst [] [(1, AInt (lo + Z.of_nat i))]
  else mkCall th fn gen inst [AInt (lo + Z.of_nat i)] [].
Definition fan_calls (th fn gen inst sp lo n : Z) : list callspec :=
  map (fan_call th fn gen inst sp lo) (seq 0 (Z.to_nat n)).

Definition kelt_eq_dec : forall a b : kelt, {a = b} + {a <> b}.
Proof. decide equality; try apply aval_eq_dec; try apply Z.eq_dec. apply (list_eq_dec aval_eq_dec). Defined.
(* Equality of keys (Python: tuple equality / hash lookup in the dict).  It is decided by a boolean
   function that looks at the function id and the thread first and stops at the first difference:
   the registry lookup runs it millions of times on the fan-out cases (thousands of keys registered
   at once), where the stdlib's proof-carrying Z.eq_dec / list_eq_dec are several times slower under
   vm_compute.  key_eqb_true / key_eqb_false (below; opaque, so never evaluated) make it a
   decision procedure; everything else treats key_eq_dec abstractly. *)
Definition aval_eqb (a b : aval) : bool :=
  match a, b with
  | AInt x, AInt y => Z.eqb x y
  | ANone, ANone => true
  | AInst g i, AInst h j => if Z.eqb g h then Z.eqb i j else false
  | _, _ => false
  end.
Fixpoint list_eqb {A} (eqb : A -> A -> bool) (l l' : list A) : bool :=
  match l, l' with
  | [], [] => true
  | x :: r, y :: r' => if eqb x y then list_eqb eqb r r' else false
  | _, _ => false
  end.
Definition kelt_eqb (a b : kelt) : bool :=
  match a, b with
  | KPos x, KPos y => aval_eqb x y
  | KKw n x, KKw m y => if Z.eqb n m then aval_eqb x y else false
  | KRest l, KRest l' => list_eqb aval_eqb l l'
  | _, _ => false
  end.
Definition key_eqb (a b : key) : bool :=
  let '(la, ta, (fa, ga)) := a in
  let '(lb, tb, (fb, gb)) := b in
  if Z.eqb fa fb then if Z.eqb ga gb then if Z.eqb ta tb then list_eqb kelt_eqb la lb else false else false else false.

Lemma if_true_iff (a b : bool) : (if a then b else false) = true <-> a = true /\ b = true.
Proof. destruct a, b; intuition discriminate. Qed.

Lemma aval_eqb_eq a b : aval_eqb a b = true <-> a = b.
Proof.
  destruct a, b; cbn; rewrite ?if_true_iff, ?Z.eqb_eq; try (split; [discriminate|inversion 1]);
    (split; [intuition congruence|inversion 1; auto]).
Qed.
Lemma list_eqb_eq {A} (eqb : A -> A -> bool) :
  (forall x y, eqb x y = true <-> x = y) -> forall l l', list_eqb eqb l l' = true <-> l = l'.
Proof.
  intros He. induction l as [|x l IH]; destruct l' as [|y l']; cbn; try (split; [discriminate|inversion 1]);
    [split; reflexivity|].
  rewrite if_true_iff, He, IH. split; [intuition congruence|inversion 1; auto].
Qed.
Lemma kelt_eqb_eq a b : kelt_eqb a b = true <-> a = b.
Proof.
  destruct a, b; cbn; rewrite ?if_true_iff, ?Z.eqb_eq, ?aval_eqb_eq, ?(list_eqb_eq aval_eqb aval_eqb_eq);
    try (split; [discriminate|inversion 1]); (split; [intuition congruence|inversion 1; auto]).
Qed.
Lemma key_eqb_eq a b : key_eqb a b = true <-> a = b.
Proof.
  destruct a as [[la ta] [fa ga]], b as [[lb tb] [fb gb]]. cbn.
  rewrite !if_true_iff, !Z.eqb_eq, (list_eqb_eq kelt_eqb kelt_eqb_eq). split; [intuition congruence|inversion 1; auto].
Qed.
Lemma key_eqb_true a b : key_eqb a b = true -> a = b.
Proof. apply key_eqb_eq. Qed.
Lemma key_eqb_false a b : key_eqb a b = false -> a <> b.
Proof. intros H E. apply key_eqb_eq in E. congruence. Qed.

Definition key_eq_dec (a b : key) : {a = b} + {a <> b} :=
  match key_eqb a b as r return key_eqb a b = r -> {a = b} + {a <> b} with
  | true => fun H => left (key_eqb_true a b H)
  | false => fun H => right (key_eqb_false a b H)
  end eq_refl.

(* ---------------------------------------------------------------- the deduplicate state machine *)
Inductive status := Created | Running | Gated | Done.
(* Created: returned by .asynq(), body not started;  Running: generator.send in progress
   (task.running);  Gated: suspended at a yield;  Done: computed (value or error). *)

Record task := mkTask {
  tkey : key;                     (* cache key of the call that created it                    *)
  tcb : bool;                     (* has the removal callback (created on the KeyError path)  *)
  tstatus : status;
  tstarts : nat;                  (* how many times the body was started                      *)
  tout : option outcome
}.

Record state := mkSt {
  reg : list (key * nat);         (* DeduplicateDecorator.tasks                               *)
  pool : list task                (* every task ever created; task id = index                 *)
}.
Definition init : state := mkSt [] [].

Fixpoint find (k : key) (m : list (key * nat)) : option nat :=
  match m with
  | [] => None
  | (k', t) :: m' => if key_eq_dec k k' then Some t else find k m'
  end.
Definition remove (k : key) (m : list (key * nat)) : list (key * nat) :=
  filter (fun e => if key_eq_dec k (fst e) then false else true) m.

Definition status_of (st : state) (t : nat) : option status := option_map tstatus (nth_error (pool st) t).
Definition is_running (st : state) (t : nat) : bool :=
  match status_of st t with Some Running => true | _ => false end.

Fixpoint upd (l : list task) (t : nat) (f : task -> task) : list task :=
  match l, t with
  | [], _ => []
  | x :: l', O => f x :: l'
  | x :: l', S t' => x :: upd l' t' f
  end.

Definition new_task (k : key) (cb : bool) : task := mkTask k cb Created 0 None.

Inductive action :=
| ACall (c : callspec)            (* fn.asynq( ..args, ..kwargs )                             *)
| ADirty (c : callspec)           (* fn.dirty( ..args, ..kwargs )                             *)
| ARun (t : nat)                  (* the scheduler starts / resumes the body of t             *)
| AGate (t : nat)                 (* the running body of t yields something not yet computed  *)
| AFinish (t : nat) (o : outcome). (* the running body of t returns / raises                  *)

Inductive mres := MTask (t : nat) (fresh : bool) | MTypeErr | MUnit.

(* the completion callback, tools.py 366-367 *)
Definition callback (v : variant) (k : key) (t : nat) (m : list (key * nat)) : list (key * nat) :=
  match v with
  | AsWritten | KeyRepaired => remove k m                          (* self.tasks.pop(cache_key, None)        *)
  | _ => match find k m with
         | Some u => if Nat.eqb u t then remove k m else m         (* pop only if tasks.get(cache_key) is task *)
         | None => m
         end
  end.

Definition micro (v : variant) (st : state) (a : action) : state * mres :=
  match a with
  | ACall c =>
    match key_of v c with
    | None => (st, MTypeErr)                                              (* cache_key raised           *)
    | Some k =>
      match find k (reg st) with
      | Some u =>
        if is_running st u then                                           (* 373-377 escape hatch       *)
          match bind_of c with
          | None => (st, MTypeErr)
          | Some _ => (mkSt (reg st) (pool st ++ [new_task k false]), MTask (length (pool st)) true)
          end
        else (st, MTask u false)                                          (* 378 return task            *)
      | None =>                                                           (* 363-371 KeyError path      *)
        match bind_of c with
        | None => (st, MTypeErr)                                          (* self.fn.asynq raised       *)
        | Some _ => (mkSt ((k, length (pool st)) :: reg st) (pool st ++ [new_task k true]),
                     MTask (length (pool st)) true)
        end
      end
    end
  | ADirty c =>
    match key_of v c with
    | None => (st, MTypeErr)
    | Some k => (mkSt (remove k (reg st)) (pool st), MUnit)
    end
  | ARun t =>
    match status_of st t with
    | Some Created => (mkSt (reg st) (upd (pool st) t (fun x => mkTask (tkey x) (tcb x) Running (S (tstarts x)) (tout x))), MUnit)
    | Some Gated => (mkSt (reg st) (upd (pool st) t (fun x => mkTask (tkey x) (tcb x) Running (tstarts x) (tout x))), MUnit)
    | _ => (st, MUnit)
    end
  | AGate t =>
    match status_of st t with
    | Some Running => (mkSt (reg st) (upd (pool st) t (fun x => mkTask (tkey x) (tcb x) Gated (tstarts x) (tout x))), MUnit)
    | _ => (st, MUnit)
    end
  | AFinish t o =>
    match nth_error (pool st) t with
    | Some x =>
      match tstatus x with
      | Running =>
        (mkSt (if tcb x then callback v (tkey x) t (reg st) else reg st)
              (upd (pool st) t (fun x => mkTask (tkey x) (tcb x) Done (tstarts x) (Some o))), MUnit)
      | _ => (st, MUnit)
      end
    | None => (st, MUnit)
    end
  end.

Fixpoint run_micro (v : variant) (st : state) (acts : list action) : state * list mres :=
  match acts with
  | [] => (st, [])
  | a :: acts' =>
    let '(s1, r) := micro v st a in
    let '(s2, rs) := run_micro v s1 acts' in (s2, r :: rs)
  end.

(* ---------------------------------------------------------------- the driver (correspondence) *)
Inductive bstep :=
| BGate                                                     (* yield a harness batch item        *)
| BCall (fn gen inst : Z) (pos : list aval) (kw : list (name * aval))    (* .asynq() from inside the body *)
| BDirty (fn gen inst : Z) (pos : list aval) (kw : list (name * aval))
| BFan (fn gen inst sp lo n : Z).                           (* [fn.asynq(i) for i in range(lo, lo+n)] from inside the body *)
Inductive fin := Ret (z : Z) | Raise (e : exn).
Definition script := (list bstep * fin)%type.

Inductive op :=
| OCall (thread fn gen inst : Z) (pos : list aval) (kw : list (name * aval))
| ODirty (thread fn gen inst : Z) (pos : list aval) (kw : list (name * aval))
| OGo                                                       (* hand the created tasks to the scheduler *)
| OFlush (e : nat)                                          (* let body execution e pass its gate      *)
| OFan (thread fn gen inst sp lo n : Z).                    (* [fn.asynq(i) for i in range(lo, lo+n)]  *)
Inductive cres := RTask (tid : Z) (fresh : bool) | RTypeErr.
Inductive event :=
| ECall (cid ctx : Z) (r : cres) (b : option (list aval * list aval * list (name * aval)))
| EFanCall (cid ctx : Z) (r : cres)                          (* one call of a fan-out (binding not recorded) *)
| EDirty (ctx : Z) (ok : bool)
| EStart (e tid : Z)
| EDone (e : Z) (o : outcome).

Record dstate := mkD {
  core : state;
  nexec : nat;                                   (* body executions started so far             *)
  gated : list (nat * (nat * script));           (* exec index -> (task, rest of its script)    *)
  fresh : list (Z * nat);                        (* (caller, task) not yet awaited              *)
  callers : list (Z * nat);                      (* every (caller, task)                        *)
  ncall : Z;
  trace : list event                             (* newest first                                *)
}.

Definition d_call (v : variant) (d : dstate) (ctx : Z) (c : callspec) : dstate :=
  let '(s', r) := micro v (core d) (ACall c) in
  match r with
  | MTask t b =>
    mkD s' (nexec d) (gated d) (fresh d ++ [(ncall d, t)]) (callers d ++ [(ncall d, t)]) (ncall d + 1)
        (ECall (ncall d) ctx (RTask (Z.of_nat t) b) (bind_of c) :: trace d)
  | _ =>
    mkD s' (nexec d) (gated d) (fresh d) (callers d) (ncall d + 1)
        (ECall (ncall d) ctx RTypeErr (bind_of c) :: trace d)
  end.

(* one call of a fan-out: d_call, recorded without the binding *)
Definition d_fcall (v : variant) (d : dstate) (ctx : Z) (c : callspec) : dstate :=
  let '(s', r) := micro v (core d) (ACall c) in
  match r with
  | MTask t b =>
    mkD s' (nexec d) (gated d) (fresh d ++ [(ncall d, t)]) (callers d ++ [(ncall d, t)]) (ncall d + 1)
        (EFanCall (ncall d) ctx (RTask (Z.of_nat t) b) :: trace d)
  | _ =>
    mkD s' (nexec d) (gated d) (fresh d) (callers d) (ncall d + 1)
        (EFanCall (ncall d) ctx RTypeErr :: trace d)
  end.

Definition d_fan (v : variant) (d : dstate) (ctx th fn gen inst sp lo n : Z) : dstate :=
  fold_left (fun d c => d_fcall v d ctx c) (fan_calls th fn gen inst sp lo n) d.

Definition d_dirty (v : variant) (d : dstate) (ctx : Z) (c : callspec) : dstate :=
  let '(s', r) := micro v (core d) (ADirty c) in
  mkD s' (nexec d) (gated d) (fresh d) (callers d) (ncall d)
      (EDirty ctx (match r with MUnit => true | _ => false end) :: trace d).

Definition outcome_of (f : fin) : outcome := match f with Ret z => Ok (VInt z) | Raise e => Err e end.

(* the running body of task t (execution e) performs its remaining steps *)
Fixpoint run_steps (v : variant) (d : dstate) (t e : nat) (steps : list bstep) (f : fin) : dstate :=
  match steps with
  | [] =>
    let '(s', _) := micro v (core d) (AFinish t (outcome_of f)) in
    mkD s' (nexec d) (gated d) (fresh d) (callers d) (ncall d) (EDone (Z.of_nat e) (outcome_of f) :: trace d)
  | BGate :: rest =>
    let '(s', _) := micro v (core d) (AGate t) in
    mkD s' (nexec d) (gated d ++ [(e, (t, (rest, f)))]) (fresh d) (callers d) (ncall d) (trace d)
  | BCall fn gen inst pos kw :: rest =>
    run_steps v (d_call v d (Z.of_nat e) (mkCall 0 fn gen inst pos kw)) t e rest f
  | BDirty fn gen inst pos kw :: rest =>
    run_steps v (d_dirty v d (Z.of_nat e) (mkCall 0 fn gen inst pos kw)) t e rest f
  | BFan fn gen inst sp lo n :: rest =>
    run_steps v (d_fan v d (Z.of_nat e) 0 fn gen inst sp lo n) t e rest f
  end.

Definition d_start (v : variant) (scripts : list script) (d : dstate) (t : nat) : dstate :=
  let e := nexec d in
  let '(s', _) := micro v (core d) (ARun t) in
  let '(steps, f) := nth e scripts ([], Ret 0) in
  run_steps v (mkD s' (S e) (gated d) (fresh d) (callers d) (ncall d)
                   (EStart (Z.of_nat e) (Z.of_nat t) :: trace d)) t e steps f.

(* the collector: awaiters are started in creation order; only tasks not yet started begin *)
Definition d_go (v : variant) (scripts : list script) (d : dstate) : dstate :=
  fold_left (fun d ct => match status_of (core d) (snd ct) with
                         | Some Created => d_start v scripts d (snd ct)
                         | _ => d
                         end)
            (fresh d)
            (mkD (core d) (nexec d) (gated d) [] (callers d) (ncall d) (trace d)).

Fixpoint take_gated (e : nat) (g : list (nat * (nat * script))) : option ((nat * script) * list (nat * (nat * script))) :=
  match g with
  | [] => None
  | (e', x) :: g' =>
    if Nat.eqb e e' then Some (x, g')
    else match take_gated e g' with
         | Some (y, g'') => Some (y, (e', x) :: g'')
         | None => None
         end
  end.

Definition d_flush (v : variant) (d : dstate) (e : nat) : dstate :=
  match take_gated e (gated d) with
  | None => d
  | Some ((t, (steps, f)), g') =>
    let '(s', _) := micro v (core d) (ARun t) in
    run_steps v (mkD s' (nexec d) g' (fresh d) (callers d) (ncall d) (trace d)) t e steps f
  end.

Definition is_gated (d : dstate) (e : nat) : bool := existsb (fun x => Nat.eqb e (fst x)) (gated d).

Fixpoint skip_invalid (d : dstate) (ops : list op) : list op :=
  match ops with
  | OFlush e :: ops' => if is_gated d e then ops else skip_invalid d ops'
  | _ => ops
  end.

(* one conductor turn: the maximal run of Call / Dirty ops, then an optional OGo *)
Fixpoint d_group (v : variant) (d : dstate) (ops : list op) : dstate * list op :=
  match ops with
  | OCall th fn gen inst pos kw :: ops' => d_group v (d_call v d (-1) (mkCall th fn gen inst pos kw)) ops'
  | ODirty th fn gen inst pos kw :: ops' => d_group v (d_dirty v d (-1) (mkCall th fn gen inst pos kw)) ops'
  | OFan th fn gen inst sp lo n :: ops' => d_group v (d_fan v d (-1) th fn gen inst sp lo n) ops'
  | OGo :: ops' => (d, ops')
  | _ => (d, ops)
  end.

Definition min_gated (d : dstate) : nat :=
  fold_left (fun m x => Nat.min m (fst x)) (gated d) (match gated d with x :: _ => fst x | [] => O end).

Fixpoint loop (v : variant) (scripts : list script) (fuel : nat) (ops : list op) (d : dstate) : dstate :=
  match fuel with
  | O => d
  | S fuel' =>
    match skip_invalid d ops with
    | [] =>
      match fresh d, gated d with
      | [], [] => d                                                         (* everything drained *)
      | [], _ => loop v scripts fuel' [] (d_flush v d (min_gated d))
      | _, _ => loop v scripts fuel' [] (d_go v scripts d)
      end
    | OFlush e :: ops' => loop v scripts fuel' ops' (d_flush v d e)
    | ops1 => let '(d', ops2) := d_group v d ops1 in loop v scripts fuel' ops2 (d_go v scripts d')
    end
  end.

Definition fuel_for (scripts : list script) (ops : list op) : nat :=
  (3 * length ops + 3 * fold_right (fun s n => length (fst s) + n) 0 scripts + 10)%nat.

Definition d_init : dstate := mkD init 0 [] [] [] 0 [].

(* ---- what is compared: the trace, run-length encoded
   - consecutive fan-out calls (consecutive caller ids, same context) become one CFan with segments of
     consecutive task ids that are all new / all shared, or of TypeErrors;
   - consecutive (EStart e t; EDone e o) pairs with e and t increasing by one and equal outcomes become
     one CRuns (a single pair is left as the two events);
   - callers' outcomes: (first caller, count, outcome) for consecutive callers with equal outcomes.
   The encoding is injective; the runner applies the same function to what the implementation did. *)
Inductive fseg := SegTask (tid0 n : Z) (fresh : bool) | SegErr (n : Z).
Inductive cevent :=
| CEv (e : event)
| CFan (cid0 ctx n : Z) (segs : list fseg)
| CRuns (e0 tid0 n : Z) (o : outcome).

Definition push_fan (cid ctx : Z) (r : cres) (acc : list cevent) : list cevent :=
  let seg1 := match r with RTask t b => SegTask t 1 b | RTypeErr => SegErr 1 end in
  match acc with
  | CFan c0 x n segs :: acc' =>
    if Z.eqb cid (c0 + n) && Z.eqb ctx x then
      CFan c0 x (n + 1)
           (match r, segs with
            | RTask t b, SegTask t0 m b0 :: segs' =>
              if Z.eqb t (t0 + m) && Bool.eqb b b0 then SegTask t0 (m + 1) b0 :: segs' else seg1 :: segs
            | RTypeErr, SegErr m :: segs' => SegErr (m + 1) :: segs'
            | _, _ => seg1 :: segs
            end) :: acc'
    else CFan cid ctx 1 [seg1] :: acc
  | _ => CFan cid ctx 1 [seg1] :: acc
  end.

Definition push_run (e t : Z) (o : outcome) (acc : list cevent) : list cevent :=
  match acc with
  | CRuns e0 t0 n o0 :: acc' =>
    if Z.eqb e (e0 + n) && Z.eqb t (t0 + n) && outcome_eqb o o0 then CRuns e0 t0 (n + 1) o0 :: acc'
    else CRuns e t 1 o :: acc
  | _ => CRuns e t 1 o :: acc
  end.

(* l oldest first, acc newest first *)
Fixpoint compress (l : list event) (acc : list cevent) : list cevent :=
  match l with
  | [] => acc
  | EFanCall cid ctx r :: l' => compress l' (push_fan cid ctx r acc)
  | EStart e t :: ((EDone e' o :: l'') as l') =>
    if Z.eqb e e' then compress l'' (push_run e t o acc) else compress l' (CEv (EStart e t) :: acc)
  | ev :: l' => compress l' (CEv ev :: acc)
  end.

Definition finish_cevent (c : cevent) : list cevent :=
  match c with
  | CRuns e t 1 o => [CEv (EStart e t); CEv (EDone e o)]
  | CFan c0 x n segs => [CFan c0 x n (rev segs)]
  | _ => [c]
  end.

Definition compress_trace (l : list event) : list cevent := flat_map finish_cevent (rev (compress l [])).

Fixpoint compress_got (l : list (Z * outcome)) (acc : list (Z * Z * outcome)) : list (Z * Z * outcome) :=
  match l with
  | [] => rev acc
  | (c, o) :: l' =>
    compress_got l' (match acc with
                     | (c0, n, o0) :: acc' =>
                       if Z.eqb c (c0 + n) && outcome_eqb o o0 then (c0, n + 1, o0) :: acc' else (c, 1, o) :: acc
                     | [] => [(c, 1, o)]
                     end)
  end.

Definition result := (list cevent * list (Z * Z * outcome) * Z)%type.

Definition observe (d : dstate) : result :=
  (compress_trace (rev (trace d)),
   compress_got (flat_map (fun ct => match nth_error (pool (core d)) (snd ct) with
                                     | Some x => match tout x with Some o => [(fst ct, o)] | None => [] end
                                     | None => []
                                     end) (callers d)) [],
   Z.of_nat (length (reg (core d)))).

Definition run_variant (v : variant) (scripts : list script) (ops : list op) : result :=
  observe (loop v scripts (fuel_for scripts ops) ops d_init).

(* the four variants; the harness accepts the one the repository currently implements *)
Definition run_case (scripts : list script) (ops : list op) : list result :=
  [run_variant Repaired scripts ops; run_variant AsWritten scripts ops;
   run_variant CallbackRepaired scripts ops; run_variant KeyRepaired scripts ops].

(* what the harness evaluates: sel = 0: all four variants; otherwise only the code with both repairs
   and the code as written (used for the fan-out cases: thousands of keys make every variant cost
   seconds under vm_compute, and the two single-repair variants were only needed while the repairs
   were being applied to the repository one at a time) *)
Definition run_case_sel (sel : Z) (scripts : list script) (ops : list op) : list result :=
  if Z.eqb sel 0 then run_case scripts ops
  else [run_variant Repaired scripts ops; run_variant AsWritten scripts ops].
